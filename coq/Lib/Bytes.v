(* Bytes, fixed-width big-endian fields, `struct`-style records.

   Bytes are [N]; [bytes_ok] says every element is below 256.

   - [be_digits b k v]   the k low-order base-b digits of v, most significant first
                         (b = 256: big-endian packing of a k-byte unsigned field;
                          b = 2: the bits of a value; b = 62: base-62 digits)
   - [be_value b l]      the value of a digit list, most significant first
   - [groups w c l]      cut l into c consecutive pieces of w elements
   - [field]/[fval], [struct_pack]/[struct_unpack], [calcsize]
                         Python's struct module for formats built from
                         ">", "B", "H", "L", "Q" and "<n>s"
   Round-trip lemmas: be_value_digits, be_digits_value, struct_unpack_pack,
   struct_pack_unpack, groups_concat, concat_groups. *)
From Coq Require Import List NArith ZArith Bool Lia ZifyBool ZifyNat ZifyN.
From Verif Require Export Lib.ListFacts.
Import ListNotations.
Local Open Scope N_scope.
(* in force in every file that imports this one: `::=` is not confined by a module *)
Ltac Zify.zify_post_hook ::= Z.to_euclidean_division_equations.

Definition byte_ok (b : N) : bool := b <? 256.
Definition bytes_ok (l : list N) : bool := forallb byte_ok l.

Definition digits_below (b : N) (l : list N) : bool := forallb (fun d => d <? b) l.

Fixpoint be_digits (b : N) (k : nat) (v : N) : list N :=
  match k with
  | O => []
  | S k' => be_digits b k' (v / b) ++ [v mod b]
  end.

Definition be_value (b : N) (l : list N) : N :=
  fold_left (fun acc d => acc * b + d) l 0.

Lemma be_digits_length b k : forall v, length (be_digits b k v) = k.
Proof.
  induction k as [|k IH]; intro v; cbn [be_digits].
  - reflexivity.
  - rewrite app_length, IH. cbn. lia.
Qed.

Lemma be_value_snoc b l d : be_value b (l ++ [d]) = be_value b l * b + d.
Proof. unfold be_value. rewrite fold_left_app. reflexivity. Qed.

Lemma be_value_nil b : be_value b [] = 0.
Proof. reflexivity. Qed.

Lemma fold_left_be_acc b : forall l a,
  fold_left (fun acc d => acc * b + d) l a = a * b ^ N.of_nat (length l) + be_value b l.
Proof.
  induction l as [|d l IH] using rev_ind; intro a.
  - cbn. lia.
  - rewrite fold_left_app. cbn [fold_left]. rewrite IH, be_value_snoc, app_length.
    cbn [length]. replace (N.of_nat (length l + 1)) with (N.succ (N.of_nat (length l))) by lia.
    rewrite N.pow_succ_r'. lia.
Qed.

Lemma be_value_cons b d l : be_value b (d :: l) = d * b ^ N.of_nat (length l) + be_value b l.
Proof.
  unfold be_value at 1. cbn [fold_left]. rewrite fold_left_be_acc. lia.
Qed.

Lemma be_value_app b l1 l2 :
  be_value b (l1 ++ l2) = be_value b l1 * b ^ N.of_nat (length l2) + be_value b l2.
Proof.
  unfold be_value at 1. rewrite fold_left_app. rewrite fold_left_be_acc. reflexivity.
Qed.

Lemma pow_of_nat_S b k : b ^ N.of_nat (S k) = b * b ^ N.of_nat k.
Proof. rewrite Nat2N.inj_succ, N.pow_succ_r'. reflexivity. Qed.

Lemma be_value_digits b k : 0 < b -> forall v, be_value b (be_digits b k v) = v mod b ^ N.of_nat k.
Proof.
  intro Hb. induction k as [|k IH]; intro v.
  - cbn. rewrite N.mod_1_r. reflexivity.
  - cbn [be_digits]. rewrite be_value_snoc, IH, pow_of_nat_S.
    assert (Hp : b ^ N.of_nat k <> 0) by (apply N.pow_nonzero; lia).
    rewrite (N.mod_mul_r v b (b ^ N.of_nat k)) by lia. lia.
Qed.

Lemma be_digits_below b k : 0 < b -> forall v, digits_below b (be_digits b k v) = true.
Proof.
  intro Hb. induction k as [|k IH]; intro v; cbn [be_digits].
  - reflexivity.
  - unfold digits_below in *. rewrite forallb_app, IH. cbn [forallb].
    assert (v mod b < b) by (apply N.mod_lt; lia).
    apply N.ltb_lt in H. rewrite H. reflexivity.
Qed.

Lemma be_digits_value b : forall l,
  digits_below b l = true -> be_digits b (length l) (be_value b l) = l.
Proof.
  induction l as [|d l IH] using rev_ind; intro H.
  - reflexivity.
  - unfold digits_below in H. rewrite forallb_app in H. apply andb_true_iff in H.
    destruct H as [Hl Hd]. cbn [forallb] in Hd. rewrite andb_true_r in Hd.
    apply N.ltb_lt in Hd.
    rewrite app_length. cbn [length]. rewrite Nat.add_1_r. cbn [be_digits].
    rewrite be_value_snoc.
    assert (Hq : (be_value b l * b + d) / b = be_value b l).
    { symmetry. apply N.div_unique with d; lia. }
    assert (Hm : (be_value b l * b + d) mod b = d).
    { symmetry. apply N.mod_unique with (be_value b l); lia. }
    rewrite Hq, Hm, IH by exact Hl. reflexivity.
Qed.

Lemma be_value_bound b : forall l,
  digits_below b l = true -> be_value b l < b ^ N.of_nat (length l).
Proof.
  induction l as [|d l IH] using rev_ind; intro H.
  - cbn. lia.
  - unfold digits_below in H. rewrite forallb_app in H. apply andb_true_iff in H.
    destruct H as [Hl Hd]. cbn [forallb] in Hd. rewrite andb_true_r in Hd.
    apply N.ltb_lt in Hd. specialize (IH Hl).
    rewrite be_value_snoc, app_length. cbn [length]. rewrite Nat.add_1_r, pow_of_nat_S.
    nia.
Qed.

Lemma be_digits_small b k v : 0 < b -> v < b ^ N.of_nat k -> be_value b (be_digits b k v) = v.
Proof. intros Hb Hv. rewrite be_value_digits by assumption. apply N.mod_small. assumption. Qed.

Lemma be_digits_inj b k v w :
  0 < b -> v < b ^ N.of_nat k -> w < b ^ N.of_nat k -> be_digits b k v = be_digits b k w -> v = w.
Proof.
  intros Hb Hv Hw H. rewrite <- (be_digits_small b k v), <- (be_digits_small b k w) by assumption.
  rewrite H. reflexivity.
Qed.

Lemma bytes_ok_digits l : bytes_ok l = digits_below 256 l.
Proof. reflexivity. Qed.

Lemma bytes_ok_app a b : bytes_ok (a ++ b) = bytes_ok a && bytes_ok b.
Proof. apply forallb_app. Qed.

Lemma be_digits_bytes_ok k v : bytes_ok (be_digits 256 k v) = true.
Proof. rewrite bytes_ok_digits. apply be_digits_below. lia. Qed.

Lemma bytes_ok_firstn n l : bytes_ok l = true -> bytes_ok (firstn n l) = true.
Proof. apply forallb_firstn. Qed.

Lemma bytes_ok_skipn n l : bytes_ok l = true -> bytes_ok (skipn n l) = true.
Proof. apply forallb_skipn. Qed.

Lemma bytes_ok_repeat0 n : bytes_ok (repeat 0 n) = true.
Proof. induction n; cbn; [reflexivity|assumption]. Qed.

Fixpoint groups {A} (w c : nat) (l : list A) : list (list A) :=
  match c with
  | O => []
  | S c' => firstn w l :: groups w c' (skipn w l)
  end.

Lemma groups_length {A} w c (l : list A) : length (groups w c l) = c.
Proof. revert l; induction c as [|c IH]; intro l; cbn; [reflexivity|rewrite IH; reflexivity]. Qed.

(* Cutting a concatenation of w-wide pieces (followed by anything) gives the pieces back. *)
Lemma groups_concat {A} w : forall (ll : list (list A)) rest,
  Forall (fun g => length g = w) ll ->
  groups w (length ll) (concat ll ++ rest) = ll.
Proof.
  induction ll as [|g ll IH]; intros rest H.
  - reflexivity.
  - inversion H as [|? ? Hg Hll]; subst. cbn [length concat groups].
    rewrite <- app_assoc.
    rewrite firstn_app_exact, skipn_app_exact by reflexivity.
    rewrite IH by assumption. reflexivity.
Qed.

Lemma concat_groups {A} w : forall c (l : list A),
  (c * w <= length l)%nat -> concat (groups w c l) = firstn (c * w) l.
Proof.
  induction c as [|c IH]; intros l H.
  - reflexivity.
  - cbn [groups concat]. rewrite IH.
    + cbn [Nat.mul].
      rewrite <- (firstn_skipn w l) at 3.
      rewrite firstn_app, firstn_length, Nat.min_l by lia.
      replace (w + c * w - w)%nat with (c * w)%nat by lia.
      rewrite (firstn_all2 (n := (w + c * w)%nat) (firstn w l)); [reflexivity|].
      rewrite firstn_length. lia.
    + rewrite skipn_length. cbn [Nat.mul] in H. lia.
Qed.

Lemma groups_all_length {A} w : forall c (l : list A),
  (c * w <= length l)%nat -> Forall (fun g => length g = w) (groups w c l).
Proof.
  induction c as [|c IH]; intros l H; cbn [groups].
  - constructor.
  - cbn [Nat.mul] in H. constructor.
    + rewrite firstn_length. lia.
    + apply IH. rewrite skipn_length. lia.
Qed.

Inductive field := FUInt (w : nat) | FBytes (n : nat).
Inductive fval := VInt (v : N) | VBytes (s : list N).

Definition field_size (f : field) : nat := match f with FUInt w => w | FBytes n => n end.

Fixpoint struct_size (fmt : list field) : nat :=
  match fmt with [] => 0%nat | f :: r => (field_size f + struct_size r)%nat end.

Definition calcsize (fmt : list field) : N := N.of_nat (struct_size fmt).

(* "<n>s": shorter values are padded with NUL, longer ones truncated (struct.pack does both silently). *)
Definition pad_to (n : nat) (s : list N) : list N := firstn n s ++ repeat 0 (n - length s).

(* struct.error (None) when an integer does not fit its field or the kinds do not match. *)
Definition pack_field (f : field) (v : fval) : option (list N) :=
  match f, v with
  | FUInt w, VInt x => if x <? 256 ^ N.of_nat w then Some (be_digits 256 w x) else None
  | FBytes n, VBytes s => Some (pad_to n s)
  | _, _ => None
  end.

Fixpoint struct_pack (fmt : list field) (vals : list fval) : option (list N) :=
  match fmt, vals with
  | [], [] => Some []
  | f :: fmt', v :: vals' =>
    match pack_field f v, struct_pack fmt' vals' with
    | Some a, Some b => Some (a ++ b)
    | _, _ => None
    end
  | _, _ => None
  end.

Definition unpack_field (f : field) (s : list N) : fval :=
  match f with
  | FUInt _ => VInt (be_value 256 s)
  | FBytes _ => VBytes s
  end.

Fixpoint struct_unpack_aux (fmt : list field) (s : list N) : list fval :=
  match fmt with
  | [] => []
  | f :: fmt' => unpack_field f (firstn (field_size f) s) :: struct_unpack_aux fmt' (skipn (field_size f) s)
  end.

(* struct.unpack requires exactly calcsize bytes (struct.error otherwise). *)
Definition struct_unpack (fmt : list field) (s : list N) : option (list fval) :=
  if Nat.eqb (length s) (struct_size fmt) then Some (struct_unpack_aux fmt s) else None.

(* The values a format can represent exactly. *)
Definition fval_fits (f : field) (v : fval) : bool :=
  match f, v with
  | FUInt w, VInt x => x <? 256 ^ N.of_nat w
  | FBytes n, VBytes s => Nat.eqb (length s) n
  | _, _ => false
  end.

Fixpoint vals_fit (fmt : list field) (vals : list fval) : bool :=
  match fmt, vals with
  | [], [] => true
  | f :: fmt', v :: vals' => fval_fits f v && vals_fit fmt' vals'
  | _, _ => false
  end.

Lemma pad_to_length n s : length (pad_to n s) = n.
Proof.
  unfold pad_to. rewrite app_length, firstn_length, repeat_length. lia.
Qed.

Lemma pad_to_exact n s : length s = n -> pad_to n s = s.
Proof.
  intros <-. unfold pad_to. rewrite firstn_all, Nat.sub_diag. cbn. apply app_nil_r.
Qed.

Lemma pack_field_length f v s : pack_field f v = Some s -> length s = field_size f.
Proof.
  destruct f as [w|n], v as [x|t]; cbn; try discriminate.
  - destruct (x <? 256 ^ N.of_nat w); [|discriminate]. intro H; injection H as <-. apply be_digits_length.
  - intro H; injection H as <-. apply pad_to_length.
Qed.

Lemma struct_pack_length : forall fmt vals s,
  struct_pack fmt vals = Some s -> length s = struct_size fmt.
Proof.
  induction fmt as [|f fmt IH]; intros [|v vals] s H; cbn in H; try discriminate.
  - injection H as <-. reflexivity.
  - destruct (pack_field f v) as [a|] eqn:Ea; [|discriminate].
    destruct (struct_pack fmt vals) as [b|] eqn:Eb; [|discriminate].
    injection H as <-. rewrite app_length. cbn [struct_size].
    rewrite (pack_field_length _ _ _ Ea), (IH _ _ Eb). reflexivity.
Qed.

Lemma unpack_pack_field f v : fval_fits f v = true ->
  exists s, pack_field f v = Some s /\ unpack_field f s = v.
Proof.
  destruct f as [w|n], v as [x|t]; cbn; try discriminate; intro H.
  - rewrite H. eexists; split; [reflexivity|]. f_equal.
    apply be_digits_small; [lia|]. apply N.ltb_lt. assumption.
  - apply Nat.eqb_eq in H. eexists; split; [reflexivity|]. rewrite pad_to_exact by assumption. reflexivity.
Qed.

Lemma struct_unpack_aux_pack : forall fmt vals,
  vals_fit fmt vals = true ->
  exists s, struct_pack fmt vals = Some s /\ struct_unpack_aux fmt s = vals.
Proof.
  induction fmt as [|f fmt IH]; intros [|v vals] H; cbn in H; try discriminate.
  - exists []. split; reflexivity.
  - apply andb_true_iff in H. destruct H as [Hv Hr].
    destruct (unpack_pack_field f v Hv) as (a & Ea & Ua).
    destruct (IH vals Hr) as (b & Eb & Ub).
    exists (a ++ b). cbn [struct_pack]. rewrite Ea, Eb. split; [reflexivity|].
    cbn [struct_unpack_aux].
    pose proof (pack_field_length _ _ _ Ea) as La.
    rewrite firstn_app_exact, skipn_app_exact by assumption.
    rewrite Ua, Ub. reflexivity.
Qed.

(* decode (encode x) = Some x, for every tuple of values that fits the format. *)
Theorem struct_unpack_pack fmt vals :
  vals_fit fmt vals = true ->
  exists s, struct_pack fmt vals = Some s /\ struct_unpack fmt s = Some vals.
Proof.
  intro H. destruct (struct_unpack_aux_pack fmt vals H) as (s & Es & Us).
  exists s. split; [assumption|]. unfold struct_unpack.
  rewrite (struct_pack_length _ _ _ Es), Nat.eqb_refl, Us. reflexivity.
Qed.

Lemma pack_unpack_field f s :
  bytes_ok s = true -> length s = field_size f -> pack_field f (unpack_field f s) = Some s.
Proof.
  intros Hok Hl. destruct f as [w|n]; cbn in *.
  - subst w. pose proof (be_value_bound 256 s Hok) as Hb.
    apply N.ltb_lt in Hb. rewrite Hb. rewrite be_digits_value by exact Hok. reflexivity.
  - rewrite pad_to_exact by assumption. reflexivity.
Qed.

Lemma struct_pack_unpack_aux : forall fmt s,
  bytes_ok s = true -> length s = struct_size fmt ->
  struct_pack fmt (struct_unpack_aux fmt s) = Some s.
Proof.
  induction fmt as [|f fmt IH]; intros s Hok Hl; cbn [struct_size] in Hl.
  - destruct s; [reflexivity|discriminate].
  - cbn [struct_unpack_aux struct_pack].
    rewrite pack_unpack_field.
    + rewrite IH.
      * rewrite firstn_skipn. reflexivity.
      * apply bytes_ok_skipn; assumption.
      * rewrite skipn_length. lia.
    + apply bytes_ok_firstn; assumption.
    + rewrite firstn_length. lia.
Qed.

(* Strict converse: whatever unpacks, packs back to the very same bytes. *)
Theorem struct_pack_unpack fmt s vals :
  bytes_ok s = true -> struct_unpack fmt s = Some vals -> struct_pack fmt vals = Some s.
Proof.
  intros Hok H. unfold struct_unpack in H.
  destruct (Nat.eqb (length s) (struct_size fmt)) eqn:E; [|discriminate].
  injection H as <-. apply Nat.eqb_eq in E. apply struct_pack_unpack_aux; assumption.
Qed.

Lemma struct_unpack_fits fmt s vals :
  bytes_ok s = true -> struct_unpack fmt s = Some vals -> vals_fit fmt vals = true.
Proof.
  intros Hok H. unfold struct_unpack in H.
  destruct (Nat.eqb (length s) (struct_size fmt)) eqn:E; [|discriminate].
  injection H as <-. apply Nat.eqb_eq in E. revert s Hok E.
  induction fmt as [|f fmt IH]; intros s Hok E; cbn [struct_size] in E.
  - reflexivity.
  - cbn [struct_unpack_aux vals_fit]. apply andb_true_iff. split.
    + assert (Hlen : length (firstn (field_size f) s) = field_size f) by (rewrite firstn_length; lia).
      destruct f as [w|n]; cbn [unpack_field fval_fits field_size] in *.
      * apply N.ltb_lt. rewrite <- Hlen at 2. apply be_value_bound. apply bytes_ok_firstn. assumption.
      * apply Nat.eqb_eq. assumption.
    + apply IH; [apply bytes_ok_skipn; assumption|]. rewrite skipn_length. lia.
Qed.

Lemma struct_pack_bytes_ok : forall fmt vals s,
  (forall f v t, In (f, v) (combine fmt vals) -> v = VBytes t -> bytes_ok t = true) ->
  struct_pack fmt vals = Some s -> bytes_ok s = true.
Proof.
  induction fmt as [|f fmt IH]; intros [|v vals] s Hb H; cbn in H; try discriminate.
  - injection H as <-. reflexivity.
  - destruct (pack_field f v) as [a|] eqn:Ea; [|discriminate].
    destruct (struct_pack fmt vals) as [b|] eqn:Eb; [|discriminate].
    injection H as <-. rewrite bytes_ok_app. apply andb_true_iff. split.
    + destruct f as [w|n], v as [x|t]; cbn in Ea; try discriminate.
      * destruct (x <? 256 ^ N.of_nat w); [|discriminate]. injection Ea as <-. apply be_digits_bytes_ok.
      * injection Ea as <-. unfold pad_to. rewrite bytes_ok_app. apply andb_true_iff. split.
        -- apply bytes_ok_firstn. apply (Hb (FBytes n) (VBytes t) t); [left; reflexivity|reflexivity].
        -- apply bytes_ok_repeat0.
    + apply (IH vals b); [|assumption]. intros f' v' t Hin Hv. apply (Hb f' v' t); [right; assumption|assumption].
Qed.
