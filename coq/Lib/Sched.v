(* Generic labelled transition systems run over event lists, for Proofs/Fetcher*.v and
   Proofs/Finder.v (C03, C46).

   A machine is a total step function  step : S -> E -> S * list O  (new state and
   the outputs emitted by that step).  `run` folds it over an event list and
   concatenates the outputs.  Invariants are lifted to every state reached through
   events accepted by a guard. *)
From Coq Require Import List Arith Lia.
Import ListNotations.

Section LTS.
  Variables S E O : Type.
  Variable step : S -> E -> S * list O.

  Fixpoint run (s : S) (evs : list E) : S * list O :=
    match evs with
    | [] => (s, [])
    | e :: r => let (s1, o1) := step s e in
                let (s2, o2) := run s1 r in (s2, o1 ++ o2)
    end.

  Lemma run_app : forall a b s,
    run s (a ++ b) = let (s1, o1) := run s a in let (s2, o2) := run s1 b in (s2, o1 ++ o2).
  Proof.
    induction a as [|e a IH]; intros b s; cbn [run app].
    - destruct (run s b); reflexivity.
    - destruct (step s e) as [s1 o1]. rewrite IH.
      destruct (run s1 a) as [s2 o2]. destruct (run s2 b) as [s3 o3].
      now rewrite app_assoc.
  Qed.

  Lemma run_snoc : forall a e s,
    run s (a ++ [e]) = let (s1, o1) := run s a in let (s2, o2) := step s1 e in (s2, o1 ++ o2).
  Proof.
    intros. rewrite run_app. destruct (run s a) as [s1 o1]. cbn [run].
    destruct (step s1 e) as [s2 o2]. now rewrite app_nil_r.
  Qed.

  (* the guard may look at the current state: ok s e = "event e may happen in s" *)
  Variable ok : S -> E -> Prop.

  Inductive accepted : S -> list E -> Prop :=
  | acc_nil : forall s, accepted s []
  | acc_cons : forall s e r, ok s e -> accepted (fst (step s e)) r -> accepted s (e :: r).

  Lemma accepted_app : forall a b s,
    accepted s (a ++ b) <-> accepted s a /\ accepted (fst (run s a)) b.
  Proof.
    induction a as [|e a IH]; intros b s; cbn [app run fst].
    - split; [intros H; split; [constructor|exact H]|intros [_ H]; exact H].
    - split.
      + intros H. inversion H as [|? ? ? Hok Hacc]; subst. apply IH in Hacc. destruct Hacc as [Ha Hb].
        split; [constructor; assumption|].
        destruct (step s e) as [s1 o1]. cbn [fst] in *. destruct (run s1 a); exact Hb.
      + intros [Ha Hb]. inversion Ha as [|? ? ? Hok Hacc]; subst. constructor; [assumption|].
        apply IH. split; [assumption|].
        destruct (step s e) as [s1 o1]. cbn [fst] in *. destruct (run s1 a); exact Hb.
  Qed.

  Lemma accepted_all : (forall s e, ok s e) -> forall evs s, accepted s evs.
  Proof. intros H. induction evs; constructor; auto. Qed.

  Lemma invariant_run (Inv : S -> Prop) :
    (forall s e, Inv s -> ok s e -> Inv (fst (step s e))) ->
    forall evs s, Inv s -> accepted s evs -> Inv (fst (run s evs)).
  Proof.
    intros Hstep. induction evs as [|e r IH]; intros s Hi Ha; cbn [run].
    - exact Hi.
    - inversion Ha as [|? ? ? Hok Hacc]; subst. specialize (Hstep s e Hi Hok).
      destruct (step s e) as [s1 o1]. cbn [fst] in *.
      specialize (IH s1 Hstep Hacc). destruct (run s1 r). exact IH.
  Qed.

  Lemma outputs_run (Inv : S -> Prop) (P : O -> Prop) :
    (forall s e, Inv s -> ok s e -> Inv (fst (step s e))) ->
    (forall s e, Inv s -> ok s e -> Forall P (snd (step s e))) ->
    forall evs s, Inv s -> accepted s evs -> Forall P (snd (run s evs)).
  Proof.
    intros Hstep Hout. induction evs as [|e r IH]; intros s Hi Ha; cbn [run].
    - constructor.
    - inversion Ha as [|? ? ? Hok Hacc]; subst. pose proof (Hstep s e Hi Hok) as Hi1. pose proof (Hout s e Hi Hok) as Ho.
      destruct (step s e) as [s1 o1]. cbn [fst snd] in *.
      specialize (IH s1 Hi1 Hacc). destruct (run s1 r). cbn [snd] in *.
      apply Forall_app. split; assumption.
  Qed.

  (* a run contains at most  mu s  of the steps counted by `strict`, when mu never grows on an
     accepted step and drops on those *)
  Variable mu : S -> nat.
  Variable strict : S -> E -> bool.

  Fixpoint strict_steps (s : S) (evs : list E) : nat :=
    match evs with
    | [] => 0
    | e :: r => (if strict s e then 1 else 0) + strict_steps (fst (step s e)) r
    end.

  Lemma run_measure (Inv : S -> Prop) :
    (forall s e, Inv s -> ok s e -> Inv (fst (step s e))) ->
    (forall s e, Inv s -> ok s e -> mu (fst (step s e)) <= mu s) ->
    (forall s e, Inv s -> ok s e -> strict s e = true -> mu (fst (step s e)) < mu s) ->
    forall evs s, Inv s -> accepted s evs ->
      strict_steps s evs + mu (fst (run s evs)) <= mu s.
  Proof.
    intros Hinv Hle Hlt. induction evs as [|e r IH]; intros s Hi Ha; cbn [run strict_steps fst].
    - lia.
    - inversion Ha as [|? ? ? Hok Hacc]; subst.
      pose proof (Hinv s e Hi Hok) as Hi1. pose proof (Hle s e Hi Hok) as L. pose proof (Hlt s e Hi Hok) as T.
      specialize (IH (fst (step s e)) Hi1 Hacc).
      destruct (step s e) as [s1 o1]. cbn [fst] in *. destruct (run s1 r) as [s2 o2]. cbn [fst] in *.
      destruct (strict s e); [specialize (T eq_refl)|]; lia.
  Qed.
End LTS.

Arguments run {S E O} step s evs.
Arguments accepted {S E O} step ok s evs.
Arguments strict_steps {S E O} step strict s evs.
