(* A byte-array file system at system-call granularity.

   A file is its content (list of bytes, `list N`); a file system maps keys
   (paths) to files.  Directories are implicit: a path exists iff a file is
   stored under it.  Low-level operations are the system calls the storage code
   issues: creat/open(O_TRUNC), pwrite, ftruncate, rename, unlink.  Each is
   atomic with respect to a crash.  A storage operation is a *list* of such
   calls; the states a crash can leave behind are the results of running the
   prefixes of that list (`crash_prefixes`).

   Semantics are POSIX: a write past the end of the file zero-fills the hole, a
   zero-length write changes nothing, ftruncate shortens or zero-extends,
   rename replaces the destination, calls on a missing file change nothing
   (the real call raises; the storage code never issues one, see Model/Crash.v). *)
From Coq Require Import List Arith NArith Bool Lia.
From Verif Require Import Lib.ListFacts.
Import ListNotations.
Local Open Scope N_scope.

Definition file := list N.

Definition flen (f : list N) : N := N.of_nat (length f).

Definition zeros (n : N) : list N := repeat 0 (N.to_nat n).

(* bytes [off, off+len) of f, clipped to the end of f (what seek+read returns) *)
Definition sub (off len : N) (f : list N) : list N :=
  firstn (N.to_nat len) (skipn (N.to_nat off) f).

Definition write_at (f : file) (off : N) (bs : list N) : file :=
  match bs with
  | [] => f
  | _ => firstn (N.to_nat off) f ++ zeros (off - flen f) ++ bs
         ++ skipn (N.to_nat off + length bs) f
  end.

Definition truncate (f : file) (n : N) : file :=
  firstn (N.to_nat n) f ++ zeros (n - flen f).

(* operations on one open file *)
Inductive fop :=
| FWrite (off : N) (bs : list N)
| FTrunc (n : N).

Definition apply_fop (o : fop) (f : file) : file :=
  match o with
  | FWrite off bs => write_at f off bs
  | FTrunc n => truncate f n
  end.

Definition run_fops (ops : list fop) (f : file) : file :=
  fold_left (fun f o => apply_fop o f) ops f.

Section FS.
  Variable K : Type.
  Variable keqb : K -> K -> bool.

  Definition fs := K -> option file.

  Definition empty_fs : fs := fun _ => None.

  Inductive op :=
  | Create (p : K)                          (* open(p, "wb"): create or truncate to empty *)
  | WriteAt (p : K) (off : N) (bs : list N)  (* seek(off); write(bs) on an open file *)
  | Truncate (p : K) (n : N)
  | Rename (src dst : K)
  | Unlink (p : K).

  Definition upd (s : fs) (p : K) (v : option file) : fs :=
    fun q => if keqb q p then v else s q.

  Definition apply_op (o : op) (s : fs) : fs :=
    match o with
    | Create p => upd s p (Some [])
    | WriteAt p off bs =>
        match s p with
        | Some f => let v := Some (write_at f off bs) in upd s p v
        | None => s
        end
    | Truncate p n =>
        match s p with
        | Some f => let v := Some (truncate f n) in upd s p v
        | None => s
        end
    | Rename a b =>
        match s a with
        | Some f => upd (upd s a None) b (Some f)
        | None => s
        end
    | Unlink p => upd s p None
    end.

  Definition run (ops : list op) (s : fs) : fs :=
    fold_left (fun s o => apply_op o s) ops s.

  (* every state a crash during `ops` can leave: the first k calls completed *)
  Definition crash_prefixes (ops : list op) : list (list op) :=
    map (fun k => firstn k ops) (seq 0 (S (length ops))).

  Definition targets (o : op) : list K :=
    match o with
    | Create p | WriteAt p _ _ | Truncate p _ | Unlink p => [p]
    | Rename a b => [a; b]
    end.

  Definition lift (p : K) (o : fop) : op :=
    match o with
    | FWrite off bs => WriteAt p off bs
    | FTrunc n => Truncate p n
    end.

  (* every path the calls name satisfies P *)
  Definition within (P : K -> Prop) (ops : list op) : Prop :=
    Forall (fun o => Forall P (targets o)) ops.

  Lemma lift_targets p o : targets (lift p o) = [p].
  Proof. destruct o; reflexivity. Qed.

  Lemma within_lift (P : K -> Prop) p fops : P p -> within P (map (lift p) fops).
  Proof.
    intro H. apply Forall_map, Forall_forall. intros o _. rewrite lift_targets. auto.
  Qed.

  Lemma run_app a b s : run (a ++ b) s = run b (run a s).
  Proof. apply fold_left_app. Qed.

  Lemma run_cons o ops s : run (o :: ops) s = run ops (apply_op o s).
  Proof. reflexivity. Qed.

  Lemma crash_prefixes_spec ops pre :
    In pre (crash_prefixes ops) <-> exists k, (k <= length ops)%nat /\ pre = firstn k ops.
  Proof.
    unfold crash_prefixes. rewrite in_map_iff. split.
    - intros [k [E Hk]]. apply in_seq in Hk. exists k. split; [lia|congruence].
    - intros [k [Hk E]]. exists k. split; [congruence|]. apply in_seq. lia.
  Qed.

  Lemma crash_prefix_nil ops : In [] (crash_prefixes ops).
  Proof. apply crash_prefixes_spec. exists 0%nat. split; [lia|reflexivity]. Qed.

  Lemma crash_prefix_all ops : In ops (crash_prefixes ops).
  Proof.
    apply crash_prefixes_spec. exists (length ops). split; [lia|]. symmetry. apply firstn_all.
  Qed.

  Lemma run_lift_missing p fops : forall s q,
    s p = None -> run (map (lift p) fops) s q = s q.
  Proof.
    induction fops as [|o fops IH]; intros s q Hs; [reflexivity|].
    simpl map. rewrite run_cons.
    assert (E : apply_op (lift p o) s = s) by (destruct o; simpl; rewrite Hs; reflexivity).
    rewrite E. apply IH. exact Hs.
  Qed.

  Hypothesis keqb_eq : forall a b, keqb a b = true <-> a = b.

  Lemma upd_same s p v : upd s p v p = v.
  Proof. unfold upd. rewrite (proj2 (keqb_eq p p) eq_refl). reflexivity. Qed.

  Lemma upd_other s p v q : q <> p -> upd s p v q = s q.
  Proof.
    intro H. unfold upd. destruct (keqb q p) eqn:E; [|reflexivity].
    apply keqb_eq in E. contradiction.
  Qed.

  Lemma apply_op_outside (P : K -> Prop) o s q :
    Forall P (targets o) -> ~ P q -> apply_op o s q = s q.
  Proof.
    intros H Hq.
    assert (N : forall p, In p (targets o) -> q <> p).
    { intros p Hp ->. rewrite Forall_forall in H. exact (Hq (H _ Hp)). }
    destruct o as [p|p off bs|p n|a b|p]; simpl in *.
    - apply upd_other; auto.
    - destruct (s p); [apply upd_other|]; auto.
    - destruct (s p); [apply upd_other|]; auto.
    - destruct (s a); [rewrite !upd_other|]; auto.
    - apply upd_other; auto.
  Qed.

  Lemma run_outside (P : K -> Prop) ops s q : within P ops -> ~ P q -> run ops s q = s q.
  Proof.
    intros H Hq. revert s. induction H as [|o ops Ho _ IH]; intro s; [reflexivity|].
    rewrite run_cons, IH. apply (apply_op_outside P); assumption.
  Qed.

  Lemma crash_outside (P : K -> Prop) ops pre s q :
    In pre (crash_prefixes ops) -> within P ops -> ~ P q -> run pre s q = s q.
  Proof.
    intros Hp H. apply crash_prefixes_spec in Hp. destruct Hp as [k [_ ->]].
    apply run_outside, Forall_firstn, H.
  Qed.

  Lemma run_lift_same p fops : forall s f,
    s p = Some f -> run (map (lift p) fops) s p = Some (run_fops fops f).
  Proof.
    induction fops as [|o fops IH]; intros s f Hs; [exact Hs|].
    simpl map. rewrite run_cons. unfold run_fops. simpl fold_left.
    apply IH. destruct o as [off bs|n]; simpl; rewrite Hs; cbv zeta; apply upd_same.
  Qed.

  Lemma run_lift_other p fops s q : q <> p -> run (map (lift p) fops) s q = s q.
  Proof. intro H. apply (run_outside (eq p)); [apply within_lift; reflexivity|congruence]. Qed.
End FS.

Arguments Create {K}.
Arguments WriteAt {K}.
Arguments Truncate {K}.
Arguments Rename {K}.
Arguments Unlink {K}.
Arguments empty_fs {K}.
Arguments upd {K}.
Arguments apply_op {K}.
Arguments run {K}.
Arguments crash_prefixes {K}.
Arguments targets {K}.
Arguments within {K}.
Arguments lift {K}.
