(* Facts about Lib/Netstring.v: netstring is injective and prefix-free, so a concatenation of a
   known number of netstrings, with anything after it, decomposes in one way only. *)
From Coq Require Import List NArith Bool Lia.
From Verif Require Import Lib.Decimal Lib.DecimalFacts Lib.Netstring.
Import ListNotations.
Local Open Scope N_scope.

Lemma app_eq_length {A} : forall (a b x y : list A),
  length a = length b -> a ++ x = b ++ y -> a = b /\ x = y.
Proof.
  induction a as [|h a IH]; intros [|k b] x y Hl H; cbn in *; try discriminate.
  - split; [reflexivity|assumption].
  - injection H as -> H. injection Hl as Hl. destruct (IH b x y Hl H) as [-> ->]. split; reflexivity.
Qed.

(* Splitting at the first occurrence of a separator is unique. *)
Lemma split_at_sep_unique {A} (s : A) : forall (l1 l2 r1 r2 : list A),
  ~ In s l1 -> ~ In s l2 -> l1 ++ s :: r1 = l2 ++ s :: r2 -> l1 = l2 /\ r1 = r2.
Proof.
  induction l1 as [|h l1 IH]; intros [|k l2] r1 r2 H1 H2 H; cbn in *.
  - injection H as ->. split; reflexivity.
  - injection H as -> _. exfalso. apply H2. left; reflexivity.
  - injection H as -> _. exfalso. apply H1. left; reflexivity.
  - injection H as -> H.
    destruct (IH l2 r1 r2) as [-> ->]; [tauto|tauto|assumption|]. split; reflexivity.
Qed.

Lemma blen_inj (a b : list N) : blen a = blen b -> length a = length b.
Proof. unfold blen. intro H. apply Nat2N.inj in H. assumption. Qed.

Lemma blen_app (a b : list N) : blen (a ++ b) = blen a + blen b.
Proof. unfold blen. rewrite app_length. lia. Qed.

Lemma netstring_unfold s : netstring s = dec (blen s) ++ 58 :: s ++ [44].
Proof. reflexivity. Qed.

Lemma netstring_nonempty s : netstring s <> [].
Proof.
  rewrite netstring_unfold. intro H. apply app_eq_nil in H. destruct H; discriminate.
Qed.

Lemma netstring_length s :
  length (netstring s) = (length (dec (blen s)) + length s + 2)%nat.
Proof. rewrite netstring_unfold, app_length. cbn [length]. rewrite app_length. cbn [length]. lia. Qed.

Lemma colon_not_in_dec n : ~ In 58 (dec n).
Proof. apply dec_no_byte. reflexivity. Qed.

(* Prefix-freeness: a netstring followed by anything decomposes uniquely. *)
Theorem netstring_prefix_free a b x y :
  netstring a ++ x = netstring b ++ y -> a = b /\ x = y.
Proof.
  rewrite !netstring_unfold. rewrite <- !app_assoc. cbn [app]. intro H.
  apply split_at_sep_unique in H; try apply colon_not_in_dec.
  destruct H as [Hd H].
  apply dec_inj in Hd. apply blen_inj in Hd.
  rewrite <- !app_assoc in H. cbn [app] in H.
  apply app_eq_length in H; [|assumption].
  destruct H as [-> H]. injection H as ->. split; reflexivity.
Qed.

Theorem netstring_inj a b : netstring a = netstring b -> a = b.
Proof.
  intro H. apply (netstring_prefix_free a b [] []). rewrite !app_nil_r. assumption.
Qed.

(* Unique decomposition of a concatenation of netstrings (followed by anything). *)
Theorem netstrings_unique : forall l1 l2 x y,
  concat (map netstring l1) ++ x = concat (map netstring l2) ++ y ->
  length l1 = length l2 -> l1 = l2 /\ x = y.
Proof.
  induction l1 as [|a l1 IH]; intros [|b l2] x y H Hl; cbn [length] in Hl; try discriminate.
  - cbn in H. split; [reflexivity|assumption].
  - cbn [map concat] in H. rewrite <- !app_assoc in H.
    apply netstring_prefix_free in H. destruct H as [-> H].
    injection Hl as Hl. destruct (IH l2 x y H Hl) as [-> ->]. split; reflexivity.
Qed.

Corollary netstrings_inj l1 l2 :
  concat (map netstring l1) = concat (map netstring l2) -> length l1 = length l2 -> l1 = l2.
Proof.
  intros H Hl. apply (netstrings_unique l1 l2 [] []); [|assumption].
  rewrite !app_nil_r. assumption.
Qed.

Corollary netstring_pair_inj a b c d :
  netstring a ++ netstring b = netstring c ++ netstring d -> a = c /\ b = d.
Proof.
  intro H. apply netstring_prefix_free in H. destruct H as [-> H].
  apply netstring_inj in H. subst. split; reflexivity.
Qed.

(* A tag netstring followed by data determines both (the shape of tagged hashes). *)
Corollary netstring_tag_data_inj tag1 tag2 d1 d2 :
  netstring tag1 ++ d1 = netstring tag2 ++ d2 -> tag1 = tag2 /\ d1 = d2.
Proof. apply netstring_prefix_free. Qed.
