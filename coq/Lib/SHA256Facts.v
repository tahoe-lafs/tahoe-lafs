(* Output lengths of the executable hash programs of Lib/SHA256.v. *)
From Coq Require Import List NArith Lia.
From Verif Require Import Lib.SHA256.
Import ListNotations.

Lemma be_bytes_length n x : length (be_bytes n x) = n.
Proof. revert x. induction n as [|n IH]; intro x; cbn; [reflexivity|]. rewrite app_length, IH. cbn. lia. Qed.

Lemma sha256_length m : length (sha256 m) = 32.
Proof.
  unfold sha256.
  destruct (fold_left compress256 _ _) as [[[[[[[a b] c] d] e] f] g] h].
  rewrite !app_length, !be_bytes_length. reflexivity.
Qed.
