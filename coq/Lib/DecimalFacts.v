(* Facts about Lib/Decimal.v (ASCII decimal numerals): dec prints digits only and at least one,
   undec reads back what dec prints, dec is injective, and canonical_dec accepts exactly the
   numerals that dec prints. *)
From Coq Require Import List NArith ZArith Bool Lia ZifyBool ZifyNat ZifyN.
From Verif Require Import Lib.Decimal.
Import ListNotations.
Local Open Scope N_scope.
(* in force in every file that imports this one: `::=` is not confined by a module *)
Ltac Zify.zify_post_hook ::= Z.to_euclidean_division_equations.

Lemma dec_aux_acc : forall f n acc, dec_aux f n acc = dec_aux f n [] ++ acc.
Proof.
  induction f as [|f IH]; intros n acc; cbn [dec_aux].
  - reflexivity.
  - destruct (n <? 10).
    + reflexivity.
    + rewrite IH. rewrite (IH (n / 10) [48 + n mod 10]). rewrite <- app_assoc. reflexivity.
Qed.

Lemma pow10_S (f : nat) : 10 ^ N.of_nat (S f) = 10 * 10 ^ N.of_nat f.
Proof. rewrite Nat2N.inj_succ. rewrite N.pow_succ_r'. reflexivity. Qed.

(* Any two fuels that both exceed the number of decimal digits give the same result. *)
Lemma dec_aux_fuel : forall f1 f2 n acc,
  n < 10 ^ N.of_nat (S f1) -> n < 10 ^ N.of_nat (S f2) ->
  dec_aux (S f1) n acc = dec_aux (S f2) n acc.
Proof.
  induction f1 as [|f1 IH]; intros f2 n acc H1 H2.
  - change (10 ^ N.of_nat 1) with 10 in H1.
    cbn [dec_aux]. apply N.ltb_lt in H1. rewrite H1. reflexivity.
  - cbn [dec_aux]. destruct (n <? 10) eqn:E; [reflexivity|].
    apply N.ltb_ge in E.
    destruct f2 as [|f2].
    + change (10 ^ N.of_nat 1) with 10 in H2. lia.
    + change (dec_aux (S f1) (n / 10) ((48 + n mod 10) :: acc) =
              dec_aux (S f2) (n / 10) ((48 + n mod 10) :: acc)).
      apply IH.
      * rewrite pow10_S in H1. apply N.div_lt_upper_bound; lia.
      * rewrite pow10_S in H2. apply N.div_lt_upper_bound; lia.
Qed.

Lemma lt_pow10_size (n : N) : n < 10 ^ N.size n.
Proof.
  destruct n as [|p]; [cbn; lia|].
  apply N.lt_le_trans with (2 ^ N.size (N.pos p)).
  - apply N.size_gt.
  - apply N.pow_le_mono_l. lia.
Qed.

Lemma lt_pow10_fuel (n : N) : n < 10 ^ N.of_nat (S (N.to_nat (N.size n))).
Proof.
  rewrite pow10_S, N2Nat.id. pose proof (lt_pow10_size n). lia.
Qed.

Lemma dec_small n : n < 10 -> dec n = [48 + n].
Proof.
  intro H. unfold dec. cbn [dec_aux].
  apply N.ltb_lt in H. rewrite H. apply N.ltb_lt in H.
  rewrite N.mod_small by assumption. reflexivity.
Qed.

Lemma dec_step n : 10 <= n -> dec n = dec (n / 10) ++ [48 + n mod 10].
Proof.
  intro H. unfold dec at 1. cbn [dec_aux].
  destruct (n <? 10) eqn:E; [apply N.ltb_lt in E; lia|].
  rewrite dec_aux_acc. f_equal.
  unfold dec.
  assert (Hs : exists k, N.to_nat (N.size n) = S k).
  { destruct (N.to_nat (N.size n)) eqn:Es; [|eauto].
    assert (N.size n = 0) by lia.
    destruct n; [lia|]. cbn in H0. lia. }
  destruct Hs as [k Hk]. rewrite Hk.
  apply dec_aux_fuel.
  - rewrite <- Hk, N2Nat.id. pose proof (lt_pow10_size n).
    apply N.lt_trans with n; [|assumption].
    apply N.div_lt; lia.
  - apply lt_pow10_fuel.
Qed.

(* Induction principle following the two equations. *)
Lemma dec_ind (P : N -> Prop) :
  (forall n, n < 10 -> P n) ->
  (forall n, 10 <= n -> P (n / 10) -> P n) ->
  forall n, P n.
Proof.
  intros Hs Hb n. induction n as [n IH] using (well_founded_induction N.lt_wf_0).
  destruct (N.lt_ge_cases n 10) as [H|H].
  - apply Hs; assumption.
  - apply Hb; [assumption|]. apply IH. apply N.div_lt; lia.
Qed.

Lemma is_digit_spec b : is_digit b = true <-> 48 <= b <= 57.
Proof.
  unfold is_digit. rewrite andb_true_iff, !N.leb_le. reflexivity.
Qed.

Lemma is_digit_48_plus d : d < 10 -> is_digit (48 + d) = true.
Proof. intro H. apply is_digit_spec. lia. Qed.

Lemma dec_nonempty n : dec n <> [].
Proof.
  pattern n. apply dec_ind; clear n; intros n H.
  - rewrite dec_small by assumption. discriminate.
  - intros _. rewrite dec_step by assumption. intro E. apply app_eq_nil in E. destruct E; discriminate.
Qed.

Lemma dec_all_digits n : forallb is_digit (dec n) = true.
Proof.
  pattern n. apply dec_ind; clear n; intros n H.
  - rewrite dec_small by assumption. cbn [forallb]. rewrite is_digit_48_plus by assumption. reflexivity.
  - intro IH. rewrite dec_step by assumption. rewrite forallb_app, IH. cbn [forallb].
    rewrite is_digit_48_plus; [reflexivity|]. apply N.mod_lt. lia.
Qed.

(* A byte that is not an ASCII digit (':' = 58, ',' = 44, '-' = 45, ...) does not occur in dec n. *)
Lemma dec_no_byte n b : is_digit b = false -> ~ In b (dec n).
Proof.
  intros Hb Hin. pose proof (dec_all_digits n) as H.
  rewrite forallb_forall in H. specialize (H b Hin). congruence.
Qed.

Lemma dec_head n :
  exists d r, dec n = d :: r /\ is_digit d = true /\ (0 < n -> d <> 48) /\ (n = 0 -> d = 48 /\ r = []).
Proof.
  pattern n. apply dec_ind; clear n; intros n H.
  - exists (48 + n), []. rewrite dec_small by assumption. repeat split.
    + apply is_digit_48_plus; assumption.
    + lia.
    + subst; reflexivity.
  - intros (d & r & E & Hd & Hnz & _). rewrite dec_step by assumption. rewrite E.
    exists d, (r ++ [48 + n mod 10]). repeat split; try assumption.
    + intros _. apply Hnz. apply N.div_str_pos. lia.
    + lia.
    + lia.
Qed.

Lemma dec_0 : dec 0 = [48].
Proof. reflexivity. Qed.

Lemma dec_length_pos n : (0 < length (dec n))%nat.
Proof. pose proof (dec_nonempty n). destruct (dec n); [congruence|cbn; lia]. Qed.

Lemma undec_acc_app : forall l d acc,
  undec_acc (l ++ [d]) acc =
  match undec_acc l acc with
  | Some v => if is_digit d then Some (v * 10 + (d - 48)) else None
  | None => None
  end.
Proof.
  induction l as [|b l IH]; intros d acc; cbn [app undec_acc].
  - destruct (is_digit d); reflexivity.
  - destruct (is_digit b); [apply IH|reflexivity].
Qed.

Lemma undec_nonempty l : l <> [] -> undec l = undec_acc l 0.
Proof. destruct l; [congruence|reflexivity]. Qed.

Theorem undec_dec n : undec (dec n) = Some n.
Proof.
  rewrite undec_nonempty by apply dec_nonempty.
  pattern n. apply dec_ind; clear n; intros n H.
  - rewrite dec_small by assumption. cbn [undec_acc].
    rewrite is_digit_48_plus by assumption. f_equal. lia.
  - intro IH. rewrite dec_step by assumption. rewrite undec_acc_app, IH.
    rewrite is_digit_48_plus by (apply N.mod_lt; lia). f_equal.
    lia.
Qed.

Theorem dec_inj n m : dec n = dec m -> n = m.
Proof.
  intro H. pose proof (undec_dec n) as Hn. rewrite H, undec_dec in Hn. congruence.
Qed.

Lemma canonical_dec_spec l :
  canonical_dec l = true <->
  l <> [] /\ forallb is_digit l = true /\ ((1 < length l)%nat -> hd 0 l <> 48).
Proof.
  destruct l as [|b [|c r]]; cbn [canonical_dec hd length].
  - split; [discriminate|]. intros [H _]; congruence.
  - cbn [forallb]. rewrite andb_true_r. split.
    + intro H. repeat split; [discriminate|assumption|lia].
    + intros (_ & H & _); assumption.
  - rewrite !andb_true_iff, negb_true_iff, N.eqb_neq. split.
    + intros [[H1 H2] H3]. repeat split; [discriminate|assumption|intros _; assumption].
    + intros (_ & H & Hh). repeat split; try assumption.
      * cbn [forallb] in H. apply andb_true_iff in H. tauto.
      * apply Hh. lia.
Qed.

Theorem canonical_dec_dec n : canonical_dec (dec n) = true.
Proof.
  apply canonical_dec_spec. repeat split.
  - apply dec_nonempty.
  - apply dec_all_digits.
  - intro Hlen. destruct (dec_head n) as (d & r & E & _ & Hnz & Hz).
    rewrite E. cbn [hd]. destruct (N.eq_dec n 0) as [->|Hn].
    + rewrite dec_0 in Hlen. cbn in Hlen. lia.
    + apply Hnz. lia.
Qed.

(* Strict converse: a canonical numeral is the rendering of the value it reads as. *)
Theorem canonical_dec_inv l :
  canonical_dec l = true -> exists n, undec l = Some n /\ dec n = l.
Proof.
  induction l as [|d l IH] using rev_ind; intro H.
  - discriminate.
  - apply canonical_dec_spec in H. destruct H as (_ & Hdig & Hhd).
    rewrite forallb_app in Hdig. apply andb_true_iff in Hdig. destruct Hdig as [Hl Hd].
    cbn [forallb] in Hd. rewrite andb_true_r in Hd.
    pose proof Hd as Hd'. apply is_digit_spec in Hd'.
    destruct l as [|b l].
    + exists (d - 48). split.
      * cbn. rewrite Hd. reflexivity.
      * cbn [app]. rewrite dec_small by lia. f_equal. lia.
    + assert (Hcan : canonical_dec (b :: l) = true).
      { apply canonical_dec_spec. repeat split; [discriminate|assumption|].
        intros _. cbn [hd]. apply Hhd. rewrite app_length. cbn. lia. }
      destruct (IH Hcan) as (n & Hun & Hdec).
      assert (Hn : 0 < n).
      { destruct (N.eq_dec n 0) as [->|]; [|lia].
        rewrite dec_0 in Hdec. injection Hdec as Hb Hl0. subst.
        exfalso. apply Hhd; [cbn; lia|reflexivity]. }
      exists (n * 10 + (d - 48)). split.
      * rewrite undec_nonempty by (destruct l; discriminate).
        rewrite undec_nonempty in Hun by discriminate.
        rewrite undec_acc_app, Hun, Hd. reflexivity.
      * rewrite dec_step by lia.
        assert (Hq : (n * 10 + (d - 48)) / 10 = n).
        { symmetry. apply N.div_unique with (d - 48); lia. }
        assert (Hm : (n * 10 + (d - 48)) mod 10 = d - 48).
        { symmetry. apply N.mod_unique with n; lia. }
        rewrite Hq, Hm, Hdec. f_equal. f_equal. lia.
Qed.

Corollary undec_canonical_unique l1 l2 n :
  canonical_dec l1 = true -> canonical_dec l2 = true ->
  undec l1 = Some n -> undec l2 = Some n -> l1 = l2.
Proof.
  intros C1 C2 U1 U2.
  destruct (canonical_dec_inv l1 C1) as (n1 & E1 & D1).
  destruct (canonical_dec_inv l2 C2) as (n2 & E2 & D2).
  congruence.
Qed.

(* Reading a canonical numeral and printing the value gives the numeral back. *)
Corollary dec_undec_canonical l n :
  canonical_dec l = true -> undec l = Some n -> dec n = l.
Proof.
  intros C U. destruct (canonical_dec_inv l C) as (m & E & D). congruence.
Qed.
