(* Abstract digital-signature scheme and an executable symbolic instance.

   The code under verification uses Ed25519 through allmydata.crypto.ed25519
   (`verify_signature(public_key, alleged_signature, data)`, raising BadSignature).
   No cryptographic fact is proved here.  Models take the scheme as Section
   variables; theorems that speak about forgery carry the explicit hypothesis
   `sig_sound verify signed`: verification succeeds only for (key, message)
   pairs the key holder genuinely signed.

   The symbolic instance makes the models runnable: a signature is the pair
   (key id, message id) it was made for (or junk), so verification is a
   comparison.  Drivers map real Ed25519 keys / byte strings to these ids. *)
From Coq Require Import List NArith Bool.
Import ListNotations.
Local Open Scope N_scope.

Section Scheme.
  Variables pubkey msg sig : Type.
  Variable verify : pubkey -> msg -> sig -> bool.

  (* `signed k m`: the holder of k's private key has signed exactly m. *)
  Definition sig_sound (signed : pubkey -> msg -> Prop) : Prop :=
    forall k m s, verify k m s = true -> signed k m.

  (* some key of the list verifies (m, s) *)
  Definition verifies_any (keys : list pubkey) (m : msg) (s : sig) : bool :=
    existsb (fun k => verify k m s) keys.

  Lemma verifies_any_iff : forall keys m s,
    verifies_any keys m s = true <-> exists k, In k keys /\ verify k m s = true.
  Proof.
    intros keys m s. unfold verifies_any. rewrite existsb_exists. tauto.
  Qed.
End Scheme.

Arguments sig_sound {pubkey msg sig} verify signed.
Arguments verifies_any {pubkey msg sig} verify keys m s.

Inductive sym_sig : Type :=
| SigOf (k : N) (m : N)      (* the signature made with key k over message m *)
| SigJunk (n : N).           (* any other byte string *)

Definition sym_sign (k m : N) : sym_sig := SigOf k m.

Definition sym_verify (k : N) (m : N) (s : sym_sig) : bool :=
  match s with
  | SigOf k' m' => (k =? k') && (m =? m')
  | SigJunk _ => false
  end.

Lemma sym_verify_iff : forall k m s, sym_verify k m s = true <-> s = sym_sign k m.
Proof.
  intros k m s. destruct s as [k' m'|n]; cbn [sym_verify sym_sign].
  - rewrite andb_true_iff, !N.eqb_eq. split.
    + intros [-> ->]. reflexivity.
    + intros H. inversion H. auto.
  - split; discriminate.
Qed.

Lemma sym_sound : sig_sound sym_verify (fun k m => exists s, s = sym_sign k m).
Proof.
  intros k m s H. exists s. apply sym_verify_iff. exact H.
Qed.

Lemma sym_verify_sign : forall k m, sym_verify k m (sym_sign k m) = true.
Proof. intros. apply sym_verify_iff. reflexivity. Qed.

Lemma sym_verify_other_key : forall k k' m, k <> k' -> sym_verify k' m (sym_sign k m) = false.
Proof.
  intros k k' m H. cbn. destruct (N.eqb_spec k' k); [congruence|reflexivity].
Qed.

Lemma sym_verify_other_msg : forall k m m', m <> m' -> sym_verify k m' (sym_sign k m) = false.
Proof.
  intros k m m' H. cbn. destruct (N.eqb_spec m' m); [congruence|]. apply andb_false_r.
Qed.
