(* List facts the 8.16 standard library lacks, shared by the proofs of every area.
   Indices are nat; statements are polymorphic and take the list last where the
   library's own lemmas (firstn_app, skipn_app, ...) do. *)
From Coq Require Import List Arith Bool Lia.
Import ListNotations.

Section Nth.
  Context {A : Type}.
  Implicit Types (l : list A) (d : A).

  Lemma nth_firstn_lt i n l d : i < n -> nth i (firstn n l) d = nth i l d.
  Proof.
    revert i l; induction n; intros i l H; [lia|].
    destruct l, i; cbn; auto with arith.
  Qed.

  Lemma nth_skipn i n l d : nth i (skipn n l) d = nth (n + i) l d.
  Proof.
    revert l; induction n; intros [|x l]; cbn [skipn Nat.add nth]; auto.
    destruct i; reflexivity.
  Qed.

  Lemma nth_repeat_lt (a : A) d n i : i < n -> nth i (repeat a n) d = a.
  Proof. revert i; induction n; intros [|i] H; cbn; auto with arith; lia. Qed.

  Lemma firstn_add a b l : firstn (a + b) l = firstn a l ++ firstn b (skipn a l).
  Proof. revert l; induction a; intros [|x l]; cbn; rewrite ?firstn_nil; congruence. Qed.

  Lemma skipn_add a b l : skipn b (skipn a l) = skipn (a + b) l.
  Proof. revert l; induction a; intros [|x l]; cbn [skipn Nat.add]; auto using skipn_nil. Qed.

  Lemma firstn_skipn_add a n l : firstn n (skipn a l) ++ skipn (a + n) l = skipn a l.
  Proof. rewrite <- skipn_add. apply firstn_skipn. Qed.

  Lemma split_at a b l : a <= b -> firstn (b - a) (skipn a l) ++ skipn b l = skipn a l.
  Proof. intro Hab. replace b with (a + (b - a)) at 2 by lia. apply firstn_skipn_add. Qed.

  Lemma firstn_app_exact l l' n : length l = n -> firstn n (l ++ l') = l.
  Proof. intros <-. rewrite firstn_app, Nat.sub_diag, firstn_all. apply app_nil_r. Qed.

  Lemma skipn_app_exact l l' n : length l = n -> skipn n (l ++ l') = l'.
  Proof. intros <-. rewrite skipn_app, Nat.sub_diag, skipn_all. reflexivity. Qed.

  Lemma nth_error_firstn i n l : i < n -> nth_error (firstn n l) i = nth_error l i.
  Proof. revert i l; induction n; intros [|i] [|x l] H; cbn; auto with arith; lia. Qed.

  Lemma nth_error_skipn i n l : nth_error (skipn n l) i = nth_error l (n + i).
  Proof. revert l; induction n; intros [|x l]; cbn [skipn Nat.add nth_error]; auto. now destruct i. Qed.

  Lemma nth_error_ext l l' : (forall i, nth_error l i = nth_error l' i) -> l = l'.
  Proof.
    revert l'; induction l as [|x l IH]; intros [|y l'] H; try (specialize (H 0); discriminate); [reflexivity|].
    f_equal; [now injection (H 0) | exact (IH _ (fun i => H (S i)))].
  Qed.

  Lemma Forall_nth_error (P : A -> Prop) l i x : Forall P l -> nth_error l i = Some x -> P x.
  Proof. rewrite Forall_forall. eauto using nth_error_In. Qed.
End Nth.

Lemma nth_error_seq n b i : i < n -> nth_error (seq b n) i = Some (b + i).
Proof. intros H. rewrite (nth_error_nth' _ 0), seq_nth; rewrite ?seq_length; auto. Qed.

Section Pred.
  Context {A : Type}.
  Implicit Types (l : list A).

  Lemma Forall_firstn (P : A -> Prop) n l : Forall P l -> Forall P (firstn n l).
  Proof. intros H; revert n; induction H; intros [|n]; cbn; auto. Qed.

  Lemma Forall_skipn (P : A -> Prop) n l : Forall P l -> Forall P (skipn n l).
  Proof. intros H; revert n; induction H; intros [|n]; cbn; auto. Qed.

  Lemma forallb_firstn (f : A -> bool) n l : forallb f l = true -> forallb f (firstn n l) = true.
  Proof.
    revert n; induction l as [|x l IH]; intros [|n]; cbn; auto.
    intros [-> H]%andb_prop. exact (IH n H).
  Qed.

  Lemma forallb_skipn (f : A -> bool) n l : forallb f l = true -> forallb f (skipn n l) = true.
  Proof.
    revert n; induction l as [|x l IH]; intros [|n]; cbn; auto.
    intros [_ H]%andb_prop. exact (IH n H).
  Qed.

  Lemma filter_length_le (f : A -> bool) l : length (filter f l) <= length l.
  Proof. induction l as [|x l IH]; cbn; [|destruct (f x); cbn]; lia. Qed.

  Lemma filter_all_true (f : A -> bool) l : (forall x, In x l -> f x = true) -> filter f l = l.
  Proof.
    induction l as [|x l IH]; cbn; intros H; [reflexivity|].
    rewrite (H x (or_introl eq_refl)), IH; auto.
  Qed.

  Lemma filter_split_length (f : A -> bool) l :
    length l = length (filter f l) + length (filter (fun x => negb (f x)) l).
  Proof. induction l as [|x l IH]; cbn; [|destruct (f x); cbn]; lia. Qed.

  Lemma filter_length_lt (f : A -> bool) l x : In x l -> f x = false -> length (filter f l) < length l.
  Proof.
    intros I F. rewrite (filter_split_length f l). apply Nat.lt_add_pos_r.
    assert (I' : In x (filter (fun x => negb (f x)) l)) by (apply filter_In; now rewrite F).
    destruct (filter _ l); [destruct I'|cbn; lia].
  Qed.

  Lemma filter_length_mono (f h : A -> bool) l :
    (forall x, In x l -> f x = true -> h x = true) -> length (filter f l) <= length (filter h l).
  Proof.
    induction l as [|x l IH]; cbn; intro H; [lia|].
    specialize (IH (fun y Hy => H y (or_intror Hy))).
    destruct (f x) eqn:Ef; [rewrite (H x (or_introl eq_refl) Ef); cbn; lia|destruct (h x); cbn; lia].
  Qed.

  Lemma in_snoc l (e x : A) : In x (l ++ [e]) <-> In x l \/ x = e.
  Proof. rewrite in_app_iff. cbn. intuition congruence. Qed.

  Lemma fold_left_preserves {B} (P : A -> Prop) (f : A -> B -> A) (bs : list B) a :
    (forall a b, P a -> P (f a b)) -> P a -> P (fold_left f bs a).
  Proof. intros H. revert a; induction bs; cbn; auto. Qed.

  Lemma forallb_ext (f g : A -> bool) l : (forall x, f x = g x) -> forallb f l = forallb g l.
  Proof. intros E. induction l as [|a l IH]; cbn [forallb]; [reflexivity|]. rewrite E, IH. reflexivity. Qed.

  Lemma filter_map_comm {B} (P : B -> bool) (h : A -> B) l :
    filter P (map h l) = map h (filter (fun x => P (h x)) l).
  Proof.
    induction l as [|a r IH]; cbn [map filter]; [reflexivity|].
    destruct (P (h a)); cbn [map]; rewrite IH; reflexivity.
  Qed.

  Lemma flat_map_if {B} (c : A -> bool) (h : A -> B) l :
    flat_map (fun x => if c x then [h x] else []) l = map h (filter c l).
  Proof.
    induction l as [|a r IH]; cbn [flat_map filter]; [reflexivity|].
    destruct (c a); cbn [map app]; rewrite IH; reflexivity.
  Qed.
End Pred.

Section NoDup.
  Context {A : Type}.
  Implicit Types (l : list A).

  Lemma NoDup_app_iff l l' :
    NoDup (l ++ l') <-> NoDup l /\ NoDup l' /\ forall x, In x l -> ~ In x l'.
  Proof.
    induction l as [|a l IH]; cbn.
    - split; [intros H; repeat split; [constructor|exact H|tauto]|tauto].
    - rewrite !NoDup_cons_iff, IH, in_app_iff. split.
      + intros (N & H1 & H2 & D). repeat split; try tauto.
        intros x [<-|I]; [tauto|exact (D x I)].
      + intros ((N & H1) & H2 & D). repeat split; auto.
        intros [I|I]; [tauto|exact (D a (or_introl eq_refl) I)].
  Qed.

  Lemma NoDup_app_intro l l' :
    NoDup l -> NoDup l' -> (forall x, In x l -> ~ In x l') -> NoDup (l ++ l').
  Proof. intros. apply NoDup_app_iff; auto. Qed.

  Lemma NoDup_snoc l x : NoDup l -> ~ In x l -> NoDup (l ++ [x]).
  Proof.
    intros H N. apply NoDup_app_intro; [exact H|repeat constructor; exact (fun F => F)|].
    intros y I [<-|[]]. exact (N I).
  Qed.

  Lemma NoDup_map_filter {B} (g : A -> B) (f : A -> bool) l :
    NoDup (map g l) -> NoDup (map g (filter f l)).
  Proof.
    induction l as [|a l IH]; cbn; [auto|]. rewrite NoDup_cons_iff. intros (N & H).
    destruct (f a); cbn; auto. constructor; auto.
    rewrite in_map_iff in *. intros (y & E & I). apply N. exists y. split; [exact E|].
    exact (proj1 (proj1 (filter_In _ _ _) I)).
  Qed.

  Lemma NoDup_map_inj {B} (g : A -> B) l :
    NoDup l -> (forall x y, In x l -> In y l -> g x = g y -> x = y) -> NoDup (map g l).
  Proof.
    induction 1 as [|a l N _ IH]; cbn; intros I; constructor.
    - rewrite in_map_iff. intros (y & E & Iy). apply N. now rewrite (I a y) by auto.
    - apply IH. auto.
  Qed.

  Lemma NoDup_map_In_inj {B} (g : A -> B) l x y :
    NoDup (map g l) -> In x l -> In y l -> g x = g y -> x = y.
  Proof.
    induction l as [|a l IH]; cbn; [tauto|]. rewrite NoDup_cons_iff, in_map_iff.
    intros (N & H) [<-|Ix] [<-|Iy] E; auto; exfalso; apply N; eauto.
  Qed.

  Lemma filter_le_one (p : A -> bool) l :
    (forall x y, In x l -> In y l -> p x = true -> p y = true -> x = y) -> NoDup l ->
    length (filter p l) <= 1.
  Proof.
    intros Hu Hnd. induction Hnd as [|a r Ha Hr IH]; cbn [filter length]; [lia|].
    assert (IH' : length (filter p r) <= 1).
    { apply IH. intros x y Hx Hy. apply Hu; right; assumption. }
    destruct (p a) eqn:Ea; [|exact IH']. cbn [length].
    destruct (filter p r) as [|b r'] eqn:Ef; [cbn [length]; lia|]. exfalso.
    assert (Hb : In b (filter p r)) by (rewrite Ef; left; reflexivity).
    apply filter_In in Hb. destruct Hb as [Hb1 Hb2].
    assert (a = b) by (apply Hu; [left; reflexivity | right; exact Hb1 | exact Ea | exact Hb2]).
    subst b. contradiction.
  Qed.
End NoDup.

(* Several models test membership by `existsb (eqb x)` for a deciding eqb. *)
Lemma existsb_eqb_In {A} (eqb : A -> A -> bool) (eqb_eq : forall a b, eqb a b = true <-> a = b) x l :
  existsb (eqb x) l = true <-> In x l.
Proof.
  rewrite existsb_exists. split.
  - intros (y & Hy & E). apply eqb_eq in E. now subst.
  - intros H. exists x. split; [exact H|now apply eqb_eq].
Qed.

Lemma NoDup_fst_unique {A B} (l : list (A * B)) a b b' :
  NoDup (map fst l) -> In (a, b) l -> In (a, b') l -> b = b'.
Proof. intros N I I'. now injection (NoDup_map_In_inj fst l _ _ N I I' eq_refl). Qed.

Lemma NoDup_bounded_length n (l : list nat) : NoDup l -> (forall x, In x l -> x < n) -> length l <= n.
Proof.
  intros Hnd Hb. rewrite <- (seq_length n 0). apply NoDup_incl_length; [exact Hnd|].
  intros x Hx. apply in_seq. specialize (Hb x Hx). lia.
Qed.
