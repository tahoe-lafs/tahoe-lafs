(* Byte strings as list N: hex and ASCII literals for the generated case files
   (unhex "0aff" = [10; 255]), and the boolean equality list_N_eqb with its lemmas. *)
From Coq Require Import List NArith Ascii String Bool.
Import ListNotations.
Local Open Scope N_scope.
Local Open Scope bool_scope.

Definition hexval (c : ascii) : N :=
  let n := N_of_ascii c in
  if (48 <=? n) && (n <=? 57) then n - 48
  else if (97 <=? n) && (n <=? 102) then n - 87
  else if (65 <=? n) && (n <=? 70) then n - 55
  else 0.

Fixpoint unhex (s : string) : list N :=
  match s with
  | String a (String b r) => (16 * hexval a + hexval b) :: unhex r
  | _ => []
  end.

(* Bytes of an ASCII string literal. *)
Fixpoint bytes_of_string (s : string) : list N :=
  match s with
  | EmptyString => []
  | String a r => N_of_ascii a :: bytes_of_string r
  end.

Fixpoint list_N_eqb (a b : list N) : bool :=
  match a, b with
  | [], [] => true
  | x :: a', y :: b' => (x =? y) && list_N_eqb a' b'
  | _, _ => false
  end.

Lemma list_N_eqb_eq a b : list_N_eqb a b = true <-> a = b.
Proof.
  revert b; induction a as [|x a IH]; destruct b as [|y b]; simpl; split; intro H;
    try reflexivity; try discriminate.
  - apply andb_prop in H. destruct H as [H1 H2]. apply N.eqb_eq in H1. apply IH in H2. subst. reflexivity.
  - inversion H; subst. rewrite N.eqb_refl. simpl. apply IH. reflexivity.
Qed.

Lemma list_N_eqb_refl a : list_N_eqb a a = true.
Proof. now apply list_N_eqb_eq. Qed.

Lemma list_N_eqb_neq a b : a <> b -> list_N_eqb a b = false.
Proof. intros H. destruct (list_N_eqb a b) eqn:E; [now apply list_N_eqb_eq in E | reflexivity]. Qed.

Lemma list_N_eqb_sym a b : list_N_eqb a b = list_N_eqb b a.
Proof.
  destruct (list_N_eqb b a) eqn:E.
  - apply list_N_eqb_eq in E as ->. apply list_N_eqb_refl.
  - apply list_N_eqb_neq. intros ->. now rewrite list_N_eqb_refl in E.
Qed.
