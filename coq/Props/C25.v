(* C25  Lease semantics.
   Statements only; each is closed by `exact` or a short derivation from a lemma in
   Proofs/Lease*.v.

   Files are byte lists; the lease methods of MutableShareFile and ShareFile are the
   byte-level transcriptions in Model/Lease.v.  `H` is blake2b (nacl.hash.blake2b with
   a 32-byte digest): every statement holds for every function H -- nothing about it is
   assumed.  `v` is the schema version of the container (V1: secrets stored as given,
   V2: hashes stored, candidates hashed before comparison).  `layout_ok` /
   `imm_layout_ok` are the executable layout invariants; `bytes_ok f` says every element
   of the list is a byte (< 256), needed where a field read back from disk is packed
   again.  The expiry field of the format is 4 bytes: `l_expire li < 2 ^ 32`. *)
From Coq Require Import List NArith Bool.
From Verif Require Import Lib.Hex Gen.MutConsts Model.MutContainer Model.Lease
  Proofs.MutContainerBytes Proofs.MutContainer Proofs.LeaseMutable Proofs.LeaseImmutable Proofs.Lease Proofs.LeaseFinal.
Import ListNotations.
Local Open Scope N_scope.

(* adding a lease whose renew secret is known renews, it does not add *)
(* `renew_first` is the reference: the first lease answering to the secret gets
   expiry max(old, new), every other lease and the number of leases stay as they are. *)
Theorem renew_not_duplicate :
  forall H maxsz f v avail li ls ls',
    layout_ok maxsz f = true -> bytes_ok f -> l_owner li <> 0 -> l_expire li < 2 ^ 32 ->
    mut_get_leases f = Ok ls -> renew_first H v ls (l_renew li) (l_expire li) = Some ls' ->
    exists f', mut_add_or_renew H v f avail li = Done f' /\ mut_get_leases f' = Ok ls' /\
               length ls' = length ls /\ layout_ok maxsz f' = true /\ abs_data f' = abs_data f.
Proof. exact renew_not_duplicate_mut_proof. Qed.
Print Assumptions renew_not_duplicate.

Theorem renew_not_duplicate_immutable :
  forall H f v lo avail li ls ls',
    imm_layout_ok f = true -> bytes_ok f -> l_expire li < 2 ^ 32 -> imm_open f = Ok (v, lo) ->
    immfile_get_leases f = Ok ls -> renew_first H v ls (l_renew li) (l_expire li) = Some ls' ->
    exists f', immfile_add_or_renew H f avail li = Done f' /\ immfile_get_leases f' = Ok ls' /\
               length ls' = length ls /\ imm_layout_ok f' = true /\ imm_data f' = imm_data f.
Proof. exact renew_not_duplicate_imm_proof. Qed.
Print Assumptions renew_not_duplicate_immutable.

(* no lease operation shortens or removes a lease *)
(* whatever add_or_renew_lease does -- renew, refuse to backdate, fill an empty slot, append an
   extra lease, raise NoSpace or a struct error -- every lease present before is present after,
   in the same slot, identical up to an expiry that is not earlier; data and layout are kept *)
Theorem never_shortens :
  forall H maxsz f v avail li E,
    layout_ok maxsz f = true -> lease_wf (stored_form H v li) -> l_owner li <> 0 ->
    mut_enumerate f = Ok E ->
    layout_ok maxsz (out_file (mut_add_or_renew H v f avail li)) = true /\
    abs_data (out_file (mut_add_or_renew H v f avail li)) = abs_data f /\
    exists E', mut_enumerate (out_file (mut_add_or_renew H v f avail li)) = Ok E' /\ never_shorter E E'.
Proof. exact never_shortens_mut_proof. Qed.
Print Assumptions never_shortens.

Theorem never_shortens_renew :
  forall H maxsz f v s t E,
    layout_ok maxsz f = true -> mut_enumerate f = Ok E ->
    layout_ok maxsz (out_file (mut_renew_lease H v f s t)) = true /\
    abs_data (out_file (mut_renew_lease H v f s t)) = abs_data f /\
    exists E', mut_enumerate (out_file (mut_renew_lease H v f s t)) = Ok E' /\ never_shorter E E'.
Proof.
  intros H maxsz f v s t E Hl He. apply (grows_file maxsz f E (fun f => mut_renew_lease H v f s t) Hl He).
  intros c Hw. apply mut_renew_grows, Hw.
Qed.
Print Assumptions never_shortens_renew.

Theorem never_shortens_immutable :
  forall H f avail li ls,
    imm_layout_ok f = true -> immfile_get_leases f = Ok ls ->
    imm_layout_ok (out_file (immfile_add_or_renew H f avail li)) = true /\
    imm_data (out_file (immfile_add_or_renew H f avail li)) = imm_data f /\
    exists ls', immfile_get_leases (out_file (immfile_add_or_renew H f avail li)) = Ok ls' /\ never_shorter_list ls ls'.
Proof.
  intros H f avail li ls Hl Hg.
  exact (igrows_file f ls (fun v lo f => imm_add_or_renew H v f lo avail li) Hl Hg
           (fun v c Hw => imm_add_or_renew_grows H v c avail li Hw)).
Qed.
Print Assumptions never_shortens_immutable.

(* renewing with a secret no lease answers to: IndexError, file untouched *)
Theorem unknown_secret_no_change_and_error :
  forall H v f s t ls,
    mut_get_leases f = Ok ls -> no_match H v ls s = true -> mut_renew_lease H v f s t = Raised f EIndex.
Proof.
  intros H v f s t ls. unfold mut_get_leases, mut_renew_lease.
  destruct (mut_enumerate f); [intros [= <-]; apply renew_scan_no_match|discriminate].
Qed.
Print Assumptions unknown_secret_no_change_and_error.

Theorem unknown_secret_no_change_and_error_immutable :
  forall H f v lo s t ls,
    imm_open f = Ok (v, lo) -> immfile_get_leases f = Ok ls -> no_match H v ls s = true ->
    immfile_renew H f s t = Raised f EIndex.
Proof.
  intros H f v lo s t ls Ho Hg. unfold immfile_get_leases, immfile_renew, imm_renew_lease in *.
  rewrite Ho in *. rewrite Hg. apply imm_renew_scan_no_match.
Qed.
Print Assumptions unknown_secret_no_change_and_error_immutable.

(* leases survive data writes and container growth (with C23) *)
Theorem leases_survive_writes :
  forall maxsz f dv nl,
    468 + maxsz < 2 ^ 64 -> layout_ok maxsz f = true ->
    mut_enumerate (out_file (writev maxsz f dv nl)) = mut_enumerate f /\
    mut_get_leases (out_file (writev maxsz f dv nl)) = mut_get_leases f.
Proof. exact leases_survive_writes_proof. Qed.
Print Assumptions leases_survive_writes.

(* cancel_lease (the lease-expiry crawler) removes exactly the leases answering to the secret *)
(* mutable lease slots are never packed: the cancelled record is blanked in place.  Every other
   lease keeps its slot number and stays enumerable -- also the ones in LATER slots, behind the
   now unused one -- so it can still be renewed and is not duplicated by a later add (with
   renew_not_duplicate on the resulting file); data and layout are untouched.  No lease answers:
   IndexError, file unchanged.  No lease remains: the share file is removed. *)
Theorem cancel_removes_only_matching_leases :
  forall H maxsz v f cs E,
    layout_ok maxsz f = true -> mut_enumerate f = Ok E ->
    let kept := filter (fun il => negb (is_cancel_secret H v (snd il) cs)) E in
    let gone := filter (fun il => is_cancel_secret H v (snd il) cs) E in
    match gone, kept with
    | [], _ => mut_cancel_lease H v f cs = (Some f, Some EIndex)
    | _ :: _, [] => mut_cancel_lease H v f cs = (None, None)
    | _ :: _, _ :: _ =>
        exists f', mut_cancel_lease H v f cs = (Some f', None) /\ layout_ok maxsz f' = true /\
                   abs_data f' = abs_data f /\ mut_enumerate f' = Ok kept
    end.
Proof. exact cancel_lease_proof. Qed.
Print Assumptions cancel_removes_only_matching_leases.

(* v2 containers: the file is a function of the hashed secrets only *)
(* two client leases with the same hashes (and owner, expiry, nodeid) have exactly the same
   effect on any file, and two candidate secrets with the same hash renew alike: the cleartext
   secret reaches neither the file nor any decision other than through H *)
Theorem v2_stores_only_hashes :
  forall H f avail li li',
    hash_lease H li = hash_lease H li' ->
    mut_add_or_renew H V2 f avail li = mut_add_or_renew H V2 f avail li'.
Proof. exact v2_mut_only_hash. Qed.
Print Assumptions v2_stores_only_hashes.

Theorem v2_stores_only_hashes_immutable :
  forall H f lo avail li li',
    hash_lease H li = hash_lease H li' ->
    imm_add_or_renew H V2 f lo avail li = imm_add_or_renew H V2 f lo avail li'.
Proof. exact v2_imm_only_hash. Qed.
Print Assumptions v2_stores_only_hashes_immutable.

Theorem v2_renew_uses_only_hash :
  forall H f s s' t, H s = H s' -> mut_renew_lease H V2 f s t = mut_renew_lease H V2 f s' t.
Proof. exact v2_renew_only_hash. Qed.
Print Assumptions v2_renew_uses_only_hash.

Theorem v2_record_is_function_of_hashes :
  forall H li li',
    hash_lease H li = hash_lease H li' ->
    ser_mutable (stored_form H V2 li) = ser_mutable (stored_form H V2 li') /\
    ser_immutable (stored_form H V2 li) = ser_immutable (stored_form H V2 li').
Proof. intros H li li' Hh. cbn [stored_form]. rewrite Hh. split; reflexivity. Qed.
Print Assumptions v2_record_is_function_of_hashes.

(* the hypotheses are satisfiable; the model computes *)
Definition ex_H (s : list N) : list N := map (fun b => (b + 1) mod 256) s.   (* a stand-in for blake2b *)
Definition ex_sec (k : N) : list N := repeat k 32.
Definition ex_node : list N := repeat 9 20.
Definition ex_li (k t : N) : lease := mkLease 1 (ex_sec k) (ex_sec (k + 100)) t ex_node.
Definition ex_f0 : file := mut_header V2 ex_node (ex_sec 7).
Definition ex_f1 : file := out_file (mut_add_or_renew ex_H V2 ex_f0 1000 (ex_li 1 500)).

Example ex_add_then_renew :
  layout_ok 1000 ex_f1 = true /\ bytes_okb ex_f1 = true /\
  mut_get_leases ex_f1 = Ok [hash_lease ex_H (ex_li 1 500)] /\
  (* same secret, later expiry: renewed, still one lease *)
  mut_get_leases (out_file (mut_add_or_renew ex_H V2 ex_f1 1000 (ex_li 1 900))) = Ok [hash_lease ex_H (ex_li 1 900)] /\
  (* same secret, earlier expiry: nothing changes *)
  mut_add_or_renew ex_H V2 ex_f1 1000 (ex_li 1 100) = Done ex_f1 /\
  (* other secret: a second lease *)
  mut_get_leases (out_file (mut_add_or_renew ex_H V2 ex_f1 1000 (ex_li 2 100)))
    = Ok [hash_lease ex_H (ex_li 1 500); hash_lease ex_H (ex_li 2 100)] /\
  (* unknown secret: IndexError and the same file *)
  mut_renew_lease ex_H V2 ex_f1 (ex_sec 3) 900 = Raised ex_f1 EIndex /\
  (* the hash of the secret is not accepted in place of the secret *)
  mut_renew_lease ex_H V2 ex_f1 (ex_H (ex_sec 1)) 900 = Raised ex_f1 EIndex.
Proof. vm_compute. repeat split. Qed.

Definition ex_f2 : file := out_file (mut_add_or_renew ex_H V2 ex_f1 1000 (ex_li 2 600)).
Definition ex_f3 : file := match fst (mut_cancel_lease ex_H V2 ex_f2 (ex_sec 101)) with Some f => f | None => [] end.

Example ex_cancel_older_keeps_later :
  mut_enumerate ex_f2 = Ok [(0, hash_lease ex_H (ex_li 1 500)); (1, hash_lease ex_H (ex_li 2 600))] /\
  mut_cancel_lease ex_H V2 ex_f2 (ex_sec 101) = (Some ex_f3, None) /\
  mut_enumerate ex_f3 = Ok [(1, hash_lease ex_H (ex_li 2 600))] /\
  mut_get_leases (out_file (mut_renew_lease ex_H V2 ex_f3 (ex_sec 2) 900)) = Ok [hash_lease ex_H (ex_li 2 900)] /\
  mut_get_leases (out_file (mut_add_or_renew ex_H V2 ex_f3 1000 (ex_li 2 900))) = Ok [hash_lease ex_H (ex_li 2 900)] /\
  mut_cancel_lease ex_H V2 ex_f3 (ex_sec 101) = (Some ex_f3, Some EIndex) /\
  mut_cancel_lease ex_H V2 ex_f3 (ex_sec 102) = (None, None).
Proof. vm_compute. repeat split. Qed.

Definition ex_i0 : file := imm_header V1 10 ++ repeat 5 10.
Definition ex_i1 : file := out_file (immfile_add ex_H ex_i0 (ex_li 1 500)).

Example ex_immutable :
  imm_layout_ok ex_i1 = true /\ imm_data ex_i1 = repeat 5 10 /\
  immfile_get_leases ex_i1 = Ok [mkLease 1 (ex_sec 1) (ex_sec 101) 500 []] /\
  immfile_get_leases (out_file (immfile_add_or_renew ex_H ex_i1 1000 (ex_li 1 900))) = Ok [mkLease 1 (ex_sec 1) (ex_sec 101) 900 []] /\
  immfile_add_or_renew ex_H ex_i1 1000 (ex_li 1 100) = Done ex_i1 /\
  immfile_renew ex_H ex_i1 (ex_sec 2) 900 = Raised ex_i1 EIndex.
Proof. vm_compute. repeat split. Qed.

Example ex_lease_wf_nonvacuous : lease_wf (stored_form ex_H V2 (ex_li 1 500)).
Proof. constructor; vm_compute; reflexivity. Qed.
