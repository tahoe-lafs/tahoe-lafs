(* C21  Deep traversal visits every reachable object exactly once.
   Statements only; each is closed by `exact` of a lemma in Proofs/TraverseThm.v.
   Model/Traverse.v is the hand model of DirectoryNode.deep_traverse (tied to
   the code by harness/props/c21.py).  `traverse_fuel g fuel root = Some out`
   means: the walk from `root` finishes and `out` is the sequence of
   walker.add_node(node, path) calls.

   The property text says "every file and directory ... exactly once".  For
   objects that have a verify cap this is proved (with_verifier_exactly_once).
   For objects without one (LIT files, LIT directories, unknown nodes) the
   code hands the object to the walker once per link: see
   every_object_exactly_once_refuted; the driver replays the witnesses on the
   implementation (known finding). *)
From Coq Require Import List NArith Bool.
From Verif Require Import Model.Traverse Proofs.Traverse Proofs.TraverseThm.
Import ListNotations.
Local Open Scope N_scope.

(* Every object reachable from the root is handed to the walker at least once
   (through some cap of it), for graphs with shared subdirectories, cycles,
   read-only and read-write caps of the same directory, LIT and unknown nodes. *)
Theorem visits_all_reachable :
  forall g root nr,
    wf_graph g -> lookup g root = Some nr -> n_kind nr = KDir ->
    forall fuel out, traverse_fuel g fuel root = Some out ->
    forall i n, reachable g root i -> lookup g i = Some n ->
    exists q j m, In (q, j) out /\ lookup g j = Some m /\ n_obj m = n_obj n.
Proof. exact visits_all_reachable_lem. Qed.
Print Assumptions visits_all_reachable.

(* Every reachable object that has a verify cap is handed to the walker exactly
   once, however many parents link to it, through whichever caps, cycles included. *)
Theorem with_verifier_exactly_once :
  forall g root nr,
    wf_graph g -> lookup g root = Some nr -> n_kind nr = KDir ->
    forall fuel out, traverse_fuel g fuel root = Some out ->
    forall i n v, reachable g root i -> lookup g i = Some n -> n_verifier n = Some v ->
    count_obj g (n_obj n) out = 1%nat.
Proof. exact with_verifier_exactly_once_lem. Qed.
Print Assumptions with_verifier_exactly_once.

(* Each reported path, followed from the root through directories by child
   name, leads to the node reported for it. *)
Theorem paths_lead_to_nodes :
  forall g root nr,
    wf_graph g -> lookup g root = Some nr -> n_kind nr = KDir ->
    forall fuel out, traverse_fuel g fuel root = Some out ->
    forall q j, In (q, j) out -> walk g root q = Some j.
Proof. exact paths_lead_to_nodes_lem. Qed.
Print Assumptions paths_lead_to_nodes.

(* The walk ends, cycles or not, within one directory walk per graph node plus
   one, when every directory has a verify cap (LIT directories are the only
   ones without; they are immutable and cannot lie on a cycle). *)
Theorem terminates_on_cycles :
  forall g, dirs_have_verifier g -> forall root, exists out, traverse g root = Some out.
Proof. exact traverse_terminates. Qed.
Print Assumptions terminates_on_cycles.

(* The result does not depend on the fuel once it suffices. *)
Theorem result_independent_of_fuel :
  forall g root f out, traverse_fuel g f root = Some out ->
  forall f', (f <= f')%nat -> traverse_fuel g f' root = Some out.
Proof. exact traverse_fuel_mono. Qed.
Print Assumptions result_independent_of_fuel.

(* wf_graphb (evaluated by the driver on every generated graph) decides wf_graph. *)
Theorem wf_graphb_decides :
  forall g, wf_graphb g = true -> wf_graph g.
Proof. exact wf_graphb_sound. Qed.
Print Assumptions wf_graphb_decides.

(* The full statement "every reachable object exactly once" does NOT hold of the
   code: an object without a verify cap that is linked twice is handed to the
   walker twice (LIT file, LIT directory, unknown node). *)
Theorem every_object_exactly_once_refuted :
  forall k, In k [KFileLit; KDir; KUnknown] ->
  exists g root nr out i n,
    wf_graph g /\ lookup g root = Some nr /\ n_kind nr = KDir /\ traverse g root = Some out /\
    reachable g root i /\ lookup g i = Some n /\ n_kind n = k /\ n_verifier n = None /\
    count_obj g (n_obj n) out = 2%nat.
Proof. exact no_verifier_once_per_link. Qed.
Print Assumptions every_object_exactly_once_refuted.

(* the hypotheses are satisfiable: a graph with a shared subdirectory, a
   cycle back to the root, the same directory under its write cap (node 1)
   and its read cap (node 2), a CHK file linked twice, a LIT file and an
   unknown node *)
Definition ex_graph : graph :=
  [ (0, mkNode 0 KDir (Some 100) None [([115], 1); ([116], 2); ([102], 3)]);     (* root: s -> D(rw), t -> D(ro), f -> F *)
    (1, mkNode 1 KDir (Some 101) None [([117], 0); ([102], 3); ([108], 4); ([120], 5)]);  (* D via write cap: u -> root (cycle), f -> F, l -> LIT, x -> unknown *)
    (2, mkNode 1 KDir (Some 101) None [([117], 6); ([102], 3); ([108], 4); ([120], 7)]);  (* D via read cap: children seen read-only *)
    (3, mkNode 3 KFileImm (Some 103) (Some 1000) []);
    (4, mkNode 4 KFileLit None (Some 5) []);
    (5, mkNode 5 KUnknown None None []);
    (6, mkNode 0 KDir (Some 100) None [([115], 2); ([116], 2); ([102], 3)]);     (* root via read cap *)
    (7, mkNode 5 KUnknown None None []) ].

Example ex_graph_wf_nonvacuous : wf_graphb ex_graph = true /\ dirs_have_verifierb ex_graph = true.
Proof. vm_compute. split; reflexivity. Qed.

Example ex_graph_traverse :
  traverse ex_graph 0 =
  Some [([], 0); ([[102]], 3); ([[115]], 1); ([[115]; [120]], 5); ([[115]; [108]], 4)].
Proof. vm_compute. reflexivity. Qed.

Example ex_graph_stats :
  option_map (fun out => stats_list (deep_stats ex_graph out)) (traverse ex_graph 0)
  = Some [1; 0; 1; 2; 2; 1; 1000; 5; 0; 0; 4; 1000].
Proof. vm_compute. reflexivity. Qed.

(* a LIT directory on a cycle (impossible in a real grid) exhausts any fuel: None, not a wrong answer *)
Example ex_litdir_cycle_nonterminating :
  traverse [(0, mkNode 0 KDir None None [([97], 0)])] 0 = None.
Proof. vm_compute. reflexivity. Qed.
