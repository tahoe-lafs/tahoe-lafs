(* C32  Servers are ordered consistently and upload permission is enforced.
   Statements only; proofs are in Proofs/Permute.v (and Proofs/GridManager.v for
   the composition with the certificate rule).  Model/Permute.v mirrors
   StorageFarmBroker.get_servers_for_psi, the uploader's use of it, and
   Publish.update_goal; permute_server_hash is Gen/Hashutil.v, regenerated from
   util/hashutil.py on every run. *)
From Coq Require Import List NArith ZArith Bool Permutation Sorted String.
From Verif Require Import Lib.Hex Lib.SHA256 Lib.Sig Gen.Hashutil Model.GridManager Model.Permute
     Proofs.GridManager Proofs.Permute.
Import ListNotations.
Local Open Scope N_scope.

(* The result is a rearrangement of the connected servers (for uploads: of the
   permitted ones) in which every server stands before every server that is
   less preferred, and within the same preference class servers are ordered by
   SHA-1(peer_selection_index ++ seed). *)
Theorem order_is_sorted_permutation :
  forall (server : Type) (seed : server -> list N) (preferred : server -> bool) (permitted : server -> outcome)
         (connected : list server) (psi : list N) (for_upload : bool) (l : list server),
    get_servers_for_psi seed preferred permitted connected psi for_upload = Some l ->
    Permutation (if for_upload then filter (fun s => outcome_eqb (permitted s) Permit) connected else connected) l /\
    StronglySorted
      (fun s t =>
         (preferred s = true /\ preferred t = false) \/
         (preferred s = preferred t /\
          bytes_leb (permute_server_hash psi (seed s)) (permute_server_hash psi (seed t)) = true)) l.
Proof. exact order_is_sorted_permutation_ok. Qed.
Print Assumptions order_is_sorted_permutation.

(* The call raises only for uploads, and only when some upload_permitted() raises. *)
Theorem order_defined :
  forall (server : Type) (seed : server -> list N) (preferred : server -> bool) (permitted : server -> outcome)
         (connected : list server) (psi : list N) (for_upload : bool),
    get_servers_for_psi seed preferred permitted connected psi for_upload = None <->
    (for_upload = true /\ exists s, In s connected /\ permitted s = Raise).
Proof. exact gsp_none. Qed.
Print Assumptions order_defined.

(* Every client (every enumeration order of the same server set) computes the
   same list, provided no two servers have the same sort key. *)
Theorem order_input_independent :
  forall (server : Type) (seed : server -> list N) (preferred : server -> bool) (permitted : server -> outcome)
         (c1 c2 : list server) (psi : list N) (for_upload : bool),
    Permutation c1 c2 ->
    NoDup (map (permuted seed preferred psi) c1) ->
    get_servers_for_psi seed preferred permitted c1 psi for_upload =
    get_servers_for_psi seed preferred permitted c2 psi for_upload.
Proof. exact order_input_independent_ok. Qed.
Print Assumptions order_input_independent.

Theorem preferred_first :
  forall (server : Type) (seed : server -> list N) (preferred : server -> bool) (permitted : server -> outcome)
         (connected : list server) (psi : list N) (for_upload : bool) (l l1 : list server) (s : server) (l2 : list server),
    get_servers_for_psi seed preferred permitted connected psi for_upload = Some l ->
    l = l1 ++ s :: l2 ->
    Forall (fun t => before_ok server seed preferred psi t s) l1 /\
    (preferred s = true -> Forall (fun t => preferred t = true) l1).
Proof. exact preferred_first_ok. Qed.
Print Assumptions preferred_first.

(* Upload permission: the list handed to the immutable uploader, the trackers
   it creates (first 2*N entries), and every server Publish.update_goal newly
   assigns a share to, are connected/known servers whose upload_permitted()
   returned True. *)
Theorem upload_list_only_permitted :
  forall (server : Type) (seed : server -> list N) (preferred : server -> bool) (permitted : server -> outcome)
         (connected : list server) (psi : list N),
    (forall l s, get_servers_for_psi seed preferred permitted connected psi true = Some l -> In s l ->
                 In s connected /\ permitted s = Permit) /\
    (forall total l s, upload_candidates seed preferred permitted connected psi total = CServers l -> In s l ->
                 In s connected /\ permitted s = Permit) /\
    (forall (server_eqb : server -> server -> bool) (bad : server -> bool) full g total g',
       update_goal permitted server_eqb bad full g total = GGoal g' ->
       forall s sh, In (s, sh) g' ->
         (In (s, sh) g /\ bad s = false) \/
         (In s full /\ bad s = false /\ permitted s = Permit /\ ~ (exists t, In (t, sh) g /\ bad t = false))).
Proof.
  intros; split; [|split].
  - intros l s H. apply (upload_list_in _ _ _ _ _ _ _ _ H).
  - apply upload_candidates_permitted_ok.
  - apply update_goal_only_permitted_ok.
Qed.
Print Assumptions upload_list_only_permitted.

(* nothing is lost: no permitted server => NoServersError; a goal places every share *)
Theorem upload_selection_complete :
  forall (server : Type) (seed : server -> list N) (preferred : server -> bool) (permitted : server -> outcome)
         (connected : list server) (psi : list N),
    (forall total, (forall s, In s connected -> permitted s <> Raise) ->
       (upload_candidates seed preferred permitted connected psi total = CNoServers <->
        forall s, In s connected -> permitted s <> Permit)) /\
    (forall (server_eqb : server -> server -> bool) (bad : server -> bool) full g total g',
       update_goal permitted server_eqb bad full g total = GGoal g' ->
       forall sh, sh < N.of_nat total -> exists s, In (s, sh) g').
Proof.
  intros; split.
  - intros total. apply upload_candidates_complete_ok.
  - apply update_goal_places_every_share_ok.
Qed.
Print Assumptions upload_selection_complete.

(* Composition with C33: when grid-manager keys are configured, every server
   in the upload list holds a certificate signed by a configured key, naming
   it, and unexpired at `now`. *)
Theorem upload_only_to_certified :
  forall (pubkey msg sig : Type) (verify : pubkey -> msg -> sig -> bool)
         (spk : Type) (spk_eqb : spk -> spk -> bool) (decode : msg -> option (cert_json spk))
         (keys : list pubkey) (now : Z)
         (server : Type) (seed : server -> list N) (preferred : server -> bool)
         (certs : server -> list (signed_cert msg sig)) (pk : server -> spk)
         (connected : list server) (psi : list N) (l : list server) (s : server),
    keys <> [] ->
    get_servers_for_psi seed preferred
      (fun s => permitted verify spk_eqb decode keys (certs s) (pk s) now) connected psi true = Some l ->
    In s l ->
    exists c k, In c (certs s) /\ In k keys /\ cert_grants verify spk_eqb decode k c (pk s) now.
Proof.
  intros * NE H I. apply (upload_list_in _ _ _ _ _ _ _ _ H) in I as [_ P].
  exact (permit_only_with_valid_certificate_ok _ _ _ _ _ _ _ _ _ _ _ NE P).
Qed.
Print Assumptions upload_only_to_certified.

(* The [grid_managers] section of tahoe.cfg: a section with entries never comes out as "no grid
   manager" (the empty key list, for which every server is permitted); one unusable entry refuses
   the whole configuration; otherwise every configured key is in force. *)
Theorem configured_grid_manager_never_ignored :
  forall (pubkey : Type) (entries : list (option pubkey)),
    (grid_manager_keys_from_config entries = Some [] -> entries = []) /\
    (In None entries -> grid_manager_keys_from_config entries = None) /\
    (forall keys, grid_manager_keys_from_config entries = Some keys -> entries = map Some keys).
Proof.
  intros pubkey entries.
  exact (conj (gm_config_all_or_nothing _ entries [])
              (conj (gm_config_unusable _ entries) (gm_config_all_or_nothing _ entries))).
Qed.
Print Assumptions configured_grid_manager_never_ignored.

(* published known answers (src/allmydata/test/test_client.py test_permute,
   test_permute_with_preferred): servers "0".."4" with seed = their name *)
Definition ex_srv (pref : list N) (i : N) : srv :=
  {| s_id := i; s_seed := [48 + i]; s_pref := existsb (N.eqb i) pref; s_perm := Permit; s_bad := false |}.
Definition ex_servers (pref : list N) : list srv := map (ex_srv pref) [0; 1; 2; 3; 4].

Example ex_permute_one :
  run_get_servers (ex_servers []) (bytes_of_string "one"%string) false = Some [3; 1; 0; 4; 2].
Proof. vm_compute. reflexivity. Qed.
Example ex_permute_two :
  run_get_servers (ex_servers []) (bytes_of_string "two"%string) false = Some [0; 4; 2; 1; 3].
Proof. vm_compute. reflexivity. Qed.
Example ex_permute_preferred_one :
  run_get_servers (ex_servers [1; 4]) (bytes_of_string "one"%string) false = Some [1; 4; 3; 0; 2].
Proof. vm_compute. reflexivity. Qed.
Example ex_permute_preferred_two :
  run_get_servers (rev (ex_servers [1; 4])) (bytes_of_string "two"%string) true = Some [4; 1; 0; 2; 3].
Proof. vm_compute. reflexivity. Qed.

Example order_input_independent_nonvacuous :
  NoDup (map (permuted s_seed s_pref (bytes_of_string "one"%string)) (ex_servers [1; 4])).
Proof.
  vm_compute. repeat (constructor; [cbn; intuition discriminate|]). constructor.
Qed.

(* update_goal: shares 0..3, server 1 bad, server 2 not permitted, share 0 already on server 0 *)
Definition ex_full : list srv :=
  [ {| s_id := 0; s_seed := []; s_pref := false; s_perm := Permit; s_bad := false |};
    {| s_id := 1; s_seed := []; s_pref := false; s_perm := Permit; s_bad := true |};
    {| s_id := 2; s_seed := []; s_pref := false; s_perm := Deny; s_bad := false |};
    {| s_id := 3; s_seed := []; s_pref := false; s_perm := Permit; s_bad := false |} ].
Example ex_update_goal :
  run_update_goal ex_full [(nth 0 ex_full (ex_srv [] 9), 0); (nth 1 ex_full (ex_srv [] 9), 1)] 4
  = IGGoal [(0, 0); (3, 1); (0, 2); (3, 3)].
Proof. vm_compute. reflexivity. Qed.
Example ex_update_goal_not_enough :
  run_update_goal (firstn 2 (tl ex_full)) [] 2 = IGNotEnough.
Proof. vm_compute. reflexivity. Qed.
