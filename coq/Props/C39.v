(* C39  SFTP writes are never lost to the background download.
   src/allmydata/frontends/sftpd.py, class OverwriteableFileConsumer, modelled
   statement by statement in Model/Overwrite.v.  Statements only; each is closed
   by `exact` or a short derivation from a lemma in Proofs/OverwriteRun.v.

   Quantification.  [g] is the content of file holes (arbitrary: the real
   EncryptedTemporaryFile leaves keystream garbage there), [O] the original
   contents, [d0] the size the consumer is created with (d0 <= |O|: the downloader
   delivers at least the announced bytes), [l] ANY list of operations:
     Chunk n          the downloader calls write() with the next n bytes of O
                      (any chunking, delivered at any point of the history),
     Overwrite/SetSize/Read   the client's requests, Turn a turn of the eventual
     queue, Finish = download_done("download finished"), Close.
   [finish_ok] only says that Finish does not occur before d0 bytes were
   delivered.  [run] executes the history on the model and keeps two ghost
   values: [ref c], the reference (client operations applied in order to
   O[0,d0)), and [exps c], for every read request its id paired with
   [ref_read] of the reference AT THE TIME THE REQUEST WAS ISSUED
   (read_linearisation_point states exactly that).

   The merge loop of write() is modelled with the line repaired in /repo
   (fix: "end = max(end, end1)"); ex_unrepaired_merge_shrinks records what the
   former line computed on the witness history. *)
From Coq Require Import List NArith Bool String.
From Verif Require Import Lib.Hex Model.Overwrite Proofs.OverwriteLists Proofs.Overwrite Proofs.OverwriteRun.
Import ListNotations.
Local Open Scope N_scope.

(* The invariant I1-I3 of DESIGN.md A.4 holds in every reachable state:
   the temporary file agrees with the reference at every offset that is covered
   (downloaded, or overwritten and still on the heap) or lies at/after
   download_size, and the reference still equals the original wherever the
   download has yet to write. *)
Theorem file_refines_reference :
  forall (g : N -> N) (O : list N) (d0 : N), d0 <= len O ->
  forall (l : list op) (c : cfg),
  finish_ok g O d0 l = true -> run g O d0 l = Some c ->
  let s := st c in
  cur s = len (ref c) /\ dsize s <= cur s /\ dsize s <= d0 /\ len (f s) <= cur s /\
  (forall i, i < cur s -> covered s i -> get (f s) i = get (ref c) i) /\
  (forall i, dsize s <= i -> i < cur s -> get (f s) i = get (ref c) i) /\
  (forall i, i < dsize s -> ~ covered s i -> get (ref c) i = get O i).
Proof.
  intros g O d0 Hd l c Hf Hr.
  destruct (finish_ok_inv g O d0 l _ c (init_inv O d0 Hd) Hf Hr) as [[? ? ? _ _ (? & ? & ?) _] ? _].
  cbn. auto 10.
Qed.
Print Assumptions file_refines_reference.

(* Every completed read returned what the reference held when the read was
   issued (EOF exactly when the offset was at/after the reference's end), unless
   the consumer was closed before the read completed, in which case it failed.
   Hypothesis [contract_ok]: the contract in the docstring of
   OverwriteableFileConsumer.read - no overwrite / set_current_size while a read
   is outstanding.  Without it the statement is false: reads_need_contract_refuted. *)
Theorem reads_return_reference :
  forall (g : N -> N) (O : list N) (d0 : N), d0 <= len O ->
  forall (l : list op) (c : cfg),
  finish_ok g O d0 l = true -> contract_ok g O d0 l = true ->
  run g O d0 l = Some c ->
  forall id res, In (id, res) (outs c) ->
    In (id, res) (exps c) \/ (res = RFail /\ closed (st c) = true).
Proof.
  intros g O d0 Hd l c Hf Hk Hr.
  exact (rc_out _ (contract_inv g O d0 l _ c (init_inv O d0 Hd) (init_rc O d0) Hf Hk Hr)).
Qed.
Print Assumptions reads_return_reference.

(* what [exps] contains: the reference answer at the time of the request *)
Theorem read_linearisation_point :
  forall (g : N -> N) (O : list N) (d0 : N) pre off length later cp c,
  run g O d0 pre = Some cp ->
  run g O d0 (pre ++ Read off length :: later) = Some c ->
  In (nid cp, ref_read (ref cp) off length) (exps c).
Proof. intros g O d0. exact (read_recorded g O (init_cfg O d0)). Qed.
Print Assumptions read_linearisation_point.

(* request ids are unique, so the entry of a request in [exps] is determined *)
Theorem read_ids_unique :
  forall (g : N -> N) (O : list N) (d0 : N) (l : list op) (c : cfg),
  run g O d0 l = Some c ->
  forall id e1 e2, In (id, e1) (exps c) -> In (id, e2) (exps c) -> e1 = e2.
Proof. intros g O d0 l c Hr. exact (ids_unique _ (ids_run g O l _ c (ids_init O d0) Hr)). Qed.
Print Assumptions read_ids_unique.

(* Client writes win: after overwrite(off, data), whatever the download delivers
   later (any chunks, queue turns, completion, reads) the file still holds data
   at [off, off+|data|). *)
Theorem client_writes_win :
  forall (g : N -> N) (O : list N) (d0 : N), d0 <= len O ->
  forall pre off data later cp c,
  finish_ok g O d0 (pre ++ Overwrite off data :: later) = true ->
  forallb download_side later = true ->
  run g O d0 pre = Some cp -> closed (st cp) = false ->
  run g O d0 (pre ++ Overwrite off data :: later) = Some c ->
  forall k, k < len data -> get (f (st c)) (off + k) = get data k.
Proof. intros g O d0 Hd. exact (overwrite_survives g O d0 _ (init_inv O d0 Hd)). Qed.
Print Assumptions client_writes_win.

(* Once the download is done (done_status set: what when_done() waits for before
   the file is uploaded) the temporary file IS the reference, length included. *)
Theorem final_contents :
  forall (g : N -> N) (O : list N) (d0 : N), d0 <= len O ->
  forall (l : list op) (c : cfg),
  finish_ok g O d0 l = true -> run g O d0 l = Some c ->
  done (st c) = true -> closed (st c) = false -> f (st c) = ref c.
Proof.
  intros g O d0 Hd l c Hf Hr.
  exact (core_done O _ _ (ci_core _ _ _ (finish_ok_inv g O d0 l _ c (init_inv O d0 Hd) Hf Hr))).
Qed.
Print Assumptions final_contents.

(* the model never gets stuck: the fuel of the write loop always suffices *)
Theorem run_total :
  forall (g : N -> N) (O : list N) (d0 : N) (l : list op), exists c, run g O d0 l = Some c.
Proof. intros. apply run_from_total. Qed.
Print Assumptions run_total.

Definition exO : list N := unhex "4142434445464748494a4b4c4d4e4f5051525354"%string.   (* "ABCDEFGHIJKLMNOPQRST" *)
Definition xs (n : nat) : list N := repeat 120 n.                               (* "x"... *)
Definition ys (n : nat) : list N := repeat 121 n.                               (* "y"... *)

(* hypotheses satisfiable on a history with overlapping writes, a waiting read,
   a truncation and an extension; the read that waited returns the reference *)
Definition ex_hist : list op :=
  [Overwrite 0 (xs 10); Overwrite 2 (ys 3); Read 0 12; Chunk 7; Turn; Chunk 5; Turn;
   SetSize 15; SetSize 18; Chunk 100; Finish; Turn; Read 10 100].

Example ex_hypotheses_nonvacuous :
  20 <= len exO /\ finish_ok zero_hole exO 20 ex_hist = true /\ contract_ok zero_hole exO 20 ex_hist = true.
Proof. vm_compute. repeat split; discriminate. Qed.

Example ex_history_result :
  match run zero_hole exO 20 ex_hist with
  | Some c => outs c = [(0, RData (unhex "78787979797878787878"%string ++ unhex "4b4c"%string)); (1, RData (unhex "4b4c4d4e4f"%string ++ [0; 0; 0]))]
              /\ f (st c) = unhex "787879797978787878784b4c4d4e4f"%string ++ [0; 0; 0]
              /\ f (st c) = ref c /\ done (st c) = true
  | None => False
  end.
Proof. vm_compute. repeat split. Qed.

(* the history of the repaired defect: write [0,10), then [2,5), then the download *)
Example ex_overlapping_writes_survive :
  match run zero_hole exO 20 [Overwrite 0 (xs 10); Overwrite 2 (ys 3); Chunk 20] with
  | Some c => f (st c) = unhex "787879797978787878784b4c4d4e4f5051525354"%string
  | None => False
  end.
Proof. vm_compute. reflexivity. Qed.

(* before the repair the merge of (0,10) with (2,5) ended at 5, so the download
   resumed at offset 5 and replaced the client's bytes [5,10) *)
Example ex_unrepaired_merge_shrinks :
  merge_unrepaired 10 [(2, 5)] = (5, []) /\ merge 10 [(2, 5)] = (10, []).
Proof. vm_compute. split; reflexivity. Qed.

(* Without the contract the read theorem fails: a write issued after a read that
   is still waiting for the download shows up in that read's result.  This is the
   situation GeneralSFTPFile.readChunk creates (it does not hold its request
   queue until the read completes); recorded as a known finding. *)
Example reads_need_contract_refuted :
  exists l c id res,
    finish_ok zero_hole exO 20 l = true /\ contract_ok zero_hole exO 20 l = false /\
    run zero_hole exO 20 l = Some c /\ closed (st c) = false /\
    In (id, res) (outs c) /\ ~ In (id, res) (exps c).
Proof.
  exists [Read 0 10; Overwrite 0 (xs 4); Chunk 20; Turn].
  eexists. exists 0, (RData (unhex "787878784546"%string ++ unhex "4748494a"%string)).
  vm_compute. repeat split; try reflexivity.
  - left. reflexivity.
  - intros [H | []]. discriminate.
Qed.
Print Assumptions reads_need_contract_refuted.
