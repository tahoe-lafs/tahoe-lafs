(* C02  Immutable downloads never return wrong bytes.
   Statements only; the theorems are closed by `exact` of a lemma in Proofs/ImmVerify*.v, the examples
   by `exact` or by evaluation.
   The model is Model/ImmVerify.v: Share._get_satisfaction (offset-table rules, UEB against the
   cap, share hash chain, block hash tree root = the share's leaf of the share hash tree, block
   hash tree, crypttext hash tree, block hash), DownloadNode._decode_blocks/_check_ciphertext_hash,
   SegmentFetcher, Segmentation (through C01's read_plan).  The Merkle trees are the C35 model of
   hashtree.py (set_hashes with an arbitrary set.pop() order), used through the lemmas of
   Proofs/HashTree*.v that close the C35 theorems (accepted_genuine, accepted_values_genuine,
   needed_accepted, rejected_restores) and through accepted_char and accepted_stores.

   Quantification.  `sh`, `tries`, `script` are arbitrary: every field of every share is the
   adversary's, a share may be offered under any share number, any number of times, and a
   different `share` value on each call is a server that changes its answers.  `dn` is any node
   state satisfying the invariant `node_inv` (it holds initially and after every call, whatever
   the outcome: first conjunct of each theorem).
   Hash hypotheses: equality test exact, hash values are non-empty strings, pair_hash /
   block_hash / crypttext_segment_hash / uri_extension_hash injective on the values hashed,
   unpack_extension inverts pack_extension (C38).  The erasure code is arbitrary: no property of
   the decoder is used (the crypttext hash tree decides). *)
From Coq Require Import List ZArith NArith Bool.
From Verif Require Import Gen.ImmConsts Model.HashTree Model.ImmFile Model.ImmVerify
  Proofs.ImmFileRead Proofs.ImmVerifyTree Proofs.ImmVerify Proofs.ImmVerifyComplete Proofs.ImmVerifyRead Proofs.ImmVerifySym Proofs.ImmCheckRepair.
Import ListNotations.
Local Open Scope Z_scope.

(* A block accepted for (share number s, segment j) is the block the uploader produced. *)
Theorem accepted_block_genuine :
  forall (H : Type) (H_eqb : H -> H -> bool) (pair_hash : H -> H -> H) (truthy : H -> bool) (empty_leaf : Z -> H)
         (block_hash seg_hash : list N -> H) (UB : Type) (ueb_hash : UB -> H) (parse_ueb : UB -> option (ueb H))
         (ser_ueb : ueb H -> UB),
    (forall a b, H_eqb a b = true <-> a = b) ->
    (forall h, truthy h = true) ->
    (forall a b c d, pair_hash a b = pair_hash c d -> a = c /\ b = d) ->
    (forall a b, block_hash a = block_hash b -> a = b) ->
    (forall a b, ueb_hash a = ueb_hash b -> a = b) ->
    (forall u, parse_ueb (ser_ueb u) = Some u) ->
  forall (f : efile) (key : list N), ef_wf f ->
  let c := g_cap H pair_hash empty_leaf block_hash seg_hash UB ueb_hash ser_ueb key f in
  forall (dn : dnode H) (s j : Z) (sh : share H UB) (ords : nat -> list Z) (dn' : dnode H) (r : gres),
    node_inv H pair_hash empty_leaf block_hash seg_hash f dn ->
    get_block H H_eqb pair_hash truthy block_hash UB ueb_hash parse_ueb c dn s j sh ords = (dn', r) ->
    node_inv H pair_hash empty_leaf block_hash seg_hash f dn' /\
    (forall b, r = GBlock b -> 0 <= s < Z.of_N (ef_n f) -> b = gblock f s j).
Proof.
  intros H H_eqb pair_hash truthy empty_leaf block_hash seg_hash UB ueb_hash parse_ueb ser_ueb He Ht Hp Hb Hu Hps f key Hwf c.
  exact (get_block_sound H H_eqb pair_hash truthy empty_leaf block_hash seg_hash UB ueb_hash parse_ueb ser_ueb He Ht Hp Hb Hu Hps f key Hwf).
Qed.
Print Assumptions accepted_block_genuine.

(* A segment delivered by DownloadNode.get_segment is the uploader's ciphertext segment, whatever
   blocks went into the decoder and whatever the decoder is. *)
Theorem segment_genuine :
  forall (H : Type) (H_eqb : H -> H -> bool) (pair_hash : H -> H -> H) (truthy : H -> bool) (empty_leaf : Z -> H)
         (block_hash seg_hash : list N -> H) (UB : Type) (ueb_hash : UB -> H) (parse_ueb : UB -> option (ueb H))
         (dec : N -> N -> list (N * list N) -> list (list N)) (ser_ueb : ueb H -> UB),
    (forall a b, H_eqb a b = true <-> a = b) ->
    (forall h, truthy h = true) ->
    (forall a b c d, pair_hash a b = pair_hash c d -> a = c /\ b = d) ->
    (forall a b, block_hash a = block_hash b -> a = b) ->
    (forall a b, seg_hash a = seg_hash b -> a = b) ->
    (forall a b, ueb_hash a = ueb_hash b -> a = b) ->
    (forall u, parse_ueb (ser_ueb u) = Some u) ->
  forall (f : efile) (key : list N), ef_wf f ->
  let c := g_cap H pair_hash empty_leaf block_hash seg_hash UB ueb_hash ser_ueb key f in
  forall (dn : dnode H) (j : Z) (tries : list (Z * share H UB * (nat -> list Z))) (ord : list Z)
         (dn' : dnode H) (r : list N + verr),
    node_inv H pair_hash empty_leaf block_hash seg_hash f dn ->
    fetch_segment H H_eqb pair_hash truthy block_hash seg_hash UB ueb_hash parse_ueb dec c dn j tries ord = (dn', r) ->
    node_inv H pair_hash empty_leaf block_hash seg_hash f dn' /\
    (forall seg, r = inl seg -> 0 <= j < nseg f -> seg = gsegment f j).
Proof.
  intros H H_eqb pair_hash truthy empty_leaf block_hash seg_hash UB ueb_hash parse_ueb dec ser_ueb He Ht Hp Hb Hs Hu Hps f key Hwf c.
  exact (fetch_segment_sound H H_eqb pair_hash truthy empty_leaf block_hash seg_hash UB ueb_hash parse_ueb dec ser_ueb He Ht Hp Hb Hs Hu Hps f key Hwf).
Qed.
Print Assumptions segment_genuine.

(* ... also when the fetcher is bypassed: any blocks at all into decode + ciphertext hash check *)
Theorem decoded_segment_genuine :
  forall (H : Type) (H_eqb : H -> H -> bool) (pair_hash : H -> H -> H) (truthy : H -> bool) (empty_leaf : Z -> H)
         (block_hash seg_hash : list N -> H) (UB : Type) (ueb_hash : UB -> H)
         (dec : N -> N -> list (N * list N) -> list (list N)) (ser_ueb : ueb H -> UB),
    (forall a b, H_eqb a b = true <-> a = b) ->
    (forall h, truthy h = true) ->
    (forall a b c d, pair_hash a b = pair_hash c d -> a = c /\ b = d) ->
    (forall a b, seg_hash a = seg_hash b -> a = b) ->
  forall (f : efile) (key : list N), ef_wf f ->
  let c := g_cap H pair_hash empty_leaf block_hash seg_hash UB ueb_hash ser_ueb key f in
  forall (dn : dnode H) (j : Z) (blocks : list (N * list N)) (ord : list Z) (dn' : dnode H) (r : list N + verr),
    node_inv H pair_hash empty_leaf block_hash seg_hash f dn ->
    decode_and_check H H_eqb pair_hash truthy seg_hash dec c dn j blocks ord = (dn', r) ->
    node_inv H pair_hash empty_leaf block_hash seg_hash f dn' /\
    (forall seg, r = inl seg -> 0 <= j < nseg f -> seg = gsegment f j).
Proof.
  intros H H_eqb pair_hash truthy empty_leaf block_hash seg_hash UB ueb_hash dec ser_ueb He Ht Hp Hs f key Hwf c.
  exact (decode_and_check_sound H H_eqb pair_hash truthy empty_leaf block_hash seg_hash UB ueb_hash dec ser_ueb He Ht Hp Hs f key Hwf).
Qed.
Print Assumptions decoded_segment_genuine.

(* The node a download starts from satisfies the invariant. *)
Theorem initial_node_ok :
  forall (H : Type) (pair_hash : H -> H -> H) (empty_leaf : Z -> H) (block_hash seg_hash : list N -> H)
         (UB : Type) (ueb_hash : UB -> H) (ser_ueb : ueb H -> UB) (f : efile) (key : list N),
    node_inv H pair_hash empty_leaf block_hash seg_hash f
             (node_init H (g_cap H pair_hash empty_leaf block_hash seg_hash UB ueb_hash ser_ueb key f)).
Proof. exact node_init_inv. Qed.
Print Assumptions initial_node_ok.

(* The other direction, on a new node: every block of every share the uploader wrote (with an offset
   table that passes Share._satisfy_offsets) is accepted, through all the stages, whatever the
   set.pop() orders.  (The theorems above are therefore not vacuous, and a correct tree is not refused.) *)
Theorem genuine_block_accepted_on_new_node :
  forall (H : Type) (H_eqb : H -> H -> bool) (pair_hash : H -> H -> H) (truthy : H -> bool) (empty_leaf : Z -> H)
         (block_hash seg_hash : list N -> H) (UB : Type) (ueb_hash : UB -> H) (parse_ueb : UB -> option (ueb H))
         (ser_ueb : ueb H -> UB),
    (forall a b, H_eqb a b = true <-> a = b) ->
    (forall h, truthy h = true) ->
    (forall u, parse_ueb (ser_ueb u) = Some u) ->
  forall (f : efile) (key : list N), ef_wf f ->
  let c := g_cap H pair_hash empty_leaf block_hash seg_hash UB ueb_hash ser_ueb key f in
  forall (ver : N) (o : offsets) (i j : Z) (ords : nat -> list Z),
    check_offsets H UB (g_share H pair_hash empty_leaf block_hash seg_hash UB ser_ueb f ver o i) = None ->
    0 <= i < Z.of_N (ef_n f) -> 0 <= j < nseg f ->
    exists dn',
      get_block H H_eqb pair_hash truthy block_hash UB ueb_hash parse_ueb c (node_init H c) i j
                (g_share H pair_hash empty_leaf block_hash seg_hash UB ser_ueb f ver o i) ords
      = (dn', GBlock (gblock f i j)).
Proof.
  intros H H_eqb pair_hash truthy empty_leaf block_hash seg_hash UB ueb_hash parse_ueb ser_ueb He Ht Hps f key Hwf c.
  exact (new_node_accepts_genuine_block H H_eqb pair_hash truthy empty_leaf block_hash seg_hash UB ueb_hash parse_ueb ser_ueb He Ht Hps f key Hwf).
Qed.
Print Assumptions genuine_block_accepted_on_new_node.

(* read(offset, size) of a file encoded with (k, n, segsize): for every plan of shares to try,
   every share content and every pop order, the chunks written to the consumer before the read
   ends concatenate to a prefix of ciphertext[offset : offset+size] (Python slicing), and to all
   of it when the read completes without error. *)
Theorem delivered_prefix :
  forall (H : Type) (H_eqb : H -> H -> bool) (pair_hash : H -> H -> H) (truthy : H -> bool) (empty_leaf : Z -> H)
         (block_hash seg_hash : list N -> H) (UB : Type) (ueb_hash : UB -> H) (parse_ueb : UB -> option (ueb H))
         (dec : N -> N -> list (N * list N) -> list (list N)) (ser_ueb : ueb H -> UB)
         (enc : N -> N -> list (list N) -> list (list N)),
    (forall a b, H_eqb a b = true <-> a = b) ->
    (forall h, truthy h = true) ->
    (forall a b c d, pair_hash a b = pair_hash c d -> a = c /\ b = d) ->
    (forall a b, block_hash a = block_hash b -> a = b) ->
    (forall a b, seg_hash a = seg_hash b -> a = b) ->
    (forall a b, ueb_hash a = ueb_hash b -> a = b) ->
    (forall u, parse_ueb (ser_ueb u) = Some u) ->
  forall (k n segsize guess offset : N) (size : option N) (ct key : list N)
         (script : N -> list (Z * share H UB * (nat -> list Z)) * list Z),
    (1 <= N.of_nat (length ct))%N -> (1 <= k)%N -> (1 <= segsize)%N -> (segsize mod k = 0)%N -> (1 <= guess)%N ->
    let f := encode_file enc k n segsize ct in
    let c := g_cap H pair_hash empty_leaf block_hash seg_hash UB ueb_hash ser_ueb key f in
    exists ws,
      read_plan (N.of_nat (length ct)) segsize guess offset size = SegDone ws /\
      forall chunks res,
        serve H H_eqb pair_hash truthy block_hash seg_hash UB ueb_hash parse_ueb dec c (node_init H c) ws script = (chunks, res) ->
        (exists rest, py_slice ct offset size = concat chunks ++ rest) /\
        (res = None -> concat chunks = py_slice ct offset size).
Proof. exact delivered_prefix_ok. Qed.
Print Assumptions delivered_prefix.

(* the hypotheses are satisfiable and the model runs *)
Example hypotheses_nonvacuous :
  (forall a b, hs_eqb a b = true <-> a = b) /\
  (forall h, sym_truthy h = true) /\
  (forall a b c d, HPair a b = HPair c d -> a = c /\ b = d) /\
  (forall a b, HBlock a = HBlock b -> a = b) /\
  (forall a b, HSeg a = HSeg b -> a = b) /\
  (forall a b, sym_ueb_hash a = sym_ueb_hash b -> a = b) /\
  (forall u, sym_parse_ueb (UbOk u) = Some u).
Proof. exact sym_hypotheses. Qed.

Example ex_file_wellformed : ef_wf f3 /\ ef_wf f1.
Proof. split; [exact f3_wf|exact f1_wf]. Qed.

(* the genuine share 1 of f3 is accepted for segment 2 on a new node *)
Example ex_genuine_block_accepted :
  snd (sym_get_block f3_cap (sym_node_init f3_cap) 1 2 (f3_share 1) no_ord) = GBlock [0%N].
Proof. vm_compute. reflexivity. Qed.

(* share 0's bytes offered as share 1: its chain holds share 1's leaf, and the block hash tree
   does not hang under it *)
Example ex_other_share_number_rejected :
  snd (sym_get_block f3_cap (sym_node_init f3_cap) 1 0 (f3_share 0) no_ord) = GErr (EHash BadHashError).
Proof. vm_compute. reflexivity. Qed.

(* share 1's bytes offered as share 2: its chain does not even hold share 2's leaf
   (set_block_hash_root(None): AssertionError, the Share is abandoned) *)
Example ex_other_share_number_no_leaf :
  snd (sym_get_block f3_cap (sym_node_init f3_cap) 2 0 (f3_share 1) no_ord) = GErr ECrash.
Proof. vm_compute. reflexivity. Qed.

(* a share of another file (f1) under this cap: the UEB hash differs *)
Example ex_other_file_rejected :
  snd (sym_get_block f3_cap (sym_node_init f3_cap) 0 0 (f1_share 0) no_ord) = GErr (EHash BadHashError).
Proof. vm_compute. reflexivity. Qed.

(* a whole read with share 0's blocks corrupted: shares 1 and 2 deliver the file *)
Example ex_download_runs :
  sym_serve f3_dec f3_cap (sym_node_init f3_cap) [mk_write 0 0 2; mk_write 1 0 2; mk_write 2 0 1] f3_script
  = ([[1; 2]; [3; 4]; [5]]%N, None).
Proof. exact f3_download_runs. Qed.

(* with only the corrupted share 0 and share 1 the first segment cannot be fetched: nothing is
   delivered, and nothing wrong is delivered *)
Example ex_download_fails_cleanly :
  sym_serve f3_dec f3_cap (sym_node_init f3_cap) [mk_write 0 0 2; mk_write 1 0 2; mk_write 2 0 1]
            (fun _ => ([(0, f3_bad0, no_ord); (1, f3_share 1, no_ord)], [])) = ([], Some ENotEnoughShares).
Proof. vm_compute. reflexivity. Qed.
