(* C07  Share placement is complete, respects read-only servers, maximizes spread.
   Statements only; proofs in Proofs/Placement*.v (and Proofs/Matching*.v for the flow
   algorithm shared with C08).  Model: Model/Placement.v = happiness_upload.share_placement
   and helpers, after the two fixes recorded for C07 in known_findings.jsonl.

   Quantification: every theorem holds for ALL iteration orders `os` (the order in
   which CPython would iterate each set the code loops over) and all inputs; `res` is
   any result the model returns (None = Python would raise / fuel exhausted / `os` is
   not a permutation of the set it orders).  All three clauses are proved at full
   strength for the model.
   wf_full states the precondition of the property: writable and read-only servers
   disjoint, at least one writable server, existing shares reported only for listed
   servers and only among the share numbers being placed, no repeated dict key / set
   element.  Not proved: that the model returns a result for every wf input and every
   admissible `os` (no KeyError/IndexError path, fuel suffices inside share_placement);
   the correspondence run finds model = implementation, hence a result, on every case.
   The boolean validator of placements (placement_validator_sound) is kept as an
   independent cross-check evaluated by Coq on every correspondence case. *)
From Coq Require Import List NArith ZArith Bool.
From Verif Require Import Model.Matching Model.Placement Proofs.Matching Proofs.Placement
     Proofs.PlacementStruct Proofs.PlacementReadonly Proofs.PlacementMax.
Import ListNotations.
Local Open Scope N_scope.

(* The graph of the optimality clause is what the property says: a writable server
   may receive any share, a read-only server only a share it already holds. *)
Theorem allowed_graph_is_the_constraint :
  forall peers readonly shares p2s p s,
    edge (allowed peers readonly shares p2s) p s <->
    (In p peers /\ In s shares) \/ (In p readonly /\ In s shares /\ holds p2s p s).
Proof. exact allowed_edge. Qed.
Print Assumptions allowed_graph_is_the_constraint.

Theorem placement_validator_sound :
  forall peers readonly shares p2s res CL CR,
    placement_valid peers readonly shares p2s res CL CR = true ->
    total_spec shares res /\ readonly_spec readonly p2s res /\ known_spec peers readonly res /\
    maximal_spec peers readonly shares p2s res.
Proof. exact placement_valid_sound. Qed.
Print Assumptions placement_validator_sound.

(* clause 1: every share number is assigned *)
Theorem placement_total :
  forall os peers readonly shares p2s res,
    NoDup shares -> peers <> [] ->
    share_placement os peers readonly shares p2s = Some res ->
    total_spec shares res.
Proof. intros os peers readonly shares p2s res _. apply placement_total_full. Qed.
Print Assumptions placement_total.

(* clause 2: a read-only server gets only shares it holds; every share goes to a listed
   server.  wf_input: writable and read-only servers are disjoint and existing shares are
   reported only for listed servers. *)
Theorem readonly_only_existing :
  forall os peers readonly shares p2s res,
    wf_input peers readonly p2s ->
    share_placement os peers readonly shares p2s = Some res ->
    readonly_spec readonly p2s res /\ known_spec peers readonly res.
Proof. exact readonly_only_existing_full. Qed.
Print Assumptions readonly_only_existing.

(* clause 3: the number of distinct servers used is the size of a maximum matching of the
   graph [allowed] *)
Theorem placement_maximal :
  forall os peers readonly shares p2s res,
    wf_full peers readonly shares p2s ->
    share_placement os peers readonly shares p2s = Some res ->
    maximal_spec peers readonly shares p2s res.
Proof. exact placement_maximal_full. Qed.
Print Assumptions placement_maximal.

(* the validator route (kept as a cross-check): accepted certificate => the three clauses *)
Theorem placement_certified_sound :
  forall os peers readonly shares p2s res,
    placement_certified os peers readonly shares p2s = true ->
    share_placement os peers readonly shares p2s = Some res ->
    total_spec shares res /\ readonly_spec readonly p2s res /\ known_spec peers readonly res /\
    maximal_spec peers readonly shares p2s res.
Proof. exact placement_of_certified. Qed.
Print Assumptions placement_certified_sound.

(* the number of distinct servers of a placement is well defined *)
Theorem distinct_servers_functional :
  forall res n m, distinct_servers res n -> distinct_servers res m -> n = m.
Proof. exact distinct_servers_unique. Qed.
Print Assumptions distinct_servers_functional.

(* Non-vacuity (iteration orders: everything sorted).  The precondition is decidable;
   wf_full_b is also what the harness evaluates per case. *)
Theorem wf_full_decidable :
  forall peers readonly shares p2s, wf_full_b peers readonly shares p2s = true -> wf_full peers readonly shares p2s.
Proof. exact wf_full_b_sound. Qed.
Print Assumptions wf_full_decidable.

Example ex_wf_full_nonvacuous : wf_full_b [1; 2] [0] [0; 1; 2] [(0, [0]); (1, [1; 2]); (2, [0])] = true.
Proof. vm_compute. reflexivity. Qed.

(* DESIGN section 9 (b): read-only s0 {0}, writable s1 {1,2}, s2 {0}: three servers. *)
Example ex_three_servers_nonvacuous :
  share_placement sorted_orders [1; 2] [0] [0; 1; 2] [(0, [0]); (1, [1; 2]); (2, [0])]
    = Some [(0, 0); (1, 1); (2, 2)] /\
  placement_certified sorted_orders [1; 2] [0] [0; 1; 2] [(0, [0]); (1, [1; 2]); (2, [0])] = true.
Proof. vm_compute. split; reflexivity. Qed.

(* DESIGN section 9 (a): read-only server 0 holds nothing and must not get share 0. *)
Example ex_readonly_nonvacuous :
  share_placement sorted_orders [2] [0; 1] [0] [(1, [0])] = Some [(0, 1)] /\
  placement_certified sorted_orders [2] [0; 1] [0] [(1, [0])] = true.
Proof. vm_compute. split; reflexivity. Qed.

(* more shares than servers: homeless shares, priority queue and round-robin *)
Example ex_homeless_nonvacuous :
  share_placement sorted_orders [1; 2] [] [0; 1; 2; 3; 4] [(1, [0; 1])]
    = Some [(0, 1); (1, 2); (2, 1); (3, 1); (4, 1)] /\
  placement_certified sorted_orders [1; 2] [] [0; 1; 2; 3; 4] [(1, [0; 1])] = true.
Proof. vm_compute. split; reflexivity. Qed.

(* every existing-share relation over read-only 0, writable 1 and 2, shares 0..2 *)
Example ex_all_small_certified_nonvacuous :
  forallb (placement_certified sorted_orders [1; 2] [0] [0; 1; 2])
          (all_servermaps [0; 1; 2] [0; 1; 2]) = true.
Proof. vm_compute. reflexivity. Qed.
