(* C43  Node and capability identity is consistent.
   Statements only; each is closed by `exact` of a lemma in Proofs/UriIdentity.v;
   the comparison with the texts of Proofs/UriPins.v is evaluated here.

   Model: Model/UriNodes.v -- cap_eq/cap_ne/cap_hash are uri._BaseURI.__eq__ /
   __ne__ / __hash__ (UnknownURI defines none: object identity), node_eq /
   node_ne / node_hash the methods of ImmutableFileNode (after the `fix:` of
   __ne__), _ImmutableFileNodeBase (LiteralFileNode), MutableFileNode,
   UnknownNode, and the defaults of DirectoryNode and CiphertextFileNode, which
   define none.  Objects carry an identity (`co_id`, node id) standing for id();
   `hkey` is what Python's hash() is a function of.

   Classes that compare by identity violate "equal exactly when the capability
   strings are equal": recorded as known findings with the `_refuted`
   witnesses below (directory-node-identity-equality,
   ciphertext-filenode-identity-equality, unknown-uri-identity-equality); the
   positive theorem carries `compares_by_cap`. *)
From Coq Require Import String List NArith PeanoNat Bool.
From Verif Require Import Lib.Hex Lib.Bytes Gen.Uri Model.UriBase32 Model.Uri Model.UriNodes
  Proofs.UriParse Proofs.UriIdentity Proofs.UriPins.
Import ListNotations.
Local Open Scope N_scope.

Theorem cap_eq_iff_same_string :
  forall a b, known (co_cap a) = true -> known (co_cap b) = true ->
  (cap_eq a b = true <-> to_string (co_cap a) = to_string (co_cap b)).
Proof. exact cap_eq_iff_same_string_ok. Qed.
Print Assumptions cap_eq_iff_same_string.

(* for well-formed caps equal strings mean the same capability, field by field *)
Theorem cap_eq_iff_same_cap :
  forall a b, wf_cap (co_cap a) = true -> wf_cap (co_cap b) = true ->
  (cap_eq a b = true <-> co_cap a = co_cap b).
Proof. exact cap_eq_iff_same_cap_ok. Qed.
Print Assumptions cap_eq_iff_same_cap.

Theorem cap_ne_is_negation :
  forall a b, cap_ne a b = negb (cap_eq a b).
Proof. exact cap_ne_is_negation_ok. Qed.
Print Assumptions cap_ne_is_negation.

Theorem cap_eq_implies_same_hash :
  forall a b, cap_eq a b = true -> cap_hash a = cap_hash b.
Proof. exact cap_eq_implies_same_hash_ok. Qed.
Print Assumptions cap_eq_implies_same_hash.

(* eq_iff_same_string: file nodes and unknown nodes, every pair of classes *)
Theorem eq_iff_same_string :
  forall a b, node_wf a = true -> node_wf b = true -> compares_by_cap a = true -> compares_by_cap b = true ->
  (node_eq a b = true <-> node_key a = node_key b).
Proof. exact node_eq_iff_same_string_ok. Qed.
Print Assumptions eq_iff_same_string.

(* ne_is_negation: every pair of node classes, no precondition *)
Theorem ne_is_negation :
  forall a b, node_ne a b = negb (node_eq a b).
Proof. exact node_ne_is_negation_ok. Qed.
Print Assumptions ne_is_negation.

(* eq_implies_same_hash: every pair of node classes (UnknownNode is unhashable:
   both sides are HUnhashable, hash() raises TypeError) *)
Theorem eq_implies_same_hash :
  forall a b, node_eq a b = true -> node_hash a = node_hash b.
Proof. exact node_eq_implies_same_hash_ok. Qed.
Print Assumptions eq_implies_same_hash.

Theorem eq_symmetric :
  forall a b, node_eq a b = node_eq b a.
Proof. exact node_eq_sym_ok. Qed.
Print Assumptions eq_symmetric.

(* where the property fails on the code as it stands *)
Theorem eq_iff_same_string_directory_refuted :
  exists a b, node_wf a = true /\ node_wf b = true /\ node_key a = node_key b /\ node_id a <> node_id b /\ node_eq a b = false.
Proof. exact directory_node_eq_refuted. Qed.
Print Assumptions eq_iff_same_string_directory_refuted.

Theorem eq_iff_same_string_ciphertext_refuted :
  exists a b, node_wf a = true /\ node_wf b = true /\ node_key a = node_key b /\ node_id a <> node_id b /\ node_eq a b = false.
Proof. exact ciphertext_node_eq_refuted. Qed.
Print Assumptions eq_iff_same_string_ciphertext_refuted.

Theorem cap_eq_iff_same_string_unknown_refuted :
  exists a b, to_string (co_cap a) = to_string (co_cap b) /\ co_id a <> co_id b /\ cap_eq a b = false.
Proof. exact unknown_uri_eq_refuted. Qed.
Print Assumptions cap_eq_iff_same_string_unknown_refuted.

(* the method texts the model transcribes *)
Theorem identity_pins :
  cap_identity_pins = expected_cap_identity_pins /\ node_identity_pins = expected_node_identity_pins.
Proof. vm_compute. split; reflexivity. Qed.
Print Assumptions identity_pins.

(* satisfiable hypotheses *)
Definition ex_chk1 : capobj := {| co_id := 1; co_cap := CFile (CHK (repeat 1 16) (repeat 2 32) 3 10 1000) |}.
Definition ex_chk2 : capobj := {| co_id := 2; co_cap := CFile (CHK (repeat 1 16) (repeat 2 32) 3 10 1000) |}.
Definition ex_chk3 : capobj := {| co_id := 3; co_cap := CFile (CHK (repeat 1 16) (repeat 2 32) 3 10 1001) |}.

Example ex_equal_nodes_nonvacuous :
  let a := NodeImmutable 10 ex_chk1 in let b := NodeImmutable 11 ex_chk2 in let c := NodeImmutable 12 ex_chk3 in
  node_wf a = true /\ compares_by_cap a = true
  /\ node_eq a b = true /\ node_ne a b = false /\ hkey_eqb (node_hash a) (node_hash b) = true
  /\ node_eq a c = false /\ node_ne a c = true.
Proof.
  (* the comparisons mention two cap strings, ten times: each is rendered once *)
  cbv beta zeta iota delta [node_eq node_ne node_hash cap_eq cap_ne cap_hash co_cap ex_chk1 ex_chk2 ex_chk3].
  pattern (to_string (CFile (CHK (repeat 1 16) (repeat 2 32) 3 10 1000))),
          (to_string (CFile (CHK (repeat 1 16) (repeat 2 32) 3 10 1001))).
  vm_compute. repeat split.
Qed.

Example ex_cross_class_nonvacuous :
  let m := NodeMutable 20 {| co_id := 4; co_cap := CFile (SSK (repeat 1 16) (repeat 2 32)) |} in
  let l := NodeLiteral 21 {| co_id := 5; co_cap := CFile (LIT [1; 2; 3]) |} in
  node_wf m = true /\ node_wf l = true /\ node_eq m l = false /\ node_ne m l = true /\ node_eq l m = false
  /\ nkey_eqb (node_key m) (node_key l) = false.
Proof. vm_compute. repeat split. Qed.
