(* C46  Immutable reads always terminate.
   Statements only: each theorem is closed by `exact` or a one-line derivation from a lemma of
   Proofs/SegQueue*.v, Proofs/FetcherLive.v or Proofs/Finder.v.
   Model/SegQueue.v: DownloadNode's segment request queue
   (immutable/downloader/node.py get_segment / _start_new_segment / _extract_requests /
   _cancel_request / fetch_failed / process_blocks / _deliver) composed with its readers
   (segmentation.py Segmentation), events = entry points, arbitrary interleaving.  The
   first argument `true` of srun/sstep is the repaired failure branch of process_blocks
   (the code in /repo); `false` is the code before the repair.  `guarded`: fetchers
   report blocks, or refuse a segment number, only once the UEB is known. *)
From Coq Require Import List NArith Bool Arith.
From Verif Require Import Model.SegQueue Model.Fetcher Proofs.SegQueueBase Proofs.SegQueueRange Proofs.SegQueueLive
                          Proofs.SegQueueMeasure Proofs.SegQueueThm Proofs.FetcherWorld Proofs.FetcherLive Proofs.Finder.
Import ListNotations.

(* In every reachable state: pending segment requests imply an active fetcher for a
   requested segment; an active fetcher always serves a requested segment; every
   unfinished reader's outstanding request is still queued (or its delivery is) and not
   cancelled, and an unfinished hungry reader has a request or a queued
   _maybe_fetch_next.  So something can always happen for a reader that waits. *)
Theorem no_stuck_state :
  forall (ct : list N) (segsize guess : N) (evs : list sev),
  guarded ct segsize guess sinit evs ->
  let s := fst (srun true ct segsize guess sinit evs) in
  (s_reqs s <> [] -> exists fid seg, s_active s = Some (fid, seg) /\ In seg (map r_seg (s_reqs s))) /\
  (forall fid seg, s_active s = Some (fid, seg) -> In seg (map r_seg (s_reqs s))) /\
  (forall i r, nth_error (s_readers s) i = Some r -> rd_result r = None ->
     (forall sg rid k, rd_active r = Some (sg, rid, k) ->
        ~ In rid (s_inactive s) /\ (In rid (map r_id (s_reqs s)) \/ In rid (map fst (s_deliveries s)))) /\
     (rd_hungry r = true -> rd_mfn r > 0 \/ rd_active r <> None)).
Proof. exact no_stuck. Qed.
Print Assumptions no_stuck_state.

(* Every step the system takes by itself -- a queued _maybe_fetch_next or _deliver runs,
   the active fetcher calls process_blocks or fetch_failed -- strictly decreases
       sum over readers (queued calls + 3 * (bytes wanted + possible retry) + 2 if idle)
       + 2 * queued requests + queued deliveries. *)
Theorem progress_measure :
  forall (ct : list N) (segsize guess : N) (evs : list sev) (e : sev),
  guarded ct segsize guess sinit evs ->
  let s := fst (srun true ct segsize guess sinit evs) in
  sev_ok s e -> system_step s e ->
  weight (fst (sstep true ct segsize guess s e)) < weight s.
Proof. exact SegQueueThm.progress. Qed.
Print Assumptions progress_measure.

(* After a segment failed (decode failure, bad ciphertext hash: SBlocks false; not
   enough shares: SFetchFailed) the next read on the same node gets its request into the
   queue, not cancelled, and a fetcher is active for a requested segment. *)
Theorem failed_read_does_not_block_next :
  forall (ct : list N) (segsize guess : N) (evs : list sev) (e : sev) (off : N) (sz : option N),
  guarded ct segsize guess sinit evs ->
  let s := fst (srun true ct segsize guess sinit evs) in
  (exists err, e = SBlocks false err \/ e = SFetchFailed err) -> sev_ok s e ->
  read_clip (fsize ct) off sz <> 0%N ->
  let s1 := fst (sstep true ct segsize guess s e) in
  let s2 := fst (sstep true ct segsize guess s1 (SRead off sz)) in
  exists r w rid k fid seg,
    nth_error (s_readers s2) (length (s_readers s1)) = Some r /\ rd_result r = None /\
    rd_active r = Some (w, rid, k) /\ In (mk_req w rid) (s_reqs s2) /\ ~ In rid (s_inactive s2) /\
    s_active s2 = Some (fid, seg) /\ In seg (map r_seg (s_reqs s2)).
Proof. exact failed_then_read. Qed.
Print Assumptions failed_read_does_not_block_next.

(* The active fetcher itself terminates: every fair run of a SegmentFetcher ends in
   process_blocks or fetch_failed (C03's liveness theorem, restated). *)
Theorem active_fetcher_terminates :
  forall (w : world) (k : nat) (seg : N) (r : nat -> fev),
  NoDup (w_shares w) -> valid w k seg r -> fair_loops k seg r -> fair_requests k seg r -> fair_finder k seg r ->
  exists n o, In o (outs_upto k seg r n) /\ is_final o /\ f_running (fst (gat k seg r n)) = false.
Proof. exact fair_run_terminates. Qed.
Print Assumptions active_fetcher_terminates.

(* The share finder (finder.py ShareFinder.loop, model in Model/Fetcher.v): a hungry,
   running finder with no loop() queued either still has DYHB requests in flight, each
   with its overdue timer armed or already overdue (so an answer, an error or the timer
   queues the next loop()), or it has answered the last hungry() call: shares delivered
   or no_more_shares reported.  `snd` of the ghost-augmented state is that flag. *)
Theorem finder_never_silently_idle :
  forall (servers : list N) (m : nat) (evs : list dev),
  1 <= m ->
  let g := fst (dgrun (dinit servers m, true) evs) in
  let s := fst g in
  d_running s = true -> d_hungry s = true -> d_loops s = 0 ->
  (d_pending s <> [] /\ forall x, In x (d_pending s) -> In x (d_timers s) \/ In x (d_overdue s)) \/
  (d_pending s = [] /\ snd g = true).
Proof. intros servers m evs Hm. apply finv_not_idle, dgrun_finv; [exact Hm|apply finv_init]. Qed.
Print Assumptions finder_never_silently_idle.

(* no_more_shares is reported only when every server was asked and nothing is in flight *)
Theorem finder_exhaustion_only_when_done :
  forall s e, In DNoMoreShares (snd (dstep s e)) ->
  d_servers s = [] /\ d_pending s = [] /\ d_hungry s = true /\ d_running s = true.
Proof. exact dstep_no_more. Qed.
Print Assumptions finder_exhaustion_only_when_done.

(* What was wrong: with the old failure branch, a read of segment 0 whose ciphertext
   hash check fails, followed by a read of segment 1, leaves the stopped fetcher of
   segment 0 registered as active: request queued, nothing queued to run, no fetcher
   for it, the reader hungry with no bytes -- for ever. *)
Theorem no_stuck_state_refuted_before_repair :
  let s := fst (srun false stuck_file 4 4 sinit stuck_events) in
  s_reqs s = [mk_req 1 1]%N /\ s_active s = Some (0, 0)%N /\ s_deliveries s = [] /\
  (exists r, nth_error (s_readers s) 1 = Some r /\ rd_result r = None /\ rd_hungry r = true /\ rd_written r = []) /\
  ~ queue_ok s.
Proof. exact old_code_stuck_ok. Qed.
Print Assumptions no_stuck_state_refuted_before_repair.

Example ex_same_events_after_repair :
  let s := fst (srun true stuck_file 4 4 sinit stuck_events) in
  s_reqs s = [mk_req 1 1]%N /\ s_active s = Some (1, 1)%N /\ queue_ok s.
Proof. exact new_code_not_stuck_ok. Qed.

Example ex_second_read_completes :
  let s := fst (srun true stuck_file 4 4 sinit (stuck_events ++ [SBlocks true EOther; SDeliver Quiet])) in
  exists r, nth_error (s_readers s) 1 = Some r /\ rd_result r = Some RDone /\ concat (rd_written r) = [5; 6]%N.
Proof. exact new_code_second_read_ok. Qed.

Example guarded_nonvacuous : guarded stuck_file 4 4 sinit (stuck_events ++ [SBlocks true EOther; SDeliver Quiet]).
Proof. vm_compute. tauto. Qed.
