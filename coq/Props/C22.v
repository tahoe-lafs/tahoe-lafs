(* C22  Immutable share storage semantics.
   Statements only; each is closed by `exact` of a lemma in Proofs/ImmStore.v about any store the
   invariant relates to a history, taken at the store a history reaches (run_inv).
   Model: Model/ImmStore.v (BucketWriter / ShareFile / allocate_buckets / get_buckets, hand-written,
   tied to /repo by harness/props/c22.py).  A history is any list of operations [ops]; [run ro ops]
   executes it from the empty store on a server whose readonly_storage flag is [ro] and returns the
   final store and the list of (operation, answer) pairs, oldest first.  Writers are addressed by
   (share key, writer id): a handle outlives its writer, and answers RStale afterwards.
   Offsets and lengths are naturals; zero-length writes answer REmpty and change nothing. *)
From Coq Require Import List NArith ZArith Bool Lia.
From Verif Require Import Model.ImmStore Proofs.ImmStoreLib Proofs.ImmStore.
Import ListNotations.
Local Open Scope N_scope.

(* A share is returned by get_buckets exactly when one of its uploads was closed (answer ROk;
   close of a writer that is gone answers RStale). *)
Theorem visible_iff_closed :
  forall (ro : bool) (ops : list op) (si sh : N),
    In sh (get_buckets (fst (run ro ops)) si)
    <-> exists wid, In (OClose (si, sh) wid, ROk) (snd (run ro ops)).
Proof. intros ro ops si sh. exact (visible_iff_closed_inv _ _ si sh (run_inv ro ops)). Qed.
Print Assumptions visible_iff_closed.

(* ... and a reader obtains data only for such shares. *)
Theorem invisible_share_reads_nothing :
  forall (ro : bool) (ops : list op) (si sh off len : N),
    read (fst (run ro ops)) (si, sh) off len = None
    <-> ~ In sh (get_buckets (fst (run ro ops)) si).
Proof. intros ro ops si sh off len. exact (read_none_iff_invisible _ si sh off len (inv_keys _ _ (run_inv ro ops))). Qed.
Print Assumptions invisible_share_reads_nothing.

(* Reads return exactly the bytes written, clipped at the allocated size: a visible share was
   written by the writer [wid] that was closed; its data has the length of an allocation made for
   this share; read(off, len) is data[off : off+len] (Python slicing: clipped at the end, empty
   beyond it); every write of that writer which was accepted (answer RWrote) lies inside the data
   and is found there byte for byte; every other position holds zero. *)
Theorem read_is_written_clipped :
  forall (ro : bool) (ops : list op) (k : key) (wid : N) (data : list N),
    get (fst (run ro ops)) k = Final wid data ->
    let tr := snd (run ro ops) in
    In (OClose k wid, ROk) tr
    /\ (exists shs c av al acc, In (OAlloc (fst k) shs (blen data) c av, RAlloc al acc) tr /\ In (snd k) acc)
    /\ (forall off len, read (fst (run ro ops)) k off len = Some (firstn (N.to_nat len) (skipn (N.to_nat off) data)))
    /\ (forall off d, (exists f, In (OWrite k wid off d, RWrote f) tr) ->
          off + blen d <= blen data
          /\ forall p, off <= p < off + blen d -> nthb data p = nthb d (p - off))
    /\ (forall p, p < blen data ->
          (forall off d, (exists f, In (OWrite k wid off d, RWrote f) tr) -> ~ (off <= p < off + blen d)) ->
          nthb data p = 0).
Proof. intros ro ops k wid data. exact (final_holds_accepted_writes _ _ k wid data (run_inv ro ops)). Qed.
Print Assumptions read_is_written_clipped.

(* A write that differs, at some position, from a write accepted earlier in the same upload is
   answered ConflictingWriteError; stored bytes, written ranges, every other share and the space
   reservation are unchanged (only the inactivity timeout is postponed). *)
Theorem conflict_rejected_unchanged :
  forall (ro : bool) (ops : list op) (k : key) (w : writer) (off0 : N) (d0 : list N) (off : N) (d : list N) (p : N),
    let s := fst (run ro ops) in
    let tr := snd (run ro ops) in
    get s k = Incoming w ->
    (exists f, In (OWrite k (w_id w) off0 d0, RWrote f) tr) ->
    off0 <= p < off0 + blen d0 -> off <= p < off + blen d ->
    nthb d0 (p - off0) <> nthb d (p - off) ->
    snd (step ro s (OWrite k (w_id w) off d)) = RConflict
    /\ (exists w', get (fst (step ro s (OWrite k (w_id w) off d))) k = Incoming w'
                   /\ w_data w' = w_data w /\ w_ranges w' = w_ranges w /\ w_size w' = w_size w /\ w_id w' = w_id w)
    /\ (forall k', k' <> k -> get (fst (step ro s (OWrite k (w_id w) off d))) k' = get s k')
    /\ allocated_size (fst (step ro s (OWrite k (w_id w) off d))) = allocated_size s.
Proof. intros ro ops k w off0 d0 off d p. exact (conflict_rejected ro _ _ k w off0 d0 off d p (run_inv ro ops)). Qed.
Print Assumptions conflict_rejected_unchanged.

(* Conversely there are no spurious conflicts, whatever the order and overlap of the partial
   writes: a non-empty write inside the allocated size that agrees, position by position, with
   every write accepted earlier in the same upload is accepted; the share then holds the new bytes
   at the written positions, is unchanged elsewhere, and the written-range map grows by exactly
   the written range. *)
Theorem consistent_write_accepted :
  forall (ro : bool) (ops : list op) (k : key) (w : writer) (off : N) (d : list N),
    let s := fst (run ro ops) in
    let tr := snd (run ro ops) in
    get s k = Incoming w ->
    blen d <> 0 -> off + blen d <= w_size w ->
    (forall off0 d0 p, (exists f, In (OWrite k (w_id w) off0 d0, RWrote f) tr) ->
       off0 <= p < off0 + blen d0 -> off <= p < off + blen d -> nthb d0 (p - off0) = nthb d (p - off)) ->
    exists f w',
      step ro s (OWrite k (w_id w) off d) = (with_slots s (set_slot k (Incoming w') (st_slots s)), RWrote f)
      /\ w_size w' = w_size w /\ w_id w' = w_id w
      /\ (forall p, off <= p < off + blen d -> nthb (w_data w') p = nthb d (p - off))
      /\ (forall p, p < off \/ off + blen d <= p -> nthb (w_data w') p = nthb (w_data w) p)
      /\ (forall p, covered (w_ranges w') p = true <-> (off <= p < off + blen d) \/ covered (w_ranges w) p = true).
Proof. intros ro ops k w off d. exact (consistent_write_is_accepted ro _ _ k w off d (run_inv ro ops)). Qed.
Print Assumptions consistent_write_accepted.

(* Abort of an upload in progress: the share is absent, not listed, not readable, exactly its
   allocated size is released, nothing else changes, and the share can be allocated again. *)
Theorem abort_leaves_nothing_and_releases :
  forall (ro : bool) (ops : list op) (si sh : N) (w : writer),
    let s := fst (run ro ops) in
    get s (si, sh) = Incoming w ->
    let s' := fst (step ro s (OAbort (si, sh) (w_id w))) in
    get s' (si, sh) = Absent
    /\ ~ In sh (get_buckets s' si)
    /\ read s' (si, sh) 0 (w_size w) = None
    /\ allocated_size s' + w_size w = allocated_size s
    /\ (forall k', k' <> (si, sh) -> get s' k' = get s k')
    /\ (forall size c, snd (step false s' (OAlloc si [sh] size c None)) = RAlloc (get_buckets s' si) [sh]).
Proof. intros ro ops si sh w. exact (abort_leaves_nothing ro _ si sh w (inv_keys _ _ (run_inv ro ops))). Qed.
Print Assumptions abort_leaves_nothing_and_releases.

(* Timeout (clock reaches the deadline, 30 min after the last write or the allocation) and loss
   of the uploader's connection do the same; before the deadline, and for other connections,
   the upload is untouched. *)
Theorem timeout_and_disconnect_leave_nothing_and_release :
  forall (ro : bool) (ops : list op) (si sh : N) (w : writer),
    let s := fst (run ro ops) in
    get s (si, sh) = Incoming w ->
    (forall dt, w_deadline w <= st_now s + dt ->
       let s' := fst (step ro s (OAdvance dt)) in
       get s' (si, sh) = Absent /\ ~ In sh (get_buckets s' si) /\ allocated_size s' + w_size w <= allocated_size s)
    /\ (forall dt, st_now s + dt < w_deadline w -> get (fst (step ro s (OAdvance dt))) (si, sh) = Incoming w)
    /\ (let s' := fst (step ro s (ODisconnect (w_canary w))) in
        get s' (si, sh) = Absent /\ ~ In sh (get_buckets s' si) /\ allocated_size s' + w_size w <= allocated_size s)
    /\ (forall c, c <> w_canary w -> get (fst (step ro s (ODisconnect c))) (si, sh) = Incoming w).
Proof. intros ro ops si sh w. exact (timeout_disconnect_leave_nothing ro _ si sh w (inv_keys _ _ (run_inv ro ops))). Qed.
Print Assumptions timeout_and_disconnect_leave_nothing_and_release.

Definition ex_ops : list op :=
  [ OAlloc 0 [0; 1; 1] 10 1 None;
    OWrite (0, 0) 0 2 [1; 2; 3];          (* positions 2..4 *)
    OWrite (0, 0) 0 4 [3; 9];             (* overlaps position 4 with the same byte: accepted *)
    OWrite (0, 0) 0 3 [7];                (* position 3 holds 2: conflict *)
    OWrite (0, 0) 0 8 [5; 5; 5];          (* past the allocated size *)
    OList 0;                              (* nothing visible yet *)
    OClose (0, 0) 0;
    OWrite (0, 0) 0 0 [4];                (* the writer is gone *)
    ORead (0, 0) 1 100;                   (* clipped at 10 *)
    OAdvance 1800;                        (* share 1 times out *)
    OAlloc 0 [0; 1] 4 2 (Some 4);         (* 0 is alreadygot, 1 can be allocated again and just fits *)
    ODisconnect 2;
    OList 0 ].

Example ex_history :
  observe_from false init ex_ops =
  [ (RAlloc [] [0; 1], 20); (RWrote false, 20); (RWrote false, 20); (RConflict, 20); (RTooLarge, 20);
    (RList [], 20); (ROk, 10); (RStale, 10); (RRead (Some [0; 1; 2; 3; 9; 0; 0; 0; 0]), 10); (ROk, 0);
    (RAlloc [0] [1], 4); (ROk, 0); (RList [0], 0) ].
Proof. vm_compute. reflexivity. Qed.

Example conflict_rejected_nonvacuous :
  exists ops k w off0 d0 off d p,
    get (fst (run false ops)) k = Incoming w
    /\ (exists f, In (OWrite k (w_id w) off0 d0, RWrote f) (snd (run false ops)))
    /\ off0 <= p < off0 + blen d0 /\ off <= p < off + blen d
    /\ nthb d0 (p - off0) <> nthb d (p - off).
Proof.
  exists (firstn 2 ex_ops), (0, 0), (mkWriter 0 10 [(2, 5)] [0; 0; 1; 2; 3; 0; 0; 0; 0; 0] 1800 1), 2, [1; 2; 3], 3, [7], 3.
  split; [vm_compute; reflexivity|]. split; [exists false; vm_compute; auto|].
  vm_compute. repeat split; intros; discriminate.
Qed.

Example read_is_written_nonvacuous :
  exists ops k wid data, get (fst (run false ops)) k = Final wid data /\ data = [0; 0; 1; 2; 3; 9; 0; 0; 0; 0].
Proof. exists (firstn 7 ex_ops), (0, 0), 0, [0; 0; 1; 2; 3; 9; 0; 0; 0; 0]. split; vm_compute; reflexivity. Qed.

Example abort_nonvacuous :
  exists ops si sh w, get (fst (run false ops)) (si, sh) = Incoming w /\ w_size w = 10 /\ w_canary w = 1 /\ w_deadline w = 1800.
Proof.
  exists (firstn 7 ex_ops), 0, 1, (mkWriter 1 10 [] (zeros 10) 1800 1).
  split; [vm_compute; reflexivity|]. repeat split.
Qed.

Example consistent_write_nonvacuous :
  exists ops k w off d,
    get (fst (run false ops)) k = Incoming w /\ blen d <> 0 /\ off + blen d <= w_size w
    /\ (exists off0 d0 f, In (OWrite k (w_id w) off0 d0, RWrote f) (snd (run false ops))
                          /\ off0 < off + blen d /\ off < off0 + blen d0)
    /\ (forall off0 d0 p, (exists f, In (OWrite k (w_id w) off0 d0, RWrote f) (snd (run false ops))) ->
          off0 <= p < off0 + blen d0 -> off <= p < off + blen d -> nthb d0 (p - off0) = nthb d (p - off)).
Proof.
  exists (firstn 2 ex_ops), (0, 0), (mkWriter 0 10 [(2, 5)] [0; 0; 1; 2; 3; 0; 0; 0; 0; 0] 1800 1), 4, [3; 9].
  split; [vm_compute; reflexivity|]. split; [vm_compute; discriminate|]. split; [vm_compute; discriminate|].
  split.
  - exists 2, [1; 2; 3], false. split; [vm_compute; auto|]. vm_compute. split; reflexivity.
  - intros off0 d0 p (f & H) H0 H1. vm_compute in H. destruct H as [H|[H|[]]]; inversion H; subst.
    unfold blen in H0, H1. cbn [length] in H0, H1.
    assert (E : p = 4) by (clear H; Lia.lia). subst p. vm_compute. reflexivity.
Qed.
