(* C12  Concurrent writers are detected, never silently clobbered.
   Model/TestAndSet.v: cells (one per share number on a common placement) holding version
   ids, writers that survey and then send guarded writes, any interleaving of events. *)
From Coq Require Import List NArith Bool.
From Verif Require Import Model.Publish Model.SlotAnswer Proofs.SlotAnswer.
From Verif Require Import Model.TestAndSet Proofs.TestAndSet Proofs.TestAndSetTrace Proofs.TestAndSetRace Proofs.TestAndSetHist.
Import ListNotations.
Local Open Scope N_scope.

(* each server write succeeds iff the share still holds the version the publisher saw;
   a refused write changes nothing on the server and marks the publisher surprised *)
Theorem write_applies_iff_test_holds :
  forall s j i w snap cur seen,
    nth_error (ws s) j = Some w -> snapshot w = Some snap ->
    nth_error (cells s) i = Some cur -> nth_error snap i = Some seen ->
    (cur = seen ->
       nth_error (cells (step s (Write j i))) i = Some (new_version j) /\
       (forall w', nth_error (ws (step s (Write j i))) j = Some w' -> w_surprised w' = w_surprised w /\ acked w' = i :: acked w)) /\
    (cur <> seen ->
       cells (step s (Write j i)) = cells s /\
       (forall w', nth_error (ws (step s (Write j i))) j = Some w' -> w_surprised w' = true /\ acked w' = acked w)).
Proof. exact write_applies_iff_test_holds_ok. Qed.
Print Assumptions write_applies_iff_test_holds.

(* no silent clobber: a share that differs from what the publisher surveyed is not
   overwritten, and the publisher notices *)
Theorem no_silent_clobber :
  forall s j i w snap cur seen,
    nth_error (ws s) j = Some w -> snapshot w = Some snap ->
    nth_error (cells s) i = Some cur -> nth_error snap i = Some seen ->
    cur <> seen ->
    let s' := step s (Write j i) in
    cells s' = cells s /\ exists w', nth_error (ws s') j = Some w' /\ w_surprised w' = true.
Proof. exact changed_cell_refuses_ok. Qed.
Print Assumptions no_silent_clobber.

(* the surprise is never forgotten (it becomes the UncoordinatedWriteError of C47) *)
Theorem ucwe_reported :
  forall e s j w, nth_error (ws s) j = Some w -> w_surprised w = true ->
    exists w', nth_error (ws (step s e)) j = Some w' /\ w_surprised w' = true.
Proof. exact surprised_sticky_ok. Qed.
Print Assumptions ucwe_reported.

(* for ALL interleavings: with W writers on N cells and (W+1) * k <= N, some version
   (old or new) occupies at least k distinct share numbers in every reachable state *)
Theorem some_version_survives :
  forall ncells nwriters k evs,
    (1 <= k)%nat -> (S nwriters * k <= ncells)%nat ->
    exists v, In v (all_versions nwriters) /\ (k <= count_v v (cells (run ncells nwriters evs)))%nat.
Proof.
  intros ncells nwriters k evs Hk Hb. destruct (run_cells_ok ncells nwriters evs) as (Hok & _ & Hlen).
  apply crowded_version; [exact Hok|exact Hk|rewrite Hlen; exact Hb].
Qed.
Print Assumptions some_version_survives.

(* non-vacuity: two writers race on 6 cells, k = 2; both end surprised, yet a version keeps 2 cells;
   and on the other side of the bound (k = 3, 6 cells, 2 writers) a 2/2/2 split is reachable *)
Example ex_race :
  let s := run 6 2 [Survey 0; Survey 1; Write 0 0; Write 1 1; Write 0 1; Write 1 0; Write 0 2; Write 1 3;
                    Write 0 3; Write 1 2] in
  cells s = [1; 2; 1; 2; 0; 0] /\ map w_surprised (ws s) = [true; true] /\
  count_v 1 (cells s) = 2%nat /\ count_v 2 (cells s) = 2%nat /\ count_v 0 (cells s) = 2%nat.
Proof. vm_compute. repeat split. Qed.

(* trace level, for ALL interleavings of any number of writers that each survey once per
   publish (single_survey): `dirty g j` is the ghost set of cells that some OTHER writer's
   applied write has touched since j's last survey.  An applied write of j never lands on
   such a cell -- versions are fresh, so "cell holds what j saw" implies "nobody wrote it". *)
Theorem applied_write_on_untouched_cell :
  forall ncells n evs j i,
    single_survey ncells n evs ->
    applied (gs (grun ncells n evs)) (Write j i) = true ->
    ~ In i (dirty (grun ncells n evs) j).
Proof. intros ncells n evs j i Hss. exact (applied_untouched _ j i (inv_run _ _ _ Hss)). Qed.
Print Assumptions applied_write_on_untouched_cell.

(* and the converse reading: a write aimed at a touched cell is refused and changes nothing *)
Theorem touched_cell_write_refused :
  forall ncells n evs j i,
    single_survey ncells n evs ->
    In i (dirty (grun ncells n evs) j) ->
    applied (gs (grun ncells n evs)) (Write j i) = false /\
    cells (step (run ncells n evs) (Write j i)) = cells (run ncells n evs).
Proof. exact touched_cell_write_refused_ok. Qed.
Print Assumptions touched_cell_write_refused.

(* the ghost state is only an annotation: its system component is exactly the model's run *)
Theorem ghost_run_is_run : forall ncells n evs, gs (grun ncells n evs) = run ncells n evs.
Proof. exact grun_gs. Qed.
Print Assumptions ghost_run_is_run.

(* non-vacuity: the race above satisfies single_survey, writer 0's dirty set is {1,3} there,
   and its write to cell 4 would still be applied while a write to cell 1 would be refused *)
Example ex_trace :
  let evs := [Survey 0; Survey 1; Write 0 0; Write 1 1; Write 0 1; Write 1 0; Write 0 2; Write 1 3]%nat in
  let g := grun 6 2 evs in
  dirty g 0%nat = [3; 1]%nat /\ dirty g 1%nat = [2; 0]%nat /\
  applied (gs g) (Write 0 4) = true /\ applied (gs g) (Write 0 1) = false.
Proof. vm_compute. repeat split. Qed.
Example ex_trace_single_survey :
  single_survey 6 2 [Survey 0; Survey 1; Write 0 0; Write 1 1; Write 0 1; Write 1 0; Write 0 2; Write 1 3]%nat.
Proof. cbv. repeat split; intros w H; inversion H; reflexivity. Qed.

(* CONCURRENT WRITERS ARE DETECTED, for every interleaving: if writers j and o have both
   surveyed (pre), and both later send a guarded write for the same existing share i
   (j's first, anything in between and after), then in the final state at least one of the
   two is surprised -- both can never complete believing they were alone. *)
Theorem overlapping_publishes_detected :
  forall ncells n pre mid post j o i,
    single_survey ncells n (pre ++ Write j i :: mid ++ Write o i :: post) ->
    j <> o -> (i < ncells)%nat ->
    surveyed (run ncells n pre) j -> surveyed (run ncells n pre) o ->
    let s := run ncells n (pre ++ Write j i :: mid ++ Write o i :: post) in
    surprised s j \/ surprised s o.
Proof. exact overlapping_publishes_detected_ok. Qed.
Print Assumptions overlapping_publishes_detected.

(* non-vacuity: a three-writer trace that meets every hypothesis (writers 0 and 2 overlap on cell 1);
   and without the overlap (writer 1 surveys after writer 0 finished) nobody is surprised *)
Example ex_overlap_hyps :
  let pre := [Survey 0; Survey 2; Write 0 0]%nat in
  single_survey 3 3 (pre ++ Write 0 1 :: [Survey 1; Write 1 2]%nat ++ Write 2 1 :: [Write 2 0]%nat) /\
  surveyed (run 3 3 pre) 0 /\ surveyed (run 3 3 pre) 2 /\
  map w_surprised (ws (run 3 3 (pre ++ Write 0 1 :: [Survey 1; Write 1 2]%nat ++ Write 2 1 :: [Write 2 0]%nat))) = [false; false; true].
Proof.
  cbv. repeat split; try (intros w H; inversion H; reflexivity);
    eexists; eexists; split; reflexivity.
Qed.
Example ex_sequential_no_surprise :
  map w_surprised (ws (run 2 2 [Survey 0; Write 0 0; Write 0 1; Survey 1; Write 1 0; Write 1 1]%nat)) = [false; false].
Proof. reflexivity. Qed.

(* "A PUBLISHER THAT MEETS A DIFFERENT VERSION REPORTS AN UNCOORDINATED-WRITE ERROR", also when its
   own write is applied: the server's answer to a test-and-set request reports every share it
   holds for the slot (server_read_data ignores which shares the request names -- compared with
   the real StorageServer on every run); composed with the publisher's bookkeeping (Model/Publish,
   C47) a share of another version that the publisher is not itself writing to that server makes
   the whole publish end in UncoordinatedWriteError, whatever else is answered, in any order. *)
Theorem foreign_share_gives_ucwe :
  forall k ws pre post w wrote held named mine c v,
    In (c, v) held -> c <> w_shnum w ->
    mem_N c (known_on_server ws (w_server w)) = false -> v <> mine ->
    publish_outcome k ws (pre ++ (w, answer_of mine wrote held named) :: post) = UncoordinatedWrite.
Proof. exact foreign_share_gives_ucwe_ok. Qed.
Print Assumptions foreign_share_gives_ucwe.

Theorem own_version_tolerated :
  forall s w held named mine,
    (forall c v, In (c, v) held -> v = mine) ->
    Publish.surprised (handle_answer s w (answer_of mine true held named)) = Publish.surprised s.
Proof. exact own_version_tolerated_ok. Qed.
Print Assumptions own_version_tolerated.

(* non-vacuity: writer A (version 7) writes share 0 on server 5 and share 4 elsewhere; meanwhile B
   created share 4 (version 9) on server 5: A's write of share 0 is applied, yet A ends with UCWE *)
Example ex_foreign_share :
  publish_outcome 1 [ {| w_shnum := 0; w_server := 5 |}; {| w_shnum := 4; w_server := 6 |} ]
    [ ({| w_shnum := 4; w_server := 6 |}, answer_of 7 true [(4, 7)] [4]);
      ({| w_shnum := 0; w_server := 5 |}, answer_of 7 true [(0, 3); (4, 9)] [0]) ] = UncoordinatedWrite /\
  publish_outcome 1 [ {| w_shnum := 0; w_server := 5 |}; {| w_shnum := 4; w_server := 6 |} ]
    [ ({| w_shnum := 4; w_server := 6 |}, answer_of 7 true [(4, 7)] [4]);
      ({| w_shnum := 0; w_server := 5 |}, answer_of 7 true [(0, 3)] [0]) ] = Success.
Proof. vm_compute. split; reflexivity. Qed.

(* WHAT BECOMES OF AN APPLIED WRITE, for every interleaving: a share that writer j's write was
   applied to still holds j's version, or was replaced by a writer whose own survey had seen j's
   version on that very share -- an informed successor, never someone who did not know about j. *)
Theorem applied_write_survives_or_informed_successor :
  forall ncells n evs j w i,
    single_survey ncells n evs ->
    nth_error (ws (run ncells n evs)) j = Some w -> In i (acked w) ->
    nth_error (cells (run ncells n evs)) i = Some (new_version j) \/ informed_successor (run ncells n evs) j i.
Proof. intros ncells n evs j w i Hss Hw Hin. exact (hinv_run _ _ _ Hss j i (ex_intro _ w (conj Hw Hin))). Qed.
Print Assumptions applied_write_survives_or_informed_successor.

(* non-vacuity: writer 0 publishes, writer 1 surveys afterwards and overwrites cell 0: an informed successor *)
Example ex_informed_successor :
  let s := run 2 2 [Survey 0; Write 0 0; Write 0 1; Survey 1; Write 1 0]%nat in
  cells s = [2; 1] /\ informed_successor s 0 0 /\ nth_error (cells s) 1 = Some (new_version 0).
Proof.
  cbv. split; [reflexivity|]. split; [|reflexivity].
  exists 1%nat. eexists. eexists. split; [discriminate|]. split; [reflexivity|]. auto.
Qed.

From Verif Require Import Gen.MutPins.
From Coq Require Import String.
(* Fingerprints (AST, comments and docstrings excluded) of the source functions this model
   transcribes by hand, regenerated from /repo on every run (harness/translate/mutpins.py):
   the model was written for exactly these versions of them. *)
Theorem model_pins_current :
  pins_C12 =
  [("server_slot_testv_and_readv_and_writev", "48b5cd274c5180db")%string;
   ("server_evaluate_test_vectors", "b3a48c6d748eef5b")%string;
   ("server_evaluate_read_vectors", "3e8dc683afcc580e")%string;
   ("publish_got_write_answer", "166be3157ed17053")%string].
Proof. reflexivity. Qed.
Print Assumptions model_pins_current.
