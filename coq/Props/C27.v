(* C27  Share crawler covers every bucket each cycle.
   Statements, each an instance of a lemma of Proofs/Crawler.v or
   Proofs/CrawlerFinal.v; the examples are closed by evaluation.

   Model/Crawler.v transcribes ShareCrawler.start_slice / start_current_prefix /
   process_prefixdir / save_state / load_state.  A run is a list of slices; each
   slice has an arbitrary list of answers to the "time slice used up?" test
   (asked after every bucket and after every prefix directory) and optionally a
   kill point (the process dies after k events of the slice and is restarted
   from the last saved state).  `prefixes` is the table regenerated from
   ShareCrawler.__init__ on every run (Gen/CrawlConsts.v).

   Hypotheses, stated in wf_dirs: the set of bucket directories is fixed for the
   run; one listing per prefix directory; no name twice in a listing; every
   bucket name begins with the name of its prefix directory.  The last one is
   needed (cycle_covers_all_needs_layout). *)
From Coq Require Import List NArith Bool Arith String.
From Verif Require Import Gen.CrawlConsts Model.Crawler Proofs.Crawler Proofs.CrawlerFinal.
Import ListNotations.

(* Whenever finished_cycle(c) is called, process_bucket(c, ., ., b) has been
   called before it for every bucket b, whatever the interruptions and kills. *)
Theorem cycle_covers_all :
  forall dirs specs tr m pre c post,
    wf_dirs prefixes dirs ->
    run dirs (load init_pstate) specs = (tr, m) ->
    tr = pre ++ EFinished c :: post ->
    forall i b, In b (nth i dirs []) -> In (EProc c i b) pre.
Proof. exact (covers_all_gen prefixes prefixes_sorted_ok prefixes_len_ok prefixes_two_ok). Qed.
Print Assumptions cycle_covers_all.

(* The bucket set may change while the crawler is idle between two cycles
   (uploads, deletions): after any earlier epochs with other directory
   contents, run by the same crawler object (its one-entry listing cache is
   carried along) or by restarted ones, a cycle that finishes in the current
   epoch has processed every bucket of the current contents. *)
Theorem cycle_covers_all_epochs :
  forall eps dirs specs tr1 m1 tr2 m2 pre c post,
    (forall e, In e eps -> wf_dirs prefixes (fst e)) -> wf_dirs prefixes dirs ->
    epochs_end_idle (load init_pstate) eps ->
    run_epochs (load init_pstate) eps = (tr1, m1) ->
    run dirs m1 specs = (tr2, m2) ->
    tr2 = pre ++ EFinished c :: post ->
    forall i b, In b (nth i dirs []) -> In (EProc c i b) pre.
Proof. exact (covers_all_epochs_gen prefixes prefixes_sorted_ok prefixes_len_ok prefixes_two_ok). Qed.
Print Assumptions cycle_covers_all_epochs.

(* Without kills no process_bucket call is repeated, only existing buckets are
   processed, and every bucket of a finished cycle was processed exactly once
   in that cycle. *)
Theorem exactly_once_without_kill :
  forall dirs specs tr m,
    wf_dirs prefixes dirs ->
    (forall s, In s specs -> sl_kill s = None) ->
    run dirs (load init_pstate) specs = (tr, m) ->
    (forall c i b, count_occ event_eq_dec tr (EProc c i b) <= 1) /\
    (forall c i b, In (EProc c i b) tr -> In b (nth i dirs [])) /\
    (forall c, In (EFinished c) tr -> forall i b, In b (nth i dirs []) ->
       count_occ event_eq_dec tr (EProc c i b) = 1) /\
    finished_cycles tr = map N.of_nat (seq 0 (N.to_nat (completed_cycles (ms_p m)))).
Proof. exact (exactly_once_gen prefixes prefixes_sorted_ok prefixes_len_ok prefixes_two_ok). Qed.
Print Assumptions exactly_once_without_kill.

(* Cycle numbers: the numbers handed to finished_cycle start at 0 and each is
   its predecessor or the predecessor plus one (a repetition needs a kill
   between finished_cycle and save_state); the completed-cycle count in the
   saved states starts at 0, grows by at most one per save and ends at the
   count of the final state. *)
Theorem cycle_numbers_increment :
  forall dirs specs tr m,
    wf_dirs prefixes dirs ->
    run dirs (load init_pstate) specs = (tr, m) ->
    cycle_numbers_ok (finished_cycles tr) /\
    steps_by_0_or_1 0 (map completed_cycles (saved_states tr)) /\
    last_or (map completed_cycles (saved_states tr)) 0 = completed_cycles (ms_p m).
Proof. exact (cycle_numbers_gen prefixes prefixes_sorted_ok prefixes_len_ok prefixes_two_ok). Qed.
Print Assumptions cycle_numbers_increment.

(* Without kills the finished cycles are exactly 0, 1, ..., n-1. *)
Theorem cycle_numbers_increment_without_kill :
  forall dirs specs tr m,
    wf_dirs prefixes dirs ->
    (forall s, In s specs -> sl_kill s = None) ->
    run dirs (load init_pstate) specs = (tr, m) ->
    finished_cycles tr = map N.of_nat (seq 0 (N.to_nat (completed_cycles (ms_p m)))).
Proof. intros dirs specs tr m W NK R. exact (proj2 (proj2 (proj2 (exactly_once_without_kill dirs specs tr m W NK R)))). Qed.
Print Assumptions cycle_numbers_increment_without_kill.

(* Restarts.  Hypothesis about the file system, stated in Model/Crawler.v
   (torn_save): save_state writes a temporary file and renames it over the state
   file, and the rename is atomic, so a process that dies or runs out of disk
   space inside save_state leaves the previous or the new state (the driver
   injects crashes after 0, half and all bytes of the write and checks exactly
   this on the real code).  Under it a crash inside save_state is one of the
   kill points of the model, and a restarted crawler starts from the state the
   slice began with or from a state written during the slice, never from
   scratch; cycle_numbers_increment then says the completed-cycle count never
   goes back. *)
Theorem restart_resumes_from_a_saved_state :
  forall dirs m s evs m' k,
    sl_kill s = Some k -> do_slice dirs m s = (evs, m') ->
    m' = load (ms_p m) \/ exists p, In (ESave p) evs /\ m' = load p.
Proof. exact restart_state_ok. Qed.
Print Assumptions restart_resumes_from_a_saved_state.

Theorem crash_inside_save_state_is_a_kill_point :
  forall dirs m ticks k t evs m',
    do_slice dirs m (mk_slice ticks (crash_in_save k t)) = (evs, m') ->
    m' = load (ms_p m) \/ exists p, In (ESave p) evs /\ m' = load p.
Proof. intros dirs m ticks k t evs m'. exact (restart_state_ok dirs m (mk_slice ticks (crash_in_save k t)) evs m' _ eq_refl). Qed.
Print Assumptions crash_inside_save_state_is_a_kill_point.

(* The regenerated prefix table is what the proofs need: strictly increasing,
   2**prefix_bits names. *)
Theorem prefix_table_sorted : Sorted.StronglySorted CrawlerOrder.nlt prefixes.
Proof. exact prefixes_sorted_ok. Qed.
Print Assumptions prefix_table_sorted.

Theorem prefix_table_size : List.length prefixes = 2 ^ prefix_bits.
Proof. reflexivity. Qed.
Print Assumptions prefix_table_size.

(* Fingerprints of the source functions the model was written for. *)
Theorem crawler_pins :
  (pin_crawler_init, pin_crawler_load_state, pin_crawler_save_state, pin_crawler_start_slice,
   pin_crawler_start_current_prefix, pin_crawler_process_prefixdir,
   pin_crawler_serializer_save, pin_crawler_serializer_load, pin_crawler_dump_json_to_file, pin_fileutil_move_into_place)
  = ("b6e7496ea0e4704b", "607a50e7d677f555", "ae0364c91a284800", "44afc06d09dceaf9",
     "575847e737b9edfe", "1443de8d6466311a",
     "e5476169c0fdb179", "33f12c289e12c608", "20869b24a707cdbc", "184ed20bb14167b5")%string.
Proof. reflexivity. Qed.
Print Assumptions crawler_pins.

(* The layout hypothesis cannot be dropped: a bucket directory sitting in the
   wrong prefix directory is skipped by an uninterrupted, never-killed crawl. *)
Theorem cycle_covers_all_needs_layout :
  exists dirs specs tr m pre c post i b,
    run dirs (load init_pstate) specs = (tr, m) /\
    (forall s, In s specs -> sl_kill s = None) /\
    tr = pre ++ EFinished c :: post /\
    In b (nth i dirs []) /\
    ~ In (EProc c i b) pre.
Proof. exact misplaced_bucket_is_skipped. Qed.
Print Assumptions cycle_covers_all_needs_layout.

(* Hypotheses are satisfiable and the conclusions are not vacuous: a layout
   with buckets in three prefix directories, interrupted once and killed once,
   finishes cycle 0. *)
Example ex_layout_nonvacuous : wf_dirs prefixes ex_dirs.
Proof. apply wf_dirsb_sound. vm_compute. reflexivity. Qed.

Example ex_run_nonvacuous :
  map (fun e => match e with EProc c i b => Some (c, i, b) | _ => None end)
      (filter is_proc (fst (run ex_dirs (load init_pstate) ex_specs)))
  = [Some (0%N, 0, nm "22aaaa"); Some (0%N, 0, nm "22bbbb");
     Some (0%N, 0, nm "22bbbb"); Some (0%N, 1, nm "23cccc"); Some (0%N, 1023, nm "zzdddd")]
  /\ finished_cycles (fst (run ex_dirs (load init_pstate) ex_specs)) = [0%N].
Proof.
  (* the run is evaluated once for both parts *)
  apply pair_equal_spec. pattern (fst (run ex_dirs (load init_pstate) ex_specs)).
  vm_compute. reflexivity.
Qed.
