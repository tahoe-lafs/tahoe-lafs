(* C31  HTTP and direct storage access agree.
   Statements only; each is closed by `exact` of a lemma in Proofs/HttpRange.v, the concrete
   witnesses and pins by evaluation.
   Model/HttpRange.v models the HTTP layer's own logic (Range / Content-Range handling,
   the 64 KiB piece loops, completion detection, read-test-write marshalling) on top of
   the direct operations it calls (read_share_data, BucketWriter.write); the modelled
   functions are pinned by AST fingerprint in Gen/Routes.v (regenerated on every run).

   Known divergences of the code (known_findings.jsonl) are outside the theorems by
   explicit preconditions and carry refuting witnesses below: zero-length reads and
   writes, and a PATCH body of several pieces whose later piece is refused. *)
From Coq Require Import List NArith Bool String.
From Verif Require Import Lib.Hex Gen.Routes Model.HttpAuth Model.HttpRange Proofs.HttpRange.
Import ListNotations.
Local Open Scope N_scope.

(* The bytes a ranged read returns through HTTP -- client Range header, server clipping
   at the share length, 204 for an empty result, the producer reading pieces of any size
   `chunk`, Content-Range, the client's length checks -- are exactly the direct
   read_share_data(offset, length), for every share, every offset (past the end included)
   and every length > 0. *)
Theorem range_read_eq_direct :
  forall data chunk offset length,
    0 < chunk -> 0 < length ->
    http_read data chunk offset length = RData (direct_read data offset length).
Proof. exact range_read_ok. Qed.
Print Assumptions range_read_eq_direct.

(* length = 0 is refused by the client (finding http-zero-length-read-fails) *)
Theorem zero_length_read_refuted :
  exists data chunk offset,
    http_read data chunk offset 0 <> RData (direct_read data offset 0).
Proof. exists [1; 2; 3], 65536, 1. vm_compute. discriminate. Qed.
Print Assumptions zero_length_read_refuted.

(* Uploading slices of `data` -- any non-empty chunks inside the allocation, in any order,
   overlapping or not, each PATCH body cut by the server into pieces of any size `chunk`
   -- never conflicts, leaves exactly the writer state the direct BucketWriter.write calls
   leave, answers 201 (upload finished, bucket closed) exactly when the chunks cover
   [0, size) and 200 otherwise, and then the share is `data`: the state a single direct
   write(0, data) produces. *)
Theorem chunked_upload_eq_single :
  forall data chunk chunks,
    0 < chunk -> Forall (chunk_ok (blen data)) chunks ->
    exists w code,
      http_upload data chunk chunks (bw_new (blen data)) 0 = Some (w, code)
      /\ direct_upload data chunks (bw_new (blen data)) = Some w
      /\ (bw_finished w = true <-> forall p, p < blen data -> covered chunks p)
      /\ (chunks <> [] -> (code = 201 <-> bw_finished w = true) /\ (code = 200 <-> bw_finished w = false))
      /\ (bw_finished w = true -> bw_data w = data /\ bw_write (bw_new (blen data)) 0 data = WOk w true).
Proof. exact chunked_upload_ok. Qed.
Print Assumptions chunked_upload_eq_single.

(* Outside the theorem: data that conflicts with what is already written.  The direct
   write refuses and writes nothing; the HTTP handler has already written the earlier
   pieces (finding http-multi-piece-write-not-atomic; pieces of 2 bytes here). *)
Theorem multi_piece_write_not_atomic_refuted :
  bw_write ex_partial_writer 0 [97; 98; 99; 100] = WConflict
  /\ patch ex_partial_writer 2 0 [97; 98; 99; 100]
     = PStatus 409 (mk_bw [97; 98; 0; 120] [true; true; false; true]).
Proof. split; vm_compute; reflexivity. Qed.
Print Assumptions multi_piece_write_not_atomic_refuted.

(* ... and empty chunks (finding http-zero-length-write-fails). *)
Theorem zero_length_write_refuted :
  exists w offset,
    bw_write w offset [] = WOk w false /\ patch w 65536 offset [] = PStatus 416 w.
Proof. exists (bw_new 4), 2. split; vm_compute; reflexivity. Qed.
Print Assumptions zero_length_write_refuted.

(* The read-test-write request: what the server hands to
   StorageServer.slot_testv_and_readv_and_writev after decoding the client's message is
   the request itself with the operator b"eq" added to each test vector -- the same
   structure the direct (Foolscap) path passes.  Structural: CBOR bytes are not modelled. *)
Theorem rtw_marshalling_roundtrip :
  forall r, decode_rtw (encode_rtw r) = Some (wire_form r).
Proof. exact rtw_roundtrip_ok. Qed.
Print Assumptions rtw_marshalling_roundtrip.

Theorem rtw_answer_roundtrip :
  forall a, decode_answer (encode_answer a) = Some a.
Proof. exact answer_roundtrip_ok. Qed.
Print Assumptions rtw_answer_roundtrip.

(* The hand-written model was written for these definitions (AST fingerprints). *)
Theorem pins :
  (pin_read_range, pin_ReadRangeProducer, pin_client_read_share_chunk,
   pin_client_StorageClientImmutables_write_share_chunk, pin_client_StorageClientMutables_read_test_write_chunks,
   pin_client_TestWriteVectors, pin_client_TestVector, pin_client_WriteVector, pin_client_ReadVector,
   pin_adapter_HTTPStorageServer_slot_testv_and_readv_and_writev)
  = ("cf46a10d19dc827d", "9b962d13cea9bff2", "125c1a01adb0073a",
     "39e1e83d939d600b", "f1f7dc99fffdc23e",
     "3c4ee4bcf219819d", "3479fb1930b5f4d8", "8cd930af4d45c2a1", "200e4ff3038aaeef",
     "b05494584e250e54")%string.
Proof. reflexivity. Qed.
Print Assumptions pins.

Theorem handler_pins :
  (handler_pin "write_share_data", handler_pin "mutable_read_test_write", handler_pin "read_share_chunk",
   handler_pin "read_mutable_chunk")
  = ("360860dc48965e6f", "4cc5d1b98b169ffd", "876381b2aa58299d", "b54b07f5d73477d2")%string.
Proof. vm_compute. reflexivity. Qed.
Print Assumptions handler_pins.

(* the hypotheses are satisfiable; the model computes what the servers do *)
Example ex_read_past_end_nonvacuous :
  http_read (bytes_of_string "0123456789") 4 7 100 = RData (bytes_of_string "789")
  /\ http_read (bytes_of_string "0123456789") 4 10 5 = RData []
  /\ http_read (bytes_of_string "0123456789") 4 2 6 = RData (bytes_of_string "234567").
Proof. vm_compute. repeat split; reflexivity. Qed.

Example ex_chunks_nonvacuous :
  Forall (chunk_ok (blen (bytes_of_string "abcdefgh"))) [(5, 3); (0, 4); (2, 4)]
  /\ http_upload (bytes_of_string "abcdefgh") 3 [(5, 3); (0, 4); (2, 4)] (bw_new 8) 0
     = Some (mk_bw (bytes_of_string "abcdefgh") (repeat true 8), 201)
  /\ http_upload (bytes_of_string "abcdefgh") 3 [(5, 3); (0, 4)] (bw_new 8) 0
     = Some (mk_bw [97; 98; 99; 100; 0; 102; 103; 104] [true; true; true; true; false; true; true; true], 200).
Proof.
  split; [|split; vm_compute; reflexivity].
  repeat constructor; vm_compute; congruence.
Qed.

Example ex_required_ranges :
  required_ranges (mk_bw [0; 0; 0; 0; 0; 0] [false; true; false; false; true; false]) = [(0, 1); (2, 4); (5, 6)].
Proof. vm_compute. reflexivity. Qed.

Example ex_rtw_nonvacuous :
  decode_rtw (encode_rtw (mk_rtw [(3, mk_twv [(0, 2, bytes_of_string "ab")] [(5, bytes_of_string "xyz")] None)] [(0, 10)]))
  = Some (mk_wire [(3, mk_wtwv [(0, 2, bytes_of_string "eq", bytes_of_string "ab")] [(5, bytes_of_string "xyz")] None)] [(0, 10)]).
Proof. vm_compute. reflexivity. Qed.
