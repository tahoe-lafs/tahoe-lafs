(* C16  Capabilities attenuate correctly.
   Statements only; each is closed by `exact` of, or a short derivation from, a
   lemma in Proofs/UriParse.v, UriAtten.v or UriDirStore.v, or by unfolding
   definitions; the comparisons with the values of Proofs/UriPins.v are
   evaluated here.

   Model: Model/Uri.v (get_readonly / get_verify_cap / is_readonly / is_mutable
   of every cap class, from_string with the ro./imm. prefixes and the
   deep_immutable context), Model/UriNodes.v (UnknownNode.__init__).  The hash
   derivations are the functions of Gen/Hashutil.v, regenerated from
   hashutil.py (C17 proves them equal to the specification); no property of
   SHA-256 is used: "does not carry the stronger secret" is stated as (i) the
   derived object has no such field and (ii) it is a function of the *hash* of
   the stronger secret only. *)
From Coq Require Import String List NArith PeanoNat Bool.
From Verif Require Import Lib.Hex Lib.Bytes Lib.Decimal Gen.Hashutil Gen.Uri Model.UriBase32 Model.Uri Model.UriNodes
  Proofs.UriParse Proofs.UriAtten Proofs.UriDirStore Proofs.UriPins.
Import ListNotations.
Local Open Scope N_scope.

(* From a write-cap the read-cap and the verify-cap, from a read-cap the
   verify-cap: same storage index, same fingerprint (or UEB hash and encoding
   parameters), and the verify cap does not depend on the route taken. *)
Theorem chain_same_si_fingerprint :
  forall c,
  (forall r, get_readonly c = Some r ->
     storage_index r = storage_index c /\ integrity r = integrity c /\ get_verify_cap r = get_verify_cap c)
  /\ (forall v, get_verify_cap c = Some v -> storage_index v = storage_index c /\ integrity v = integrity c).
Proof. exact chain_same_si_fingerprint_ok. Qed.
Print Assumptions chain_same_si_fingerprint.

(* ... and the chain is the documented derivation writekey -> readkey -> storage index *)
Theorem chain_derivation :
  (forall wk fp, storage_index (CFile (SSK wk fp)) = Some (ssk_storage_index_hash (ssk_readkey_hash wk))
                 /\ get_readonly (CFile (SSK wk fp)) = Some (CFile (SSKRO (ssk_readkey_hash wk) fp))
                 /\ get_verify_cap (CFile (SSK wk fp)) = Some (CFile (SSKVerifier (ssk_storage_index_hash (ssk_readkey_hash wk)) fp)))
  /\ (forall wk fp, storage_index (CFile (MDMF wk fp)) = Some (ssk_storage_index_hash (ssk_readkey_hash wk))
                 /\ get_readonly (CFile (MDMF wk fp)) = Some (CFile (MDMFRO (ssk_readkey_hash wk) fp))
                 /\ get_verify_cap (CFile (MDMF wk fp)) = Some (CFile (MDMFVerifier (ssk_storage_index_hash (ssk_readkey_hash wk)) fp)))
  /\ (forall key ueb k n size, get_verify_cap (CFile (CHK key ueb k n size)) = Some (CFile (CHKVerifier (storage_index_hash key) ueb k n size))).
Proof. repeat split. Qed.
Print Assumptions chain_derivation.

(* A derived cap never carries the stronger secret. *)
Theorem readonly_has_no_writekey :
  forall c r, get_readonly c = Some r -> writekey_of r = None.
Proof. exact readonly_has_no_writekey_ok. Qed.
Print Assumptions readonly_has_no_writekey.

Theorem verify_has_no_readkey :
  forall c v, get_verify_cap c = Some v -> readkey_of v = None /\ writekey_of v = None.
Proof. exact verify_has_no_readkey_ok. Qed.
Print Assumptions verify_has_no_readkey.

Theorem readonly_factors_through_hash :
  forall wk wk' fp, ssk_readkey_hash wk = ssk_readkey_hash wk' ->
  get_readonly_f (SSK wk fp) = get_readonly_f (SSK wk' fp) /\ get_readonly_f (MDMF wk fp) = get_readonly_f (MDMF wk' fp).
Proof. intros wk wk' fp H. cbn [get_readonly_f]. rewrite H. split; reflexivity. Qed.
Print Assumptions readonly_factors_through_hash.

Theorem verify_factors_through_hash :
  forall rk rk' fp, ssk_storage_index_hash rk = ssk_storage_index_hash rk' ->
  get_verify_f (SSKRO rk fp) = get_verify_f (SSKRO rk' fp) /\ get_verify_f (MDMFRO rk fp) = get_verify_f (MDMFRO rk' fp).
Proof. intros rk rk' fp H. cbn [get_verify_f]. rewrite H. split; reflexivity. Qed.
Print Assumptions verify_factors_through_hash.

(* ... and never reports write or read authority it lacks: a cap says it is
   writeable exactly when it holds a write key; immutable caps hold none;
   diminishing yields read-only caps with the same mutability; verify caps are
   read-only and not mutable; diminishing a read-only cap changes nothing. *)
Theorem flags_sound :
  forall c,
  (is_readonly c = Some false <-> writekey_of c <> None)
  /\ (is_mutable c = Some false -> writekey_of c = None)
  /\ (forall r, get_readonly c = Some r -> is_readonly r = Some true /\ is_mutable r = is_mutable c)
  /\ (forall v, get_verify_cap c = Some v -> is_readonly v = Some true /\ is_mutable v = Some false)
  /\ (is_readonly c = Some true -> get_readonly c = Some c).
Proof. exact flags_sound_ok. Qed.
Print Assumptions flags_sound.

(* the per-class constants and result classes extracted from uri.py are the model's *)
Theorem flags_pins :
  flags_rendered = flags_table /\ wrap_rendered = wrap_table.
Proof. vm_compute. split; reflexivity. Qed.
Print Assumptions flags_pins.

(* A cap marked as alleged read-only or alleged immutable -- or met in a
   deep-immutable context -- is never interpreted as writeable or mutable:
   for EVERY string s. *)
Theorem alleged_prefix_never_upgrades :
  forall di s c,
  (from_string di (ro_prefix ++ s) = Ok c -> is_readonly c <> Some false)
  /\ (from_string di (imm_prefix ++ s) = Ok c -> is_readonly c <> Some false /\ is_mutable c <> Some true)
  /\ (from_string true s = Ok c -> is_readonly c <> Some false /\ is_mutable c <> Some true).
Proof. intros di s c. exact (conj (ro_never_writeable di s c) (conj (imm_never_upgrades di s c) (deep_never_upgrades s c))). Qed.
Print Assumptions alleged_prefix_never_upgrades.

(* a cap refused because of its context becomes an UnknownURI that keeps the
   whole string (prefix included) and records the violated constraint *)
Theorem constraint_violation_is_unknown :
  forall di u c cbm cbw s dir k g,
  strip_alleged di u = (cbm, cbw, s) ->
  find (fun e => starts_with (entry_prefix e) s) dispatch = Some (dir, k, g) ->
  guard_ok g cbm cbw = false ->
  from_string di u = Ok c -> c = CUnknown u (constraint_error cbm).
Proof.
  intros di u c cbm cbw s dir k g Ea Ef G H. rewrite (from_string_dispatch _ _ _ _ _ _ _ _ Ea Ef), G in H.
  injection H as <-. reflexivity.
Qed.
Print Assumptions constraint_violation_is_unknown.

(* UnknownNode(given_rw_uri, given_ro_uri, deep_immutable): which caps an
   unknown node keeps. *)
Theorem unknown_node_rules :
  forall rw ro di n, unknown_node rw ro di = UOk n ->
  (di = true -> un_rw n = None)
  /\ (un_error n <> ENone -> un_rw n = None /\ un_ro n = None)
  /\ (forall r, un_ro n = Some r -> starts_with ro_prefix r = true \/ starts_with imm_prefix r = true)
  /\ (di = true -> forall r, un_ro n = Some r -> starts_with imm_prefix r = true)
  /\ (forall w, un_rw n = Some w -> or_none rw = Some w /\ or_none ro <> None /\ un_ro n <> None).
Proof. exact unknown_node_rules_ok. Qed.
Print Assumptions unknown_node_rules.

Theorem unknown_pins :
  unknown_code_pins = expected_unknown_code_pins.
Proof. vm_compute. reflexivity. Qed.
Print Assumptions unknown_pins.

(* NodeMaker.create_from_cap: the node cache is transparent.  For every history of
   earlier calls (any caps, either context) and whatever the weak dictionary still
   remembers, the answer is the one an empty cache gives; so a mutable node created
   in the ordinary context is never handed out in a deep-immutable one. *)
Theorem node_cache_transparent :
  forall cache rw ro di, cache_ok cache ->
  fst (create_from_cap cache rw ro di) = create_fresh rw ro di /\ cache_ok (snd (create_from_cap cache rw ro di)).
Proof. exact node_cache_transparent_ok. Qed.
Print Assumptions node_cache_transparent.

Theorem node_cache_may_forget :
  forall cache cache', cache_ok cache -> incl cache' cache -> cache_ok cache'.
Proof. intros cache cache' H I. exact (incl_Forall I H). Qed.
Print Assumptions node_cache_may_forget.

Theorem created_nodes_respect_context :
  forall rw ro s c,
  (create_fresh rw ro true = MNode c -> is_mutable c <> Some true /\ is_readonly c <> Some false)
  /\ (bigcap rw ro = Some (ro_prefix ++ s) -> forall di, create_fresh rw ro di = MNode c -> is_readonly c <> Some false)
  /\ (bigcap rw ro = Some (imm_prefix ++ s) -> forall di, create_fresh rw ro di = MNode c -> is_mutable c <> Some true /\ is_readonly c <> Some false).
Proof. exact create_fresh_respects_context_ok. Qed.
Print Assumptions created_nodes_respect_context.

Theorem nodemaker_pins :
  nodemaker_code_pins = expected_nodemaker_code_pins
  /\ (nodemaker_memokey_immutable, nodemaker_memokey_mutable) = ("I", "M")%string.
Proof. vm_compute. split; reflexivity. Qed.
Print Assumptions nodemaker_pins.

(* Children stored in a directory and read back (dirnode._pack_normalized_children with
   strip_prefix_for_ro, then DirectoryNode._unpack_contents -> create_from_cap -> UnknownNode):
   `dir_store_read m di view` in Model/UriNodes.v, di = the directory is deep-immutable,
   view = read through a writeable view (the write slot is readable).

   An unknown child keeps an allegation at least as strong as the one its read cap carried
   (imm. stays imm., ro. stays ro. or becomes imm.), always has one, has imm. in an immutable
   directory, and has a write cap only if it had that one and the view is writeable.  (Read
   caps ending in a space are excluded: the unpacker strips trailing spaces, C19; a read cap
   that is the bare prefix stores as the empty string, i.e. as no cap.) *)
Theorem allegation_survives_directory :
  forall n di view n' r,
  un_ro n = Some r -> last r 0 <> 32 -> strip_prefix_for_ro r di <> [] ->
  dir_store_read (MUnknown (UOk n)) di view = Some (MUnknown (UOk n')) ->
  (forall r', un_ro n' = Some r' -> (strength r <= strength r')%nat /\ (1 <= strength r')%nat /\ (di = true -> strength r' = 2%nat))
  /\ (forall w', un_rw n' = Some w' -> exists w, un_rw n = Some w /\ w' = rstrip_spaces w /\ view = true).
Proof. exact allegation_survives_directory_ok. Qed.
Print Assumptions allegation_survives_directory.

(* the prefix-stripping rule itself: what is stored, by strength of the allegation *)
Theorem strip_prefix_rule :
  forall r di,
  match strength r with
  | 2%nat => if di then imm_prefix ++ strip_prefix_for_ro r di = r else strip_prefix_for_ro r di = r
  | 1%nat => ro_prefix ++ strip_prefix_for_ro r di = r
  | _ => strip_prefix_for_ro r di = r
  end.
Proof. exact strip_prefix_for_ro_spec. Qed.
Print Assumptions strip_prefix_rule.

(* ... and when the stored read cap parses as a KNOWN cap on the way back, that cap is not
   writeable if the original was alleged read-only or immutable, not mutable if alleged
   immutable -- provided the original was acceptable when attached *)
Theorem stored_readcap_never_upgrades :
  forall r di c0 c,
  from_string di r = Ok c0 -> (known c0 = true \/ exists s, c0 = CUnknown s ENone) ->
  from_string di (strip_prefix_for_ro r di) = Ok c ->
  ((1 <= strength r)%nat -> is_readonly c <> Some false)
  /\ (strength r = 2%nat -> is_mutable c <> Some true)
  /\ (di = true -> is_readonly c <> Some false /\ is_mutable c <> Some true).
Proof. exact stored_readcap_never_upgrades_ok. Qed.
Print Assumptions stored_readcap_never_upgrades.

(* A child linked with metadata {"no-write": true} (Adder / MetadataSetter call
   DirectoryNode._create_readonly_node, modelled by create_readonly_node) carries no write cap --
   every known cap, and every UnknownNode whose read cap carries an allegation (which
   unknown_node_rules guarantees), in particular an unknown-format (write cap, read cap) pair. *)
Theorem no_write_link_has_no_write_cap :
  forall m,
  (forall n r, m = MUnknown (UOk n) -> un_ro n = Some r -> (1 <= strength r)%nat) ->
  made_write_uri (create_readonly_node m) = None.
Proof. exact no_write_link_has_no_write_cap_ok. Qed.
Print Assumptions no_write_link_has_no_write_cap.

Theorem dirnode_pins :
  dirnode_code_pins = expected_dirnode_code_pins.
Proof. vm_compute. reflexivity. Qed.
Print Assumptions dirnode_pins.

(* The typed entry points from_string_dirnode / _filenode / _mutable_filenode / _verifier
   forward their keyword arguments: what they return is what from_string returns for the same
   string in the same context (or they raise), so they never upgrade either. *)
Theorem typed_entry_points_agree :
  forall i di u c, typed_from_string i di u = Ok c -> from_string di u = Ok c /\ provides i c = true.
Proof. exact typed_entry_points_agree_ok. Qed.
Print Assumptions typed_entry_points_agree.

Theorem typed_entry_points_never_upgrade :
  forall i di s c,
  (typed_from_string i di (ro_prefix ++ s) = Ok c -> is_readonly c <> Some false)
  /\ (typed_from_string i di (imm_prefix ++ s) = Ok c -> is_readonly c <> Some false /\ is_mutable c <> Some true)
  /\ (typed_from_string i true s = Ok c -> is_readonly c <> Some false /\ is_mutable c <> Some true).
Proof. exact typed_entry_points_never_upgrade_ok. Qed.
Print Assumptions typed_entry_points_never_upgrade.

Theorem typed_entry_pins :
  typed_entry_table = [("from_string_dirnode", "IDirnodeURI", "from_string(s, **kwargs)");
                       ("from_string_filenode", "IFileURI", "from_string(s, **kwargs)");
                       ("from_string_mutable_filenode", "IMutableFileURI", "from_string(s, **kwargs)");
                       ("from_string_verifier", "IVerifierURI", "from_string(s, **kwargs)")]%string.
Proof. vm_compute. reflexivity. Qed.
Print Assumptions typed_entry_pins.

(* blacklist.ProhibitedNode (what NodeMaker wraps a blacklisted node in) passes every cap
   accessor through to the wrapped node: the models of create_from_cap and dir_store_read
   treat it as transparent *)
Theorem prohibited_node_pins :
  prohibited_code_pins = expected_prohibited_code_pins.
Proof. vm_compute. reflexivity. Qed.
Print Assumptions prohibited_node_pins.

(* satisfiable hypotheses, concrete chains (executable SHA-256) *)
Definition ex_wk : bytes := repeat 1 16.
Definition ex_fp : bytes := repeat 2 32.

Example ex_chain_nonvacuous :
  get_readonly (CDir (SSK ex_wk ex_fp)) = Some (CDir (SSKRO (unhex "6d4c7ed53a22b395219d29a61e1898ee") ex_fp))
  /\ get_verify_cap (CDir (SSK ex_wk ex_fp)) = Some (CDir (SSKVerifier (unhex "6cf85b1194b7cab24a72266aed12a451") ex_fp))
  /\ is_readonly (CDir (SSK ex_wk ex_fp)) = Some false.
Proof.
  cbn [get_readonly get_readonly_f get_verify_cap get_verify_f]. unfold ex_wk. rewrite sample_readkey.
  vm_compute. repeat split.
Qed.

Example ex_ro_prefix_on_writecap :
  let s := to_string (CFile (SSK ex_wk ex_fp)) in
  from_string false (ro_prefix ++ s) = Ok (CUnknown (ro_prefix ++ s) EMustBeReadonly)
  /\ from_string false (imm_prefix ++ s) = Ok (CUnknown (imm_prefix ++ s) EMustBeDeepImmutable)
  /\ from_string true s = Ok (CUnknown s EMustBeDeepImmutable)
  /\ from_string false s = Ok (CFile (SSK ex_wk ex_fp)).
Proof. vm_compute. repeat split. Qed.

Example ex_ro_prefix_on_readcap :
  let s := to_string (CFile (SSKRO ex_wk ex_fp)) in
  from_string false (ro_prefix ++ s) = Ok (CFile (SSKRO ex_wk ex_fp))
  /\ from_string false (imm_prefix ++ s) = Ok (CUnknown (imm_prefix ++ s) EMustBeDeepImmutable).
Proof. vm_compute. repeat split. Qed.

Example ex_unknown_node_nonvacuous :
  unknown_node (Some (bytes_of_string "lafs://future-rw")) (Some (bytes_of_string "lafs://future-ro")) false
  = UOk {| un_error := ENone; un_rw := Some (bytes_of_string "lafs://future-rw"); un_ro := Some (bytes_of_string "ro.lafs://future-ro") |}
  /\ unknown_node None (Some (bytes_of_string "ro.lafs://future-ro")) true
     = UOk {| un_error := ENone; un_rw := None; un_ro := Some (bytes_of_string "imm.lafs://future-ro") |}
  /\ unknown_node (Some (bytes_of_string "lafs://future-rw")) None false
     = UOk {| un_error := EMustNotBeUnknownRW; un_rw := None; un_ro := None |}.
Proof. vm_compute. repeat split. Qed.

Example ex_cache_nonvacuous :
  let s := to_string (CFile (SSK ex_wk ex_fp)) in
  let '(m1, cache1) := create_from_cap [] (Some s) None false in
  let '(m2, cache2) := create_from_cap cache1 (Some s) None true in
  m1 = MNode (CFile (SSK ex_wk ex_fp)) /\ length cache1 = 1%nat
  /\ m2 = MUnknown (UOk {| un_error := EMustNotBeUnknownRW; un_rw := None; un_ro := None |}).
Proof. vm_compute. repeat split. Qed.

Example ex_directory_nonvacuous :
  let imm_future := {| un_error := ENone; un_rw := None; un_ro := Some (bytes_of_string "imm.x-some-future-cap:ab") |} in
  let ro_future := {| un_error := ENone; un_rw := Some (bytes_of_string "x-future-rw:1"); un_ro := Some (bytes_of_string "ro.x-some-future-cap:ab") |} in
  dir_store_read (MUnknown (UOk imm_future)) false true = Some (MUnknown (UOk imm_future))
  /\ dir_store_read (MUnknown (UOk imm_future)) true false = Some (MUnknown (UOk imm_future))
  /\ dir_store_read (MUnknown (UOk ro_future)) false true = Some (MUnknown (UOk ro_future))
  /\ dir_store_read (MUnknown (UOk ro_future)) false false
     = Some (MUnknown (UOk {| un_error := ENone; un_rw := None; un_ro := Some (bytes_of_string "ro.x-some-future-cap:ab") |}))
  /\ strip_prefix_for_ro (bytes_of_string "imm.x-some-future-cap:ab") false = bytes_of_string "imm.x-some-future-cap:ab"
  /\ strip_prefix_for_ro (bytes_of_string "imm.x-some-future-cap:ab") true = bytes_of_string "x-some-future-cap:ab".
Proof. vm_compute. repeat split. Qed.

Example ex_no_write_nonvacuous :
  let pair := MUnknown (UOk {| un_error := ENone; un_rw := Some (bytes_of_string "x-future-rw:1"); un_ro := Some (bytes_of_string "ro.x-some-future-cap:ab") |}) in
  made_write_uri pair = Some (bytes_of_string "x-future-rw:1")
  /\ create_readonly_node pair = MUnknown (UOk {| un_error := ENone; un_rw := None; un_ro := Some (bytes_of_string "ro.x-some-future-cap:ab") |})
  /\ create_readonly_node (MNode (CDir (SSK ex_wk ex_fp))) = MNode (CDir (SSKRO (unhex "6d4c7ed53a22b395219d29a61e1898ee") ex_fp)).
Proof.
  intros pair. unfold create_readonly_node at 2, made_readonly_uri. cbn [get_readonly get_readonly_f].
  unfold ex_wk. rewrite sample_readkey. vm_compute. repeat split.
Qed.
