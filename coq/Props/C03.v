(* C03  Immutable availability with k good shares.
   Statements only: each theorem is closed by `exact` or a derivation of a line or two from a
   lemma of Proofs/Fetcher*.v.  Model/Fetcher.v: SegmentFetcher (immutable/downloader/fetcher.py)
   as a transition system whose events are its entry points (add_shares,
   no_more_shares, block-request activity, one queued loop()).  A world fixes the
   shares on answering servers and which are good (their request ends in COMPLETE);
   `ev_ok` (Proofs/FetcherWorld.v) is what node, finder and Share objects may do. *)
From Coq Require Import List NArith Bool Arith.
From Verif Require Import Lib.Sched Model.Fetcher Proofs.FetcherBase Proofs.FetcherWorld Proofs.FetcherLive Proofs.FetcherThm.
Import ListNotations.

(* Whenever the fetcher hands blocks to the node they belong to at least k distinct
   share numbers -- for every sequence of events whatsoever. *)
Theorem process_blocks_has_k_distinct :
  forall (k : nat) (seg : N) (evs : list fev) (bl : list (N * N)),
  In (OProcessBlocks bl) (snd (frun (finit k seg) evs)) ->
  NoDup (map fst bl) /\ k <= length bl.
Proof. intros k seg evs bl. apply (process_blocks_k_distinct evs (finit k seg)). constructor. Qed.
Print Assumptions process_blocks_has_k_distinct.

(* NotEnoughSharesError / NoSharesError is raised only after no_more_shares and only when
   the share numbers among blocks, active, overdue and unused shares are fewer than k;
   NoSharesError exactly when nothing at all is left.  For every event sequence. *)
Theorem error_only_if_fewer_than_k :
  forall (k : nat) (seg : N) (evs : list fev) (e : fev) (err : ferr),
  let s := fst (frun (finit k seg) evs) in
  In (OFetchFailed err) (snd (fstep s e)) -> err <> BadSegmentNumberError ->
  f_no_more s = true /\
  distinct (bnums (f_blocks s) ++ nums (f_active s) ++ nums (f_overdue s) ++ nums (f_shares s)) < k /\
  (err = NoSharesError /\ f_blocks s = [] /\ f_active s = [] /\ f_overdue s = [] /\ f_shares s = [] \/
   err = NotEnoughSharesError /\ all_nums s <> []).
Proof.
  intros k seg evs e err s Hin Hne. destruct (fstep_error s e err Hin Hne) as (A & B & C).
  unfold s in B. rewrite frun_k in B. exact (conj A (conj B C)).
Qed.
Print Assumptions error_only_if_fewer_than_k.

(* In a world: blocks are handed over only if k distinct good share numbers exist, and
   the error is raised only if fewer than k do -- the read never returns data from
   fewer than k good shares and never gives up while k good shares are reachable. *)
Theorem data_iff_k_good_shares :
  forall (w : world) (k : nat) (seg : N) (evs : list fev),
  NoDup (w_shares w) -> accepted gstep (ev_ok w) (ginit k seg) evs ->
  Forall (fun o => match o with
                   | OProcessBlocks _ => k <= good_distinct w
                   | OFetchFailed e => e <> BadSegmentNumberError /\ good_distinct w < k
                   | _ => True
                   end) (snd (run gstep (ginit k seg) evs)).
Proof. exact (fun w k seg evs Hw => run_out_ok w k Hw (ginit k seg) evs (invk_init w k seg)). Qed.
Print Assumptions data_iff_k_good_shares.

(* Every fair run -- queued loops run, every outstanding block request eventually stops
   being outstanding, the finder eventually reports exhaustion -- stops the fetcher with
   process_blocks or fetch_failed ... *)
Theorem fetcher_terminates :
  forall (w : world) (k : nat) (seg : N) (r : nat -> fev),
  NoDup (w_shares w) -> valid w k seg r -> fair_loops k seg r -> fair_requests k seg r -> fair_finder k seg r ->
  exists n o, In o (outs_upto k seg r n) /\ is_final o /\ f_running (fst (gat k seg r n)) = false.
Proof. exact fair_run_terminates. Qed.
Print Assumptions fetcher_terminates.

(* ... and with at least k distinct good share numbers on answering servers it is
   process_blocks: the read of the segment succeeds whatever the other shares do. *)
Theorem availability :
  forall (w : world) (k : nat) (seg : N) (r : nat -> fev),
  NoDup (w_shares w) -> valid w k seg r -> fair_loops k seg r -> fair_requests k seg r -> fair_finder k seg r ->
  k <= good_distinct w ->
  exists n bl, In (OProcessBlocks bl) (outs_upto k seg r n).
Proof. exact fair_run_available. Qed.
Print Assumptions availability.

(* the hypotheses of availability are satisfiable *)
Example availability_nonvacuous :
  exists w k seg r, NoDup (w_shares w) /\ valid w k seg r /\ fair_loops k seg r /\ fair_requests k seg r /\
                    fair_finder k seg r /\ k <= good_distinct w.
Proof. exists ex_world, 1, 0%N, ex_run. exact ex_fair. Qed.

(* a stopped fetcher makes no further calls (the node's queue model relies on it) *)
Theorem stopped_fetcher_is_silent :
  forall s e, f_running s = false -> snd (fstep s e) = [] /\ f_running (fst (fstep s e)) = false.
Proof. exact fstep_stopped. Qed.
Print Assumptions stopped_fetcher_is_silent.

(* the fuel of the model's _do_loop is never exhausted *)
Theorem loop_fuel_suffices :
  forall s outs, f_max_per_server s >= 1 -> do_while (loop_fuel s) s outs <> None.
Proof. intros s outs H. apply do_while_fuel. now apply loop_fuel_enough. Qed.
Print Assumptions loop_fuel_suffices.

(* k = 2, shares 0 and 1 good on one server, share 2 bad: the bad share dies, the
   diversity limit is raised, the blocks of shares 0 and 1 reach the node *)
Example ex_fallback_to_other_shares :
  let a := mk_share 0 0 0 1 in let b := mk_share 1 1 0 1 in let c := mk_share 2 2 1 0 in
  snd (frun (finit 2 0) [EAddShares [a; b; c]; ELoop None; EActivity c DEAD; ENoMoreShares; ELoop None;
                         EActivity a COMPLETE; ELoop None; EActivity b COMPLETE; ELoop None])
  = [OStart c; OStart a; OStart b; OProcessBlocks [(0, 0); (1, 1)]]%N.
Proof. vm_compute. reflexivity. Qed.

(* one good share only: NotEnoughSharesError, never blocks *)
Example ex_not_enough :
  let a := mk_share 0 0 0 1 in let c := mk_share 2 2 1 0 in
  snd (frun (finit 2 0) [EAddShares [a; c]; ELoop None; EActivity c CORRUPT; EActivity a COMPLETE; ENoMoreShares; ELoop None; ELoop None; ELoop None])
  = [OStart c; OStart a; OFetchFailed NotEnoughSharesError]%N.
Proof. vm_compute. reflexivity. Qed.

(* latent: after an OVERDUE the fetcher can collect more than k blocks (k = 1 here, two
   blocks handed over); CRSDecoder.decode insists on exactly k.  No Share emits OVERDUE
   in this tree, so the node never sees it. *)
Example ex_more_than_k_blocks_after_overdue :
  let a := mk_share 0 0 0 1 in let b := mk_share 1 1 1 1 in
  snd (frun (finit 1 0) [EAddShares [a; b]; ELoop None; EActivity a OVERDUE; ELoop None; EActivity a COMPLETE; EActivity b COMPLETE; ELoop None])
  = [OStart a; OStart b; OProcessBlocks [(0, 0); (1, 1)]]%N.
Proof. vm_compute. reflexivity. Qed.
