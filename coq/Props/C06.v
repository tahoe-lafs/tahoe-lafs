(* C06  A successful immutable upload meets servers-of-happiness.
   Statements only; proofs are in Proofs/UploadSel*.v.  Model: Model/UploadSel.v (Tahoe2ServerSelector.get_shareholders
   with its bookkeeping and allocation rounds, CHKUploader.set_shareholders / _encrypted_done, Encoder._remove_shareholder /
   err / done, the requests sent to bucket writers) on top of Model/Matching.v (servers_of_happiness, C08).

   `upload_run c x` runs the model on a script x of server answers: get_buckets answers, then per allocation round the
   placement plan (any plan: C07 is about the plan) and the allocate_buckets answers, then the answers to every write
   round and to close, each list in arrival order.  Everything below holds for EVERY configuration and EVERY script:
   any mix of full / read-only / failing servers, any pre-existing shares, failures on any call, any order of answers.

   found x p s       server p listed share s in its get_buckets answer
   allocated x p s   server p returned a bucket writer for share s in an allocate_buckets answer
   write_failed x s  the writer of share s answered some write round with an error
   r_placed          the sharemap of the UploadResults (share -> server)
   r_servermap       Encoder.servermap at the end (what the last happiness test saw)
   r_log             the requests sent to bucket writers, per bucket in connection order
   final_state       the storage server's bucket life cycle (C22: visible iff closed; abort of an open writer
                     deletes it, abort after close does nothing) run over that log. *)
From Coq Require Import List NArith ZArith Bool.
From Verif Require Import Model.Matching Model.UploadSel Proofs.UploadSelBase Proofs.UploadSelSelector Proofs.UploadSelEncoder
  Proofs.UploadSel Proofs.UploadSelMatching Proofs.UploadSelNoDup.
Import ListNotations.
Local Open Scope N_scope.

(* the selector: it fails exactly when the happiness of (shares found + buckets allocated) is below the threshold *)
Theorem selector_verdict_is_happiness_test :
  forall c x,
    let r := upload_run c x in
    (r_verdict r = VUnhappySel -> exists eff, happiness (r_sel r) = Some eff /\ (eff < c_happy c)%Z) /\
    (r_verdict r = VSuccess \/ r_verdict r = VUnhappyEnc \/ r_verdict r = VAssert ->
       exists eff, happiness (r_sel r) = Some eff /\ (c_happy c <= eff)%Z).
Proof. intros c x. exact (selector_verdict_shape c x _ (upload_run_shape c x)). Qed.
Print Assumptions selector_verdict_is_happiness_test.

(* the whole upload: at the end the map the encoder kept (found shares + writers still alive) is happy enough *)
Theorem success_implies_happy :
  forall c x, r_verdict (upload_run c x) = VSuccess ->
    exists h, servers_of_happiness (r_servermap (upload_run c x)) = Some h /\ (c_happy c <= h)%Z.
Proof. intros c x. exact (success_implies_happy_shape c x _ (upload_run_shape c x)). Qed.
Print Assumptions success_implies_happy.

(* ... and every edge of that map is a share a server reported or a share the results name *)
Theorem servermap_edges_found_or_placed :
  forall c x s p, r_verdict (upload_run c x) = VSuccess ->
    dm_in (r_servermap (upload_run c x)) s p -> found x p s \/ In (s, p) (r_placed (upload_run c x)).
Proof. intros c x. exact (servermap_edges_shape c x _ (upload_run_shape c x)). Qed.
Print Assumptions servermap_edges_found_or_placed.

(* hence (C08): at least `happy` distinct servers hold pairwise distinct shares, each found or placed *)
Theorem success_has_matching :
  forall c x, r_verdict (upload_run c x) = VSuccess ->
    exists M : list (N * N),
      NoDup (map fst M) /\ NoDup (map snd M) /\ (c_happy c <= Z.of_nat (length M))%Z /\
      forall p s, In (p, s) M -> found x p s \/ In (s, p) (r_placed (upload_run c x)).
Proof.
  intros c x V. destruct (success_implies_happy c x V) as (h & Hs & Hh).
  exact (happy_map_has_matching _ _ _ _ Hs Hh (fun s p => servermap_edges_found_or_placed c x s p V)).
Qed.
Print Assumptions success_has_matching.

Theorem selector_success_has_matching :
  forall c x,
    (r_verdict (upload_run c x) = VSuccess \/ r_verdict (upload_run c x) = VUnhappyEnc \/ r_verdict (upload_run c x) = VAssert) ->
    exists M : list (N * N),
      NoDup (map fst M) /\ NoDup (map snd M) /\ (c_happy c <= Z.of_nat (length M))%Z /\
      forall p s, In (p, s) M -> found x p s \/ allocated x p s.
Proof.
  intros c x V. destruct (proj2 (selector_verdict_is_happiness_test c x) V) as (eff & Hs & Hh).
  apply (happy_map_has_matching _ _ _ _ Hs Hh). intros s p. apply (selector_edges_shape c x _ (upload_run_shape c x)).
  destruct V as [V|[V|V]]; rewrite V; discriminate.
Qed.
Print Assumptions selector_success_has_matching.

(* exactly the buckets the selector obtained whose every write and whose close were acknowledged *)
Theorem placed_shares_closed :
  forall c x s p, r_verdict (upload_run c x) = VSuccess ->
    (In (s, p) (r_placed (upload_run c x)) <->
     In (p, s) (sel_buckets (r_sel (upload_run c x))) /\ ~ write_failed x s /\ lookup_c s (x_close x) = Some COk).
Proof. intros c x. exact (placed_shares_closed_shape c x _ (upload_run_shape c x)). Qed.
Print Assumptions placed_shares_closed.

Theorem buckets_were_allocated :
  forall c x p s, r_verdict (upload_run c x) <> VPending ->
    In (p, s) (sel_buckets (r_sel (upload_run c x))) -> allocated x p s.
Proof. intros c x. exact (buckets_were_allocated_shape c x _ (upload_run_shape c x)). Qed.
Print Assumptions buckets_were_allocated.

(* on the server such a bucket is closed, i.e. visible to readers *)
Theorem placed_are_closed_on_server :
  forall c x s p, r_verdict (upload_run c x) = VSuccess -> In (s, p) (r_placed (upload_run c x)) ->
    final_state (r_log (upload_run c x)) (p, s) = BClosed.
Proof. intros c x. exact (placed_are_closed_shape c x _ (upload_run_shape c x)). Qed.
Print Assumptions placed_are_closed_on_server.

(* UploadUnhappinessError from the selector or from the encoder: every bucket the selector obtained is sent abort *)
Theorem failure_aborts_all :
  forall c x b, failed_unhappy (r_verdict (upload_run c x)) ->
    In b (sel_buckets (r_sel (upload_run c x))) -> In (b, OpAbort) (r_log (upload_run c x)).
Proof. intros c x. exact (failure_aborts_all_shape c x _ (upload_run_shape c x)). Qed.
Print Assumptions failure_aborts_all.

(* so none of them stays open (in incoming/): each is aborted, or was closed before the abort arrived *)
Theorem failure_leaves_no_open_bucket :
  forall c x b, failed_unhappy (r_verdict (upload_run c x)) ->
    In b (sel_buckets (r_sel (upload_run c x))) -> final_state (r_log (upload_run c x)) b <> BOpen.
Proof. intros c x b V Hb. apply aborted_not_open, failure_aborts_all; assumption. Qed.
Print Assumptions failure_leaves_no_open_bucket.

(* whatever the verdict: a bucket that ends closed (visible) had every write acknowledged before close was sent,
   so no partial share is ever visible *)
Theorem visible_share_complete :
  forall c x p s, final_state (r_log (upload_run c x)) (p, s) = BClosed ->
    In (p, s) (sel_buckets (r_sel (upload_run c x))) /\ ~ write_failed x s /\
    exists r, lookup_c s (x_close x) = Some r /\ r <> CFlushErr.
Proof. intros c x. exact (visible_share_complete_shape c x _ (upload_run_shape c x)). Qed.
Print Assumptions visible_share_complete.

(* When every plan is a function of the share number (it is a dict) and every server allocates only share numbers
   its query asked for, no two trackers ever hold a bucket for the same share, so set_shareholders' assertion
   holds and the upload ends with success or an unhappiness error (or waits for an answer).  Before /repo 111e37b
   a re-planned share got a second bucket and the upload died with AssertionError, nothing aborted. *)
Theorem honest_upload_never_asserts :
  forall c x, plans_functional x -> honest_run c x -> r_verdict (upload_run c x) <> VAssert.
Proof. intros c x. exact (honest_never_asserts_shape c x _ (upload_run_shape c x)). Qed.
Print Assumptions honest_upload_never_asserts.

Theorem honest_run_checker_sound :
  forall c x, honest_runb c x = true -> plans_functional x /\ honest_run c x.
Proof. exact honest_runb_sound. Qed.
Print Assumptions honest_run_checker_sound.

(* 4 servers (0,1,2 writable, 3 announced read-only and holding share 0), 3 shares, happy = 3.  Server 2 is full in
   the first round (allocates nothing), the second round has nowhere else to go: happiness 2 < 3, the buckets on
   servers 0 and 1 are aborted. *)
Definition ex_cfg : config := {| c_happy := 3%Z; c_total := 3; c_ro := [3]; c_rw := [0; 1; 2] |}.
Definition ex_plan : list (N * option N) := [(0, Some 0); (1, Some 1); (2, Some 2)].
Definition ex_unhappy : script :=
  {| x_existing := [(3, ExOk [0]); (0, ExOk []); (1, ExOk []); (2, ExOk [])];
     x_rounds := [ {| r_plan := ex_plan; r_resps := [(3, AlOk [0] []); (0, AlOk [] [0]); (2, AlOk [] []); (1, AlOk [] [1])] |};
                   {| r_plan := ex_plan; r_resps := [(2, AlOk [] []); (3, AlOk [0] [])] |} ];
     x_writes := []; x_close := [] |}.

Example ex_unhappy_nonvacuous :
  let r := upload_run ex_cfg ex_unhappy in
  verdict_eqb (r_verdict r) VUnhappySel = true /\ happiness (r_sel r) = Some 2%Z /\
  pairs_eqb (aborted_buckets (r_log r)) [(0, 0); (1, 1)] = true /\
  final_state (r_log r) (0, 0) = BAborted /\ final_state (r_log r) (1, 1) = BAborted.
Proof. vm_compute. repeat split; reflexivity. Qed.

(* the same grid with server 2 accepting share 2: success; one write round and the close round *)
Definition ex_ok : script :=
  {| x_existing := [(3, ExOk [0]); (0, ExOk []); (1, ExOk []); (2, ExOk [])];
     x_rounds := [ {| r_plan := ex_plan; r_resps := [(3, AlOk [0] []); (0, AlOk [] [0]); (2, AlOk [] [2]); (1, AlOk [] [1])] |} ];
     x_writes := [[(0, WOk); (1, WOk); (2, WOk)]]; x_close := [(2, COk); (0, COk); (1, COk)] |}.

Example ex_ok_nonvacuous :
  let r := upload_run ex_cfg ex_ok in
  verdict_eqb (r_verdict r) VSuccess = true /\ servers_of_happiness (r_servermap r) = Some 3%Z /\
  pairs_eqb (r_placed r) [(0, 0); (1, 1); (2, 2)] = true /\
  final_state (r_log r) (2, 2) = BClosed /\ aborted_buckets (r_log r) = [].
Proof. vm_compute. repeat split; reflexivity. Qed.

(* share 1's writer fails a write: happy = 3 is lost (servers 0/3 share 0, server 2 share 2), the encoder raises, the
   remaining writers are aborted; with happy = 2 the same answers give success without share 1 *)
Definition ex_write_fails : script :=
  {| x_existing := x_existing ex_ok; x_rounds := x_rounds ex_ok;
     x_writes := [[(0, WOk); (1, WErr); (2, WOk)]]; x_close := [(2, COk); (0, COk); (1, COk)] |}.

Example ex_write_fails_nonvacuous :
  let r := upload_run ex_cfg ex_write_fails in
  verdict_eqb (r_verdict r) VUnhappyEnc = true /\
  pairs_eqb (aborted_buckets (r_log r)) [(0, 0); (1, 1); (2, 2)] = true /\ closed_buckets (r_log r) = [] /\
  let r2 := upload_run {| c_happy := 2%Z; c_total := 3; c_ro := [3]; c_rw := [0; 1; 2] |} ex_write_fails in
  verdict_eqb (r_verdict r2) VSuccess = true /\ pairs_eqb (r_placed r2) [(0, 0); (2, 2)] = true /\
  final_state (r_log r2) (1, 1) = BAborted.
Proof. vm_compute. repeat split; reflexivity. Qed.

(* close answered with an error after the server executed it: the share is complete and visible but not reported,
   and the upload fails (happy = 3): visible_share_complete covers it, failure_leaves_no_open_bucket too *)
Definition ex_close_error_after : script :=
  {| x_existing := x_existing ex_ok; x_rounds := x_rounds ex_ok;
     x_writes := [[(0, WOk); (1, WOk); (2, WOk)]]; x_close := [(1, CErr true); (0, COk); (2, COk)] |}.

Example ex_close_error_after_nonvacuous :
  let r := upload_run ex_cfg ex_close_error_after in
  verdict_eqb (r_verdict r) VUnhappyEnc = true /\ final_state (r_log r) (1, 1) = BClosed /\
  final_state (r_log r) (0, 0) = BClosed /\ pairs_eqb (aborted_buckets (r_log r)) [(0, 0); (1, 1); (2, 2)] = true.
Proof. vm_compute. repeat split; reflexivity. Qed.

(* server 2 fails in the first round; the second plan moves share 0 from server 0 (which holds a writer for it) to
   server 1: since /repo 111e37b the selector asks server 1 for share 1 only (before, both servers held a writer for
   share 0 and set_shareholders raised AssertionError) *)
Definition ex_replan : script :=
  {| x_existing := [(0, ExOk []); (1, ExOk []); (2, ExOk [])];
     x_rounds := [ {| r_plan := [(0, Some 0); (1, Some 2)]; r_resps := [(0, AlOk [] [0]); (2, AlErr)] |};
                   {| r_plan := [(0, Some 1); (1, Some 1)]; r_resps := [(1, AlOk [] [1]); (2, AlOk [] []); (0, AlOk [] [])] |} ];
     x_writes := []; x_close := [(0, COk); (1, COk)] |}.

Example ex_replan_nonvacuous :
  let r := upload_run {| c_happy := 2%Z; c_total := 2; c_ro := []; c_rw := [0; 1; 2] |} ex_replan in
  verdict_eqb (r_verdict r) VSuccess = true /\ pairs_eqb (r_placed r) [(0, 0); (1, 1)] = true /\
  all_queries_eqb (r_queries r) [[(0, [0]); (2, [1])]; [(0, []); (1, [1]); (2, [])]] = true.
Proof. vm_compute. repeat split; reflexivity. Qed.

(* the hypotheses of honest_upload_never_asserts hold on the examples above ... *)
Example ex_honest_nonvacuous :
  honest_runb ex_cfg ex_ok = true /\ honest_runb ex_cfg ex_unhappy = true /\
  honest_runb {| c_happy := 2%Z; c_total := 2; c_ro := []; c_rw := [0; 1; 2] |} ex_replan = true.
Proof. vm_compute. repeat split; reflexivity. Qed.

(* ... and cannot be dropped: a server that returns a writer for a share it was not asked for (server 1, share 0,
   which server 0 also holds) makes the assertion fail; nothing is aborted then *)
Definition ex_lying : script :=
  {| x_existing := [(0, ExOk []); (1, ExOk [])];
     x_rounds := [ {| r_plan := [(0, Some 0); (1, Some 1)]; r_resps := [(0, AlOk [] [0]); (1, AlOk [] [0; 1])] |} ];
     x_writes := []; x_close := [] |}.

Example ex_lying_nonvacuous :
  let c := {| c_happy := 2%Z; c_total := 2; c_ro := []; c_rw := [0; 1] |} in
  verdict_eqb (r_verdict (upload_run c ex_lying)) VAssert = true /\ honest_runb c ex_lying = false /\
  r_log (upload_run c ex_lying) = [].
Proof. vm_compute. repeat split; reflexivity. Qed.
