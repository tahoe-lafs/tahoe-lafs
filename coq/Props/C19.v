(* C19  Directory contents round-trip.
   Statements only; each is closed by `exact` of a lemma in Proofs/DirnodePack.v or Proofs/DirnodeCaps.v.
   Model: Model/Dirnode.v (dirnode.pack_children/_pack_normalized_children, DirectoryNode._unpack_contents,
   unknown.UnknownNode/strip_prefix_for_ro, NodeMaker.create_from_cap, util/netstring.py).
   External behaviour, as hypotheses of each theorem: normalize (NFC) is idempotent; JSON loads . dumps = id;
   AES-CTR decryption undoes encryption.  `classify` (what uri.py makes of a cap
   string) is universally quantified.
   Predicates (all computable):
     stableb classify n   (Model/Dirnode.v) the node maker rebuilds n from the two cap fields the packer
                          writes for it (no error recorded).  This is where "caps without trailing spaces"
                          lives: _unpack_contents strips trailing spaces, so a node whose cap ends in a
                          space is not stable (recorded below as unpack_pack_trailing_space_refuted), and so
                          is an unknown cap whose body itself starts with "ro."/"imm." (..._nested_prefix_refuted).
     names_normal, all_nodes, with_aux, normalized_list, last_binding, shape_ok, mutable_or_writecap, no_err:
                          Proofs/DirnodePack.v, Proofs/DirnodeBase.v, Proofs/DirnodeCaps.v *)
From Coq Require Import List NArith Bool String.
From Verif Require Import Lib.Hex Lib.Netstring Model.Dirnode Proofs.DirnodeBase Proofs.DirnodeCaps Proofs.DirnodePack.
Import ListNotations.
Local Open Scope N_scope.

(* packing the caller's dict of children (any names, any order) and unpacking through the writeable
   directory gives exactly the dict {normalize(name): (child, metadata)}: same names, caps, metadata *)
Theorem unpack_pack :
  forall (classify : bytes -> capclass) (normalize : bytes -> bytes) (MD : Type)
         (dumps : MD -> bytes) (loads : bytes -> option MD) (enc dec : bytes -> bytes -> bytes),
    (forall x, normalize (normalize x) = normalize x) ->
    (forall m, loads (dumps m) = Some m) ->
    (forall k d, dec k (enc k d) = d) ->
    forall (wk : bytes) (l : list (bytes * (node * MD))),
      (forall k v, In (k, v) l -> stableb classify (fst v) = true) ->
      exists data,
        pack_children normalize MD dumps enc l (Some wk) false = inr data /\
        exists children,
          unpack_contents classify normalize MD loads dec true true wk data = inr children /\
          view MD children = sm_of_list (normalized_list normalize MD l).
Proof. exact unpack_pack_list. Qed.
Print Assumptions unpack_pack.

(* the same for a directory already held as a (sorted, normalised) map: unpack (pack m) = m, and the
   cached entry of each child is the bytes the packer wrote for it *)
Theorem unpack_pack_dir :
  forall (classify : bytes -> capclass) (normalize : bytes -> bytes) (MD : Type)
         (dumps : MD -> bytes) (loads : bytes -> option MD) (enc dec : bytes -> bytes -> bytes),
    (forall m, loads (dumps m) = Some m) ->
    (forall k d, dec k (enc k d) = d) ->
    forall (wk : bytes) (m : smap (node * MD)),
      sm_sorted m = true -> names_normal normalize MD m -> all_nodes MD (stableb classify) m ->
      exists data,
        pack_normalized MD dumps enc (fresh MD m) (Some wk) false = inr data /\
        exists children,
          unpack_contents classify normalize MD loads dec true true wk data = inr children /\
          view MD children = m /\
          children = with_aux MD dumps enc (fun n => n) (Some wk) false m.
Proof. exact unpack_pack_map. Qed.
Print Assumptions unpack_pack_dir.

(* two names of the caller's dict with the same normal form: the later one is what the directory holds *)
Theorem later_duplicate_wins :
  forall (classify : bytes -> capclass) (normalize : bytes -> bytes) (MD : Type)
         (dumps : MD -> bytes) (loads : bytes -> option MD) (enc dec : bytes -> bytes -> bytes),
    (forall x, normalize (normalize x) = normalize x) ->
    (forall m, loads (dumps m) = Some m) ->
    (forall k d, dec k (enc k d) = d) ->
    forall (wk : bytes) (l : list (bytes * (node * MD))) (name : bytes),
      (forall k v, In (k, v) l -> stableb classify (fst v) = true) ->
      exists data children,
        pack_children normalize MD dumps enc l (Some wk) false = inr data /\
        unpack_contents classify normalize MD loads dec true true wk data = inr children /\
        sm_get name (view MD children) = last_binding name (normalized_list normalize MD l).
Proof. exact pack_children_later_wins. Qed.
Print Assumptions later_duplicate_wins.

(* stored bytes with several entries whose names normalise to the same name (in any order): the
   later entry wins *)
Theorem later_entry_wins :
  forall (classify : bytes -> capclass) (normalize : bytes -> bytes) (MD : Type)
         (dumps : MD -> bytes) (loads : bytes -> option MD) (enc dec : bytes -> bytes -> bytes),
    (forall m, loads (dumps m) = Some m) ->
    (forall k d, dec k (enc k d) = d) ->
    forall (wk : bytes) (l : list (bytes * (node * MD))) (name : bytes),
      (forall k v, In (k, v) l -> stableb classify (fst v) = true) ->
      exists children,
        unpack_contents classify normalize MD loads dec true true wk
                        (concat_ns (map (entry_of MD dumps enc (Some wk) false) l)) = inr children /\
        sm_get name (view MD children) = last_binding name (normalized_list normalize MD l).
Proof. exact unpack_later_entry_wins. Qed.
Print Assumptions later_entry_wins.

(* packing an immutable directory: a child that is mutable or carries a write cap makes the packer
   raise MustBeDeepImmutableError (no child being an opaque error node, which raises its own error) *)
Theorem immutable_dir_rejects_mutable :
  forall (MD : Type) (dumps : MD -> bytes) (enc : bytes -> bytes -> bytes)
         (m : smap (node * MD)) (k : bytes) (n : node) (md : MD),
    all_nodes MD no_err m -> all_nodes MD shape_ok m ->
    In (k, (n, md)) m -> mutable_or_writecap n = true ->
    pack_normalized MD dumps enc (fresh MD m) None true = inl EDeepImmutable.
Proof. exact immutable_pack_rejects. Qed.
Print Assumptions immutable_dir_rejects_mutable.

(* every node the node maker builds has the shape assumed above *)
Theorem nodemaker_nodes_have_shape :
  forall (classify : bytes -> capclass) (di : bool) (w r : option bytes),
    shape_ok (create_from_cap classify di w r) = true.
Proof. exact cfc_shape_ok. Qed.
Print Assumptions nodemaker_nodes_have_shape.

(* ... and, when uri.py classifies caps coherently (caps_coherent_full: known caps print canonically --
   no trailing space, no alleged prefix -- and re-parse to the same class; validated by the driver, proved
   for uri.py's grammar in C15/C16), every node the node maker builds without error from cap strings
   that have no trailing space and at most one alleged prefix (cap_ok) is stable: "any capability kinds" *)
Theorem nodemaker_nodes_stable :
  forall (classify : bytes -> capclass) (w r : option bytes),
    caps_coherent_full classify -> ocap_ok w -> ocap_ok r ->
    n_err (create_from_cap classify false w r) = None ->
    stableb classify (create_from_cap classify false w r) = true.
Proof. exact cfc_stable. Qed.
Print Assumptions nodemaker_nodes_stable.

(* in general the first child (in name order) that is an error node or not allowed decides the exception *)
Theorem immutable_dir_first_refusal :
  forall (MD : Type) (dumps : MD -> bytes) (enc : bytes -> bytes -> bytes) (m : smap (node * MD)),
    match first_unpackable MD true m with
    | None => exists data, pack_normalized MD dumps enc (fresh MD m) None true = inr data
    | Some (_, (n, _)) =>
      pack_normalized MD dumps enc (fresh MD m) None true
      = inl (match n_err n with Some e => ECap e | None => EDeepImmutable end)
    end.
Proof. exact immutable_pack_refuses. Qed.
Print Assumptions immutable_dir_first_refusal.

(* recorded examples outside the well-formedness predicate *)
(* a cap ending in a space: the node maker accepts it (unknown cap, no error), the packer stores it,
   _unpack_contents strips the space: the child comes back with a different read cap *)
Theorem unpack_pack_trailing_space_refuted :
  exists ro, let n := create_from_cap (classify_tbl []) false None (Some ro) in
             n_err n = None /\ n_ro (reread (classify_tbl []) n) <> n_ro n.
Proof. exists (bytes_of_string "foo "). vm_compute. split; [reflexivity|discriminate]. Qed.
Print Assumptions unpack_pack_trailing_space_refuted.

(* an unknown cap whose body starts with an alleged prefix again: one prefix is lost *)
Theorem unpack_pack_nested_prefix_refuted :
  exists ro, let n := create_from_cap (classify_tbl []) false None (Some ro) in
             n_err n = None /\ n_ro (reread (classify_tbl []) n) <> n_ro n.
Proof. exists (bytes_of_string "ro.ro.foo"). vm_compute. split; [reflexivity|discriminate]. Qed.
Print Assumptions unpack_pack_nested_prefix_refuted.

(* the hypotheses are satisfiable, the predicates are inhabited *)
Example ex_hypotheses_nonvacuous :
  (forall x : bytes, (fun y => y) ((fun y => y) x) = (fun y => y) x) /\
  (forall m, loads_raw (dumps_raw m) = Some m) /\
  (forall k d : bytes, (fun _ x => x) k ((fun _ x : bytes => x) k d) = d).
Proof. repeat split. Qed.

Definition ex_W : bytes := bytes_of_string "URI:SSK:w".
Definition ex_R : bytes := bytes_of_string "URI:SSK-RO:r".
Definition ex_cls := classify_tbl [(ex_W, KWrite false ex_W ex_R); (ex_R, KRead false ex_R);
                                   (bytes_of_string "URI:CHK:c", KImm false (bytes_of_string "URI:CHK:c"))].
Example ex_coherent_nonvacuous : caps_coherent_full ex_cls.
Proof.
  intro s. unfold ex_cls, classify_tbl. cbn [assoc_bytes].
  destruct (list_N_eqb s ex_W); [vm_compute; repeat split; reflexivity|].
  destruct (list_N_eqb s ex_R); [vm_compute; repeat split; reflexivity|].
  destruct (list_N_eqb s (bytes_of_string "URI:CHK:c")); [vm_compute; repeat split; reflexivity|exact I].
Qed.

Example ex_stable_nonvacuous :
  forallb (stableb ex_cls)
          [create_from_cap ex_cls false (Some ex_W) None;
           create_from_cap ex_cls false None (Some ex_R);
           create_from_cap ex_cls false None (Some (bytes_of_string "URI:CHK:c"));
           create_from_cap ex_cls false None (Some (bytes_of_string "lafs://future"));
           create_from_cap ex_cls false (Some (bytes_of_string "future-rw")) (Some (bytes_of_string "ro.future-ro"));
           create_from_cap ex_cls false None (Some (bytes_of_string "imm.future"));
           create_from_cap ex_cls false None None] = true.
Proof. vm_compute. reflexivity. Qed.

(* a concrete round trip computed inside Coq (identity cipher, raw metadata) *)
Example ex_round_trip_nonvacuous :
  let l := [(bytes_of_string "b", (create_from_cap ex_cls false (Some ex_W) None, bytes_of_string "{}"));
            (bytes_of_string "a", (create_from_cap ex_cls false None (Some (bytes_of_string "lafs://future")), bytes_of_string "{""k"": 1}"))] in
  match pack_children (fun x => x) bytes dumps_raw (fun _ d => d) l (Some (bytes_of_string "0123456789abcdef")) false with
  | inr data =>
    match unpack_contents ex_cls (fun x => x) bytes loads_raw (fun _ d => d) true true (bytes_of_string "0123456789abcdef") data with
    | inr children => forallb (fun kc => match sm_get (fst kc) (view bytes children) with
                                         | Some (n, md) => node_eqb n (fst (snd kc)) && list_N_eqb md (snd (snd kc))
                                         | None => false end) l
    | inl _ => false
    end
  | inl _ => false
  end = true.
Proof. vm_compute. reflexivity. Qed.

Example ex_immutable_rejects_nonvacuous :
  pack_normalized bytes dumps_raw (fun _ d => d)
                  (fresh bytes [(bytes_of_string "a", (create_from_cap ex_cls false None (Some ex_R), bytes_of_string "{}"))]) None true
  = inl EDeepImmutable.
Proof. vm_compute. reflexivity. Qed.
