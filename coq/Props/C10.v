(* C10  Mutable reads return only published versions.
   Model/MutVerify.v: the chain of checks a reader applies (fingerprint of the verification
   key, signature over the version prefix, block hash tree, share hash tree).  Hashes and the
   signature scheme are abstract; collision-freeness on the values hashed and idealised
   unforgeability are explicit hypotheses of each theorem.  The share `s` is ARBITRARY
   (adversarial); `g` is the published version. *)
From Coq Require Import List NArith Bool.
From Verif Require Import Model.ServerMap Model.MutRetry Proofs.MutRetry.
From Verif Require Import Model.MutVerify Proofs.MutVerify.
Import ListNotations.
Local Open Scope N_scope.

(* any version a reader accepts was signed by the key whose hash is in the capability *)
Theorem accepted_version_signed :
  forall (V : Type) (h_fp : V -> V) (verify : V -> V -> V -> bool) (prefix_of : N -> V -> V) (veq : V -> V -> bool),
    (forall a b : V, veq a b = true <-> a = b) ->
    (forall a b : V, h_fp a = h_fp b -> a = b) ->
    forall signed_by : V -> V -> Prop,
    (forall pk sig msg : V, verify pk sig msg = true -> signed_by pk msg) ->
    forall (fingerprint : V) (g : share V),
    h_fp (s_pubkey V g) = fingerprint ->
    forall s : share V,
    version_accepted V h_fp verify prefix_of veq fingerprint s = true ->
    s_pubkey V s = s_pubkey V g /\ signed_by (s_pubkey V g) (prefix_of (s_seqnum V s) (s_root_hash V s)).
Proof. exact accepted_version_signed_ok. Qed.
Print Assumptions accepted_version_signed.

(* a block (and salt) accepted under a published root hash is the published block *)
Theorem retrieved_plaintext_published :
  forall (V : Type) (pair h_blk : V -> V -> V) (veq : V -> V -> bool),
    (forall a b : V, veq a b = true <-> a = b) ->
    (forall a b c d : V, pair a b = pair c d -> a = c /\ b = d) ->
    (forall a b c d : V, h_blk a b = h_blk c d -> a = c /\ b = d) ->
    forall (g : share V) (shnum : N),
    (forall seg : N,
      root_from V pair (root_from V pair (h_blk (s_salt V g seg) (s_block V g seg)) seg (s_block_path V g seg))
                shnum (s_share_path V g) = s_root_hash V g) ->
    forall (s : share V) (seg : N),
    s_root_hash V s = s_root_hash V g ->
    length (s_share_path V s) = length (s_share_path V g) ->
    length (s_block_path V s seg) = length (s_block_path V g seg) ->
    block_accepted V pair h_blk veq s shnum seg = true ->
    s_block V s seg = s_block V g seg /\ s_salt V s seg = s_salt V g seg.
Proof. exact retrieved_block_published_ok. Qed.
Print Assumptions retrieved_plaintext_published.

(* holders of only a read-cap or verify-cap, and storage servers, cannot make readers accept
   a version the write-cap holder did not publish *)
Theorem readcap_cannot_forge :
  forall (V : Type) (h_fp : V -> V) (verify : V -> V -> V -> bool) (prefix_of : N -> V -> V) (veq : V -> V -> bool),
    (forall a b : V, veq a b = true <-> a = b) ->
    (forall a b : V, h_fp a = h_fp b -> a = b) ->
    (forall (n : N) (r : V) (m : N) (q : V), prefix_of n r = prefix_of m q -> n = m /\ r = q) ->
    forall signed_by : V -> V -> Prop,
    (forall pk sig msg : V, verify pk sig msg = true -> signed_by pk msg) ->
    forall (fingerprint : V) (g : share V),
    h_fp (s_pubkey V g) = fingerprint ->
    forall published : N -> V -> Prop,
    (forall m : V, signed_by (s_pubkey V g) m -> exists (n : N) (r : V), m = prefix_of n r /\ published n r) ->
    forall s : share V,
    version_accepted V h_fp verify prefix_of veq fingerprint s = true ->
    published (s_seqnum V s) (s_root_hash V s).
Proof. exact readcap_cannot_forge_ok. Qed.
Print Assumptions readcap_cannot_forge.

(* completeness of the reader's checks ("if k intact shares are reachable the read succeeds", at
   the level of the checks): a share exactly as published -- key matching the cap, signature over
   its own prefix, hash chains consistent with its root -- is accepted; rejection therefore always
   means the share differs from what the write-cap holder stored *)
Theorem genuine_share_accepted :
  forall (V : Type) (pair h_blk : V -> V -> V) (h_fp : V -> V) (verify : V -> V -> V -> bool)
         (prefix_of : N -> V -> V) (veq : V -> V -> bool),
    (forall a b : V, veq a b = true <-> a = b) ->
    forall (fingerprint : V) (g : share V) (shnum seg : N),
      h_fp (s_pubkey V g) = fingerprint ->
      verify (s_pubkey V g) (s_signature V g) (prefix_of (s_seqnum V g) (s_root_hash V g)) = true ->
      root_from V pair (root_from V pair (h_blk (s_salt V g seg) (s_block V g seg)) seg (s_block_path V g seg))
                shnum (s_share_path V g) = s_root_hash V g ->
      read_accepts V pair h_blk h_fp verify prefix_of veq fingerprint g shnum seg = true.
Proof. exact genuine_share_accepted_ok. Qed.
Print Assumptions genuine_share_accepted.

(* "IF AT LEAST k INTACT SHARES OF THE NEWEST PUBLISHED VERSION ARE REACHABLE, THE READ SUCCEEDS":
   version selection and retry of download_best_version (Model/MutRetry.v, the logic as repaired
   in /repo 6b48610).  g has k >= 1 good (= exactly as published, hence accepted, theorem above)
   distinct shares among those located; every other version that sorts at or above g -- e.g. the
   "versions" that shares with an altered, unsigned offset table are filed under -- has fewer than
   k good ones.  Then the read returns g, whichever bad shares each failed attempt happened to
   see (pick is arbitrary but makes progress), within length+1 attempts. *)
Theorem read_finds_newest_with_k_good_shares :
  forall (pick : list gshare -> version -> gshare -> bool),
    (forall l v, (exists s, In s l /\ is_bad_of v s = true) ->
                 exists s, In s l /\ is_bad_of v s = true /\ pick l v s = true) ->
    forall g l,
      1 <= vk g -> vk g <= good_count l g ->
      (forall w, w <> g -> version_leb g w = true -> good_count l w < vk w) ->
      download_best_version pick l = Some g.
Proof. intros. apply retry_finds_genuine; auto. Qed.
Print Assumptions read_finds_newest_with_k_good_shares.

(* and the loop never ends with a version that lacks k good distinct shares *)
Theorem read_result_has_k_good_shares :
  forall pick fuel l v, retry pick fuel l = Some v -> vk v <= good_count l v.
Proof. exact retry_sound. Qed.
Print Assumptions read_result_has_k_good_shares.

(* non-vacuity: 2-of-4 file, genuine version (seq 3, tag 5) on shares 0 and 1; shares 2 and 3 carry an
   altered offset table and are filed as version (seq 3, tag 9), which sorts above and looks
   recoverable: two attempts fail on it (one share ruled out each time), the third returns the
   genuine version; a single retry on a NEW map (fuel 2, nothing ruled out) would have given up *)
Definition ex_g := {| seq := 3; vtag := 5; vk := 2 |}.
Definition ex_f := {| seq := 3; vtag := 9; vk := 2 |}.
Definition ex_l : list gshare :=
  [ {| gs_share := {| srv := 1; shnum := 0; ver := ex_g |}; gs_good := true |};
    {| gs_share := {| srv := 2; shnum := 1; ver := ex_g |}; gs_good := true |};
    {| gs_share := {| srv := 3; shnum := 2; ver := ex_f |}; gs_good := false |};
    {| gs_share := {| srv := 4; shnum := 3; ver := ex_f |}; gs_good := false |} ].
Definition ex_pick_first (l : list gshare) (v : version) (s : gshare) : bool :=
  match filter (is_bad_of v) l with x :: _ => shnum (gs_share x) =? shnum (gs_share s) | [] => false end.
Example ex_retry :
  best_recoverable_version (vis ex_l) = Some ex_f /\
  download_best_version ex_pick_first ex_l = Some ex_g /\
  retry ex_pick_first 1 ex_l = None /\ retry ex_pick_first 2 ex_l = Some ex_g /\
  download_best_version (fun _ _ _ => true) ex_l = Some ex_g.
Proof. vm_compute. repeat split. Qed.

(* Merkle binding used above *)
Theorem merkle_path_binds_leaf :
  forall (V : Type) (pair : V -> V -> V),
    (forall a b c d : V, pair a b = pair c d -> a = c /\ b = d) ->
    forall (p q : list V) (l l' : V) (i : N),
    length p = length q -> root_from V pair l i p = root_from V pair l' i q -> l = l'.
Proof. exact root_from_binding. Qed.
Print Assumptions merkle_path_binds_leaf.

(* non-vacuity: the hypotheses are satisfiable (symbolic instance), a genuine share is accepted,
   and single-field forgeries are rejected *)
Definition ex_blk (seg : N) := Atom (100 + seg).
Definition ex_salt (seg : N) := Atom (200 + seg).
Definition ex_bpath (seg : N) : list sym := [Atom (300 + seg)].
Definition ex_spath : list sym := [Atom 400; Atom 401].
Definition ex_root : sym := root_from sym SPair (root_from sym SPair (SBlk (ex_salt 0) (ex_blk 0)) 0 (ex_bpath 0)) 2 ex_spath.
Definition ex_genuine : share sym :=
  {| s_pubkey := Atom 7; s_signature := SSig 7 (SPrefix 5 ex_root); s_seqnum := 5; s_root_hash := ex_root;
     s_share_path := ex_spath; s_block_path := ex_bpath; s_block := ex_blk; s_salt := ex_salt |}.
Example ex_accepts_and_rejects :
  sym_accepts (SFp (Atom 7)) ex_genuine 2 0 = true /\
  (* another key, correctly self-signed *)
  sym_accepts (SFp (Atom 7)) {| s_pubkey := Atom 8; s_signature := SSig 8 (SPrefix 5 ex_root); s_seqnum := 5; s_root_hash := ex_root;
     s_share_path := ex_spath; s_block_path := ex_bpath; s_block := ex_blk; s_salt := ex_salt |} 2 0 = false /\
  (* right key, signature over another seqnum *)
  sym_accepts (SFp (Atom 7)) {| s_pubkey := Atom 7; s_signature := SSig 7 (SPrefix 5 ex_root); s_seqnum := 6; s_root_hash := ex_root;
     s_share_path := ex_spath; s_block_path := ex_bpath; s_block := ex_blk; s_salt := ex_salt |} 2 0 = false /\
  (* altered block *)
  sym_accepts (SFp (Atom 7)) {| s_pubkey := Atom 7; s_signature := SSig 7 (SPrefix 5 ex_root); s_seqnum := 5; s_root_hash := ex_root;
     s_share_path := ex_spath; s_block_path := ex_bpath; s_block := fun _ => Atom 999; s_salt := ex_salt |} 2 0 = false.
Proof. vm_compute. repeat split. Qed.
Example ex_sym_hypotheses :
  (forall a b, sym_eqb a b = true <-> a = b) /\
  (forall a b c d, SPair a b = SPair c d -> a = c /\ b = d) /\
  (forall a b c d, SBlk a b = SBlk c d -> a = c /\ b = d).
Proof. split; [exact sym_eqb_spec|]. split; intros a b c d H; inversion H; auto. Qed.

From Verif Require Import Gen.MutPins.
From Coq Require Import String.
(* Fingerprints (AST, comments and docstrings excluded) of the source functions this model
   transcribes by hand, regenerated from /repo on every run (harness/translate/mutpins.py):
   the model was written for exactly these versions of them. *)
Theorem model_pins_current :
  pins_C10 =
  [("retrieve_validate_block", "9163920a4c81325b")%string;
   ("retrieve_try_to_validate_prefix", "bd285a7dbf4e5606")%string;
   ("servermap_got_signature_one_share", "df7d2e01521ee153")%string;
   ("servermap_try_to_set_pubkey", "9b3fe4c5d6331ab7")%string;
   ("servermap_got_results", "60636861fd94f8ae")%string;
   ("servermap_got_corrupt_share", "bc3bac0912a7b816")%string;
   ("filenode_download_best_version", "6a55fcbaf8500a00")%string;
   ("retrieve_mark_bad_share", "47c61169c350b32c")%string].
Proof. reflexivity. Qed.
Print Assumptions model_pins_current.
