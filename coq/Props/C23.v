(* C23  Mutable share containers behave like byte arrays.
   Statements only; each is closed by `exact` of, or a short derivation from, a lemma
   in Proofs/MutContainerRefine.v.

   `file` is the byte content of a container file, the operations are the
   byte-level transcription of storage/mutable.py in Model/MutContainer.v,
   `layout_ok maxsz f` is the executable layout invariant of DESIGN.md A.5
   (valid magic, DATA_OFFSET + data_length <= extra_lease_offset <= DATA_OFFSET +
   MAX_SIZE, file ends exactly after the extra-lease block), `abs_data f` the
   readable data (the first data_length bytes of the data region).  `maxsz` is
   MutableShareFile.MAX_SIZE; the theorems hold for every value whose container
   offsets fit the 8-byte header fields (ex_real_max_size: the real one does). *)
From Coq Require Import List NArith Bool.
From Verif Require Import Lib.Hex Gen.MutConsts Model.MutContainer
  Proofs.MutContainerBytes Proofs.MutContainer Proofs.MutContainerRefine.
Import ListNotations.
Local Open Scope N_scope.

(* For every history of test-and-write and read requests against one share --
   existing or missing, a missing share testing as empty, new_length = 0 deleting
   it, a request with a vector beyond MAX_SIZE refused as a whole -- the
   observations (test results, read results, errors) and the final readable data
   are those of the reference growable byte array `run_ref`; the invariant is kept. *)
Theorem refines_bytearray :
  forall maxsz fresh s ops,
    468 + maxsz < 2 ^ 64 ->
    layout_ok maxsz fresh = true -> abs_data fresh = Ok [] ->
    share_ok maxsz s ->
    run_ref maxsz (abs_share s) ops
      = (abs_share (fst (run_share maxsz fresh s ops)), snd (run_share maxsz fresh s ops))
    /\ share_ok maxsz (fst (run_share maxsz fresh s ops)).
Proof. intros maxsz fresh s ops Hm Hf He. exact (run_share_refines maxsz fresh Hm Hf He ops s). Qed.
Print Assumptions refines_bytearray.

(* The same at the level of MutableShareFile.writev itself, including the case in
   which a vector exceeds MAX_SIZE and the call raises after earlier vectors were
   applied: file on disk and exception are those of the reference. *)
Theorem writev_refines :
  forall maxsz f dv nl d,
    468 + maxsz < 2 ^ 64 -> layout_ok maxsz f = true -> abs_data f = Ok d ->
    layout_ok maxsz (out_file (writev maxsz f dv nl)) = true /\
    abs_data (out_file (writev maxsz f dv nl)) = Ok (fst (ref_writev maxsz d dv nl)) /\
    out_err (writev maxsz f dv nl) = snd (ref_writev maxsz d dv nl).
Proof. intros maxsz f dv nl d Hm Hl Ha. exact (proj1 (writev_spec maxsz f dv nl d Hm Hl Ha)). Qed.
Print Assumptions writev_refines.

Theorem readv_refines :
  forall maxsz f rv d, layout_ok maxsz f = true -> abs_data f = Ok d -> readv f rv = Ok (ref_readv d rv).
Proof. exact readv_refines_lemma. Qed.
Print Assumptions readv_refines.

Theorem check_testv_refines :
  forall maxsz f tv d, layout_ok maxsz f = true -> abs_data f = Ok d ->
    check_testv f tv = Ok (ref_check_testv d tv).
Proof. exact check_testv_refines_lemma. Qed.
Print Assumptions check_testv_refines.

(* A write that starts past the end of the data: the bytes between the old end
   and the write offset read back as zeros. *)
Theorem gap_zero_filled :
  forall maxsz f off data d,
    468 + maxsz < 2 ^ 64 -> layout_ok maxsz f = true -> abs_data f = Ok d ->
    len d <= off -> off + len data <= maxsz ->
    exists f', writev maxsz f [(off, data)] None = Done f' /\
               read_share_data f' (len d) (off - len d) = Ok (zeros (off - len d)).
Proof. exact gap_zero_filled_proof. Qed.
Print Assumptions gap_zero_filled.

(* Truncate to n, then extend by a write at off >= n: whatever was stored beyond
   n before the truncation is not readable afterwards; the range [n, off) is zeros. *)
Theorem stale_bytes_never_exposed :
  forall maxsz f n off data d,
    468 + maxsz < 2 ^ 64 -> layout_ok maxsz f = true -> abs_data f = Ok d ->
    n <= len d -> n <= off -> off + len data <= maxsz ->
    exists f1 f2, writev maxsz f [] (Some n) = Done f1 /\ writev maxsz f1 [(off, data)] None = Done f2 /\
                  read_share_data f2 n (off - n) = Ok (zeros (off - n)).
Proof. exact stale_bytes_never_exposed_proof. Qed.
Print Assumptions stale_bytes_never_exposed.

(* No data write -- inside the data, extending it, growing the container and
   thereby relocating the extra-lease block, truncating, or failing half way --
   changes any of the lease records (the four header slots and every extra
   lease, empty or not, byte for byte) or the write enabler. *)
Theorem data_writes_preserve_leases :
  forall maxsz f dv nl,
    468 + maxsz < 2 ^ 64 -> layout_ok maxsz f = true ->
    raw_lease_records (out_file (writev maxsz f dv nl)) = raw_lease_records f /\
    read_write_enabler (out_file (writev maxsz f dv nl)) = read_write_enabler f.
Proof.
  intros maxsz f dv nl Hm Hl. destruct (layout_abs maxsz f Hl) as (d & Ha).
  exact (proj2 (writev_spec maxsz f dv nl d Hm Hl Ha)).
Qed.
Print Assumptions data_writes_preserve_leases.

(* A container created by create_mutable_sharefile satisfies the invariant and is empty. *)
Theorem fresh_container_ok :
  forall maxsz v nodeid we,
    layout_ok maxsz (mut_header v nodeid we) = true /\ abs_data (mut_header v nodeid we) = Ok [].
Proof. intros maxsz v nodeid we. split; [apply mut_header_ok|apply mut_header_empty]. Qed.
Print Assumptions fresh_container_ok.

(* the hypotheses are satisfiable; the definitions compute *)
Example ex_real_max_size : 468 + MAX_SIZE < 2 ^ 64.
Proof. reflexivity. Qed.

Definition ex_we : list N := repeat 7 32.
Definition ex_node : list N := repeat 9 20.
Definition ex_fresh : file := mut_header V2 ex_node ex_we.

(* write "abc" at 5 into a new share, truncate to 2, write at 6: bytes 2..5 are zeros, not "\0\0\0a" *)
Example ex_history :
  run_share 100 ex_fresh None
    [OpTW [] [(5, [97; 98; 99])] None; OpRead [(0, 100)];
     OpTW [(5, 3, [97; 98; 99])] [] (Some 2); OpTW [] [(6, [120])] None; OpRead [(0, 100)];
     OpTW [(0, 1, [1])] [(0, [1])] None; OpTW [] [(100, [1])] None; OpTW [] [] (Some 0); OpRead [(0, 1)]]
  = (None,
     [ObsTW (Ok true); ObsRead (Some [[0; 0; 0; 0; 0; 97; 98; 99]]);
      ObsTW (Ok true); ObsTW (Ok true); ObsRead (Some [[0; 0; 0; 0; 0; 0; 120]]);
      ObsTW (Ok false); ObsTW (Err EDataTooLarge); ObsTW (Ok true); ObsRead None]).
Proof. vm_compute. reflexivity. Qed.

Example ex_layout_nonvacuous :
  layout_ok 100 ex_fresh = true /\
  match writev 100 ex_fresh [(90, [1; 2; 3])] None with
  | Done f => layout_ok 100 f = true /\ abs_data f = Ok (zeros 90 ++ [1; 2; 3])
  | Raised _ _ => False
  end.
Proof. vm_compute. auto. Qed.
