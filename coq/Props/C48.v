(* C48  Configuration values parse to their documented meaning.
   Statements only; each is closed by `exact` or a short derivation from lemmas in Proofs/Config.v.
   parse_duration / parse_date / parse_abbreviated_size / abbreviate_space are the model
   (Model/Config.v) of util/time_format.py and util/abbreviate.py over the tables of
   Gen/Config.v, which are regenerated from the source on every run; the spec_* and
   *_grammar definitions are hand-written from docs/garbage-collection.rst,
   docs/configuration.rst and the parse_duration docstring.
   Strings are lists of Unicode code points.  "digit_string ds": ds is one or more ASCII
   digits, at most 4300 of them (beyond that CPython's int() raises ValueError). *)
From Coq Require Import List NArith ZArith Bool String.
From Verif Require Import Lib.Hex Lib.Decimal Gen.Config Model.Config Proofs.Config.
Import ListNotations.
Local Open Scope N_scope.

(* Every documented spelling - any number, any of the ten unit words in any case, with or
   without whitespace between and around - is the documented number of seconds. *)
Theorem duration_documented_spellings :
  forall ws1 ds ws2 u ws3 m,
    forallb is_ws ws1 = true -> forallb is_ws ws2 = true -> forallb is_ws ws3 = true ->
    digit_string ds ->
    lookup (map lower u) spec_duration_units = Some m ->
    parse_duration (ws1 ++ ds ++ ws2 ++ u ++ ws3) = POk (digits_value ds * m).
Proof. exact duration_spellings_ok. Qed.
Print Assumptions duration_documented_spellings.

(* Every documented size spelling: number, optional whitespace, optional scale letter, optional
   "i", optional "B", letters in any case; the value is number * 1000^k or * 1024^k. *)
Theorem size_documented_spellings :
  forall ds ws sfx x,
    digit_string ds -> forallb is_ws ws = true ->
    suffix_wf x = true -> map upper sfx = suffix_text x ->
    parse_abbreviated_size (ds ++ ws ++ sfx) = SzOk (digits_value ds * spec_multiplier x).
Proof. exact size_spellings_ok. Qed.
Print Assumptions size_documented_spellings.

(* A YYYY-MM-DD date of the calendar parses to the UTC midnight that starts that day (counted
   from 1970-01-01 by year and month lengths), a whole number of days. *)
Theorem date_is_utc_midnight :
  forall y m d, valid_date y m d = true ->
    parse_date (fmt_date y m d) = POk (spec_utc_midnight y m d) /\
    (spec_utc_midnight y m d mod 86400 = 0)%Z.
Proof. intros y m d V. exact (conj (parse_fmt_date y m d V) (spec_midnight_multiple y m d)). Qed.
Print Assumptions date_is_utc_midnight.

(* Accepted language = documented grammar: whatever a parser accepts is a documented spelling
   with the documented value, so (with the three theorems above) every other string is
   rejected; and rejection is always ValueError, never the KeyError of a missed table lookup.
   An empty / absent reserved_space is "not set" (None), nothing else is. *)
Theorem malformed_rejected :
  (forall s v, parse_duration s = POk v <-> duration_grammar s v) /\
  (forall s, ~ (exists v, duration_grammar s v) -> parse_duration s = PValueError) /\
  (forall s v, parse_abbreviated_size s = SzOk v <-> size_grammar s v) /\
  (forall s, s <> [] -> ~ (exists v, size_grammar s v) -> parse_abbreviated_size s = SzValueError) /\
  (forall s, parse_abbreviated_size s = SzNone <-> s = []) /\
  (forall s t, parse_date s = POk t <-> date_grammar s t) /\
  (forall s, ~ (exists t, date_grammar s t) -> parse_date s = PValueError).
Proof. exact malformed_rejected_ok. Qed.
Print Assumptions malformed_rejected.

(* "Abbreviated sizes that the node prints parse back to the same value": exactly the sizes
   below 1024, which are printed as "<n> B".  From 1024 on abbreviate_space prints two decimals
   ("1.02 kB") and parse_abbreviated_size has no fraction in its grammar: the printed form is
   rejected (ValueError), for every such size, in both SI and binary mode. *)
Theorem print_parse_size :
  forall si s,
    (s < 1024 -> parse_abbreviated_size (abbreviate_space si s) = SzOk s) /\
    (1024 <= s -> parse_abbreviated_size (abbreviate_space si s) = SzValueError).
Proof. intros si s. exact (conj (print_parse_small si s) (print_parse_large si s)). Qed.
Print Assumptions print_parse_size.

(* the property's sentence as stated, for all sizes, is refuted by the faithful model *)
Theorem print_parse_size_refuted :
  exists s, parse_abbreviated_size (abbreviate_space true s) <> SzOk s.
Proof. exists 1024. rewrite (print_parse_large true 1024 (N.le_refl _)). discriminate. Qed.
Print Assumptions print_parse_size_refuted.

(* The tables regenerated from the source are the documented ones, and the source text the
   hand-written model transcribes (function bodies, regexes, format strings) is unchanged. *)
Theorem source_tables_are_documented :
  duration_units = map (fun kv => (fst kv, Some (snd kv))) spec_duration_units /\
  (forall x, suffix_wf x = true ->
     lookup (drop_trailing_B (suffix_text x)) size_multipliers = Some (spec_multiplier x)).
Proof. exact (conj duration_table_ok (fun x H => proj1 (proj2 (suffix_table_ok x H)))). Qed.
Print Assumptions source_tables_are_documented.

Theorem pins :
  (pin_ParseDurationUnitFormat, pin_parse_duration, pin_parse_date, pin_iso_utc_time_to_seconds,
   pin_parse_abbreviated_size, pin_abbreviate_space)
  = ("e60451526ff2414a", "693d444aee709583", "ec2189f6a5d6742e", "d07f2764f994da2a",
     "e478f6b709c0fba5", "fb656703568ea414")%string /\
  (duration_regex_template, duration_regex_flags, date_regex, date_regex_flags, date_regex_method,
   size_regex, size_regex_flags)
  = ("^\s*(\d+)\s*({unit_pattern})\s*$", "ASCII|IGNORECASE", "(\d{4})-(\d{2})-(\d{2})", "ASCII", "fullmatch",
     "^(\d+)\s*([KMGTPE]?[I]?[B]?)\Z", "ASCII|IGNORECASE")%string /\
  (abbrev_small_limit, abbrev_fmt_small, abbrev_fmt_r, abbrev_U_si, abbrev_U_bin, abbrev_isuffix_si, abbrev_isuffix_bin,
   map (fun st => snd st) abbrev_steps, snd abbrev_last)
  = (1024, "%d B"%string, "%.2f %s%s"%string, 1000, 1024, bytes_of_string "B", bytes_of_string "iB",
     map bytes_of_string ["k"; "M"; "G"; "T"; "P"]%string, bytes_of_string "E").
Proof. exact (conj pins_ok (conj regexes_ok abbrev_format_ok)). Qed.
Print Assumptions pins.

(* the examples the documentation lists, evaluated in the model *)
Example ex_gc_doc_durations :
  map (fun s => parse_duration (bytes_of_string s))
      ["7days"; "31day"; "60 days"; "2mo"; "3 month"; "12 months"; "2years"]%string
  = map (fun v => POk v)
      [7 * 86400; 31 * 86400; 60 * 86400; 2 * 31 * 86400; 3 * 31 * 86400; 12 * 31 * 86400; 2 * 365 * 86400].
Proof. vm_compute. reflexivity. Qed.

Example ex_config_doc_sizes :
  map (fun s => parse_abbreviated_size (bytes_of_string s))
      ["100MB"; "100 M"; "100000000B"; "100000000"; "100000kb"; "1MiB"; "1024KiB"; "1024 Ki"; "1048576 B"]%string
  = [SzOk 100000000; SzOk 100000000; SzOk 100000000; SzOk 100000000; SzOk 100000000;
     SzOk 1048576; SzOk 1048576; SzOk 1048576; SzOk 1048576].
Proof. vm_compute. reflexivity. Qed.

Example ex_gc_doc_dates :
  map (fun s => parse_date (bytes_of_string s)) ["2009-01-16"; "2008-02-02"; "2007-12-25"; "2010-02-21"; "2009-03-18"]%string
  = [POk 1232064000; POk 1201910400; POk 1198540800; POk 1266710400; POk 1237334400]%Z.
Proof. vm_compute. reflexivity. Qed.

Example ex_rejected :
  (map (fun s => parse_duration (bytes_of_string s)) ["123"; "2kumquats"; "3dayss"; "+3s"; "3.5s"; ""]%string,
   map (fun s => parse_abbreviated_size (bytes_of_string s)) ["12 cubits"; "1 BB"; "fhtagn"; "1K "; " 1K"; "1.02 kB"]%string,
   map (fun s => parse_date (bytes_of_string s)) ["2009-02-30"; "2009-02-29"; "2009-13-01"; "2009-01-00"; "0000-01-01"; "2009-01-16 10:20:30"; "2009-1-16"]%string)
  = (repeat PValueError 6, repeat SzValueError 6, repeat PValueError 7).
Proof. vm_compute. reflexivity. Qed.

(* hypotheses of the theorems are satisfiable *)
Example duration_spellings_nonvacuous :
  digit_string (bytes_of_string "0060") /\ lookup (map lower (bytes_of_string "DaYs")) spec_duration_units = Some 86400.
Proof. split; [split; [discriminate|split; [reflexivity|vm_compute; discriminate]]|reflexivity]. Qed.

Example size_spellings_nonvacuous :
  suffix_wf (Suffix (Some 75) true true) = true /\
  map upper (bytes_of_string "kIb") = suffix_text (Suffix (Some 75) true true) /\
  spec_multiplier (Suffix (Some 75) true true) = 1024.
Proof. repeat split. Qed.

Example date_nonvacuous : valid_date 2008 2 29 = true /\ valid_date 1900 2 29 = false /\ valid_date 2000 2 29 = true.
Proof. repeat split. Qed.
