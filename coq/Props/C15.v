(* C15  Capability strings round-trip and parse canonically.
   Statements only; each is closed by `exact` of, or a short derivation from, a
   lemma in Proofs/Uri*.v; the table comparisons are evaluated here.

   Model: Model/Uri.v (uri.py after the `fix:` commits: regexes end in \Z,
   CHKFileVerifierURI anchored, NUMBER = (0|[1-9][0-9]* ) ), Model/UriBase32.v.
   `wf_cap`: keys / storage indexes of 16 octets, hashes of 32, octets below 256,
   k/N/size that `%d` can render (at most 4300 digits; beyond that Python itself
   refuses to print the cap).  Negative integers (never parseable) are outside
   the model's `N`.
   from_string can raise ValueError (an over-long numeral, known finding
   uri-from-string-valueerror-on-huge-numeral); the model returns
   RaisesValueError there and the theorems say exactly when. *)
From Coq Require Import String List NArith PeanoNat Bool.
From Verif Require Import Lib.Hex Lib.Bytes Lib.Decimal Gen.Uri Model.UriBase32 Model.Uri
  Proofs.UriBase32 Proofs.UriParse Proofs.UriPins.
Import ListNotations.
Local Open Scope N_scope.

(* Every capability object serializes to a string that parses back to an equal
   capability of the same kind. *)
Theorem print_parse :
  forall c, wf_cap c = true -> from_string false (to_string c) = Ok c.
Proof. intros c W. rewrite <- (app_nil_r (to_string c)). exact (from_string_complete c [] W (or_introl eq_refl)). Qed.
Print Assumptions print_parse.

(* Strict converse: whatever from_string accepts as a known kind (in any
   context) is a well-formed cap whose serialization is the accepted string --
   after one optional alleged prefix, and, for the MDMF kinds only, before an
   extension that starts with ':'. *)
Theorem parse_print :
  forall di u c, from_string di u = Ok c -> known c = true ->
  wf_cap c = true /\
  exists pre ext, In pre alleged_prefixes /\ u = pre ++ to_string c ++ ext
                  /\ (ext = [] \/ (is_mdmf c = true /\ exists e, ext = colon :: e)).
Proof. exact from_string_parse_print. Qed.
Print Assumptions parse_print.

Theorem parse_print_exact :
  forall di u c, from_string di u = Ok c -> known c = true ->
  is_mdmf c = false -> starts_with ro_prefix u = false -> starts_with imm_prefix u = false -> to_string c = u.
Proof. exact from_string_parse_print_exact. Qed.
Print Assumptions parse_print_exact.

(* the extension the MDMF formats allow is accepted and ignored *)
Theorem mdmf_extension_ignored :
  forall c e, wf_cap c = true -> is_mdmf c = true -> from_string false (to_string c ++ colon :: e) = Ok c.
Proof. intros c e W M. exact (from_string_complete c _ W (or_intror (conj M (ex_intro _ e eq_refl)))). Qed.
Print Assumptions mdmf_extension_ignored.

(* Strings outside the grammar are reported as unknown and never mis-read:
   (a) the dispatch prefixes are pairwise non-prefixing, so at most one kind's
       parser is ever tried; *)
Theorem prefixes_non_prefixing :
  prefixes_pairwise_non_prefixing = true.
Proof. vm_compute. reflexivity. Qed.
Print Assumptions prefixes_non_prefixing.

Theorem dispatch_unique :
  forall s dir k dir' k' r r', s = cap_prefix dir k ++ r -> s = cap_prefix dir' k' ++ r' -> dir = dir' /\ k = k'.
Proof. exact dispatch_prefix_unique. Qed.
Print Assumptions dispatch_unique.

(* (b) if the parser of any kind accepts the string, from_string returns that
       very cap (or, when the context forbids the kind, an UnknownURI holding
       the original string) -- never a cap of another kind; *)
Theorem unknown_never_misread :
  forall di u cbm cbw s dir k f,
  strip_alleged di u = (cbm, cbw, s) -> cap_init_from_string dir k s = PKnown f ->
  exists g, In (dir, k, g) dispatch /\
            from_string di u = if guard_ok g cbm cbw then Ok (mk_cap dir f) else Ok (CUnknown u (constraint_error cbm)).
Proof. exact from_string_never_misread. Qed.
Print Assumptions unknown_never_misread.

(* (c) a known result was accepted by the parser of its own kind; *)
Theorem known_by_own_parser :
  forall di u c, from_string di u = Ok c -> known c = true ->
  exists cbm cbw s dir f, strip_alleged di u = (cbm, cbw, s) /\ c = mk_cap dir f
                          /\ cap_init_from_string dir (kind_of f) s = PKnown f.
Proof. exact from_string_known_by_own_parser. Qed.
Print Assumptions known_by_own_parser.

(* (d) an UnknownURI keeps the string byte for byte. *)
Theorem unknown_keeps_string :
  forall di u s e, from_string di u = Ok (CUnknown s e) -> s = u.
Proof. exact from_string_unknown_keeps_string. Qed.
Print Assumptions unknown_keeps_string.

(* to_string is injective on well-formed caps *)
Theorem serialization_injective :
  forall c1 c2, wf_cap c1 = true -> wf_cap c2 = true -> to_string c1 = to_string c2 -> c1 = c2.
Proof. exact to_string_injective. Qed.
Print Assumptions serialization_injective.

(* base32.a2b's precondition never fires inside from_string; the only
   exception that escapes is ValueError, and only for a canonical numeral of
   more than 4300 digits *)
Theorem from_string_never_asserts :
  forall di u, from_string di u <> RaisesAssertion.
Proof. exact from_string_no_assertion. Qed.
Print Assumptions from_string_never_asserts.

Theorem value_error_only_on_huge_numeral :
  forall di u, from_string di u = RaisesValueError ->
  exists g, canonical_dec g = true /\ (int_max_str_digits < length g)%nat /\ (length g <= length u)%nat.
Proof. exact from_string_value_error. Qed.
Print Assumptions value_error_only_on_huge_numeral.

(* base32 (util/base32.py) round trips at every length *)
Theorem base32_decode_encode :
  forall os, bytes_ok os = true -> a2b (b2a os) = os /\ b32_field_ok (b2a os).
Proof. exact (fun os H => conj (a2b_b2a os H) (b2a_field_ok os H)). Qed.
Print Assumptions base32_decode_encode.

Theorem base32_encode_decode :
  forall g, b32_field_ok g -> b2a (a2b g) = g /\ could_be_base32_encoded g = true.
Proof. exact (fun g H => conj (b2a_a2b g H) (field_ok_could_be g H)). Qed.
Print Assumptions base32_encode_decode.

(* Tripwires: the regex sources, class table and dispatch chain regenerated
   from uri.py are what this model's formats, prefixes and dispatch list
   render to; the hand-transcribed definitions are unchanged. *)
Theorem regex_pins :
  classes_rendered = class_table.
Proof. vm_compute. reflexivity. Qed.
Print Assumptions regex_pins.

Theorem dispatch_pins :
  dispatch_rendered = dispatch_table
  /\ future_test_table = [("x-tahoe-future-test-writeable:", "can_be_writeable"); ("x-tahoe-future-test-mutable:", "can_be_mutable")]%string
  /\ (ALLEGED_READONLY_PREFIX, ALLEGED_IMMUTABLE_PREFIX) = ("ro.", "imm.")%string.
Proof. vm_compute. repeat split. Qed.
Print Assumptions dispatch_pins.

Theorem code_pins :
  base32_code_pins = expected_base32_code_pins /\ uri_code_pins = expected_uri_code_pins.
Proof. vm_compute. split; reflexivity. Qed.
Print Assumptions code_pins.

(* the hypotheses are satisfiable; the defect classes are rejected *)
Definition ex_key : bytes := repeat 1 16.
Definition ex_hash : bytes := repeat 2 32.
Definition ex_chk : cap := CFile (CHK ex_key ex_hash 3 10 1000).
Definition ex_chk_string : bytes :=
  bytes_of_string "URI:CHK:aeaqcaibaeaqcaibaeaqcaibae:aibaeaqcaibaeaqcaibaeaqcaibaeaqcaibaeaqcaibaeaqcaiba:3:10:1000".

Example ex_wf_nonvacuous :
  forallb wf_cap [ex_chk; CDir (CHK ex_key ex_hash 3 10 1000); CFile (LIT [104; 105]); CDir (LIT []);
                  CFile (SSK ex_key ex_hash); CDir (MDMFRO ex_key ex_hash); CFile (CHKVerifier ex_key ex_hash 0 0 0)] = true.
Proof. vm_compute. reflexivity. Qed.

Example ex_print : to_string ex_chk = ex_chk_string.
Proof. vm_compute. reflexivity. Qed.

Example ex_parse : from_string false ex_chk_string = Ok ex_chk.
Proof. vm_compute. reflexivity. Qed.

Example ex_parse_ro_prefix : from_string false (ro_prefix ++ ex_chk_string) = Ok ex_chk.
Proof. vm_compute. reflexivity. Qed.

Example ex_mdmf_nonvacuous :
  is_mdmf (CDir (MDMF ex_key ex_hash)) = true
  /\ from_string false (to_string (CDir (MDMF ex_key ex_hash)) ++ bytes_of_string ":3:131073") = Ok (CDir (MDMF ex_key ex_hash)).
Proof. vm_compute. split; reflexivity. Qed.

(* trailing newline, leading zero, trailing garbage after a verify cap: unknown *)
Example ex_trailing_newline_rejected :
  from_string false (ex_chk_string ++ [10]) = Ok (CUnknown (ex_chk_string ++ [10]) EBadURI).
Proof. vm_compute. reflexivity. Qed.

Example ex_leading_zero_rejected :
  let s := bytes_of_string "URI:CHK:aeaqcaibaeaqcaibaeaqcaibae:aibaeaqcaibaeaqcaibaeaqcaibaeaqcaibaeaqcaibaeaqcaiba:03:10:1000" in
  from_string false s = Ok (CUnknown s EBadURI).
Proof. vm_compute. reflexivity. Qed.

Example ex_verifier_garbage_rejected :
  let s := to_string (CFile (CHKVerifier ex_key ex_hash 3 10 1000)) ++ bytes_of_string "garbage" in
  from_string false s = Ok (CUnknown s EBadURI).
Proof. vm_compute. reflexivity. Qed.

Example ex_wrong_tail_rejected :
  let s := bytes_of_string "URI:SSK:aeaqcaibaeaqcaibaeaqcaibaf:aibaeaqcaibaeaqcaibaeaqcaibaeaqcaibaeaqcaibaeaqcaiba" in
  from_string false s = Ok (CUnknown s EBadURI).
Proof. vm_compute. reflexivity. Qed.

(* known finding: a numeral of 4301 digits makes from_string raise ValueError *)
Example ex_value_error_refuted :
  exists u, from_string false u = RaisesValueError.
Proof.
  exists (bytes_of_string "URI:CHK:aeaqcaibaeaqcaibaeaqcaibae:aibaeaqcaibaeaqcaibaeaqcaibaeaqcaibaeaqcaibaeaqcaiba:3:10:" ++ repeat 49 4301).
  vm_compute. reflexivity.
Qed.
