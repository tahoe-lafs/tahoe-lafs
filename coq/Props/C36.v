(* C36  Erasure coding recovers from any k blocks.
   Statements only; each is closed by `exact` or a short derivation from a lemma in Proofs/Codec.v.

   zfec (third party C code) is the pair enc/dec; what the wrappers need from it
   is stated as the three hypotheses enc_length_at / enc_block_len_at / mds_at
   (Model/Codec.v), which appear in every round-trip statement below.  They are
   validated against the real zfec by harness/props/c36.py (exhaustively for all
   k-subsets, n <= 7; seeded up to n = 256) -- "zfec is MDS" is a validated
   hypothesis, not a theorem.  zfec itself only supports n <= 256; nothing in the
   wrappers depends on that bound, so the theorems do not carry it. *)
From Coq Require Import List NArith Bool String.
From Verif Require Import Lib.Hex Gen.ImmConsts Model.Codec Proofs.Codec.
Import ListNotations.
Local Open Scope N_scope.

(* Immutable files: Encoder._encode_segment (+ _gather_data + CRSEncoder.encode) followed by
   DownloadNode._decode_blocks (+ CRSDecoder.decode) on ANY k distinct blocks in ANY order
   gives back the segment: full segments (is_tail = false, length a multiple of k) and the
   padded tail segment (is_tail = true, any length >= 1).  No assertion of either side fires
   (the results are Some), n blocks come out, each of the block size. *)
Theorem wrapper_roundtrip_any_k :
  forall (enc : N -> N -> list (list N) -> list (list N)) (dec : N -> N -> list (N * list N) -> list (list N)) (k n : N),
    1 <= k -> k <= n ->
    enc_length_at enc k n -> enc_block_len_at enc k n -> mds_at enc dec k n ->
    forall (is_tail : bool) (seg : list N) (ids : list N),
      1 <= nlen seg -> (is_tail = false -> nlen seg mod k = 0) -> valid_ids k n ids ->
      exists blocks,
        encode_segment enc k n is_tail seg = Some blocks /\
        nlen blocks = n /\ uniform (div_ceil (nlen seg) k) blocks /\
        decode_segment dec k n is_tail (nlen seg) (pick ids blocks) = Some seg.
Proof. exact roundtrip_section. Qed.
Print Assumptions wrapper_roundtrip_any_k.

(* Mutable files: Publish._encode_segment pads per piece and hands the codec the unpadded
   size; Retrieve._decode_blocks decodes like the immutable tail. *)
Theorem mutable_roundtrip_any_k :
  forall (enc : N -> N -> list (list N) -> list (list N)) (dec : N -> N -> list (N * list N) -> list (list N)) (k n : N),
    1 <= k -> k <= n ->
    enc_length_at enc k n -> enc_block_len_at enc k n -> mds_at enc dec k n ->
    forall (seg : list N) (ids : list N),
      1 <= nlen seg -> valid_ids k n ids ->
      exists blocks,
        mutable_encode_segment enc k n seg = Some blocks /\
        nlen blocks = n /\ uniform (div_ceil (nlen seg) k) blocks /\
        decode_segment dec k n true (nlen seg) (pick ids blocks) = Some seg.
Proof. exact mutable_roundtrip_section. Qed.
Print Assumptions mutable_roundtrip_any_k.

Theorem mutable_pieces_eq :
  forall k seg, 1 <= k -> 1 <= nlen seg ->
    mutable_pieces k (div_ceil (nlen seg) k) seg
    = split_pieces (div_ceil (nlen seg) k) (pad_segment (k * div_ceil (nlen seg) k) seg).
Proof. exact mutable_pieces_eq_ok. Qed.
Print Assumptions mutable_pieces_eq.

(* What _gather_data hands to CRSEncoder.encode: exactly k pieces, each of the codec's share
   size, whose concatenation is the segment followed by zero bytes. *)
Theorem encode_pieces_shape :
  forall k is_tail seg,
    1 <= k -> 1 <= nlen seg -> (is_tail = false -> nlen seg mod k = 0) ->
    exists pieces,
      gather_data k (crs_enc_share_size (if is_tail then next_multiple (nlen seg) k else nlen seg) k) is_tail seg = Some pieces /\
      nlen pieces = k /\
      uniform (crs_enc_share_size (if is_tail then next_multiple (nlen seg) k else nlen seg) k) pieces /\
      List.concat pieces = pad_segment (k * div_ceil (nlen seg) k) seg /\
      firstn (N.to_nat (nlen seg)) (List.concat pieces) = seg.
Proof. exact encode_pieces_shape_ok. Qed.
Print Assumptions encode_pieces_shape.

(* Encoder and decoder compute the same block size from the same data_size ... *)
Theorem share_sizes_agree :
  forall data_size k, crs_enc_share_size data_size k = crs_dec_share_size data_size k.
Proof. exact share_sizes_agree_ok. Qed.
Print Assumptions share_sizes_agree.

(* ... and when data_size is a multiple of k (the only way the callers use the codec) the k
   blocks hold exactly data_size bytes. *)
Theorem share_size_of_multiple :
  forall data_size k, 1 <= k -> data_size mod k = 0 ->
    crs_enc_share_size data_size k = data_size / k /\
    k * crs_enc_share_size data_size k = data_size /\
    crs_enc_last_share_padding data_size k = pad_size (data_size / k) k.
Proof. exact share_size_of_multiple_ok. Qed.
Print Assumptions share_size_of_multiple.

Theorem padded_tail_multiple :
  forall k tail, 1 <= k ->
    next_multiple tail k mod k = 0 /\ tail <= next_multiple tail k /\ next_multiple tail k < tail + k.
Proof. exact padded_tail_multiple_ok. Qed.
Print Assumptions padded_tail_multiple.

Theorem next_multiple_id :
  forall k L, 1 <= k -> L mod k = 0 -> next_multiple L k = L.
Proof. exact next_multiple_id_ok. Qed.
Print Assumptions next_multiple_id.

(* The downloader's own block-size arithmetic (_calculate_sizes) agrees with both codecs. *)
Theorem tail_block_size_agrees :
  forall k file_size segment_size, 1 <= k ->
    dl_tail_block_size file_size segment_size k = crs_enc_share_size (padded_tail_size file_size segment_size k) k /\
    dl_tail_block_size file_size segment_size k = crs_dec_share_size (padded_tail_size file_size segment_size k) k /\
    dl_tail_block_size file_size segment_size k = div_ceil (tail_size file_size segment_size) k.
Proof. exact tail_block_size_agrees_ok. Qed.
Print Assumptions tail_block_size_agrees.

Theorem full_block_size_agrees :
  forall k segment_size, 1 <= k -> segment_size mod k = 0 ->
    dl_block_size segment_size k = crs_enc_share_size segment_size k /\
    dl_block_size segment_size k = crs_dec_share_size segment_size k.
Proof. exact full_block_size_agrees_ok. Qed.
Print Assumptions full_block_size_agrees.

(* Hand-modelled functions: a change to any of them breaks this obligation. *)
Theorem pins :
  (pin_CRSEncoder_set_params, pin_CRSEncoder_encode, pin_CRSDecoder_set_params, pin_CRSDecoder_decode,
   pin_Encoder_gather_data, pin_DownloadNode_decode_blocks)
  = ("0a1295e05666d233", "5739b9509a8755c2", "e20e28cfa9f63af6", "3d198c4c0649b057",
     "5470046c97d918dc", "d4edd272955a07d9")%string.
Proof. exact pins_ok. Qed.
Print Assumptions pins.

(* The hypotheses are satisfiable: the (2,3) single-parity code (block 2 = block 0 XOR block 1)
   and, for k = 1 and every n >= 1, replication (which is what zfec computes for k = 1). *)
Example mds_hypotheses_xor_nonvacuous :
  exists enc dec, enc_length_at enc 2 3 /\ enc_block_len_at enc 2 3 /\ mds_at enc dec 2 3.
Proof. exists enc_xor, dec_xor. exact xor_code_ok. Qed.

Example mds_hypotheses_replication_nonvacuous :
  forall n, 1 <= n -> enc_length_at enc_repl 1 n /\ enc_block_len_at enc_repl 1 n /\ mds_at enc_repl dec_repl 1 n.
Proof. exact repl_code_ok. Qed.

(* A padded tail (5 bytes, k = 2: one zero byte of padding) through the whole model, from
   blocks 2 and 0 presented in that order. *)
Example ex_roundtrip_xor_tail :
  match encode_segment enc_xor 2 3 true [1; 2; 3; 4; 5] with
  | Some blocks => blocks = [[1; 2; 3]; [4; 5; 0]; [5; 7; 3]] /\
                   decode_segment dec_xor 2 3 true 5 (pick [2; 0] blocks) = Some [1; 2; 3; 4; 5]
  | None => False
  end.
Proof. vm_compute. split; reflexivity. Qed.

Example ex_sizes :
  (crs_enc_share_size 10 3, crs_enc_last_share_padding 10 3, crs_dec_share_size 10 3,
   next_multiple 10 3, pad_size 10 3, div_ceil 12 3) = (4, 2, 4, 12, 2, 4).
Proof. vm_compute. reflexivity. Qed.

(* Companion result (mathcomp, Proofs/RS.v; not used by the harness): a Reed-Solomon style
   evaluation code over ANY field is MDS -- for messages m1 m2 of k symbols (coefficient lists of
   polynomials of degree < k) and any k pairwise distinct evaluation points among the code's
   points, equal symbols at those k points imply equal message polynomials.  This gives a
   non-trivial family of instances of the any-k-of-N hypothesis of wrapper_roundtrip_any_k
   (zfec's code is of this family over GF(2^8); that zfec implements it correctly stays a
   hypothesis validated by the driver).  Statement (Proofs/RS.v):
     forall (F : fieldType) k (m1 m2 points chosen : seq F),
       size m1 = k -> size m2 = k -> uniq chosen -> size chosen = k ->
       {subset chosen <= points} ->
       {in chosen, forall x, (Poly m1).[x] = (Poly m2).[x]} -> Poly m1 = Poly m2. *)
Require Verif.Proofs.RS.
Theorem reed_solomon_evaluation_code_is_mds : Verif.Proofs.RS.rs_mds_statement.
Proof. exact Verif.Proofs.RS.rs_mds. Qed.
Print Assumptions reed_solomon_evaluation_code_is_mds.
