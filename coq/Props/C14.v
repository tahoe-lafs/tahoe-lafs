(* C14  Mutable check and repair preserve the newest content.
   Model/MutCheck.v: the checker's health rule and the repairer's decision over the
   ServerMap model (Model/ServerMap.v). *)
From Coq Require Import List NArith Bool.
From Verif Require Import Model.ServerMap Model.MutCheck Proofs.ServerMap Proofs.MutCheck.
Import ListNotations.
Local Open Scope N_scope.

(* healthy exactly when a single version is present at all, it is recoverable, and at
   least N distinct shares of it were located *)
Theorem healthy_iff :
  forall (nOf : version -> N) m,
    healthy nOf m = true <->
    exists v, versions m = [v] /\ In v (recoverable_versions m) /\ nOf v <= count_shares m v.
Proof. exact healthy_iff_ok. Qed.
Print Assumptions healthy_iff.

(* repair without force never goes ahead when a newer unrecoverable version is known *)
Theorem repair_refuses_newer_unrecoverable :
  forall m wk, unrecoverable_newer_versions m <> [] ->
    repair_decision m false wk = Unsuccessful \/ repair_decision m false wk = MustForce.
Proof. intros m wk H. apply repair_refuses. left. exact H. Qed.
Print Assumptions repair_refuses_newer_unrecoverable.

(* ... nor when two recoverable versions share a sequence number *)
Theorem repair_refuses_equal_seqnum_merge :
  forall m wk, needs_merge m = true ->
    repair_decision m false wk = Unsuccessful \/ repair_decision m false wk = MustForce.
Proof. intros m wk H. apply repair_refuses. right. exact H. Qed.
Print Assumptions repair_refuses_equal_seqnum_merge.

(* when repair republishes, it republishes the best recoverable version, needs the
   write key, and either was forced or nothing newer/competing exists *)
Theorem repair_republishes_best :
  forall m force wk v, repair_decision m force wk = Republish v ->
    best_recoverable_version m = Some v /\ wk = true /\
    (force = true \/ (unrecoverable_newer_versions m = [] /\ needs_merge m = false)).
Proof. exact repair_republishes_best_ok. Qed.
Print Assumptions repair_republishes_best.

(* the republished version (new_seqnum, placed on >= k distinct share numbers) is the
   best recoverable version afterwards, whatever older or competing shares remain *)
Theorem repair_result_is_best :
  forall m v' placement,
    seq v' = new_seqnum m -> NoDup (map snd placement) -> 1 <= vk v' ->
    vk v' <= N.of_nat (length placement) ->
    best_recoverable_version (published m v' placement) = Some v'.
Proof. exact repair_result_is_best_ok. Qed.
Print Assumptions repair_result_is_best.

Definition ex_v5 := {| seq := 5; vtag := 9; vk := 2 |}.
Definition ex_v6 := {| seq := 6; vtag := 1; vk := 2 |}.
Definition ex_healthy : servermap :=
  [ {| srv := 1; shnum := 0; ver := ex_v5 |}; {| srv := 2; shnum := 1; ver := ex_v5 |}; {| srv := 3; shnum := 2; ver := ex_v5 |} ].
Example ex_health :
  healthy (fun _ => 3) ex_healthy = true /\
  healthy (fun _ => 4) ex_healthy = false /\
  healthy (fun _ => 3) ({| srv := 4; shnum := 0; ver := ex_v6 |} :: ex_healthy) = false /\
  repair_decision ({| srv := 4; shnum := 0; ver := ex_v6 |} :: ex_healthy) false true = MustForce /\
  repair_decision ({| srv := 4; shnum := 0; ver := ex_v6 |} :: ex_healthy) true true = Republish ex_v5 /\
  best_recoverable_version (published ({| srv := 4; shnum := 0; ver := ex_v6 |} :: ex_healthy)
                                      {| seq := 7; vtag := 3; vk := 2 |} [(1, 0); (2, 1); (3, 2)])
  = Some {| seq := 7; vtag := 3; vk := 2 |}.
Proof. vm_compute. repeat split. Qed.

From Verif Require Import Gen.MutPins.
From Coq Require Import String.
(* Fingerprints (AST, comments and docstrings excluded) of the source functions this model
   transcribes by hand, regenerated from /repo on every run (harness/translate/mutpins.py):
   the model was written for exactly these versions of them. *)
Theorem model_pins_current :
  pins_C14 =
  [("servermap_needs_merge", "b8235ef237192085")%string;
   ("repairer_got_full_servermap", "e33495e3b72e6d99")%string;
   ("repairer_start", "255ca0bda9aac3fb")%string;
   ("checker_make_checker_results", "e666cc79a604f872")%string;
   ("checker_maybe_repair", "1738b2708ce2994d")%string].
Proof. reflexivity. Qed.
Print Assumptions model_pins_current.
