(* C41  Web API never exceeds the authority of the capability used.
   Statements, each closed by `exact` or a short derivation from lemmas of Proofs/WebAuthTable.v (facts
   computed on the regenerated table) and Proofs/WebAuth.v (generic argument).  Model/WebAuth.v: caps as (object, authority class), an abstract
   grid of directories and files, nodemaker / dirnode child selection (write-cap slot only through a
   writeable directory node: C18), the traversal of DirectoryNodeHandler.getChild with its directory
   creation, every render_PUT / render_POST / render_DELETE branch of the /uri and /file handlers as a
   decision tree of node-layer calls, and the guards: web-level `is_readonly()` checks, the
   `is_readonly() -> NotWriteableError` prologue of the DirectoryNode mutators, `assert not is_readonly()`
   of MutableFileVersion -- all three read from Gen/WebOps.v, regenerated from /repo on every run.

   Scope.  grid_wfb: no directory stores a write cap in a read-cap slot (what the packer writes; the
   crafted-directory class is C18's known finding).  Objects created but never linked are not part of the
   abstract grid (creating unlinked objects needs no authority).  `Refused` covers every error response;
   the status code is compared by the driver, not stated here. *)
From Coq Require Import List NArith Bool String.
From Verif Require Import Gen.WebOps Model.WebAuth Proofs.WebAuthTable Proofs.WebAuth.
Import ListNotations.
Local Open Scope string_scope.

(* every entry of the regenerated dispatch table has a script in the model, every node-layer call it
   reaches is classified by the model, and the calls of the script are exactly the calls of the entry *)
Theorem table_covered : forall e, In e web_ops -> entry_covered e = true.
Proof. exact table_covered_ok. Qed.
Print Assumptions table_covered.

(* for every operation of the table: with self.node and self.parentnode not writeable, whatever the
   request arguments and the grid, no mutating node-layer call is carried out and the grid is unchanged *)
Theorem modifying_op_requires_write_authority_entry :
  forall e s, In e web_ops -> op_script (wo_class e) (wo_method e) (wo_t e) = Some s ->
  forall rq self parent g,
    match self with Some n => is_readonly n = true | None => True end ->
    match parent with Some (p, _) => is_readonly p = true | None => True end ->
    snd (run s (rq_t rq) rq (mk_env self parent (wo_calls e)) g Unmodified) = g
    /\ fst (run s (rq_t rq) rq (mk_env self parent (wo_calls e)) g Unmodified) <> Performed.
Proof.
  intros e s IN OS rq self parent g RS RP.
  apply run_readonly; [exact (entry_script_safe e s IN OS)|exact RS|exact RP|discriminate].
Qed.
Print Assumptions modifying_op_requires_write_authority_entry.

(* for every request -- method, t=, path, arguments -- made through a root cap that is not writeable
   (read-only, verify or unknown): traversal creates nothing, the handler reached refuses or performs an
   operation without mutating call; the grid is unchanged *)
Theorem modifying_op_requires_write_authority :
  forall g rq,
    grid_wfb g = true -> c_auth (rq_root rq) <> AW ->
    snd (serve g rq) = g /\ fst (serve g rq) <> Performed.
Proof. exact modifying_request. Qed.
Print Assumptions modifying_op_requires_write_authority.

(* ... and the same below any directory node that is not writeable, however it was reached (a writeable
   root and a path through a read-only link: descendants_of_readonly_are_readonly gives the premise) *)
Theorem modifying_op_below_readonly_directory :
  forall g rq n par fuel,
    grid_wfb g = true -> is_readonly n = true ->
    match par with Some (p, _) => is_readonly p = true | None => True end ->
    snd (render fuel (handler_class n) rq (Some n) par g Unmodified) = g
    /\ fst (render fuel (handler_class n) rq (Some n) par g Unmodified) <> Performed.
Proof. intros g rq n par fuel W R RP. apply render_readonly; [exact W|exact R|exact RP|discriminate]. Qed.
Print Assumptions modifying_op_below_readonly_directory.

(* what the two possible outcomes mean: `Unmodified` is only reached along a path of the branch that
   contains no mutating node-layer call; every attempted mutating call ends in Refused or Performed *)
Theorem unmodified_means_no_mutating_call :
  forall s t rq ev g g',
    run s t rq ev g Unmodified = (Unmodified, g') ->
    g' = g /\ forall c kd, In c (trace s rq ev) -> call_sem c = Some kd -> is_mutating kd = false.
Proof. exact unmodified_no_mutating_call. Qed.
Print Assumptions unmodified_means_no_mutating_call.

(* each step of the path obtains the child through the parent's authority *)
Theorem descendants_of_readonly_are_readonly :
  forall g path n n',
    grid_wfb g = true -> is_readonly n = true -> walk g n path = Some n' -> is_readonly n' = true.
Proof. exact walk_readonly. Qed.
Print Assumptions descendants_of_readonly_are_readonly.

(* rename / relink into a destination that is not writeable is refused, whatever the source *)
Theorem relink_needs_writeable_destination :
  forall t rq n par ec g c,
    rq_to_dir rq = Some c -> c_auth c <> AW ->
    exists r, do_call KMove t rq (mk_env (Some n) par ec) g = inl r.
Proof. exact relink_destination_refused. Qed.
Print Assumptions relink_needs_writeable_destination.

(* t=json of a directory reached from a root cap that is not writeable: no rw_uri for the directory, none
   for any child, and no cap of write authority anywhere in it *)
Theorem readonly_listing_has_no_rw_uri :
  forall g c path n self kids,
    grid_wfb g = true -> c_auth c <> AW ->
    walk g (root_node g c) path = Some n -> dir_json g n = Some (self, kids) ->
    d_rw self = None /\ c_auth (d_ro self) <> AW
    /\ forall x d, In (x, d) kids -> d_rw d = None /\ c_auth (d_ro d) <> AW.
Proof.
  intros g c path n self kids W A WK DJ. apply and_assoc.
  exact (readonly_listing_path g c path n self kids W A WK DJ).
Qed.
Print Assumptions readonly_listing_has_no_rw_uri.

(* t=json of a file / unknown node that is not writeable *)
Theorem readonly_node_json_has_no_rw_uri :
  forall n, is_readonly n = true -> n_urw n = None ->
    d_rw (describe n) = None /\ c_auth (d_ro (describe n)) <> AW.
Proof. intros n R U. exact (describe_no_write n (conj R U)). Qed.
Print Assumptions readonly_node_json_has_no_rw_uri.

(* the node layer the model was written for: which DirectoryNode methods modify, and through which calls *)
Theorem dirnode_mutator_structure :
  dn_mutator_structure =
  [ ("set_metadata_for", true, []); ("set_uri", false, ["self.set_node"]); ("set_children", true, []);
    ("set_node", true, []); ("set_nodes", true, []); ("add_file", false, ["self.set_node"]);
    ("delete", true, []); ("create_subdirectory", true, []);
    ("move_child_to", false, ["new_parent.set_node"; "self.delete"]) ].
Proof. exact dn_structure_ok. Qed.
Print Assumptions dirnode_mutator_structure.

(* verify caps and unknown caps are served by a handler without PUT/POST/DELETE, /file is GET/HEAD only,
   unmatched t= values are refused, no other getChild reaches a mutating call, and every 'rw_uri' the JSON
   renderers emit is <node>.get_write_uri() *)
Theorem passive_surfaces :
  assoc "UnknownNodeHandler" handler_methods = Some [] /\ assoc "FileHandler" handler_methods = Some []
  /\ file_handler_get_head_only = true /\ defaults_ok = true /\ other_getchild_ok = true
  /\ rw_uri_emitters = [("_file_json_metadata", "filenode"); ("_directory_json_metadata", "dirnode");
                        ("_directory_json_metadata", "childnode"); ("UnknownJSONMetadata", "node")].
Proof.
  destruct passive_handlers_ok as [A [B C]].
  split; [exact A|]. split; [exact B|]. split; [exact C|]. split; [exact defaults_refuse_ok|].
  split; [exact other_getchild_passive_ok|exact rw_uri_emitters_ok].
Qed.
Print Assumptions passive_surfaces.

(* the hypotheses are satisfiable and the model computes what the web API does *)
(* objects: 1 root directory, 2 immutable file, 3 mutable file, 4 sub-directory (write link),
   5 directory linked read-only; names 10..13 *)
Definition ex_grid : grid :=
  [ (1%N, ODir true [ (10%N, mk_edge None (mk_cap 2 AR));
                      (11%N, mk_edge (Some (mk_cap 3 AW)) (mk_cap 3 AR));
                      (12%N, mk_edge (Some (mk_cap 4 AW)) (mk_cap 4 AR));
                      (13%N, mk_edge None (mk_cap 5 AR)) ]);
    (2%N, OFile false [1%N; 2%N]);
    (3%N, OFile true [3%N]);
    (4%N, ODir true []);
    (5%N, ODir true [ (10%N, mk_edge (Some (mk_cap 3 AW)) (mk_cap 3 AR)) ]) ].

Definition ex_req (m : meth) (t : string) (root : cap) (path : list N) (name : option N) : request :=
  mk_req m t root path name None None true false false (mk_cap 2 AR) [] [7%N] false 100%N.

Example ex_grid_wf_nonvacuous : grid_wfb ex_grid = true.
Proof. vm_compute. reflexivity. Qed.

(* PUT of a new file through the read cap: refused by the dirnode guard; through the write cap: done *)
Example ex_put_new_file_nonvacuous :
  fst (serve ex_grid (ex_req PUT "" (mk_cap 1 AR) [20%N] None)) = Refused RNotWriteable
  /\ fst (serve ex_grid (ex_req PUT "" (mk_cap 1 AW) [20%N] None)) = Performed
  /\ names_of (snd (serve ex_grid (ex_req PUT "" (mk_cap 1 AW) [20%N] None))) 1 = [10; 11; 12; 13; 20]%N.
Proof. vm_compute. repeat split; reflexivity. Qed.

(* PUT to the mutable file through the directory's read cap: the web-level guard answers;
   POST t=upload to it: the MutableFileVersion assertion *)
Example ex_mutable_file_nonvacuous :
  fst (serve ex_grid (ex_req PUT "" (mk_cap 1 AR) [11%N] None)) = Refused RWebGuard
  /\ fst (serve ex_grid (ex_req POST "upload" (mk_cap 1 AR) [11%N] None)) = Refused RAssertion
  /\ fst (serve ex_grid (ex_req PUT "" (mk_cap 1 AW) [11%N] None)) = Performed
  /\ fst (serve ex_grid (ex_req PUT "" (mk_cap 3 AV) [] None)) = Refused RNotAllowed.
Proof. vm_compute. repeat split; reflexivity. Qed.

(* a writeable root and a path through the directory linked read-only *)
Example ex_through_readonly_link_nonvacuous :
  fst (serve ex_grid (ex_req PUT "" (mk_cap 1 AW) [13%N; 20%N] None)) = Refused RNotWriteable
  /\ fst (serve ex_grid (ex_req PUT "" (mk_cap 1 AW) [13%N; 10%N] None)) = Refused RWebGuard
  /\ fst (serve ex_grid (ex_req POST "mkdir" (mk_cap 1 AW) [13%N; 30%N; 31%N] None)) = Refused RNotWriteable
  /\ fst (serve ex_grid (ex_req POST "mkdir" (mk_cap 1 AW) [12%N; 30%N; 31%N] None)) = Performed
  /\ fst (serve ex_grid (ex_req POST "set_children" (mk_cap 5 AR) [] None)) = Refused RAssertion
  /\ fst (serve ex_grid (ex_req DELETE "" (mk_cap 1 AR) [10%N] None)) = Refused RNotWriteable
  /\ fst (serve ex_grid (ex_req POST "unlink" (mk_cap 1 AW) [] (Some 10%N))) = Performed.
Proof. vm_compute. repeat split; reflexivity. Qed.

(* the listing through the read cap has no rw_uri, through the write cap it has *)
Example ex_listing_nonvacuous :
  observe_listing ex_grid (mk_cap 1 AR) [] =
    Some ((0, 5), [(10, (0, 9)); (11, (0, 13)); (12, (0, 17)); (13, (0, 21))])%N
  /\ observe_listing ex_grid (mk_cap 1 AW) [] =
    Some ((5, 5), [(10, (0, 9)); (11, (13, 13)); (12, (17, 17)); (13, (0, 21))])%N.
Proof. vm_compute. repeat split; reflexivity. Qed.
