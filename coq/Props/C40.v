(* C40  Web API byte-range downloads follow RFC 7233.
   Statements only; each is closed by `exact` or a short derivation from a lemma in Proofs/Range.v,
   the concrete witnesses and pins by evaluation.
   `render m data hdr` is the model (Model/Range.v) of web/filenode.py FileDownloader.render +
   parse_range_header for a file with contents `data` and the decoded Range header `hdr`
   (a list of Unicode code points; None = no header), as status / Content-Range /
   Content-Length / body on the wire.  `rfc_ranges`, `rfc_decide`, `respond` are the RFC 7233
   rule written from the RFC text (grammar of 2.1 with 1*DIGIT positions and OWS = SP / HTAB
   around commas; satisfiability; the selected bytes; "bytes first-last/size", "bytes */size").
   `range_strict h`: the header does not exercise the leniency of Python's int() ("+1", "1_0",
   " 1", non-ASCII digits; more than 4300 digits rejected) or str.strip() (other blanks, blanks
   after "=" or at the end) - the recorded findings, refuted below without it; it holds for
   every canonically spelled request (canonical_requests_served). *)
From Coq Require Import List NArith ZArith Bool String.
From Verif Require Import Lib.Hex Lib.Decimal Gen.WebRange Model.Range Proofs.Range.
Import ListNotations.
Local Open Scope N_scope.

(* For every file and every header string: a header that is one byte range in the RFC's grammar
   gets 206 with exactly the requested bytes clipped at end-of-file and the matching Content-Range,
   or 416 with "bytes */size" when it starts at or beyond the end (every range on an empty file,
   suffix-length 0); a header outside the grammar gets the whole file. *)
Theorem rfc7233_single_range :
  forall m data h, range_strict h = true ->
    (forall r, rfc_ranges h = Some [r] ->
       render m data (Some h) = respond m data (rfc_decide (N.of_nat (List.length data)) r)) /\
    (rfc_ranges h = None -> render m data (Some h) = respond m data Whole).
Proof.
  intros m data h S. rewrite (render_is_rfc m data h S). unfold rfc_response.
  split; intros; rewrite H; reflexivity.
Qed.
Print Assumptions rfc7233_single_range.

(* the same with the selected bytes spelled out: a partial response carries the bytes
   first..last of the file, first <= last < size, Content-Length = their number *)
Theorem partial_content_exact_bytes :
  forall m data h r f l,
    range_strict h = true -> rfc_ranges h = Some [r] -> rfc_decide (N.of_nat (List.length data)) r = Partial f l ->
    render m data (Some h) = respond m data (Partial f l) /\
    f <= l /\ l < N.of_nat (List.length data) /\
    body (render GET data (Some h)) = bytes_between data f l /\
    N.of_nat (List.length (bytes_between data f l)) = content_length (render m data (Some h)) /\
    forall i, i <= l - f -> nth (N.to_nat i) (bytes_between data f l) 0 = nth (N.to_nat (f + i)) data 0.
Proof. exact partial_is_exact_ok. Qed.
Print Assumptions partial_content_exact_bytes.

(* The precondition is met by every request in the RFC's canonical spelling, so for
   "bytes=F-L", "bytes=F-" and "bytes=-K" (decimal numbers up to 2^4000) the response is the
   RFC's for every file, with no side condition on the header. *)
Theorem canonical_requests_served :
  forall m data f l, N.size f <= 4000 -> N.size l <= 4000 ->
    let n := N.of_nat (List.length data) in
    (f <= l -> render m data (Some (bytes_of_string "bytes=" ++ dec f ++ [45] ++ dec l)) = respond m data (rfc_decide n (FromTo f l))) /\
    render m data (Some (bytes_of_string "bytes=" ++ dec f ++ [45])) = respond m data (rfc_decide n (From f)) /\
    render m data (Some (bytes_of_string "bytes=" ++ [45] ++ dec l)) = respond m data (rfc_decide n (Suffix l)).
Proof. exact canonical_requests_ok. Qed.
Print Assumptions canonical_requests_served.

Theorem no_range_header_whole_file :
  forall m data, render m data None = respond m data Whole /\ render m data (Some []) = respond m data Whole.
Proof. exact no_range_header_ok. Qed.
Print Assumptions no_range_header_whole_file.

(* outside the property (it speaks of a single range): of several ranges the first one is served *)
Theorem multi_range_serves_first :
  forall m data h r r2 rest, range_strict h = true -> rfc_ranges h = Some (r :: r2 :: rest) ->
    render m data (Some h) = respond m data (rfc_decide (N.of_nat (List.length data)) r).
Proof. intros m data h r r2 rest S R. rewrite (render_is_rfc m data h S). unfold rfc_response. rewrite R. reflexivity. Qed.
Print Assumptions multi_range_serves_first.

(* HEAD: same status and headers as GET, no body - for every header, strict or not *)
Theorem head_same_headers :
  forall data hdr,
    status (render HEAD data hdr) = status (render GET data hdr) /\
    content_range (render HEAD data hdr) = content_range (render GET data hdr) /\
    content_length (render HEAD data hdr) = content_length (render GET data hdr) /\
    body (render HEAD data hdr) = [].
Proof. exact head_same_ok. Qed.
Print Assumptions head_same_headers.

(* Without `range_strict` the statement is false (known findings): the header is outside the
   RFC's grammar yet a range is served, or inside it yet ignored. *)
Theorem rfc7233_refuted_lenient_int :
  let h := bytes_of_string "bytes=+1-5" in
  range_strict h = false /\ rfc_ranges h = None /\ status (render GET ten_bytes (Some h)) = 206.
Proof. vm_compute. auto. Qed.
Print Assumptions rfc7233_refuted_lenient_int.

Theorem rfc7233_refuted_non_ascii_digit :
  let h := bytes_of_string "bytes=" ++ [1635; 45] in
  range_strict h = false /\ rfc_ranges h = None /\ status (render GET ten_bytes (Some h)) = 206.
Proof. vm_compute. auto. Qed.
Print Assumptions rfc7233_refuted_non_ascii_digit.

Theorem rfc7233_refuted_lenient_strip :
  let h := bytes_of_string "bytes=" ++ [12] ++ bytes_of_string "0-5" in
  range_strict h = false /\ rfc_ranges h = None /\ status (render GET ten_bytes (Some h)) = 206.
Proof. vm_compute. auto. Qed.
Print Assumptions rfc7233_refuted_lenient_strip.

Theorem rfc7233_refuted_digit_limit :
  let h := bytes_of_string "bytes=" ++ repeat 48 4301 ++ [45] in        (* 4301 zeros, "-" *)
  rfc_ranges h = Some [From 0] /\ status (render GET ten_bytes (Some h)) = 200.
Proof. exact (long_zeros_ignored GET ten_bytes 4301 eq_refl). Qed.
Print Assumptions rfc7233_refuted_digit_limit.

(* the source text the hand-written model transcribes is unchanged *)
Theorem pins :
  (pin_parse_range_header, pin_render, pin_render_GET, pin_render_HEAD)
  = ("488969ddb09469cd", "9e63d164e15f8e2d", "c70737a82053c8e3", "6809f39ac1d9c28f")%string /\
  (range_unit, content_range_formats, unsatisfiable_status, partial_status)
  = (bytes_of_string "bytes", ["bytes */%s"; "bytes %s-%s/%s"]%string, 416, 206).
Proof. split; reflexivity. Qed.
Print Assumptions pins.

(* hypotheses are satisfiable; the decision table on a 10-byte file *)
Example rfc7233_single_range_nonvacuous :
  forallb (fun s => range_strict (bytes_of_string s))
          ["bytes=0-5"; "bytes=3-"; "bytes=10-"; "bytes=-3"; "bytes=-0"; "bytes=-20"; "bytes=0-0"; "bytes=9-100";
           "bytes=2-3 , 5-6"; "bytes=5-3"; "Bytes=0-5"; "bytes=0-5,"; "garbage"; "bytes=a-b"]%string = true.
Proof. vm_compute. reflexivity. Qed.

Example ex_grammar :
  map (fun s => rfc_ranges (bytes_of_string s))
      ["bytes=0-5"; "bytes=3-"; "bytes=-3"; "bytes=007-010"; "bytes=2-3 ,	5-6,-1"; "bytes=5-3"; "bytes=0-5,"; "bytes=,0-5"; "bytes=0-5 "; "bytes= 0-5";
       "bytes=0 -5"; "bytes=-"; "bytes="; "bytes"; "Bytes=0-5"; "bytes=0-5;q"; "bytes=0x1-5"]%string
  = [Some [FromTo 0 5]; Some [From 3]; Some [Suffix 3]; Some [FromTo 7 10]; Some [FromTo 2 3; FromTo 5 6; Suffix 1];
     None; None; None; None; None; None; None; None; None; None; None; None].
Proof. vm_compute. reflexivity. Qed.

Example ex_decisions :
  map (rfc_decide 10) [FromTo 0 5; FromTo 9 100; FromTo 10 12; From 3; From 10; Suffix 3; Suffix 20; Suffix 0]
  = [Partial 0 5; Partial 9 9; Unsatisfiable; Partial 3 9; Unsatisfiable; Partial 7 9; Partial 0 9; Unsatisfiable]
  /\ map (rfc_decide 0) [FromTo 0 0; From 0; Suffix 5] = [Unsatisfiable; Unsatisfiable; Unsatisfiable].
Proof. vm_compute. split; reflexivity. Qed.

Example ex_render_partial :
  render GET ten_bytes (Some (bytes_of_string "bytes=7-100"))
  = mkResponse 206 (Some (bytes_of_string "bytes 7-9/10")) 3 [7; 8; 9].
Proof. vm_compute. reflexivity. Qed.

Example ex_render_unsatisfiable_empty_file :
  render HEAD [] (Some (bytes_of_string "bytes=-5")) = mkResponse 416 (Some (bytes_of_string "bytes */0")) 24 [].
Proof. vm_compute. reflexivity. Qed.
