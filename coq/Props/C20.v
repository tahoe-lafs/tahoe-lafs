(* C20  Directory edits behave like a name map.
   Statements only; proofs in Proofs/DirnodeEdits.v (refinement) and Proofs/DirnodeMap.v (map properties).
   Model/Dirnode.v section 7: b_run applies Adder/Deleter/MetadataSetter.modify and move_child_to to the
   packed bytes of (writekey, contents) directories (unpack, edit the AuxValueDict, re-pack with the cached
   entries); a_run applies the same operations to maps  name -> (child, metadata).
   dir_ok / store_ok / op_ok / conc (Proofs/DirnodeEdits.v): directories are sorted maps with normalised
   names whose children the node maker reproduces from their own caps (goodb, Model/Dirnode.v: also after
   the 'no-write' diminishing); added children are such nodes or error nodes (which make the add fail).
   Metadata: JSON dicts (jobj); update_metadata as in dirnode.py; the model covers dicts whose 'tahoe' entry,
   if present, is a dict (md_ok; update_metadata re-establishes it: Proofs.DirnodeMap.update_md_ok). *)
From Coq Require Import List NArith ZArith Bool String.
From Verif Require Import Lib.Hex Model.Dirnode Proofs.DirnodeBase Proofs.DirnodeEdits Proofs.DirnodeMap.
Import ListNotations.
Local Open Scope N_scope.

(* any history of add / replace / delete / rename / set-metadata applied to the packed bytes gives the
   same outcomes as on the maps, and leaves exactly the packing of the resulting maps *)
Theorem edits_refine_map :
  forall (classify : bytes -> capclass) (normalize : bytes -> bytes)
         (dumps : jobj -> bytes) (loads : bytes -> option jobj) (enc dec : bytes -> bytes -> bytes),
    (forall x, normalize (normalize x) = normalize x) ->
    (forall m, loads (dumps m) = Some m) ->
    (forall k d, dec k (enc k d) = d) ->
    forall (ops : list (op * jval)) (wks : list bytes) (dirs : list amap),
      store_ok classify normalize wks dirs ->
      Forall (fun on => op_ok classify (fst on)) ops ->
      b_run classify normalize dumps loads enc dec (conc dumps enc wks dirs) ops
      = (fst (a_run classify normalize dirs ops), conc dumps enc wks (snd (a_run classify normalize dirs ops)))
      /\ store_ok classify normalize wks (snd (a_run classify normalize dirs ops)).
Proof. exact run_refines. Qed.
Print Assumptions edits_refine_map.

(* overwrite=False (set_node, set_children, set_nodes, and the add half of move_child_to): whatever
   the outcome, every entry that existed is still there, unchanged *)
Theorem no_overwrite_never_replaces :
  forall (classify : bytes -> capclass) (normalize : bytes -> bytes)
         (dirs : list amap) (d : nat) (entries : list (bytes * node * option jobj)) (now : jval)
         (out : outcome) (dirs' : list amap),
    a_add classify normalize dirs d entries OvFalse now = (out, dirs') ->
    forall i m k v, nth_error dirs i = Some m -> sm_get k m = Some v ->
                    exists m', nth_error dirs' i = Some m' /\ sm_get k m' = Some v.
Proof.
  intros classify normalize dirs d entries now out dirs' E i m k v Hi Hk.
  exact (add_keeps_protected classify normalize dirs d entries OvFalse now out dirs' E i m k v Hi Hk (or_introl eq_refl)).
Qed.
Print Assumptions no_overwrite_never_replaces.

(* overwrite=ONLY_FILES: every entry that was a directory is still there, unchanged *)
Theorem only_files_never_replaces_dir :
  forall (classify : bytes -> capclass) (normalize : bytes -> bytes)
         (dirs : list amap) (d : nat) (entries : list (bytes * node * option jobj)) (now : jval)
         (out : outcome) (dirs' : list amap),
    a_add classify normalize dirs d entries OvOnlyFiles now = (out, dirs') ->
    forall i m k n md, nth_error dirs i = Some m -> sm_get k m = Some (n, md) -> is_dir n = true ->
                       exists m', nth_error dirs' i = Some m' /\ sm_get k m' = Some (n, md).
Proof.
  intros classify normalize dirs d entries now out dirs' E i m k n md Hi Hk Hd.
  exact (add_keeps_protected classify normalize dirs d entries OvOnlyFiles now out dirs' E i m k (n, md) Hi Hk
                             (or_intror (conj eq_refl Hd))).
Qed.
Print Assumptions only_files_never_replaces_dir.

(* move_child_to adds to the new parent first and deletes from the old one afterwards: when the
   operation fails, no directory has changed -- in particular the child is still linked under its old name *)
Theorem failed_rename_keeps_source :
  forall (classify : bytes -> capclass) (normalize : bytes -> bytes),
    (forall x, normalize (normalize x) = normalize x) ->
    forall (dirs : list amap) (src : nat) (namex : bytes) (dst : nat) (new_namex : option bytes)
           (ov : overwrite) (now : jval) (e : derr) (dirs' : list amap),
      a_step classify normalize dirs (OMove src namex dst new_namex ov) now = (Failed e, dirs') -> dirs' = dirs.
Proof. exact failed_move_changes_nothing. Qed.
Print Assumptions failed_rename_keeps_source.

(* link times under a clock that does not go backwards (T = latest time used so far, z = time of this
   operation): every entry that is still there after the operation keeps its linkcrtime, and its
   linkmotime does not decrease (it is either untouched or becomes z) *)
Theorem linkcrtime_preserved_linkmotime_advances :
  forall (classify : bytes -> capclass) (normalize : bytes -> bytes)
         (dirs : list amap) (o : op) (T z : Z) (out : outcome) (dirs' : list amap),
    sorted_dirs dirs -> motime_le T dirs -> (T <= z)%Z ->
    a_step classify normalize dirs o (JNum z) = (out, dirs') ->
    motime_le z dirs' /\
    forall i m k v m' v', nth_error dirs i = Some m -> sm_get k m = Some v ->
                          nth_error dirs' i = Some m' -> sm_get k m' = Some v' ->
                          (forall t, linkcrtime (snd v) = Some t -> linkcrtime (snd v') = Some t) /\
                          (forall a, linkmotime (snd v) = Some (JNum a) ->
                                     exists b, linkmotime (snd v') = Some (JNum b) /\ (a <= b)%Z).
Proof. exact step_advances. Qed.
Print Assumptions linkcrtime_preserved_linkmotime_advances.

(* the same without assuming anything about the clock: untouched, or rewritten with linkmotime = now *)
Theorem link_times_step :
  forall (classify : bytes -> capclass) (normalize : bytes -> bytes)
         (dirs : list amap) (o : op) (now : jval) (out : outcome) (dirs' : list amap),
    sorted_dirs dirs -> a_step classify normalize dirs o now = (out, dirs') ->
    sorted_dirs dirs' /\ TO now dirs dirs' /\
    (forall i m k v t m' v', nth_error dirs i = Some m -> sm_get k m = Some v -> linkcrtime (snd v) = Some t ->
                             nth_error dirs' i = Some m' -> sm_get k m' = Some v' -> linkcrtime (snd v') = Some t).
Proof. exact step_link_times. Qed.
Print Assumptions link_times_step.

(* update_metadata itself *)
Theorem update_metadata_times :
  forall (m : jobj) (new : option jobj) (now t : jval),
    linkmotime (update_metadata (Some m) new now) = Some now /\
    (linkcrtime m = Some t -> linkcrtime (update_metadata (Some m) new now) = Some t) /\
    md_ok (update_metadata (Some m) new now) = true.
Proof.
  intros m new now t.
  exact (conj (update_linkmotime _ _ _) (conj (update_linkcrtime m new now t) (update_md_ok _ _ _))).
Qed.
Print Assumptions update_metadata_times.

(* non-vacuity: a history computed inside Coq *)
Definition ex_cls := classify_tbl [(bytes_of_string "W", KWrite true (bytes_of_string "W") (bytes_of_string "R"));
                                   (bytes_of_string "R", KRead true (bytes_of_string "R"));
                                   (bytes_of_string "C", KImm false (bytes_of_string "C"))].
Definition ex_file := create_from_cap ex_cls false None (Some (bytes_of_string "C")).
Definition ex_dir := create_from_cap ex_cls false (Some (bytes_of_string "W")) None.
Definition ex_ops : list (op * jval) :=
  [(OAdd 0 [(bytes_of_string "a", ex_file, None); (bytes_of_string "d", ex_dir, Some [(bytes_of_string "k", JNum 1%Z)])] OvTrue, JNum 10%Z);
   (OAdd 0 [(bytes_of_string "a", ex_file, None)] OvFalse, JNum 11%Z);            (* ExistingChildError *)
   (OAdd 0 [(bytes_of_string "d", ex_file, None)] OvOnlyFiles, JNum 12%Z);        (* ExistingChildError: d is a directory *)
   (OMove 0 (bytes_of_string "a") 1 (Some (bytes_of_string "d")) OvTrue, JNum 13%Z);
   (OMove 0 (bytes_of_string "a") 1 None OvTrue, JNum 14%Z);                       (* NoSuchChildError *)
   (OSetMd 1 (bytes_of_string "d") [(bytes_of_string "x", JBool true)], JNum 15%Z);
   (ODelete 0 (bytes_of_string "d") true false true, JNum 16%Z)].                  (* ChildOfWrongTypeError *)

Example ex_run_nonvacuous :
  let r := a_run ex_cls (fun x => x) [[]; []] ex_ops in
  forallb (fun p => outcome_eqb (fst p) (snd p))
          (combine (fst r) [Done; Failed EExists; Failed EExists; Done; Failed ENoSuchChild; Done; Failed EWrongType]) = true
  /\ map (map fst) (snd r) = [[bytes_of_string "d"]; [bytes_of_string "d"]]
  /\ match nth_error (snd r) 1 with
     | Some m => match sm_get (bytes_of_string "d") m with
                 | Some (_, md) => linkcrtime md = Some (JNum 13%Z) /\ linkmotime md = Some (JNum 15%Z)
                 | None => False
                 end
     | None => False
     end.
Proof. vm_compute. repeat split; reflexivity. Qed.

Example ex_good_nodes_nonvacuous : forallb (goodb ex_cls) [ex_file; ex_dir] = true.
Proof. vm_compute. reflexivity. Qed.
