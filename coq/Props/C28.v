(* C28  Storage space reservations are honoured.
   Statements only; each is closed by `exact` or a short derivation from a lemma in Proofs/Space.v.
   Model: Model/Space.v (fileutil.get_disk_stats / get_available_space, StorageServer.get_available_space)
   closed over Model/ImmStore.v (allocate_buckets accounting, allocated_size, release on
   close/abort/timeout/disconnect); hand-written, tied to /repo by harness/props/c28.py.
   [srun cfg dk ops] executes the history [ops] from the empty store on a server configured by
   [cfg] (readonly_storage, reserved_space) whose disk is [dk]: [dk_capacity] bytes free for a
   non-privileged user while the store is empty, closed shares consume their data length, uploads in
   progress the distinct bytes written so far ([used]); statvfs reports floor(free / f_frsize) blocks.
   Container header (12 bytes) and lease records (72 bytes each) are not counted: the code's accounting,
   like the property, is in allocated sizes. *)
From Coq Require Import List NArith ZArith Bool.
From Verif Require Import Model.ImmStore Model.Space Proofs.ImmStoreLib Proofs.ImmStore Proofs.Space.
Import ListNotations.
Local Open Scope N_scope.

(* Over all histories and configurations, on a platform whose disk statistics work: the bytes that
   uploads in progress may still write ([outstanding] = sum of allocated size minus bytes already
   written) never exceed the free space beyond the configured reserve.  Hence no sequence of
   accepted allocations, completed in any order, pushes the disk below reserved_space. *)
Theorem never_over_commit :
  forall (cfg : config) (dk : disk) (ops : list op),
    dk_mode dk = StatOk ->
    let s := fst (srun cfg dk ops) in
    (Z.of_N (outstanding s) <= Z.max 0 (Z.of_N (dk_capacity dk) - Z.of_N (used s) - Z.of_N (cf_reserved cfg)))%Z.
Proof. intros cfg dk ops Hm. apply srun_space. rewrite Hm. discriminate. Qed.
Print Assumptions never_over_commit.

(* Every single allocate call, in any state: what it accepts (number of new shares times the
   allocated size) together with the reservations of all uploads still in progress is at most the
   available space get_available_space() reports, which is at most max(0, free - reserved_space).
   (StatFails: the OS call failed, available space counts as 0.  Platforms without any disk
   statistics API are excluded: there the code accepts everything and logs that the reservation
   cannot be honoured.) *)
Theorem allocation_fits_available_space :
  forall (cfg : config) (dk : disk) (s : store) (si : N) (shs : list N) (size c : N) (x : option N) (al acc : list N),
    snd (sstep cfg dk s (OAlloc si shs size c x)) = RAlloc al acc -> acc <> [] ->
    dk_mode dk <> StatMissing ->
    exists avail, get_available_space cfg dk s = Some avail
      /\ N.of_nat (length acc) * size + allocated_size s <= avail
      /\ (dk_mode dk = StatOk ->
          (Z.of_N avail <= Z.max 0 (Z.of_N (dk_capacity dk) - Z.of_N (used s) - Z.of_N (cf_reserved cfg)))%Z).
Proof.
  intros cfg dk s si shs size c x al acc H Hne Hm.
  destruct (alloc_call_fits cfg dk s si shs size c x al acc H Hne Hm) as (a & H1 & H2 & H3). exists a. auto.
Qed.
Print Assumptions allocation_fits_available_space.

(* A read-only server accepts nothing, whatever the sizes (zero included) and whatever the disk:
   every allocate answer in every history has an empty accepted set, and the store stays empty. *)
Theorem readonly_accepts_none :
  forall (cfg : config) (dk : disk) (ops : list op),
    cf_readonly cfg = true ->
    (forall si shs size c av al acc, In (OAlloc si shs size c av, RAlloc al acc) (snd (srun cfg dk ops)) -> acc = [])
    /\ st_slots (fst (srun cfg dk ops)) = []
    /\ allocated_size (fst (srun cfg dk ops)) = 0.
Proof. exact readonly_accepts_none_ok. Qed.
Print Assumptions readonly_accepts_none.

(* Space reserved for an upload is released when it completes or is aborted: close and abort lower
   allocated_size() by exactly the upload's allocated size; the timeout and the loss of the
   uploader's connection by at least that. *)
Theorem release_on_close_abort :
  forall (cfg : config) (dk : disk) (s : store) (k : key) (w : writer),
    get s k = Incoming w ->
    allocated_size (fst (sstep cfg dk s (OClose k (w_id w)))) + w_size w = allocated_size s
    /\ allocated_size (fst (sstep cfg dk s (OAbort k (w_id w)))) + w_size w = allocated_size s
    /\ (forall dt, w_deadline w <= st_now s + dt ->
          allocated_size (fst (sstep cfg dk s (OAdvance dt))) + w_size w <= allocated_size s)
    /\ allocated_size (fst (sstep cfg dk s (ODisconnect (w_canary w)))) + w_size w <= allocated_size s.
Proof. exact release_on_close_abort_ok. Qed.
Print Assumptions release_on_close_abort.

(* ... and not before: no other operation lowers allocated_size(). *)
Theorem reservation_held_until_close_abort :
  forall (cfg : config) (dk : disk) (s : store) (o : op),
    (match o with OClose _ _ | OAbort _ _ | OAdvance _ | ODisconnect _ => False | _ => True end) ->
    allocated_size s <= allocated_size (fst (sstep cfg dk s o)).
Proof. exact reservation_held_ok. Qed.
Print Assumptions reservation_held_until_close_abort.

Definition ex_cfg : config := mkConfig false 100.
Definition ex_disk : disk := mkDisk 400 1 StatOk.      (* 300 bytes beyond the reserve *)
Definition ex_ops : list op :=
  [ OAlloc 0 [0; 1; 2; 3] 100 1 None;       (* three fit, the fourth is refused *)
    OAlloc 1 [0] 1 1 None;                  (* nothing left *)
    OWrite (0, 0) 0 0 [1; 2; 3; 4; 5];      (* consumes 5 bytes of the disk *)
    OAbort (0, 1) 1;                        (* releases 100 *)
    OAlloc 1 [0; 1] 95 1 None;              (* 295 available - 200 in progress = 95: exactly one fits *)
    OClose (0, 0) 0;                        (* the closed share consumes its full 100 bytes *)
    OAlloc 2 [0] 6 2 None;                  (* 200 available - 195 in progress = 5 < 6 *)
    OAlloc 2 [0] 5 2 None ].

Example ex_space_history :
  sobserve_from ex_cfg ex_disk init ex_ops =
  [ (RAlloc [] [0; 1; 2], 300, Some 300); (RAlloc [] [], 300, Some 300); (RWrote false, 300, Some 295);
    (ROk, 200, Some 295); (RAlloc [] [0], 295, Some 295); (ROk, 195, Some 200);
    (RAlloc [] [], 195, Some 200); (RAlloc [] [0], 200, Some 200) ].
Proof. vm_compute. reflexivity. Qed.

Example allocation_fits_nonvacuous :
  exists al acc, snd (sstep ex_cfg ex_disk init (OAlloc 0 [0; 1; 2; 3] 100 1 None)) = RAlloc al acc /\ acc <> []
                 /\ dk_mode ex_disk <> StatMissing.
Proof. exists [], [0; 1; 2]. split; [vm_compute; reflexivity|]. split; discriminate. Qed.

Example release_nonvacuous :
  exists s k w, s = fst (srun ex_cfg ex_disk (firstn 3 ex_ops)) /\ get s k = Incoming w /\ w_size w = 100.
Proof.
  exists (fst (srun ex_cfg ex_disk (firstn 3 ex_ops))), (0, 1), (mkWriter 1 100 [] (zeros 100) 1800 1).
  split; [reflexivity|]. split; [vm_compute; reflexivity|reflexivity].
Qed.

(* a read-only server refuses even empty shares (before the fix in /repo, commit c299a6a, the
   implementation accepted them) *)
Example ex_readonly_zero_size :
  sobserve_from (mkConfig true 0) ex_disk init [OAlloc 0 [0; 1] 0 1 None] = [(RAlloc [] [], 0, Some 0)].
Proof. vm_compute. reflexivity. Qed.

(* without a disk statistics API nothing limits acceptance: the reason for the StatOk hypothesis *)
Example ex_no_statvfs_unlimited :
  sobserve_from ex_cfg (mkDisk 10 1 StatMissing) init [OAlloc 0 [0; 1] 100 1 None] = [(RAlloc [] [0; 1], 200, None)].
Proof. vm_compute. reflexivity. Qed.
