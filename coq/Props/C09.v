(* C09  Mutable files read back what one writer wrote.
   Statements only; each is closed by `exact` or a short derivation from lemmas in Proofs/MutFile*.v.
   Model/MutFile.v: `None` = the real call fails; `represents sdmf maxseg k f d` = version f
   (format, k, segment size, length, stored segments) holds the byte string d;
   maxseg = DEFAULT_MUTABLE_MAX_SEGMENT_SIZE; k = required shares. *)
From Coq Require Import List Arith NArith Bool.
From Verif Require Import Lib.Hex Model.MutFile Proofs.MutFileLists Proofs.MutFileRead Proofs.MutFileTU Proofs.MutFileHist.
Import ListNotations.

(* TransformingUploadable.read: `a` reads of one segment followed by one read of any length
   (every chunking Publish can produce), concatenated, are a prefix of
   start[:fso] ++ newdata ++ end[eoff:][:m] -- whenever the reads before the last do not pass the
   end of the new data and the total stays inside the region. *)
Theorem update_reads_are_region :
  forall data s e off seg m lastlen a,
    seg <> 0 -> off mod seg <= length s ->
    a * seg <= off mod seg + length data ->
    a * seg + lastlen <= length (tu_region data s e off seg m) ->
    concat (tu_reads (tu_init data off seg s e) (repeat seg a ++ [lastlen]))
    = firstn (a * seg + lastlen) (tu_region data s e off seg m).
Proof.
  intros data s e off seg m lastlen a Hs Hf Ha Hl. rewrite <- slice_0.
  exact (tu_reads_region data s e off seg m Hs Hf lastlen a 0 Ha Hl).
Qed.
Print Assumptions update_reads_are_region.

(* update(data, offset), SDMF (re-encode) and MDMF (in place / re-encode for an append at a segment
   boundary): for offset <= size the operation succeeds and the new version holds the splice. *)
Theorem update_is_splice :
  forall sdmf maxseg k f old data off,
    0 < k -> (sdmf = false -> 0 < maxseg) ->
    represents sdmf maxseg k f old -> off <= length old ->
    exists f', do_update maxseg f data off = Some f' /\
               represents sdmf maxseg k f' (splice old data off) /\
               read_all f' = Some (splice old data off).
Proof.
  intros sdmf maxseg k f old data off Hk Hm R Hoff.
  destruct (do_update_represents sdmf maxseg k Hk Hm f old data off R Hoff) as (f' & H & R').
  exact (ex_intro _ f' (conj H (conj R' (read_all_represents _ _ _ _ _ R' Hk Hm)))).
Qed.
Print Assumptions update_is_splice.

(* the splice changes only [offset, offset+len) and extends the file iff it writes past the end *)
Theorem update_preserves_rest :
  forall old data off, off <= length old ->
    length (splice old data off) = spec_update_len old data off /\
    (forall i, nth i (splice old data off) 0%N = spec_update_byte old data off i) /\
    (length old < length (splice old data off) <-> length old < off + length data).
Proof.
  intros old data off H.
  exact (conj (splice_length _ _ _ H) (conj (fun i => splice_nth _ _ _ i H) (splice_grows _ _ _ H))).
Qed.
Print Assumptions update_preserves_rest.

(* offset > size is outside the precondition: MDMF refuses ... *)
Theorem mdmf_update_past_eof_rejected :
  forall maxseg k f old data off,
    0 < k -> 0 < maxseg -> represents false maxseg k f old -> length old < off ->
    do_update maxseg f data off = None.
Proof. exact do_update_past_eof_rejected. Qed.
Print Assumptions mdmf_update_past_eof_rejected.

(* ... SDMF succeeds and puts the data at the old end of file, not at the offset
   (known finding sdmf-update-past-eof-misplaces-data; replayed on the real code by the driver) *)
Theorem sdmf_update_past_eof_refuted :
  exists old data off f f' r,
    length old < off /\
    publish true 128 3 old = Some f /\ do_update 128 f data off = Some f' /\ read_all f' = Some r /\
    length r <> spec_update_len old data off /\ nth off r 0%N <> spec_update_byte old data off off.
Proof.
  exists [1; 2; 3]%N, [9; 9]%N, 5.
  eexists. eexists. eexists.
  split; [vm_compute; repeat constructor|].
  split; [vm_compute; reflexivity|]. split; [vm_compute; reflexivity|]. split; [vm_compute; reflexivity|].
  split; vm_compute; discriminate.
Qed.
Print Assumptions sdmf_update_past_eof_refuted.

(* a whole-file publish stores div_ceil(len, segsize) segments; decoding and trimming each
   (tail segment included) and concatenating gives the data back *)
Theorem segments_roundtrip :
  forall sdmf maxseg k data,
    0 < k -> (sdmf = false -> 0 < maxseg) ->
    exists f, publish sdmf maxseg k data = Some f /\ represents sdmf maxseg k f data /\
              length (mf_segs f) = (if mf_segsize f =? 0 then 0 else div_ceil (length data) (mf_segsize f)) /\
              concat (map (decoded_segment f) (seq 0 (retr_num f))) = data /\
              read_all f = Some data.
Proof.
  intros sdmf maxseg k data Hk Hm. destruct (publish_represents sdmf maxseg k data Hk) as (f & H & R).
  exact (ex_intro _ f (conj H (conj R (conj (represents_segs_length _ _ _ _ _ R)
           (conj (decoded_concat _ _ _ _ _ R Hk Hm) (read_all_represents _ _ _ _ _ R Hk Hm)))))).
Qed.
Print Assumptions segments_roundtrip.

(* Retrieve's first/last segment selection and _set_segment trimming: a read inside the file returns
   exactly data[offset:offset+size]; size None reads to the end; a non-empty read that leaves the file
   is refused (precondition in _start_download), it is not clipped *)
Theorem read_range_exact :
  forall sdmf maxseg k f data off sz,
    0 < k -> (sdmf = false -> 0 < maxseg) -> represents sdmf maxseg k f data ->
    (off + sz <= length data -> retrieve_read f off (Some sz) = Some (slice off (off + sz) data)) /\
    (off <= length data -> retrieve_read f off None = Some (skipn off data)) /\
    (0 < sz -> length data < off + sz -> retrieve_read f off (Some sz) = None) /\
    (length data < off -> retrieve_read f off None = None).
Proof. exact read_range_exact_ok. Qed.
Print Assumptions read_range_exact.

(* any history of overwrite / modify / update operations (update offsets <= current size) succeeds
   and the resulting version reads back, in full and in every range, as the reference byte string *)
Theorem history_refines_bytearray :
  forall sdmf maxseg k init ops,
    0 < k -> (sdmf = false -> 0 < maxseg) -> history_ok init ops ->
    exists f0 f, publish sdmf maxseg k init = Some f0 /\ run_impl maxseg f0 ops = Some f /\
                 represents sdmf maxseg k f (run_spec init ops) /\
                 read_all f = Some (run_spec init ops) /\
                 (forall off sz, off + sz <= length (run_spec init ops) ->
                    retrieve_read f off (Some sz) = Some (slice off (off + sz) (run_spec init ops))).
Proof.
  intros sdmf maxseg k init ops Hk Hm Hh.
  destruct (history_represents sdmf maxseg k Hk Hm init ops Hh) as (f0 & f & H0 & H1 & R). exists f0, f.
  exact (conj H0 (conj H1 (conj R (conj (read_all_represents _ _ _ _ _ R Hk Hm)
           (fun off sz H => retrieve_read_represents _ _ _ _ _ off sz R Hk Hm H))))).
Qed.
Print Assumptions history_refines_bytearray.

(* ... and so does every read between two operations *)
Theorem history_every_prefix :
  forall sdmf maxseg k init ops1 ops2,
    0 < k -> (sdmf = false -> 0 < maxseg) -> history_ok init (ops1 ++ ops2) ->
    exists f0 f, publish sdmf maxseg k init = Some f0 /\ run_impl maxseg f0 ops1 = Some f /\
                 read_all f = Some (run_spec init ops1).
Proof.
  intros sdmf maxseg k init ops1 ops2 Hk Hm Hh.
  destruct (history_represents sdmf maxseg k Hk Hm init ops1 (history_ok_app _ _ _ Hh)) as (f0 & f & H0 & H1 & R).
  exact (ex_intro _ f0 (ex_intro _ f (conj H0 (conj H1 (read_all_represents _ _ _ _ _ R Hk Hm))))).
Qed.
Print Assumptions history_every_prefix.

Definition ex_init : bytes := [1; 2; 3; 4; 5; 6; 7; 8; 9; 10; 11]%N.
Definition ex_ops : list op :=
  [ OpUpdate [21; 22; 23]%N 3;                                 (* inside, crosses a segment boundary (segsize 4) *)
    OpUpdate [31; 32]%N 10;                                    (* reaches past the end: extends to 12 = 3 segments *)
    OpUpdate [41; 42; 43; 44; 45]%N 12;                        (* append at a segment boundary: 5 segments, crosses 4 *)
    OpModify (fun old => Some (firstn 6 old ++ [51]%N));       (* shrink *)
    OpUpdate []%N 7;                                           (* empty append *)
    OpOverwrite [61; 62; 63; 64; 65; 66; 67; 68; 69]%N;
    OpUpdate [71]%N 8 ].

Example ex_history_ok_nonvacuous : history_ok ex_init ex_ops.
Proof. vm_compute. repeat split; repeat constructor. Qed.

Example ex_history_mdmf :
  match publish false 4 2 ex_init with
  | Some f0 => match run_impl 4 f0 ex_ops with
               | Some f => opt_bytes_eqb (read_all f) (Some (run_spec ex_init ex_ops)) &&
                           opt_bytes_eqb (retrieve_read f 3 (Some 5)) (Some [64; 65; 66; 67; 68]%N) &&
                           (mf_segsize f =? 4) && (length (mf_segs f) =? 3)
               | None => false
               end
  | None => false
  end = true.
Proof. vm_compute. reflexivity. Qed.

Example ex_history_sdmf :
  match publish true 4 2 ex_init with
  | Some f0 => match run_impl 4 f0 ex_ops with
               | Some f => opt_bytes_eqb (read_all f) (Some [61; 62; 63; 64; 65; 66; 67; 68; 71]%N)
               | None => false
               end
  | None => false
  end = true.
Proof. vm_compute. reflexivity. Qed.

(* the in-place path stitches the boundary segments: 11 bytes in segments of 4, 3 bytes at offset 3 *)
Example ex_in_place :
  match publish false 4 2 ex_init with
  | Some f => match update_in_place 4 f [21; 22; 23]%N 3 with
              | Some f' => list_bytes_eqb (mf_segs f') [[1; 2; 3; 21]; [22; 23; 7; 8]; [9; 10; 11; 0]]%N
              | None => false
              end
  | None => false
  end = true.
Proof. vm_compute. reflexivity. Qed.

Example ex_read_rejected :
  match publish false 4 2 ex_init with
  | Some f => opt_bytes_eqb (retrieve_read f 9 (Some 3)) None && opt_bytes_eqb (retrieve_read f 9 (Some 2)) (Some [10; 11]%N)
  | None => false
  end = true.
Proof. vm_compute. reflexivity. Qed.
