(* C24  Read-test-write is atomic and guarded by the write enabler.
   Statements only; each is closed by `exact` of a lemma in Proofs/Slot.v.

   `slot_tw H sv b we rs cs tw rv renew now` is the transcription of
   StorageServer.slot_testv_and_readv_and_writev (Model/Slot.v) over a bucket
   directory b : share number -> container file bytes; it returns the bucket
   afterwards and the call's result (or exception).  The model follows the code
   after the fix recorded in known_findings.jsonl (all write-vector sizes are
   validated before any share is touched); `slot_tw_unvalidated` is the code
   before the fix.

   `request_ok` collects the preconditions: the shares of the bucket satisfy the
   container layout invariant of C23, MAX_SIZE and the lease expiry fit their
   on-disk fields, secrets / node id / hash have the protocol's lengths, and the
   request is a dict (distinct share numbers).

   `abs_bucket b n` is the readable data of share n (None: no such share),
   `ref_apply` the reference effect of one share's write vectors and new_length
   on a byte array (C23), `all_applied b b' tw` says every named share went from
   its pre-state to `ref_apply` of it and every other share is as before.
   `tests_pass`, `ref_reads` evaluate the test / read vectors on the abstract
   pre-state; `enablers_match` compares the write enabler with every share. *)
From Coq Require Import List NArith Bool.
From Verif Require Import Lib.Hex Gen.MutConsts Model.MutContainer Model.Lease Model.Slot Proofs.Slot.
Import ListNotations.
Local Open Scope N_scope.

(* Either nothing at all changes (not one byte of any file) -- and that is the case exactly when
   the write enabler does not match every existing share, or some test fails, or some write
   vector does not fit -- or every write of the request has been applied to every share it names
   and no other share has changed.  (In the second case the result is success with the
   pre-state reads, or an exception raised by the lease renewal that follows the writes.) *)
Theorem all_or_nothing :
  forall H sv b we rs cs tw rv renew now,
    request_ok H sv b rs cs tw now ->
    let b' := fst (slot_tw H sv b we rs cs tw rv renew now) in
    let r := snd (slot_tw H sv b we rs cs tw rv renew now) in
    (b' = b /\
     ((enablers_match b we = false /\ r = Err EBadWriteEnabler) \/
      (enablers_match b we = true /\ tests_pass b tw = false /\ r = Ok (false, ref_reads b rv)) \/
      (enablers_match b we = true /\ tests_pass b tw = true /\ sizes_ok (s_maxsz sv) tw = false /\ r = Err EDataTooLarge)))
    \/
    (all_applied b b' tw /\ bucket_ok (s_maxsz sv) b' /\
     enablers_match b we = true /\ tests_pass b tw = true /\ sizes_ok (s_maxsz sv) tw = true /\
     (r = Ok (true, ref_reads b rv) \/ exists e, r = Err e)).
Proof. exact all_or_nothing_proof. Qed.
Print Assumptions all_or_nothing.

(* One existing share recorded under another write enabler is enough: BadWriteEnablerError
   and an untouched bucket, whatever else the request contains. *)
Theorem bad_enabler_changes_nothing :
  forall H sv b we rs cs tw rv renew now n f,
    request_ok H sv b rs cs tw now ->
    In (n, f) b -> read_write_enabler f <> Ok we ->
    slot_tw H sv b we rs cs tw rv renew now = (b, Err EBadWriteEnabler).
Proof. exact bad_enabler_changes_nothing_proof. Qed.
Print Assumptions bad_enabler_changes_nothing.

Theorem failed_test_changes_nothing :
  forall H sv b we rs cs tw rv renew now,
    request_ok H sv b rs cs tw now -> tests_pass b tw = false ->
    fst (slot_tw H sv b we rs cs tw rv renew now) = b /\
    (snd (slot_tw H sv b we rs cs tw rv renew now) = Ok (false, ref_reads b rv) \/
     snd (slot_tw H sv b we rs cs tw rv renew now) = Err EBadWriteEnabler).
Proof. exact failed_test_changes_nothing_proof. Qed.
Print Assumptions failed_test_changes_nothing.

Theorem oversized_request_changes_nothing :
  forall H sv b we rs cs tw rv renew now,
    request_ok H sv b rs cs tw now -> sizes_ok (s_maxsz sv) tw = false ->
    fst (slot_tw H sv b we rs cs tw rv renew now) = b.
Proof. exact oversized_request_changes_nothing_proof. Qed.
Print Assumptions oversized_request_changes_nothing.

(* Whenever the call returns, its read results are the read vector applied to the data every
   existing share had before the request, including the shares the request rewrites or deletes. *)
Theorem reads_reflect_pre_state :
  forall H sv b we rs cs tw rv renew now b' good rd,
    request_ok H sv b rs cs tw now ->
    slot_tw H sv b we rs cs tw rv renew now = (b', Ok (good, rd)) -> rd = ref_reads b rv.
Proof. exact reads_reflect_pre_state_proof. Qed.
Print Assumptions reads_reflect_pre_state.

(* The finding (fixed in /repo, see known_findings.jsonl): without the size validation the
   statement is false.  Three new shares, the second one with a vector beyond MAX_SIZE:
   DataTooLargeError, share 0 written, share 1 half written, share 2 not created. *)
Theorem slot_tw_unvalidated_not_atomic_refuted :
  exists sv b we tw rv,
    bucket_ok (s_maxsz sv) b /\ NoDup (names tw) /\
    let '(b', r) := slot_tw_unvalidated sv b we tw rv in
    r = Err EDataTooLarge /\
    abs_bucket b' 0 = Some [1; 2] /\ abs_bucket b' 1 = Some [3] /\ abs_bucket b' 2 = None.
Proof. exact slot_tw_unvalidated_not_atomic_proof. Qed.
Print Assumptions slot_tw_unvalidated_not_atomic_refuted.

(* the hypotheses are satisfiable; the model computes *)
Definition ex_H (s : list N) : list N := firstn 32 (map (fun b => (b + 1) mod 256) s ++ repeat 0 32).
Definition ex_rs : list N := repeat 1 32.
Definition ex_cs : list N := repeat 2 32.

Example ex_request_ok_nonvacuous : request_ok ex_H ex_sv [] ex_rs ex_cs ex_tw 1000.
Proof.
  repeat split; try reflexivity; try (intros n f []).
  - cbn. repeat constructor; cbn; intuition discriminate.
  - intro s. unfold ex_H. rewrite firstn_length, app_length, map_length, repeat_length. apply PeanoNat.Nat.min_l. apply PeanoNat.Nat.le_add_l.
Qed.

(* the same three-share request against the validated code: refused as a whole *)
Example ex_validated_refuses : slot_tw ex_H ex_sv [] ex_we ex_rs ex_cs ex_tw [] true 1000 = ([], Err EDataTooLarge).
Proof. vm_compute. reflexivity. Qed.

Definition ex_tw2 : list twv := [mkTW 0 [] [(0, [1; 2])] None; mkTW 1 [(0, 1, [])] [(3, [4])] (Some 2)].
Definition ex_b1 : bucket := fst (slot_tw ex_H ex_sv [] ex_we ex_rs ex_cs ex_tw2 [] true 1000).

Example ex_applied_and_guarded :
  snd (slot_tw ex_H ex_sv [] ex_we ex_rs ex_cs ex_tw2 [] true 1000) = Ok (true, []) /\
  abs_bucket ex_b1 0 = Some [1; 2] /\ abs_bucket ex_b1 1 = Some [0; 0] /\
  (* wrong enabler *)
  slot_tw ex_H ex_sv ex_b1 (repeat 8 32) ex_rs ex_cs [mkTW 0 [] [(0, [9])] None] [(0, 5)] true 2000 = (ex_b1, Err EBadWriteEnabler) /\
  (* failing test on share 1 protects share 0 too; reads are from before *)
  slot_tw ex_H ex_sv ex_b1 ex_we ex_rs ex_cs [mkTW 0 [] [(0, [9])] None; mkTW 1 [(0, 1, [5])] [] None] [(0, 5)] true 2000
    = (ex_b1, Ok (false, [(0, [[1; 2]]); (1, [[0; 0]])])) /\
  (* delete share 1 and overwrite share 0: reads still show the old data *)
  snd (slot_tw ex_H ex_sv ex_b1 ex_we ex_rs ex_cs [mkTW 0 [(0, 2, [1; 2])] [(1, [9])] None; mkTW 1 [] [] (Some 0)] [(0, 5)] true 2000)
    = Ok (true, [(0, [[1; 2]]); (1, [[0; 0]])]).
Proof. vm_compute. repeat split. Qed.
