(* C29  Share containers survive a server crash.

   Statements only; each is closed by `exact` or a short derivation from a lemma
   in Proofs/Crash*.v, the examples by evaluation.
   Model/Crash.v gives, for every storage operation `o` in file-system state `s`,
   the list `ops_of o s` of low-level file calls the code issues (creat, pwrite,
   ftruncate, rename, unlink), in the real order; `plain_ops` drops the window
   flags.  A crash at system-call granularity leaves `run_p pre s` for a prefix
   `pre` of that list (`crash_prefixes` = all of them); `recover` is the restart
   (StorageServer.__init__ -> _clean_incomplete); `view_of`/`data_of` are what
   get_buckets+read / slot_readv / get_leases show of a stored file.
   harness/props/c29.py checks the call lists and the post-crash states against
   the real code for every crash point of seeded workloads.

   Granularity (see META of the driver): one write()/truncate()/rename()/unlink()
   is atomic; completed calls survive (process kill). *)
From Coq Require Import String.
From Coq Require Import List NArith Bool.
From Verif Require Import Lib.Hex Lib.FileSys Model.Crash
  Proofs.CrashBytes Proofs.CrashImm Proofs.CrashMut Proofs.Crash Proofs.CrashUpload Proofs.CrashWitness.
Import ListNotations.
Local Open Scope N_scope.

(* 1. every share not being written keeps its data and leases
   For every operation, every state, every crash point: a path the operation
   does not name (`touched`: for allocate_buckets/add_lease/renew_lease the
   shares of that storage index, for write/close/abort the one share, for
   slot_testv_and_readv_and_writev the shares in the write vector) holds
   exactly the bytes it held, before and after the restart. *)
Theorem other_shares_untouched :
  forall (o : sop) (s : state) (pre : list pop) (p : path),
    In pre (crash_prefixes (plain_ops o s)) ->
    ~ In p (touched o) ->
    run_p pre s p = s p /\
    (is_incoming p = false -> recover (run_p pre s) p = s p).
Proof.
  intros o s pre p Hpre Hp. split; [|intro Hf; unfold recover; rewrite Hf];
    exact (crash_outside_touched o s pre p Hpre Hp).
Qed.
Print Assumptions other_shares_untouched.

(* 2. an operation that only adds or renews leases never changes any
        share's data
   FULL STATEMENT (refuted by the faithful model, see
   lease_ops_preserve_data_refuted below):
     forall o s k, lease_only o = true -> recs_ok o -> Inv s ->
       forall si sh, data_of (recover (run_p (map fst (firstn k (ops_of o s))) s) (Final si sh))
                     = data_of (s (Final si sh)).
   PROVED: the same for every crash point k that does not fall between the two
   writes of the immutable ShareFile.add_lease (`in_window`: the last completed
   call is the lease-record append, the lease-count update has not happened).
   `lease_only`: add_lease, renew_lease, and allocate_buckets (which adds/renews
   leases on the existing shares and starts uploads under incoming/).
   `Inv s`: every stored share file is a well-formed container; `recs_ok`: the
   lease records have the serialised size (72 / 92 bytes).  The own share of the
   operation is included (si, sh are arbitrary). *)
Theorem lease_ops_preserve_data :
  forall (o : sop) (s : state) (k : nat),
    lease_only o = true -> recs_ok o -> Inv s ->
    in_window (firstn k (ops_of o s)) = false ->
    forall si sh,
      data_of (recover (run_p (map fst (firstn k (ops_of o s))) s) (Final si sh))
      = data_of (s (Final si sh)).
Proof.
  intros o s k Hl Hr Hs Hk. exact (proj2 (proj2 (lease_ops_good o s Hl Hr Hs) k Hk)).
Qed.
Print Assumptions lease_ops_preserve_data.

(* the excluded crash point violates the statement: StorageServer.add_lease on
   a 5-byte share with one lease, crash after the first of its two writes *)
Theorem lease_ops_preserve_data_refuted :
  exists o s k si sh,
    lease_only o = true /\ recs_ok o /\ Inv s /\
    in_window (firstn k (ops_of o s)) = true /\
    data_of (recover (run_p (map fst (firstn k (ops_of o s))) s) (Final si sh))
    <> data_of (s (Final si sh)).
Proof. exists wit_op, wit_state, 1%nat, 0, 0. exact wit_refutes. Qed.
Print Assumptions lease_ops_preserve_data_refuted.

(* ... and it does so for EVERY well-formed immutable share and every lease:
   after the record append alone the data region is 72 bytes longer *)
Theorem add_lease_window_always_extends_data :
  forall (f : file) (rec : list N),
    imm_wf f = true -> length rec = 72%nat ->
    length (imm_data (write_at f (imm_lease_offset f + 72 * imm_count f) rec))
    = (length (imm_data f) + 72)%nat.
Proof. exact imm_add_window. Qed.
Print Assumptions add_lease_window_always_extends_data.

(* swapping the two writes is no repair: after the count update alone the data
   region is 72 bytes SHORTER (share data is cut off and read as a lease) *)
Theorem add_lease_count_first_truncates_data :
  forall (f : file),
    imm_wf f = true -> imm_count f + 1 < 2 ^ 32 -> (72 <= length (imm_data f))%nat ->
    (length (imm_data (write_at f 8 (enc 4 (imm_count f + 1)))) + 72 = length (imm_data f))%nat.
Proof. exact imm_add_count_first_window. Qed.
Print Assumptions add_lease_count_first_truncates_data.

(* a completed lease-only operation leaves every share well-formed *)
Theorem lease_ops_preserve_wellformedness :
  forall (o : sop) (s : state),
    lease_only o = true -> recs_ok o -> Inv s -> Inv (run_p (plain_ops o s) s).
Proof.
  intros o s Hl Hr Hs. exact (proj1 (crash_safe_all _ _ _ _ (lease_ops_good o s Hl Hr Hs))).
Qed.
Print Assumptions lease_ops_preserve_wellformedness.

(* 3. an immutable share is either absent or complete
   One upload of a new share = allocate_buckets, any writes, close (close does
   not require completeness).  Crash anywhere, restart: get_buckets does not
   list the share, or the share file is the incoming file as it was when
   close() renamed it ... *)
Theorem immutable_absent_or_complete :
  forall (si sh size : N) (rec : list N) (writes : list (N * list N)) (s : state) (pre : list pop),
    s (Final si sh) = None ->
    In pre (crash_prefixes (upload_ops si sh size rec writes)) ->
    let s' := recover (run_p pre s) in
    s' (Final si sh) = None \/ s' (Final si sh) = Some (file_at_close size rec writes).
Proof.
  intros si sh size rec writes s pre Habs Hpre.
  apply (publish_absent_or_complete (Incoming si sh) (Final si sh) _ s pre);
    [discriminate|exact Habs|exact Hpre].
Qed.
Print Assumptions immutable_absent_or_complete.

(* ... which is a well-formed share holding everything the uploader wrote
   before close (ranges never written read as zeros) and the upload's lease *)
Theorem file_at_close_is_complete :
  forall (size : N) (rec : list N) (writes : list (N * list N)),
    length rec = 72%nat ->
    view_of (Some (file_at_close size rec writes)) = VImm (written_data size writes) [rec].
Proof. exact file_at_close_complete_proof. Qed.
Print Assumptions file_at_close_is_complete.

(* `upload_ops` is the call list of the server operations allocate, write*, close *)
Theorem upload_ops_are_server_operations :
  forall (si sh size : N) (rec : list N) (writes : list (N * list N)) (s : state),
    s (Final si sh) = None -> s (Incoming si sh) = None ->
    sops_ops (upload_sops si sh size rec writes) s = upload_ops si sh size rec writes.
Proof. exact upload_ops_are_the_server_operations. Qed.
Print Assumptions upload_ops_are_server_operations.

(* The same upload over the HTTP storage protocol (HTTPServer.write_share_data):
   there is no explicit close; the bucket is closed by the write for which
   BucketWriter.write() reports the upload finished, i.e. (`covered`) the union
   of the DISTINCT byte ranges written so far is the whole share -- a chunk sent
   twice counts once.  Crash anywhere, restart: the share is absent, or it is
   served with the data of writes whose ranges cover every byte. *)
Theorem http_upload_absent_or_byte_complete :
  forall (si sh size : N) (rec : list N) (writes : list (N * list N)) (s : state) (pre : list pop),
    s (Final si sh) = None -> length rec = 72%nat ->
    In pre (crash_prefixes (http_upload_ops si sh size rec writes)) ->
    let s' := recover (run_p pre s) in
    s' (Final si sh) = None \/
    exists m, covered size (write_ranges size (firstn m writes)) = true /\
              s' (Final si sh) = Some (file_at_close size rec (firstn m writes)) /\
              view_of (s' (Final si sh)) = VImm (written_data size (firstn m writes)) [rec].
Proof. exact http_upload_absent_or_byte_complete_proof. Qed.
Print Assumptions http_upload_absent_or_byte_complete.

Theorem covered_means_every_byte_written :
  forall (size : N) (ranges : list (N * N)),
    covered size ranges = true <->
    forall i, i < size -> exists r, In r ranges /\ fst r <= i /\ i < fst r + snd r.
Proof. exact covered_spec. Qed.
Print Assumptions covered_means_every_byte_written.

Theorem http_upload_ops_are_server_operations :
  forall (si sh size : N) (rec : list N) (writes : list (N * list N)) (s : state),
    s (Final si sh) = None -> s (Incoming si sh) = None ->
    sops_ops (ImmAllocate si [] [sh] size rec true :: http_sops si sh size [] writes) s
    = http_upload_ops si sh size rec writes.
Proof. exact http_upload_ops_are_the_server_operations. Qed.
Print Assumptions http_upload_ops_are_server_operations.

(* 4. uploads still in progress are discarded at restart *)
Theorem incoming_discarded :
  forall (s : state) (si sh : N), recover s (Incoming si sh) = None.
Proof. reflexivity. Qed.
Print Assumptions incoming_discarded.

(* a crash inside the cleanup itself, followed by another restart, ends in the
   same state as an undisturbed restart *)
Theorem restart_cleanup_is_crash_safe :
  forall (s : state) (l : list path) (k : nat) (p : path),
    (forall q, In q l -> is_incoming q = true) ->
    recover (run_p (firstn k (map Unlink l)) s) p = recover s p.
Proof. exact recover_after_partial_cleanup. Qed.
Print Assumptions restart_cleanup_is_crash_safe.

(* the share being written by a mutable operation (excluded by the
        property; what the model says about it)
   Container growth with more than four leases (_change_container_size, "An
   interrupt here will corrupt the leases"): a 10-byte share with six leases, a
   write at offset 30.  After call 1 and 2 of 6 the two extra leases are gone,
   from call 3 on they are back; the data is the old data up to call 4; after
   call 5 (new data length written, new bytes not yet) it is neither the old
   nor the new data. *)
Theorem mutable_growth_window :
  map (fun k => lease_count (mut_view_after mw_grow k)) (seq 0 7)
  = [Some 6; Some 4; Some 4; Some 6; Some 6; Some 6; Some 6]%nat /\
  (forall k, (k <= 4)%nat -> data_of (Some (match mw_state (Final 2 0) with Some f => f | None => [] end))
                           = match mut_view_after mw_grow k with VMut d _ => Some d | _ => None end) /\
  mut_view_after mw_grow 5 <> mut_view_after mw_grow 0 /\
  mut_view_after mw_grow 5 <> mut_view_after mw_grow 6.
Proof. exact mutable_growth_window_proof. Qed.
Print Assumptions mutable_growth_window.

(* A lease that needs a new extra slot on a mutable share (_write_lease_record
   writes the count first, then the record): between the two writes the lease
   list of that share cannot be read at all; its data is unaffected (as
   lease_ops_preserve_data says). *)
Theorem mutable_add_lease_window :
  map (fun k => lease_count (mut_view_after mw_add7 k)) (seq 0 3) = [Some 6; None; Some 7]%nat /\
  forall k, data_of (recover (run_p (firstn k (plain_ops mw_add7 mw_state)) mw_state) (Final 2 0))
            = data_of (mw_state (Final 2 0)).
Proof. exact mutable_add_lease_window_proof. Qed.
Print Assumptions mutable_add_lease_window.

(* the hypotheses are satisfiable, the conclusions are not trivial *)
Example ex_inv_nonvacuous : Inv wit_state.
Proof. exact wit_inv. Qed.

(* the witness operation has exactly two calls; prefixes 0 and 2 satisfy the
   hypothesis of lease_ops_preserve_data, prefix 1 is the window *)
Example ex_window_points_nonvacuous :
  map (fun k => in_window (firstn k (ops_of wit_op wit_state))) [0; 1; 2]%nat = [false; true; false]
  /\ lease_only wit_op = true /\ length (ops_of wit_op wit_state) = 2%nat.
Proof. vm_compute. repeat split. Qed.

Example ex_witness_states :
  view_of (wit_state (Final 0 0)) = VImm (unhex "68656c6c6f"%string) [wit_rec0] /\
  view_of (recover (run_p (firstn 1 (plain_ops wit_op wit_state)) wit_state) (Final 0 0))
  = VImm (unhex "68656c6c6f"%string ++ wit_rec0) [wit_rec1] /\
  view_of (recover (run_p (firstn 2 (plain_ops wit_op wit_state)) wit_state) (Final 0 0))
  = VImm (unhex "68656c6c6f"%string) [wit_rec0; wit_rec1].
Proof. vm_compute. repeat split. Qed.

(* an upload whose close completed is present, one cut before the rename is absent *)
Example ex_upload_nonvacuous :
  let ops := upload_ops 0 0 5 wit_rec0 [(0, unhex "68656c6c6f"%string)] in
  length ops = 6%nat /\
  view_of (recover (run_p ops empty_fs) (Final 0 0)) = VImm (unhex "68656c6c6f"%string) [wit_rec0] /\
  view_of (recover (run_p (firstn 5 ops) empty_fs) (Final 0 0)) = VAbsent /\
  run_p (firstn 5 ops) empty_fs (Incoming 0 0) <> None /\
  recover (run_p (firstn 5 ops) empty_fs) (Incoming 0 0) = None.
Proof. vm_compute. repeat split. discriminate. Qed.

(* a three-chunk share sent as chunk 0, chunk 0 again, chunk 1: three accepted
   writes, nine bytes in total for a nine-byte share, but the union is six bytes:
   not finished, nothing renamed, nothing visible after a restart; with chunk 2
   the last write renames the share into place *)
Example ex_http_resent_chunk_nonvacuous :
  let c0 := (0, [1; 2; 3]) in let c1 := (3, [4; 5; 6]) in let c2 := (6, [7; 8; 9]) in
  covered 9 (write_ranges 9 [c0; c0; c1]) = false /\
  view_of (recover (run_p (http_upload_ops 0 0 9 wit_rec0 [c0; c0; c1]) empty_fs) (Final 0 0)) = VAbsent /\
  covered 9 (write_ranges 9 [c0; c0; c1; c2]) = true /\
  view_of (recover (run_p (http_upload_ops 0 0 9 wit_rec0 [c0; c0; c1; c2]) empty_fs) (Final 0 0))
  = VImm [1; 2; 3; 4; 5; 6; 7; 8; 9] [wit_rec0].
Proof. vm_compute. repeat split. Qed.

(* close() whose rename into the final place fails (incoming/ on another file
   system, EXDEV): fileutil.rename gives up, no file call follows; the upload
   stays under incoming/ and is discarded by the restart *)
Example ex_failed_close_writes_nothing :
  forall si sh s, plain_ops (ImmCloseFailed si sh) s = [] /\ touched (ImmCloseFailed si sh) = [].
Proof. intros. split; reflexivity. Qed.

(* other_shares_untouched: the witness operation names share 0/0 only *)
Example ex_touched_nonvacuous :
  touched wit_op = [Final 0 0] /\ ~ In (Final 0 1) (touched wit_op).
Proof. split; [reflexivity|]. simpl. intros [H|[]]. discriminate H. Qed.
