(* C26  Garbage collection deletes exactly the expired shares.
   Statements, each an instance of lemmas of Proofs/Expirer.v (and
   Proofs/Crawler*.v for the crawl); the example is closed by evaluation.

   Model/Expirer.v transcribes LeaseCheckingCrawler.process_share/process_bucket
   (after the repair of the age rule, /repo commit "fix: lease expirer age mode
   without override ..."), LeaseInfo.get_age / get_grant_renew_time_time /
   get_expiration_time, cancel_lease of both containers and the expire.* option
   handling.  `expired_by_rule` is the property's rule written on its own:
   age mode: renewal + duration (or override) < now; cutoff mode: renewal <
   cutoff; `lease_expired` is the coded test.

   Hypotheses that appear in the statements, and why:
   * the leases of a share carry pairwise distinct cancel secrets: cancel_lease
     removes every lease with a matching secret, so a shared secret lets an
     expired lease take an unexpired one with it
     (deleted_implies_all_expired_needs_distinct_secrets, a recorded finding);
   * a share has at least one lease for "is deleted": a share without leases is
     never unlinked, only counted as recovered (zero_lease_share_not_deleted, a
     recorded finding);
   * the clock never goes back below the time at which the leases were found
     expired (age mode compares with the current time). *)
From Coq Require Import List ZArith NArith Bool Arith String.
From Verif Require Import Gen.CrawlConsts Model.Crawler Model.Expirer Proofs.Expirer.
Import ListNotations.
Local Open Scope Z_scope.

(* With expiration disabled no share file changes: not in one process_share
   call, not in a bucket, not over any crawl. *)
Theorem disabled_never_deletes :
  forall pol, p_enabled pol = false ->
    (forall now t ls, sr_state (process_share pol now t ls) = Present ls /\
                      sr_raised (process_share pol now t ls) = false) /\
    (forall now bk, process_bucket pol now bk = (bk, false)) /\
    (forall clock tr k i b bk, replay pol clock k i b tr bk = bk).
Proof.
  intros pol E. split; [intros; apply disabled_share; exact E|].
  split; [intros; apply disabled_bucket; exact E|intros; apply disabled_replay; exact E].
Qed.
Print Assumptions disabled_never_deletes.

(* The coded test is the property's rule plus the share-type filter. *)
Theorem coded_test_is_the_rule :
  forall pol now t l,
    lease_expired pol now t l = true <-> type_enabled pol t = true /\ expired_by_rule (p_mode pol) now l.
Proof. exact lease_expired_rule. Qed.
Print Assumptions coded_test_is_the_rule.

(* A share is unlinked only if expiration is enabled, its type is enabled, and
   every lease on it is expired under the configured policy. *)
Theorem deleted_implies_all_expired :
  forall pol now t ls,
    NoDup (map l_cancel ls) ->
    sr_state (process_share pol now t ls) = Gone ->
    p_enabled pol = true /\ type_enabled pol t = true /\ ls <> [] /\
    forall l, In l ls -> expired_by_rule (p_mode pol) now l.
Proof. exact deleted_implies_all_expired_ok. Qed.
Print Assumptions deleted_implies_all_expired.

(* Conversely such a share is unlinked by the call, which does not raise. *)
Theorem all_expired_implies_deleted :
  forall pol now t ls,
    p_enabled pol = true -> type_enabled pol t = true -> ls <> [] -> NoDup (map l_cancel ls) ->
    (forall l, In l ls -> expired_by_rule (p_mode pol) now l) ->
    sr_state (process_share pol now t ls) = Gone /\ sr_raised (process_share pol now t ls) = false.
Proof. exact all_expired_implies_deleted_ok. Qed.
Print Assumptions all_expired_implies_deleted.

(* A share that stays keeps exactly its unexpired leases, in order. *)
Theorem surviving_share_keeps_unexpired_leases :
  forall pol now t ls rest,
    NoDup (map l_cancel ls) -> p_enabled pol = true ->
    sr_state (process_share pol now t ls) = Present rest ->
    rest = filter (fun l => negb (lease_expired pol now t l)) ls.
Proof. exact kept_leases_ok. Qed.
Print Assumptions surviving_share_keeps_unexpired_leases.

(* Within one crawl cycle (C27's model of the crawler, any interruptions and
   kills): a share whose leases are all expired at time now0 is gone by the
   time finished_cycle is called, if the clock never shows less than now0. *)
Theorem all_expired_implies_deleted_in_cycle :
  forall dirs specs tr m pre c post i b pol clock now0 bk j n t ls,
    wf_dirs prefixes dirs ->
    run dirs (load init_pstate) specs = (tr, m) ->
    tr = pre ++ EFinished c :: post ->
    In b (nth i dirs []) ->
    p_enabled pol = true -> type_enabled pol t = true ->
    (forall k, now0 <= clock k) ->
    bucket_ok bk ->
    nth_error bk j = Some (n, t, Present ls) ->
    ls <> [] ->
    (forall l, In l ls -> expired_by_rule (p_mode pol) now0 l) ->
    nth_error (replay pol clock 0 i b pre bk) j = Some (n, t, Gone).
Proof. exact deleted_in_cycle_ok. Qed.
Print Assumptions all_expired_implies_deleted_in_cycle.

(* Damaged stores: a share file that cannot be parsed (unknown version or magic,
   or shorter than its container header) is recorded as corrupt and skipped;
   it never makes process_bucket raise, so the crawl goes on (bucket_ok admits
   such files, hence all_expired_implies_deleted_in_cycle also holds for good
   shares lying next to damaged ones). *)
Theorem unreadable_share_not_fatal :
  forall pol now bk,
    bucket_ok bk ->
    snd (process_bucket pol now bk) = false /\
    (forall j n t, nth_error bk j = Some (n, t, Unreadable) ->
       nth_error (fst (process_bucket pol now bk)) j = Some (n, t, Unreadable)) /\
    corrupt_shares pol now bk =
      Some (map (fun e => fst (fst e)) (filter (fun e => match snd e with Unreadable => true | _ => false end) bk)).
Proof. exact unreadable_not_fatal_ok. Qed.
Print Assumptions unreadable_share_not_fatal.

(* Leases made by the storage server at time t0 have renewal time t0 and the
   default duration under the accessors the expirer uses. *)
Theorem server_lease_times :
  forall t0 s, renewal_time (mk_lease (t0 + default_renewal_time) s) = t0 /\
               nominal_duration (mk_lease (t0 + default_renewal_time) s) = default_renewal_time.
Proof. exact server_lease_times_ok. Qed.
Print Assumptions server_lease_times.

(* Configuration: nothing configured means expiration is off; switching it on
   without a mode is refused. *)
Theorem expiration_off_by_default :
  exists pol, policy_of_config (mk_config None None None None None None) = Some pol /\ p_enabled pol = false.
Proof. exact default_config_disabled. Qed.
Print Assumptions expiration_off_by_default.

Theorem enabling_requires_a_mode :
  forall c, c_enabled c = Some true -> c_mode c = None -> policy_of_config c = None.
Proof. exact enabled_requires_mode. Qed.
Print Assumptions enabling_requires_a_mode.

(* Recorded findings: what happens outside the hypotheses. *)
Theorem deleted_implies_all_expired_needs_distinct_secrets :
  exists pol now t ls l,
    sr_state (process_share pol now t ls) = Gone /\ In l ls /\ ~ expired_by_rule (p_mode pol) now l.
Proof. exact duplicate_secret_deletes_unexpired. Qed.
Print Assumptions deleted_implies_all_expired_needs_distinct_secrets.

Theorem zero_lease_share_not_deleted :
  forall pol now t, sr_state (process_share pol now t []) = Present [] /\
                    (p_enabled pol = true -> sr_keep_actual (process_share pol now t []) = false).
Proof. exact zero_lease_share_kept. Qed.
Print Assumptions zero_lease_share_not_deleted.

(* Fingerprints of the source functions the model was written for. *)
Theorem expirer_pins :
  (pin_expirer_init, pin_expirer_process_bucket, pin_expirer_process_share,
   pin_lease_get_expiration_time, pin_lease_get_grant_renew_time_time, pin_lease_get_age,
   pin_immutable_cancel_lease, pin_mutable_cancel_lease, pin_client_expire_options)
  = ("87230d7dfee42009", "8a906c6684c03a25", "ac35ccff36e39362",
     "5f242c355dc4878a", "f5d36968d4dfd853", "0bab09361241b115",
     "9e127ac00374484c", "f4ffcf8c633e4560", "5ead9972c79668fb")%string.
Proof. reflexivity. Qed.
Print Assumptions expirer_pins.

(* Non-vacuity: the age rule without override deletes a share whose leases were
   renewed 40 and 32 days ago, keeps one renewed 30 days ago, and the threshold
   itself is not yet expired. *)
Example ex_age_rule_nonvacuous :
  sr_state (process_share ex_pol_age ex_now Immutable ex_old_leases) = Gone /\
  NoDup (map l_cancel ex_old_leases) /\
  lease_expired ex_pol_age ex_now Immutable (mk_lease ex_now 1) = false /\
  lease_expired ex_pol_age (ex_now + 1) Immutable (mk_lease ex_now 1) = true.
Proof.
  split; [reflexivity|]. split; [|split; reflexivity].
  repeat constructor; cbn; intuition discriminate.
Qed.
