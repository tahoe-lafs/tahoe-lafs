(* C08  Happiness value equals a maximum server/share matching.
   Statements; each theorem is closed by `exact` or a derivation of a line or two from lemmas of
   Proofs/Matching*.v.  Model: Model/Matching.v
   (servers_of_happiness and the graph helpers of happiness_upload.py: re-indexing,
   flow network, BFS with colours and predecessors, augmenting path, residual
   network, augmentation loop).

   The three theorems of the property are proved at full strength for the model:
   whenever the model returns a number (it returns None only when the explicit fuel
   - servers + 1 augmentations, vertices + 1 BFS steps - runs out or Python would
   raise), that number is the size of a matching of the server/share relation, no
   larger matching exists, and it is the same for every presentation of the relation.
   `wf_svm` is the type invariant of the Python value (a dict has no repeated key, a
   set no repeated element); shares_by_server always produces it.
   Proof: flow invariant preserved by each augmentation along the BFS predecessor
   path (Proofs/MatchingAugment.v), BFS closure (Proofs/MatchingBfs.v), Koenig cover
   from the coloured set (Proofs/MatchingLoop.v), re-indexing (Proofs/MatchingNetwork.v).
   Termination is proved too (Proofs/MatchingTotal.v): the fuel always suffices, so
   the model returns a number for every well-formed servermap and every sharemap. *)
From Coq Require Import List NArith ZArith Bool Permutation.
From Verif Require Import Model.Matching Proofs.Matching Proofs.MatchingNetwork Proofs.MatchingFull Proofs.MatchingTotal.
Import ListNotations.
Local Open Scope N_scope.

(* The property, on the servermap that servers_of_happiness iterates over. *)

Theorem soh_is_matching :
  forall svm n, wf_svm svm -> soh_servermap svm = Some n ->
    exists M, is_matching svm M /\ n = Z.of_nat (length M).
Proof.
  intros svm n W H. destruct (soh_servermap_correct svm W n H) as [M [HM [Hn _]]]. exists M. split; assumption.
Qed.
Print Assumptions soh_is_matching.

Theorem soh_is_maximum :
  forall svm n, wf_svm svm -> soh_servermap svm = Some n ->
    (0 <= n)%Z /\ max_matching_size svm (Z.to_nat n).
Proof. exact soh_maximum_full. Qed.
Print Assumptions soh_is_maximum.

(* the fuel (servers + 1 augmentations, vertices + 1 BFS steps, vertices path steps) suffices *)
Theorem soh_total : forall svm, wf_svm svm -> exists n, soh_servermap svm = Some n.
Proof. exact soh_servermap_total. Qed.
Print Assumptions soh_total.

(* any two presentations (dict insertion order, set iteration order) of one relation *)
Theorem soh_order_independent :
  forall a b n m, wf_svm a -> wf_svm b -> same_edges a b ->
    soh_servermap a = Some n -> soh_servermap b = Some m -> n = m.
Proof.
  intros a b n m Wa Wb E Ha Hb.
  exact (max_size_Z_unique a b n m E (soh_maximum_full a n Wa Ha) (soh_maximum_full b m Wb Hb)).
Qed.
Print Assumptions soh_order_independent.

(* The same at the level of the sharemap argument. *)

Theorem shares_by_server_transposes :
  forall sm p s, edge (shares_by_server sm) p s <-> sm_edge sm p s.
Proof. exact shares_by_server_edges. Qed.
Print Assumptions shares_by_server_transposes.

Theorem shares_by_server_well_formed : forall sm, wf_svm (shares_by_server sm).
Proof. exact shares_by_server_wf. Qed.
Print Assumptions shares_by_server_well_formed.

Theorem servers_of_happiness_is_maximum_matching :
  forall sm n, servers_of_happiness sm = Some n ->
    (0 <= n)%Z /\ max_matching_size (shares_by_server sm) (Z.to_nat n).
Proof. exact servers_of_happiness_correct. Qed.
Print Assumptions servers_of_happiness_is_maximum_matching.

Theorem servers_of_happiness_returns : forall sm, exists n, servers_of_happiness sm = Some n.
Proof. exact servers_of_happiness_total. Qed.
Print Assumptions servers_of_happiness_returns.

Theorem servers_of_happiness_order_independent :
  forall sm sm' n m, Permutation sm sm' ->
    servers_of_happiness sm = Some n -> servers_of_happiness sm' = Some m -> n = m.
Proof. intros sm sm' n m P. apply servers_of_happiness_order. apply sm_edge_perm. exact P. Qed.
Print Assumptions servers_of_happiness_order_independent.

Theorem servers_of_happiness_depends_on_relation_only :
  forall sm sm' n m, (forall p s, sm_edge sm p s <-> sm_edge sm' p s) ->
    servers_of_happiness sm = Some n -> servers_of_happiness sm' = Some m -> n = m.
Proof. exact servers_of_happiness_order. Qed.
Print Assumptions servers_of_happiness_depends_on_relation_only.

(* Koenig, easy direction, as a checker (any graph, any claimed matching and cover); also used by C07. *)
Theorem certificate_checker_sound :
  forall (svm : servermap) (n : Z) (M : list (N * N)) (CL CR : list N),
    valid_certificate svm n M CL CR = true ->
    is_matching svm M /\ n = Z.of_nat (length M) /\ max_matching_size svm (length M).
Proof. exact certificate_sound. Qed.
Print Assumptions certificate_checker_sound.

Theorem max_matching_unique :
  forall a b n m, same_edges a b -> max_matching_size a n -> max_matching_size b m -> n = m.
Proof. exact max_matching_size_unique. Qed.
Print Assumptions max_matching_unique.

(* The layout of the servers_of_happiness docstring. *)
Definition ex_doc : servermap := [(1, [1; 2; 3; 4]); (2, [6]); (3, [3]); (4, [4]); (5, [2])].

Example ex_doc_value_nonvacuous : soh_servermap ex_doc = Some 5%Z.
Proof. vm_compute. reflexivity. Qed.

Example ex_doc_wf_nonvacuous : nodupN (map fst ex_doc) = true /\ forallb (fun e => nodupN (snd e)) ex_doc = true.
Proof. vm_compute. split; reflexivity. Qed.

(* A relation where the first choice must be re-routed along an alternating path. *)
Example ex_reroute_nonvacuous :
  soh_servermap [(1, [1; 2]); (2, [1]); (3, [2; 3])] = Some 3%Z /\
  soh_certified [(1, [1; 2]); (2, [1]); (3, [2; 3])] = true.
Proof. vm_compute. split; reflexivity. Qed.

(* Every servermap over 3 servers and 3 shares (512 relations) returns a number and its
   certificate is accepted. *)
Example ex_all_3x3_certified_nonvacuous :
  forallb soh_certified (all_servermaps [1; 2; 3] [1; 2; 3]) = true /\
  length (all_servermaps [1; 2; 3] [1; 2; 3]) = 512%nat.
Proof. rewrite (forallb_ext _ _ _ soh_certified_once). vm_compute. split; reflexivity. Qed.

Example ex_order_nonvacuous :
  servers_of_happiness [(0, [7; 8]); (1, [7])] = Some 2%Z /\
  servers_of_happiness [(1, [7]); (0, [8; 7])] = Some 2%Z.
Proof. vm_compute. split; reflexivity. Qed.
