(* C04  Random-access and concurrent immutable reads.
   Statements only: each theorem is closed by `exact` or a one-line derivation from lemmas of
   Proofs/SegQueue*.v.  Model/SegQueue.v: the node's segment queue with n concurrent
   Segmentation readers; `ct` is the file (position-wise: the AES-CTR offset handling of
   DecryptingConsumer is C01's ctr_position), `segsize` the real segment size, `guess`
   the guessed one.  Delivered segments carry the file's bytes (integrity is C02). *)
From Coq Require Import List NArith Bool Arith.
From Verif Require Import Model.SegQueue Proofs.SegQueueBase Proofs.SegQueueRange Proofs.SegQueueLive Proofs.SegQueueThm.
Import ListNotations.

(* The read started by `SRead off sz` after any history evs1, at any later moment evs2
   -- any interleaving of other reads, pauses, resumes, stops, segment completions and
   failures, wrong segment-size guesses --: its consumer has received a prefix of
   file[off : off+sz] (Python slicing: clipped at EOF, nothing when off >= EOF, sz = None
   means to EOF) and, when the read has finished successfully, exactly that slice. *)
Theorem range_slice :
  forall (ct : list N) (segsize guess : N) (evs1 : list sev) (off : N) (sz : option N) (evs2 : list sev),
  let i := length (s_readers (fst (srun true ct segsize guess sinit evs1))) in
  let s := fst (srun true ct segsize guess sinit (evs1 ++ SRead off sz :: evs2)) in
  exists r, nth_error (s_readers s) i = Some r /\
    (exists n, concat (rd_written r) = firstn n (py_slice ct off sz)) /\
    (rd_result r = Some RDone -> concat (rd_written r) = py_slice ct off sz).
Proof. exact range_slice_ok. Qed.
Print Assumptions range_slice.

(* All readers at once, in every reachable state: each one's delivered bytes are the
   bytes of the file from its own start offset up to its own current offset, inside its
   own range; and no other reader's cancel / pause / read removes its outstanding
   request: that is still queued, or its delivery is, and has not been cancelled. *)
Theorem readers_independent :
  forall (ct : list N) (segsize guess : N) (evs : list sev),
  guarded ct segsize guess sinit evs ->
  let s := fst (srun true ct segsize guess sinit evs) in
  forall i r, nth_error (s_readers s) i = Some r ->
    (concat (rd_written r) = slice (N.to_nat (rd_off0 r)) (N.to_nat (rd_offset r - rd_off0 r)) ct /\
     (rd_off0 r <= rd_offset r)%N /\ (rd_offset r + rd_size r = rd_off0 r + rd_size0 r)%N /\
     (rd_result r = Some RDone -> rd_size r = 0%N)) /\
    (rd_result r = None ->
     (forall sg rid k, rd_active r = Some (sg, rid, k) ->
        ~ In rid (s_inactive s) /\ (In rid (map r_id (s_reqs s)) \/ In rid (map fst (s_deliveries s)))) /\
     (rd_hungry r = true -> rd_mfn r > 0 \/ rd_active r <> None)).
Proof.
  intros ct segsize guess evs G s i r H.
  exact (conj (reach_rd_ok ct segsize guess evs i r H) (reach_pending ct segsize guess evs G i r H)).
Qed.
Print Assumptions readers_independent.

(* LiteralFileNode.read: data[offset:offset+size] / data[offset:] *)
Theorem literal_range :
  forall (data : list N) (offset : N) (size : option N),
  literal_read data offset size = slice (N.to_nat offset) (N.to_nat (read_clip (N.of_nat (length data)) offset size)) data /\
  N.of_nat (length (literal_read data offset size)) = read_clip (N.of_nat (length data)) offset size /\
  ((N.of_nat (length data) <= offset)%N -> literal_read data offset size = []).
Proof. exact literal_range_ok. Qed.
Print Assumptions literal_range.

(* two overlapping reads of an 8-byte file with 4-byte segments; the first is stopped by
   its consumer inside its first write, the second still gets bytes 2..5 *)
Example ex_two_readers :
  let s := fst (srun true [10; 11; 12; 13; 14; 15; 16; 17] 4 4 sinit
                     [SRead 1 (Some 6); SRead 2 (Some 4); SLearn; SBlocks true EOther; SDeliver StopInWrite; SDeliver Quiet;
                      SBlocks true EOther; SDeliver Quiet])%N in
  map (fun r => (concat (rd_written r), rd_result r)) (s_readers s)
  = [([11; 12; 13], Some RStopped); ([12; 13; 14; 15], Some RDone)]%N.
Proof. vm_compute. reflexivity. Qed.

Example ex_past_eof :
  py_slice [1; 2; 3]%N 5 (Some 2%N) = [] /\ py_slice [1; 2; 3]%N 1 None = [2; 3]%N /\ py_slice [1; 2; 3]%N 2 (Some 9%N) = [3]%N.
Proof. vm_compute. auto. Qed.
