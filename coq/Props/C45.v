(* C45  Immutable check, verify and repair.
   Statements only; the theorems are closed by `exact` of a lemma in Proofs/ImmCheck*.v (the refutation
   by its witness), the examples by `exact` or by evaluation.
   The model is Model/ImmCheck.v: Checker._download_and_verify (ValidatedExtendedURIProxy,
   ValidatedReadBucketProxy.get_all_sharehashes / get_all_blockhashes / get_all_crypttext_hashes /
   get_block), Checker._format_results, and the repairer's re-encoding; the downloader it uses
   and the genuine file are Model/ImmVerify.v (C02), the Merkle trees Model/HashTree.v (C35).
   Every field of the share handed to the verifier is arbitrary; `s` is the share number the
   server announces it under.  Hash hypotheses as in C02. *)
From Coq Require Import List ZArith NArith Bool.
From Verif Require Import Gen.ImmConsts Model.HashTree Model.ImmFile Model.ImmVerify Model.ImmCheck
  Proofs.ImmFileRead Proofs.ImmVerifyTree Proofs.ImmVerify Proofs.ImmVerifyRead Proofs.ImmCheck Proofs.ImmVerifySym
  Proofs.ImmCheckRepair.
Import ListNotations.
Local Open Scope Z_scope.

(* A share the verifier reports good carries the uploader's UEB; every block it read is the
   uploader's block of THAT share number, and every share-hash-chain entry, crypttext-hash-tree
   node and block-hash-tree node it read is the uploader's. *)
Theorem verified_share_is_genuine :
  forall (H : Type) (H_eqb : H -> H -> bool) (pair_hash : H -> H -> H) (truthy : H -> bool) (empty_leaf : Z -> H)
         (block_hash seg_hash : list N -> H) (UB : Type) (ueb_hash : UB -> H) (parse_ueb : UB -> option (ueb H))
         (ser_ueb : ueb H -> UB),
    (forall a b, H_eqb a b = true <-> a = b) ->
    (forall h, truthy h = true) ->
    (forall a b c d, pair_hash a b = pair_hash c d -> a = c /\ b = d) ->
    (forall a b, block_hash a = block_hash b -> a = b) ->
    (forall a b, ueb_hash a = ueb_hash b -> a = b) ->
    (forall u, parse_ueb (ser_ueb u) = Some u) ->
  forall (f : efile) (key : list N), ef_wf f ->
  let c := g_cap H pair_hash empty_leaf block_hash seg_hash UB ueb_hash ser_ueb key f in
  forall (s : Z) (vs : vshare H UB) (ords0 : nat -> list Z) (ords : nat -> nat -> list Z),
    0 <= s < Z.of_N (ef_n f) ->
    verify_share H H_eqb pair_hash truthy block_hash UB ueb_hash parse_ueb c s vs ords0 ords = VGood ->
    v_ueb vs = UebBytes (ser_ueb (g_ueb H pair_hash empty_leaf block_hash seg_hash f)) /\
    (forall j, 0 <= j < nseg f -> vblock H UB vs j = gblock f s j) /\
    (forall k h l, v_share_hashes vs = Some l -> In (k, h) (pydict l) -> 0 <= k < ns f ->
                   h = Gs H pair_hash empty_leaf block_hash f k) /\
    (forall k h, In (k, h) (enumerate (v_ct_hashes vs)) -> 0 <= k < nc f -> h = Gc H pair_hash empty_leaf seg_hash f k) /\
    (1 <= nseg f -> forall k h, In (k, h) (enumerate (v_block_hashes vs)) -> 0 <= k < nc f ->
                    h = Gb H pair_hash empty_leaf block_hash f s k).
Proof.
  intros H H_eqb pair_hash truthy empty_leaf block_hash seg_hash UB ueb_hash parse_ueb ser_ueb He Ht Hp Hb Hu Hps f key Hwf c.
  exact (verify_share_sound H H_eqb pair_hash truthy empty_leaf block_hash seg_hash UB ueb_hash parse_ueb ser_ueb He Ht Hp Hb Hu Hps f key Hwf).
Qed.
Print Assumptions verified_share_is_genuine.

(* The same statement for the verifier as it was before the fix in /repo (the block hash tree
   root compared with the share hash tree only `if not self.block_hash_tree[0]`) is refuted by the
   faithful model: share 0's bytes, announced as share 1, are reported good.
   Finding "verify-reports-share-good-under-wrong-number" (fixed). *)
Theorem verified_share_is_genuine_before_fix_refuted :
  exists (f : efile) (key : list N) (s : Z) (vs : vshare hs ub),
    ef_wf f /\ 0 <= s < Z.of_N (ef_n f) /\
    sym_verify_share_gen false (sym_g_cap key f) s vs (fun _ => []) (fun _ _ => []) = VGood /\
    zassoc 0 (v_blocks vs) <> Some (gblock f s 0).
Proof.
  exists f1, [], 1, (sym_vshare_of (f1_share 0) 1).
  split; [exact f1_wf|]. repeat split; vm_compute; (reflexivity || discriminate).
Qed.
Print Assumptions verified_share_is_genuine_before_fix_refuted.

(* Checker._format_results: healthy exactly when the shares found good have N distinct numbers *)
Theorem healthy_iff_N_distinct :
  forall (k n : N) (rs : list server_result) (cr : check_results),
    format_results k n rs = Some cr ->
    (cr_healthy cr = true <->
     exists l, (NoDup l /\ forall s, In s l <-> exists r, In r rs /\ In s (sr_verified r)) /\ N.of_nat (length l) = n).
Proof. exact healthy_iff. Qed.
Print Assumptions healthy_iff_N_distinct.

(* ... recoverable exactly when at least k distinct numbers were found good *)
Theorem recoverable_iff_k_distinct :
  forall (k n : N) (rs : list server_result) (cr : check_results),
    format_results k n rs = Some cr ->
    (cr_recoverable cr = true <->
     exists l, NoDup l /\ N.of_nat (length l) = k /\ forall s, In s l -> exists r, In r rs /\ In s (sr_verified r)).
Proof. exact recoverable_iff. Qed.
Print Assumptions recoverable_iff_k_distinct.

(* ... and it produces results unless more than N distinct numbers were reported (the code's
   `assert len(verifiedshares) <= total_shares`: the check then fails instead of reporting) *)
Theorem format_results_defined_iff :
  forall (k n : N) (rs : list server_result),
    format_results k n rs = None <-> (n < N.of_nat (length (good_shares rs)))%N.
Proof. exact format_results_defined. Qed.
Print Assumptions format_results_defined_iff.

(* Repair.  The repairer learns the segment size from a validated UEB (get_segment_size), reads
   the whole ciphertext through the validating downloader and encodes it again with the cap's k
   and N.  If the read completes, the re-encoded file IS the uploader's: same blocks and hash
   trees, the capability computed from it is the original capability, and every share it writes
   equals the original share of that number (so an existing good share is never contradicted,
   and a share that validates under the cap -- C02, verified_share_is_genuine -- has exactly
   these blocks).
   Full statement: "... and the file can be read from the repaired shares alone".  Proved here:
   the repaired shares equal the original ones, and a download that starts fresh accepts every
   block of every repaired share (last conjunct; the offsets must pass Share._satisfy_offsets, as
   those written by WriteBucketProxy do: C01 offsets_layout).  Missing for the full statement:
   completeness in every later node state (after other shares filled parts of the shared trees)
   and the decoder's any-k-of-N property (C36) to put the accepted blocks back into the
   segment; both are exercised by the examples below and by the grid runs of the driver
   (download from the repaired shares alone), not proved. *)
Theorem repair_output_validates_under_readcap_partial :
  forall (H : Type) (H_eqb : H -> H -> bool) (pair_hash : H -> H -> H) (truthy : H -> bool) (empty_leaf : Z -> H)
         (block_hash seg_hash : list N -> H) (UB : Type) (ueb_hash : UB -> H) (parse_ueb : UB -> option (ueb H))
         (dec : N -> N -> list (N * list N) -> list (list N)) (ser_ueb : ueb H -> UB)
         (enc : N -> N -> list (list N) -> list (list N)),
    (forall a b, H_eqb a b = true <-> a = b) ->
    (forall h, truthy h = true) ->
    (forall a b c d, pair_hash a b = pair_hash c d -> a = c /\ b = d) ->
    (forall a b, block_hash a = block_hash b -> a = b) ->
    (forall a b, seg_hash a = seg_hash b -> a = b) ->
    (forall a b, ueb_hash a = ueb_hash b -> a = b) ->
    (forall u, parse_ueb (ser_ueb u) = Some u) ->
  forall (k n segsize guess : N) (ct key : list N)
         (script : N -> list (Z * share H UB * (nat -> list Z)) * list Z)
         (tries : list (Z * share H UB * (nat -> list Z))) (ord : list Z),
    (1 <= N.of_nat (length ct))%N -> (1 <= k)%N -> (1 <= segsize)%N -> (segsize mod k = 0)%N -> (1 <= guess)%N ->
    let f := encode_file enc k n segsize ct in
    let c := g_cap H pair_hash empty_leaf block_hash seg_hash UB ueb_hash ser_ueb key f in
    forall dn0 r0 ss ws chunks,
      fetch_segment H H_eqb pair_hash truthy block_hash seg_hash UB ueb_hash parse_ueb dec c (node_init H c) 0 tries ord = (dn0, r0) ->
      dn_segsize dn0 = Some ss ->
      read_plan (N.of_nat (length ct)) segsize guess 0 None = SegDone ws ->
      serve H H_eqb pair_hash truthy block_hash seg_hash UB ueb_hash parse_ueb dec c (node_init H c) ws script = (chunks, None) ->
      let f' := repair_encode enc (c_k c) (c_n c) ss (concat chunks) in
      f' = f /\
      g_cap H pair_hash empty_leaf block_hash seg_hash UB ueb_hash ser_ueb key f' = c /\
      (forall ver o i, g_share H pair_hash empty_leaf block_hash seg_hash UB ser_ueb f' ver o i
                       = g_share H pair_hash empty_leaf block_hash seg_hash UB ser_ueb f ver o i) /\
      (forall ver o i j ords,
         check_offsets H UB (g_share H pair_hash empty_leaf block_hash seg_hash UB ser_ueb f' ver o i) = None ->
         0 <= i < Z.of_N n -> 0 <= j < nseg f ->
         exists dn', get_block H H_eqb pair_hash truthy block_hash UB ueb_hash parse_ueb c (node_init H c) i j
                               (g_share H pair_hash empty_leaf block_hash seg_hash UB ser_ueb f' ver o i) ords
                     = (dn', GBlock (gblock f i j))).
Proof. exact repair_equals_original. Qed.
Print Assumptions repair_output_validates_under_readcap_partial.

(* non-vacuity and runs *)
Example hypotheses_nonvacuous :
  (forall a b, hs_eqb a b = true <-> a = b) /\
  (forall h, sym_truthy h = true) /\
  (forall a b c d, HPair a b = HPair c d -> a = c /\ b = d) /\
  (forall a b, HBlock a = HBlock b -> a = b) /\
  (forall a b, HSeg a = HSeg b -> a = b) /\
  (forall a b, sym_ueb_hash a = sym_ueb_hash b -> a = b) /\
  (forall u, sym_parse_ueb (UbOk u) = Some u).
Proof. exact sym_hypotheses. Qed.

(* genuine shares verify good under their own number; share 0's bytes under number 1 and share 1's
   bytes under number 2 are corrupt for the fixed verifier *)
Example ex_verdicts :
  sym_verify_share f1_cap 1 (sym_vshare_of (f1_share 0) 1) no_ord no_ord2 = VCorrupt /\
  sym_verify_share f1_cap 1 (sym_vshare_of (f1_share 1) 1) no_ord no_ord2 = VGood /\
  sym_verify_share f3_cap 0 (sym_vshare_of (f3_share 0) 1) no_ord no_ord2 = VGood /\
  sym_verify_share f3_cap 1 (sym_vshare_of (f3_share 1) 1) no_ord no_ord2 = VGood /\
  sym_verify_share f3_cap 2 (sym_vshare_of (f3_share 2) 1) no_ord no_ord2 = VGood /\
  sym_verify_share f3_cap 2 (sym_vshare_of (f3_share 1) 1) no_ord no_ord2 = VCorrupt.
Proof. repeat split; vm_compute; reflexivity. Qed.

(* the genuine shares 1 and 2 of f3 (what a repair of share 0 would leave next to a corrupt
   share 0) serve the whole file *)
Example ex_read_from_two_genuine_shares :
  sym_serve f3_dec f3_cap (sym_node_init f3_cap) [mk_write 0 0 2; mk_write 1 0 2; mk_write 2 0 1] f3_script
  = ([[1; 2]; [3; 4]; [5]]%N, None).
Proof. exact f3_download_runs. Qed.

Example ex_format_results :
  format_results 2 3 [mkSr 0 [0; 1] [] [] true; mkSr 1 [1; 2] [5] [] true; mkSr 2 [] [] [] false]
  = Some (mkCr true true 3 2 1 0 [0; 1; 2]) /\
  format_results 2 3 [mkSr 0 [0] [] [] true; mkSr 1 [0] [] [] true]
  = Some (mkCr false false 1 2 0 0 [0]) /\
  format_results 2 3 [mkSr 0 [0; 1; 2; 3] [] [] true] = None.
Proof. repeat split; vm_compute; reflexivity. Qed.
