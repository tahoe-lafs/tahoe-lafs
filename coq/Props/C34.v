(* C34  Introducer announcements are authentic and fresh.
   Statements only; proofs are in Proofs/Announce.v.  Model/Announce.v mirrors
   introducer/common.py unsign_from_foolscap, introducer/client.py
   IntroducerClient.got_announcements / _process_announcement (client = true)
   and introducer/server.py IntroducerService._publish (client = false).  The
   signature scheme, key-string parsing and JSON decoding are universally
   quantified; `keystr_eqb` is only required to decide equality of key strings. *)
From Coq Require Import List NArith ZArith Bool.
From Verif Require Import Lib.Sig Model.Announce Proofs.Announce.
Import ListNotations.
Local Open Scope N_scope.

(* Whatever stream of batches arrives, everything stored (and everything
   delivered to subscribers) is an announcement that appeared in the stream
   with a key string that parses to some key, a signature that verifies under
   that key over exactly the message that decodes to it; and it is filed under
   the canonical string of that key and its own service name. *)
Theorem stored_only_if_verified :
  forall (pubkey keystr msg sig : Type) (verify : pubkey -> msg -> sig -> bool)
         (parse_key : keystr -> option pubkey) (canon : pubkey -> keystr) (decode : msg -> option ann_json)
         (keystr_eqb : keystr -> keystr -> bool),
    (forall a b, keystr_eqb a b = true <-> a = b) ->
    forall (client : bool) (subscribed : N -> bool) (batches : list (list (wire keystr msg sig))),
    let final := fst (run_stream verify parse_key canon decode keystr_eqb client subscribed empty_state batches) in
    (forall svc ks a, In ((svc, ks), a) (st_store final) ->
       exists w key m sg ks0,
         In w (concat batches) /\ w = WTriple m (SfOk sg) (KfOk ks0) /\ parse_key ks0 = Some key /\
         verify key m sg = true /\ decode m = Some (AJ a) /\ ks = canon key /\ svc = a_service a) /\
    (forall ks a, In (ks, a) (st_delivered final) ->
       exists w key m sg ks0,
         In w (concat batches) /\ w = WTriple m (SfOk sg) (KfOk ks0) /\ parse_key ks0 = Some key /\
         verify key m sg = true /\ decode m = Some (AJ a) /\ ks = canon key).
Proof. exact stored_only_if_verified_ok. Qed.
Print Assumptions stored_only_if_verified.

(* If signatures verify only for genuinely signed messages, every stored or
   delivered announcement was signed by the key it is attributed to. *)
Theorem attributed_to_signer :
  forall (pubkey keystr msg sig : Type) (verify : pubkey -> msg -> sig -> bool)
         (parse_key : keystr -> option pubkey) (canon : pubkey -> keystr) (decode : msg -> option ann_json)
         (keystr_eqb : keystr -> keystr -> bool),
    (forall a b, keystr_eqb a b = true <-> a = b) ->
    forall (client : bool) (subscribed : N -> bool) (signed : pubkey -> msg -> Prop)
           (batches : list (list (wire keystr msg sig))),
    sig_sound verify signed ->
    let final := fst (run_stream verify parse_key canon decode keystr_eqb client subscribed empty_state batches) in
    (forall (i : index keystr) a, In (i, a) (st_store final) ->
       exists key m, snd i = canon key /\ fst i = a_service a /\ signed key m /\ decode m = Some (AJ a)) /\
    (forall ks a, In (ks, a) (st_delivered final) ->
       exists key m, ks = canon key /\ signed key m /\ decode m = Some (AJ a)).
Proof. exact attributed_to_signer_ok. Qed.
Print Assumptions attributed_to_signer.

(* Freshness.  Take any point of any stream (after batches1) and any later
   point (after batches1 ++ batches2).  An index that held `old` still holds
   something, `new`, and either nothing changed, or `old` carried no "seqnum",
   or `old` carried a number o and `new` carries an integer n with o < n.
   An announcement whose seqnum is not a number is never replaced.  So per
   index the stored integer sequence numbers strictly increase over time and
   no announcement is ever replaced by one with an equal or lower number. *)
Theorem seqnum_strictly_increases_per_index :
  forall (pubkey keystr msg sig : Type) (verify : pubkey -> msg -> sig -> bool)
         (parse_key : keystr -> option pubkey) (canon : pubkey -> keystr) (decode : msg -> option ann_json)
         (keystr_eqb : keystr -> keystr -> bool),
    (forall a b, keystr_eqb a b = true <-> a = b) ->
    forall (client : bool) (subscribed : N -> bool) (batches1 batches2 : list (list (wire keystr msg sig)))
           (i : index keystr) (old : ann),
    lookup keystr_eqb
      (st_store (fst (run_stream verify parse_key canon decode keystr_eqb client subscribed empty_state batches1))) i = Some old ->
    exists new,
      lookup keystr_eqb
        (st_store (fst (run_stream verify parse_key canon decode keystr_eqb client subscribed empty_state (batches1 ++ batches2)))) i
        = Some new /\
      (new = old \/
       match a_seq old with
       | SAbsent => True
       | SInt o | SHalf o => exists n, a_seq new = SInt n /\ (o < n)%Z
       | SOther => False
       end).
Proof. exact seqnum_strictly_increases_ok. Qed.
Print Assumptions seqnum_strictly_increases_per_index.

(* Losing and re-establishing the connection to the introducer between batches forgets nothing:
   a stream with connection losses ends in the same state (same store, same deliveries, same
   verdicts) as the stream of its batches delivered over one uninterrupted connection ... *)
Theorem reconnect_preserves_state :
  forall (pubkey keystr msg sig : Type) (verify : pubkey -> msg -> sig -> bool)
         (parse_key : keystr -> option pubkey) (canon : pubkey -> keystr) (decode : msg -> option ann_json)
         (keystr_eqb : keystr -> keystr -> bool)
         (client : bool) (subscribed : N -> bool) (evs : list (event keystr msg sig)) (st : state keystr),
    run_events verify parse_key canon decode keystr_eqb client subscribed st evs =
    run_stream verify parse_key canon decode keystr_eqb client subscribed st (batches_of evs).
Proof. exact run_events_batches. Qed.
Print Assumptions reconnect_preserves_state.

(* ... so freshness holds across reconnections: whatever an index held at some point of a stream
   of batches and connection losses is, at every later point, unchanged or replaced by a strictly
   greater integer sequence number (or had no seqnum). *)
Theorem seqnum_strictly_increases_across_reconnects :
  forall (pubkey keystr msg sig : Type) (verify : pubkey -> msg -> sig -> bool)
         (parse_key : keystr -> option pubkey) (canon : pubkey -> keystr) (decode : msg -> option ann_json)
         (keystr_eqb : keystr -> keystr -> bool),
    (forall a b, keystr_eqb a b = true <-> a = b) ->
    forall (client : bool) (subscribed : N -> bool) (evs1 evs2 : list (event keystr msg sig))
           (i : index keystr) (old : ann),
    lookup keystr_eqb
      (st_store (fst (run_events verify parse_key canon decode keystr_eqb client subscribed empty_state evs1))) i = Some old ->
    exists new,
      lookup keystr_eqb
        (st_store (fst (run_events verify parse_key canon decode keystr_eqb client subscribed empty_state (evs1 ++ evs2)))) i
        = Some new /\
      (new = old \/
       match a_seq old with
       | SAbsent => True
       | SInt o | SHalf o => exists n, a_seq new = SInt n /\ (o < n)%Z
       | SOther => False
       end).
Proof. exact seqnum_survives_reconnects_ok. Qed.
Print Assumptions seqnum_strictly_increases_across_reconnects.

(* A subscriber that registers late (after any stream of batches and connection losses) is told,
   for its service, each key together with exactly the announcement currently held for that key. *)
Theorem late_subscriber_gets_current :
  forall (pubkey keystr msg sig : Type) (verify : pubkey -> msg -> sig -> bool)
         (parse_key : keystr -> option pubkey) (canon : pubkey -> keystr) (decode : msg -> option ann_json)
         (keystr_eqb : keystr -> keystr -> bool),
    (forall a b, keystr_eqb a b = true <-> a = b) ->
    forall (client : bool) (subscribed : N -> bool) (evs : list (event keystr msg sig)) (svc : N) (ks : keystr) (a : ann),
    let st := fst (run_events verify parse_key canon decode keystr_eqb client subscribed empty_state evs) in
    In (ks, a) (backlog st svc) <-> lookup keystr_eqb (st_store st) (svc, ks) = Some a.
Proof. exact late_subscriber_gets_current_ok. Qed.
Print Assumptions late_subscriber_gets_current.

(* the same, read for integer sequence numbers *)
Theorem seqnum_never_replaced_by_lower_or_equal :
  forall (pubkey keystr msg sig : Type) (verify : pubkey -> msg -> sig -> bool)
         (parse_key : keystr -> option pubkey) (canon : pubkey -> keystr) (decode : msg -> option ann_json)
         (keystr_eqb : keystr -> keystr -> bool),
    (forall a b, keystr_eqb a b = true <-> a = b) ->
    forall (client : bool) (subscribed : N -> bool) (batches1 batches2 : list (list (wire keystr msg sig)))
           (i : index keystr) (old : ann) (o : Z),
    lookup keystr_eqb
      (st_store (fst (run_stream verify parse_key canon decode keystr_eqb client subscribed empty_state batches1))) i = Some old ->
    a_seq old = SInt o ->
    exists new n,
      lookup keystr_eqb
        (st_store (fst (run_stream verify parse_key canon decode keystr_eqb client subscribed empty_state (batches1 ++ batches2)))) i
        = Some new /\
      a_seq new = SInt n /\ (o <= n)%Z /\ (n = o -> new = old).
Proof. exact seqnum_never_replaced_by_lower_or_equal_ok. Qed.
Print Assumptions seqnum_never_replaced_by_lower_or_equal.

(* the decision itself, at an index holding an integer sequence number:
   identical announcement = duplicate, ignored; otherwise replaced only by a
   strictly greater integer; equal/lower = too old; missing/non-integer = rejected *)
Theorem replace_rule :
  forall (pubkey keystr : Type) (canon : pubkey -> keystr) (keystr_eqb : keystr -> keystr -> bool)
         (client : bool) (subscribed : N -> bool) (st : store keystr) (key : pubkey) (a old : ann),
    (client = true -> subscribed (a_service a) = true /\ a_desc_ok a = true) ->
    lookup keystr_eqb st (a_service a, canon key) = Some old ->
    forall o, a_seq old = SInt o ->
      process keystr_eqb client subscribed st (AJ a) (canon key) =
        if ann_eqb old a then PDuplicate
        else match a_seq a with
             | SInt n => if (n <=? o)%Z then PTooOld else PUpdate
             | _ => PNoValidSeq
             end.
Proof. exact replace_rule_ok. Qed.
Print Assumptions replace_rule.

(* A bad announcement does not stop the batch: every element after it is
   processed, from the state it left behind; one that fails verification or
   decoding leaves every state untouched; and when it is not stored the
   rest of the batch fares exactly as if it had not been there. *)
Theorem bad_announcement_does_not_stop_batch :
  forall (pubkey keystr msg sig : Type) (verify : pubkey -> msg -> sig -> bool)
         (parse_key : keystr -> option pubkey) (canon : pubkey -> keystr) (decode : msg -> option ann_json)
         (keystr_eqb : keystr -> keystr -> bool),
    (forall a b, keystr_eqb a b = true <-> a = b) ->
    forall (client : bool) (subscribed : N -> bool) (st : state keystr) (pre : list (wire keystr msg sig))
           (w : wire keystr msg sig) (post : list (wire keystr msg sig)),
    let got := got_announcements verify parse_key canon decode keystr_eqb client subscribed in
    let stp := step verify parse_key canon decode keystr_eqb client subscribed in
    got st (pre ++ w :: post) =
      (fst (got (fst (stp (fst (got st pre)) w)) post),
       snd (got st pre) ++ snd (stp (fst (got st pre)) w) :: snd (got (fst (stp (fst (got st pre)) w)) post))
    /\ (forall r, unsign_from_foolscap verify parse_key canon decode w = inl r -> forall s, stp s w = (s, r))
    /\ (stores (snd (stp (fst (got st pre)) w)) = false ->
        fst (got st (pre ++ w :: post)) = fst (got st (pre ++ post))).
Proof. intros until keystr_eqb; intros _. apply bad_does_not_stop_batch_ok. Qed.
Print Assumptions bad_announcement_does_not_stop_batch.

(* examples on the symbolic scheme: keys 1, 2; service 7 is subscribed, 8 is not;
   message 10 = key 1's announcement seq 5, 11 = seq 6, 12 = seq 5 with other content,
   13 = no seqnum, 14 = key 2's seq 1, 15 = for service 8, 16 = not JSON, 17 = JSON without service-name *)
Definition ex_ann (seq : seqval) (body : N) : option ann_json :=
  Some (AJ {| a_service := 7; a_desc_ok := true; a_seq := seq; a_body := body |}).
Definition ex_tbl : sym_ann_table :=
  [ (10, ex_ann (SInt 5) 10); (11, ex_ann (SInt 6) 11); (12, ex_ann (SInt 5) 12); (13, ex_ann SAbsent 13);
    (14, ex_ann (SInt 1) 14);
    (15, Some (AJ {| a_service := 8; a_desc_ok := true; a_seq := SInt 9; a_body := 15 |}));
    (16, None); (17, Some AJMalformed) ].
Definition good (k m : N) : sym_wire := WTriple m (SfOk (sym_sign k m)) (KfOk (k, 0)).

Example ex_replay_reorder :
  let r := sym_run true ex_tbl true [7] [[good 1 10; good 1 11]; [good 1 10; good 1 12; good 1 13; good 1 11]] in
  (delivered_ids (fst r), snd r) =
  ([(1, 0, 10); (1, 0, 11)], [[PNew; PUpdate]; [PTooOld; PTooOld; PNoValidSeq; PDuplicate]]).
Proof. vm_compute. reflexivity. Qed.

Example ex_forgeries_do_not_stop_the_batch :
  let forged_key := WTriple 11 (SfOk (sym_sign 1 11)) (KfOk (2, 0)) in       (* key 1's signature, claimed for key 2 *)
  let flipped_msg := WTriple 11 (SfOk (sym_sign 1 10)) (KfOk (1, 0)) in
  let junk_sig := WTriple 11 (SfOk (SigJunk 3)) (KfOk (1, 0)) in
  let r := sym_run true ex_tbl true [7]
             [[good 1 10; forged_key; flipped_msg; junk_sig; WNotTriple; WTriple 11 SfEmpty KfEmpty;
               WTriple 11 (SfOk (sym_sign 1 11)) KfNoV0; WTriple 11 SfBadBase32 (KfOk (1, 0));
               WTriple 11 (SfOk (sym_sign 1 11)) (KfOk (0, 0)); good 1 16; good 1 17; good 1 15; good 2 14]] in
  (delivered_ids (fst r), snd r) =
  ([(1, 0, 10); (2, 0, 14)],
   [[PNew; RBadSignature; RBadSignature; RBadSignature; RNotTriple; RUnknownKey; RUnknownKey; RMalformedSig;
     RMalformedKey; RNotJSON; PRaise; PWrongService; PNew]]).
Proof. vm_compute. reflexivity. Qed.

(* a replay under a respelled key string lands on the same index and is refused *)
Example ex_respelled_key_replay :
  let r := sym_run true ex_tbl true [7] [[good 1 11; WTriple 10 (SfOk (sym_sign 1 10)) (KfOk (1, 1))]] in
  (stored_ids (fst r), snd r) = ([(7, 1, 0, 11)], [[PNew; PTooOld]]).
Proof. vm_compute. reflexivity. Qed.

(* an old, validly signed announcement replayed after a reconnection is still refused *)
Example ex_replay_after_reconnect :
  let r := sym_run_events true ex_tbl true [7] [EBatch [good 1 10; good 1 11]; EReconnect; EBatch [good 1 10; good 1 13]] in
  (stored_ids (fst r), snd r) = ([(7, 1, 0, 11)], [[PNew; PUpdate]; [PTooOld; PNoValidSeq]]).
Proof. vm_compute. reflexivity. Qed.

Example ex_late_subscriber :
  let r := sym_run_events true ex_tbl true [7] [EBatch [good 1 10; good 2 14; good 1 11]] in
  backlog_ids (fst r) 7 = [(1, 0, 11); (2, 0, 14)].
Proof. vm_compute. reflexivity. Qed.

Example keystr_eqb_nonvacuous : forall a b, sym_keystr_eqb a b = true <-> a = b.
Proof.
  intros [a1 a2] [b1 b2]. unfold sym_keystr_eqb. cbn [fst snd].
  rewrite andb_true_iff, !N.eqb_eq. split.
  - intros [-> ->]. reflexivity.
  - intros H. inversion H. auto.
Qed.
