(* C11  Mutable version ordering and rollback resistance.
   Model/ServerMap.v models ServerMap's version bookkeeping, Publish's choice of
   the new sequence number and ServermapUpdater._check_for_done (READ/ANYTHING/CHECK). *)
From Coq Require Import List NArith Bool Sorted.
From Verif Require Import Model.ServerMap Proofs.ServerMap.
Import ListNotations.
Local Open Scope N_scope.

(* A read returns the recoverable version with the highest sequence number (ties broken
   by the rest of the version id, as Python's tuple order does) among those located *)
Theorem best_is_max_recoverable :
  forall m v, best_recoverable_version m = Some v ->
    In v (recoverable_versions m) /\
    forall w, In w (recoverable_versions m) -> version_leb w v = true.
Proof. intros m v. apply max_version_spec. Qed.
Print Assumptions best_is_max_recoverable.

Theorem best_has_highest_seqnum :
  forall m v w, best_recoverable_version m = Some v -> In w (recoverable_versions m) -> seq w <= seq v.
Proof. intros m v w B Hw. apply version_leb_seq, (max_version_spec _ _ B), Hw. Qed.
Print Assumptions best_has_highest_seqnum.

Theorem no_best_iff_none_recoverable :
  forall m, best_recoverable_version m = None <-> recoverable_versions m = [].
Proof. intro m. apply max_version_none. Qed.
Print Assumptions no_best_iff_none_recoverable.

(* what "recoverable" means: some located share carries the version and at least k
   distinct share numbers of it were located *)
Theorem recoverable_iff_k_distinct :
  forall m v, In v (recoverable_versions m) <->
              (exists s, In s m /\ ver s = v) /\ vk v <= count_shares m v.
Proof. exact recoverable_In. Qed.
Print Assumptions recoverable_iff_k_distinct.

(* the sequence number a publish writes exceeds that of every share its survey observed *)
Theorem new_seqnum_gt_all_seen :
  forall m s, In s m -> seq (ver s) < new_seqnum m.
Proof. exact new_seqnum_gt_all_seen_ok. Qed.
Print Assumptions new_seqnum_gt_all_seen.

(* one writer: if each survey locates at least one share of the previous publish, the
   published sequence numbers strictly increase (every earlier one is below every later one) *)
Theorem one_writer_strictly_increasing :
  forall surveys, observed_chain surveys -> StronglySorted N.lt (map new_seqnum surveys).
Proof. exact one_writer_strictly_increasing_ok. Qed.
Print Assumptions one_writer_strictly_increasing.

(* read-your-writes for an uncontended writer: the version published with new_seqnum of its survey,
   once k distinct shares of it are in a later map that holds nothing the survey had not seen, is
   what that later read returns *)
Theorem publish_then_read :
  forall m_survey m_read v,
    seq v = new_seqnum m_survey ->
    In v (recoverable_versions m_read) ->
    (forall w, In w (versions m_read) -> w <> v -> In w (versions m_survey)) ->
    best_recoverable_version m_read = Some v.
Proof. exact publish_then_read_ok. Qed.
Print Assumptions publish_then_read.

(* MODE_READ keeps querying while a newer unrecoverable version is known and servers remain *)
Theorem mode_read_keeps_querying :
  forall u m, running u = true -> must_query u = false -> (outstanding u || extra u = true) ->
    (exists v, In v (unrecoverable_newer_versions m)) ->
    check_for_done MODE_READ u m = More.
Proof. exact mode_read_keeps_querying_ok. Qed.
Print Assumptions mode_read_keeps_querying.

Theorem mode_read_done_only_if :
  forall u m, check_for_done MODE_READ u m = Done ->
    (outstanding u = false /\ extra u = false) \/
    (to_query u <= completed u /\
     exists hr, best_recoverable_version m = Some hr /\
                forall v, In v (unrecoverable_versions m) -> seq v <= seq hr).
Proof. exact mode_read_done_only_if_ok. Qed.
Print Assumptions mode_read_done_only_if.

(* non-vacuity: 3-of-? file, version 5 recoverable (3 distinct shares), version 7 seen once *)
Definition ex_map : servermap :=
  [ {| srv := 1; shnum := 0; ver := {| seq := 5; vtag := 9; vk := 3 |} |};
    {| srv := 2; shnum := 1; ver := {| seq := 5; vtag := 9; vk := 3 |} |};
    {| srv := 3; shnum := 2; ver := {| seq := 5; vtag := 9; vk := 3 |} |};
    {| srv := 3; shnum := 0; ver := {| seq := 5; vtag := 9; vk := 3 |} |};
    {| srv := 4; shnum := 4; ver := {| seq := 7; vtag := 2; vk := 3 |} |} ].
Example ex_publish_then_read :
  let v8 := {| seq := 8; vtag := 1; vk := 1 |} in
  new_seqnum ex_map = 8 /\ In v8 (recoverable_versions ({| srv := 9; shnum := 0; ver := v8 |} :: ex_map)) /\
  best_recoverable_version ({| srv := 9; shnum := 0; ver := v8 |} :: ex_map) = Some v8.
Proof. vm_compute. repeat split. left. reflexivity. Qed.
Example ex_newer_unrecoverable :
  best_recoverable_version ex_map = Some {| seq := 5; vtag := 9; vk := 3 |} /\
  unrecoverable_newer_versions ex_map = [ {| seq := 7; vtag := 2; vk := 3 |} ] /\
  new_seqnum ex_map = 8 /\
  check_for_done MODE_READ {| running := true; must_query := false; outstanding := false; extra := true;
                              completed := 10; to_query := 5 |} ex_map = More.
Proof. vm_compute. repeat split. Qed.
Example ex_chain : observed_chain [ [] ; [ {| srv := 1; shnum := 0; ver := {| seq := 1; vtag := 0; vk := 1 |} |} ] ].
Proof. apply oc_cons; [eexists; split; [left; reflexivity|reflexivity] | apply oc_one]. Qed.

From Verif Require Import Gen.MutPins.
From Coq Require Import String.
(* Fingerprints (AST, comments and docstrings excluded) of the source functions this model
   transcribes by hand, regenerated from /repo on every run (harness/translate/mutpins.py):
   the model was written for exactly these versions of them. *)
Theorem model_pins_current :
  pins_C11 =
  [("servermap_highest_seqnum", "4871c81fee974c91")%string;
   ("servermap_shares_available", "d787572c6f9a5558")%string;
   ("servermap_recoverable_versions", "7503b41df73f1b99")%string;
   ("servermap_unrecoverable_versions", "e842ac165b6a52f6")%string;
   ("servermap_best_recoverable_version", "d17e5392f2d1ae9d")%string;
   ("servermap_unrecoverable_newer_versions", "86adec526abef15e")%string;
   ("servermap_check_for_done", "74ad7670791d4051")%string;
   ("servermap_got_results", "60636861fd94f8ae")%string;
   ("publish_publish", "0a32e3c41d355f9a")%string;
   ("publish_update", "b510a9f0c086f050")%string].
Proof. reflexivity. Qed.
Print Assumptions model_pins_current.
