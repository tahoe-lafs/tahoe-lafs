(* C37  Byte-range bookkeeping is exact (src/allmydata/util/spans.py: Spans, DataSpans).
   Statements only; each is closed by `exact` or a short derivation from a lemma in Proofs/Spans*.v.

   Vocabulary (definitions in Model/Spans.v and Proofs/Spans*.v):
     sp_step l op / sp_run ops    one operation / a whole history from the empty Spans on the model
                                  (None = the code raises AssertionError: zero length, or _check)
     sp_exec l op                 the object after the call, whether it returned or raised
     mem z l                      z is covered by some (start, length) of the list l
     in_iv s n z                  s <= z < s + n
     set_step S op / set_run ops  the REFERENCE: a set of N as N -> bool; add = union with the interval,
                                  remove = difference, + / += = union, - / -= = difference, & = intersection
     set_exec                     like set_step, rejected operations leave the set unchanged
     spans_invariant l            lengths positive; consecutive spans satisfy start_i + len_i < start_{i+1}
                                  (sorted, disjoint AND non-adjacent)
     ds_step / ds_run             the same for DataSpans (add, remove, get, pop)
     dget z l                     the byte held at offset z by the chunk list l, if any
     map_step M op / map_run ops  the REFERENCE: a partial map N -> option byte; add overrides (later write
                                  wins), remove deletes, get does not change it, pop deletes the range iff
                                  every offset of it is present
     dataspans_invariant l        chunks non-empty; start_i + len(data_i) < start_{i+1}
     nget bs k                    k-th byte of bs; nlen bs its length. *)
From Coq Require Import List NArith Bool String.
From Verif Require Import Lib.Hex Model.Spans Proofs.SpansBase Proofs.SpansOps Proofs.SpansDataBase
     Proofs.SpansDataOps Proofs.SpansMain.
Import ListNotations.
Local Open Scope N_scope.

(* Whatever operations are applied to an empty Spans -- including rejected ones, after which the
   object is used further -- the list is sorted, positive, disjoint and non-adjacent, and the
   code's own self-check (_check) passes. *)
Theorem spans_inv :
  forall ops : list sop,
    spans_invariant (fold_left sp_exec ops []) /\ spans_check (fold_left sp_exec ops []) = true.
Proof.
  intro ops. destruct (sp_exec_run ops) as [W _].
  split; [apply wf_spelled_out|apply spans_check_wf]; exact W.
Qed.
Print Assumptions spans_inv.

(* the same for histories in which no call raised *)
Theorem spans_inv_no_exception :
  forall ops l, sp_run ops = Some l -> spans_invariant l.
Proof. intros ops l R. apply wf_spelled_out, (sp_run_wf ops l R). Qed.
Print Assumptions spans_inv_no_exception.

(* an operation raises (AssertionError) exactly when a length is zero: zero-length add/remove, or an
   operand Spans(list) with a zero-length pair; in particular _check never fires *)
Theorem spans_rejects_exactly_zero_lengths :
  forall l op, spans_invariant l -> (sp_step l op = None <-> op_rejected op).
Proof. intros l op H. apply spans_rejected_iff. apply wf_spelled_out. exact H. Qed.
Print Assumptions spans_rejects_exactly_zero_lengths.

(* the representation is canonical: two invariant-satisfying lists with the same elements are equal,
   and every such list is reachable (so the invariant is exactly the set of reachable states) *)
Theorem spans_canonical_form :
  forall l1 l2, spans_invariant l1 -> spans_invariant l2 -> (forall z, mem z l1 = mem z l2) -> l1 = l2.
Proof. intros l1 l2 H1 H2. apply wf_unique; apply wf_spelled_out; assumption. Qed.
Print Assumptions spans_canonical_form.

Theorem spans_invariant_reachable :
  forall l, spans_invariant l -> sp_run (map (fun sp => OpAdd (fst sp) (snd sp)) l) = Some l.
Proof. intros l H. apply wf_reachable, wf_spelled_out, H. Qed.
Print Assumptions spans_invariant_reachable.

(* For every history: the list denotes exactly the reference set; (s, n) in x is true iff n > 0 and the
   whole range is in the set; each() enumerates the set without repetition and len() is its cardinality. *)
Theorem spans_refine_set :
  forall ops : list sop,
    let l := fold_left sp_exec ops [] in
    let S := fold_left set_exec ops (fun _ => false) in
    (forall z, mem z l = S z) /\
    (forall s n, spans_contains s n l = true <-> (0 < n /\ forall z, s <= z -> z < s + n -> S z = true)) /\
    NoDup (spans_each l) /\
    (forall z, In z (spans_each l) <-> S z = true) /\
    spans_len l = N.of_nat (List.length (spans_each l)).
Proof. intro ops. destruct (sp_exec_run ops) as [W M]. exact (spans_observed _ _ W M). Qed.
Print Assumptions spans_refine_set.

(* histories of accepted operations never raise, and refine the reference step by step *)
Theorem spans_refine_set_no_exception :
  forall ops : list sop, Forall op_ok ops ->
    exists l, sp_run ops = Some l /\ spans_invariant l /\
      (forall z, mem z l = set_run ops z) /\
      (forall s n, spans_contains s n l = true <->
                   (0 < n /\ forall z, s <= z -> z < s + n -> set_run ops z = true)) /\
      NoDup (spans_each l) /\
      (forall z, In z (spans_each l) <-> set_run ops z = true) /\
      spans_len l = N.of_nat (List.length (spans_each l)).
Proof.
  intros ops P. destruct (sp_run_correct ops P) as (l & E & W & M).
  exists l. split; [exact E|]. split; [apply wf_spelled_out, W|]. exact (spans_observed _ _ W M).
Qed.
Print Assumptions spans_refine_set_no_exception.

(* one step, spelled out per operation *)
Theorem spans_step_refines :
  forall l op, spans_invariant l -> op_ok op ->
    exists l', sp_step l op = Some l' /\ spans_invariant l' /\
      forall z, mem z l' =
        match op with
        | OpAdd s n => mem z l || in_iv s n z
        | OpRemove s n => mem z l && negb (in_iv s n z)
        | OpUnion o | OpIAdd o => mem z l || mem z o
        | OpDiff o | OpISub o => mem z l && negb (mem z o)
        | OpInter o => mem z l && mem z o
        | OpContains _ _ => mem z l
        end.
Proof.
  intros l op H K. destruct (sp_step_correct l op (proj2 (wf_spelled_out l) H) K) as (l' & E & W & M).
  exists l'. split; [exact E|]. split; [apply wf_spelled_out; exact W|].
  intro z. rewrite M. destruct op; reflexivity.
Qed.
Print Assumptions spans_step_refines.

(* For every history (no precondition: DataSpans has no rejected inputs) the run succeeds
   (assert_invariants never fires), the chunk list is sorted, merged and non-empty, it denotes exactly the
   reference partial map, and in the reached state:
     get(s, n), n > 0, returns bs iff bs has length n and every offset s+k holds bs[k];
     it returns None iff some offset of the range is missing;
     get(s, 0) returns b"" if s is held and None otherwise (the code's behaviour, of no use to callers);
     pop returns what get returns and removes the range iff get returned data;
     len() is the number of offsets held and get_spans() is the domain of the map. *)
Theorem dataspans_refine_partial_map :
  forall ops : list dop,
  exists l, ds_run ops = Some l /\ dataspans_invariant l /\
    (forall z, dget z l = map_run ops z) /\
    (forall s n bs, 0 < n ->
       (ds_get s n l = Some bs <-> (nlen bs = n /\ forall k, k < n -> map_run ops (s + k) = nget bs k))) /\
    (forall s n, 0 < n ->
       (ds_get s n l = None <-> exists k, k < n /\ map_run ops (s + k) = None)) /\
    (forall s, ds_get s 0 l = if is_some (map_run ops s) then Some [] else None) /\
    (forall s n, fst (ds_pop s n l) = ds_get s n l /\
                 dataspans_invariant (snd (ds_pop s n l)) /\
                 forall z, dget z (snd (ds_pop s n l)) = map_step (map_run ops) (DPop s n) z) /\
    NoDup (ds_offsets l) /\
    (forall z, In z (ds_offsets l) <-> map_run ops z <> None) /\
    ds_len l = N.of_nat (List.length (ds_offsets l)) /\
    (exists sp, ds_get_spans l = Some sp /\ spans_invariant sp /\
                forall z, mem z sp = is_some (map_run ops z)).
Proof.
  intro ops. destruct (ds_run_correct ops) as (l & E & W & M).
  exists l. split; [exact E|]. split; [apply dwf_spelled_out, W|]. split; [exact M|].
  exact (dataspans_observed l _ W M).
Qed.
Print Assumptions dataspans_refine_partial_map.

(* the reference map, spelled out: later writes win *)
Theorem dataspans_add_overrides :
  forall ops s d z v, in_iv s (nlen d) z = true -> nget d (z - s) = Some v ->
    map_run (ops ++ [DAdd s d]) z = Some v.
Proof. intros ops s d z v I G. rewrite map_run_snoc. cbn [map_step]. rewrite I. exact G. Qed.
Print Assumptions dataspans_add_overrides.

Theorem dataspans_step_refines :
  forall l op, dataspans_invariant l ->
    exists l', ds_step l op = Some l' /\ dataspans_invariant l' /\
      forall z, dget z l' =
        match op with
        | DAdd s d => if in_iv s (nlen d) z then nget d (z - s) else dget z l
        | DRemove s n => if in_iv s n z then None else dget z l
        | DGet _ _ => dget z l
        | DPop s n => if all_present (fun x => dget x l) s n && in_iv s n z then None else dget z l
        end.
Proof.
  intros l op H. destruct (ds_step_correct l op (proj2 (dwf_spelled_out l) H)) as (l' & E & W & M).
  exists l'. split; [exact E|]. split; [apply dwf_spelled_out; exact W|].
  intro z. rewrite M. destruct op; reflexivity.
Qed.
Print Assumptions dataspans_step_refines.

Definition ex_ops : list sop :=
  [OpAdd 10 5; OpAdd 20 5; OpAdd 30 5; OpAdd 15 5; OpRemove 12 1; OpAdd 3 0;
   OpInter [(0, 14); (18, 14)]; OpContains 18 7; OpUnion [(40, 2); (42, 2)]; OpDiff [(41, 1)]].

Example ex_spans_history :
  fold_left sp_exec ex_ops [] = [(10, 2); (13, 1); (18, 7); (30, 2); (40, 1); (42, 2)].
Proof. vm_compute. reflexivity. Qed.

Example ex_spans_rejected_nonvacuous : sp_step [(10, 5)] (OpAdd 3 0) = None /\ sp_run ex_ops = None.
Proof. vm_compute. split; reflexivity. Qed.

Example ex_spans_ok_nonvacuous :
  Forall op_ok [OpAdd 10 5; OpAdd 16 5; OpAdd 15 1; OpRemove 12 6; OpInter [(0, 11); (20, 100)]] /\
  sp_run [OpAdd 10 5; OpAdd 16 5; OpAdd 15 1; OpRemove 12 6; OpInter [(0, 11); (20, 100)]] = Some [(10, 1); (20, 1)].
Proof.
  split; [|vm_compute; reflexivity].
  repeat constructor.
Qed.

Example ex_spans_contains_nonvacuous :
  spans_contains 18 7 [(10, 2); (13, 1); (18, 7)] = true /\ spans_contains 17 2 [(10, 2); (13, 1); (18, 7)] = false /\
  spans_len [(10, 2); (13, 1); (18, 7)] = 10 /\ spans_each [(10, 2); (13, 1)] = [10; 11; 13].
Proof. vm_compute. repeat split; reflexivity. Qed.

Definition ex_dops : list dop :=
  [DAdd 10 (bytes_of_string "OLDD"%string); DAdd 20 (bytes_of_string "xyz"%string); DAdd 12 (bytes_of_string "NEWNEWNEW"%string);
   DGet 10 13; DRemove 15 2; DPop 10 5; DPop 17 10; DAdd 16 (bytes_of_string "!"%string)].

Example ex_dataspans_history :
  ds_run ex_dops = Some [(16, bytes_of_string "!WNEWyz"%string)] /\
  ds_get 10 13 [(10, bytes_of_string "OLNEWNEWNEWyz"%string)] = Some (bytes_of_string "OLNEWNEWNEWyz"%string) /\
  ds_get 10 14 [(10, bytes_of_string "OLNEWNEWNEWyz"%string)] = None /\
  map_run ex_dops 16 = Some 33 /\ map_run ex_dops 15 = None /\ map_run ex_dops 19 = Some 69.
Proof. vm_compute. repeat split; reflexivity. Qed.

(* the documented oddity of zero-length reads *)
Example ex_dataspans_get_zero_length :
  ds_get 5 0 [] = None /\ ds_get 5 0 [(5, [1])] = Some [] /\ ds_get 6 0 [(5, [1])] = None.
Proof. vm_compute. repeat split; reflexivity. Qed.
