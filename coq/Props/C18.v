(* C18  Read-only directory access is transitive.
   Statements only; proofs in Proofs/DirnodeCaps.v, Proofs/DirnodePack.v, Proofs/DirnodeTree.v.
   Model/Dirnode.v: _pack_normalized_children, _unpack_contents with the `writeable` flag,
   _encrypt_rw_uri/_decrypt_rwcapdata (salt and key derivations from Gen/Hashutil.v, AES abstract),
   NodeMaker.create_from_cap(rw, ro), UnknownNode; section 8: list() and get_child_at_path over a grid.
   caps_coherent classify (Proofs/DirnodeCaps.v): what this property needs from uri.py -- a write cap
   prints canonically (no trailing space, no alleged prefix), and so does its read cap, which
   classifies as a read cap.  stableb / ro_slot_okb: Model/Dirnode.v section 10.
   Scope: directories written by the packer.  A directory whose bytes were crafted by hand with a write
   cap in a read-cap field hands that write cap to every reader: the field is stored in clear, the
   writer published it (ex_crafted_ro_slot below).  Cryptographic strength of AES/SHA-256 is not claimed:
   the theorems say which function of which inputs the bytes are. *)
From Coq Require Import List NArith Bool String.
From Verif Require Import Lib.Hex Lib.Netstring Lib.HashPrim Gen.Hashutil Model.Dirnode
     Proofs.DirnodeBase Proofs.DirnodeCaps Proofs.DirnodePack Proofs.DirnodeTree.
Import ListNotations.
Local Open Scope N_scope.

(* unpacking, through a read-only dirnode, the bytes packed for the directory m: every child of m is
   there under its name with its metadata, rebuilt from its read-cap field alone (reread_ro), without
   error, and with rw_uri = None -- for any writekey argument wk' (a reader has none) *)
Theorem ro_unpack_has_no_rw :
  forall (classify : bytes -> capclass) (normalize : bytes -> bytes) (MD : Type)
         (dumps : MD -> bytes) (loads : bytes -> option MD) (enc dec : bytes -> bytes -> bytes),
    (forall m, loads (dumps m) = Some m) ->
    forall (wk wk' : bytes) (m : smap (node * MD)),
      caps_coherent classify ->
      sm_sorted m = true -> names_normal normalize MD m ->
      all_nodes MD (stableb classify) m -> all_nodes MD (ro_slot_okb classify) m ->
      exists data,
        pack_normalized MD dumps enc (fresh MD m) (Some wk) false = inr data /\
        unpack_contents classify normalize MD loads dec false true wk' data
        = inr (with_aux MD dumps enc (reread_ro classify) (Some wk) false m) /\
        forall k n md, In (k, (n, md)) m ->
                       n_err (reread_ro classify n) = None /\ n_rw (reread_ro classify n) = None.
Proof. exact ro_unpack_map. Qed.
Print Assumptions ro_unpack_has_no_rw.

(* the child-level fact behind it *)
Theorem ro_child_has_no_rw :
  forall (classify : bytes -> capclass) (n : node),
    caps_coherent classify -> stableb classify n = true -> ro_slot_okb classify n = true ->
    n_err (reread_ro classify n) = None /\ n_rw (reread_ro classify n) = None.
Proof. exact reread_ro_readonly. Qed.
Print Assumptions ro_child_has_no_rw.

(* whatever an immutable directory holds, none of its children comes out write-capable *)
Theorem immutable_dir_children_readonly :
  forall (classify : bytes -> capclass) (normalize : bytes -> bytes) (MD : Type)
         (loads : bytes -> option MD) (dec : bytes -> bytes -> bytes)
         (w : bool) (wk data : bytes) (children : smap (child MD)),
    unpack_contents classify normalize MD loads dec w false wk data = inr children ->
    forall k c, In (k, c) children -> n_rw (c_node MD c) = None.
Proof. exact immutable_dir_children_no_rw. Qed.
Print Assumptions immutable_dir_children_readonly.

(* induction on the path: starting from a node without write cap, every descendant reached by
   get_child_at_path has no write cap.  grid_ok: every mutable directory on the grid holds the packing
   of stable children outside the excluded class; immutable directories may hold any bytes *)
Theorem descendants_readonly :
  forall (classify : bytes -> capclass) (normalize : bytes -> bytes) (MD : Type)
         (dumps : MD -> bytes) (loads : bytes -> option MD) (enc dec : bytes -> bytes -> bytes),
    (forall m, loads (dumps m) = Some m) ->
    forall (contents : bytes -> option bytes) (writekey_of : bytes -> bytes),
      caps_coherent classify ->
      grid_ok classify normalize MD dumps enc contents ->
      forall (path : list bytes) (n n' : node),
        has_rw n = false ->
        walk classify normalize MD loads dec contents writekey_of n path = Some n' ->
        has_rw n' = false.
Proof. exact walk_readonly. Qed.
Print Assumptions descendants_readonly.

(* the packed bytes, spelled out: names, read-cap fields and metadata in clear; a child's write cap
   enters only as  salt ++ E_key(rwcap) ++ MAC  with  salt = H(rwcap), key = H(salt, writekey of the
   DIRECTORY) -- hashutil.mutable_rwcap_salt_hash / mutable_rwcap_key_hash as regenerated from the source *)
Theorem rwcap_field_depends_on_writekey :
  forall (MD : Type) (dumps : MD -> bytes) (enc : bytes -> bytes -> bytes) (wk : bytes) (m : smap (node * MD)),
    all_nodes MD no_err m ->
    pack_normalized MD dumps enc (fresh MD m) (Some wk) false
    = inr (concat_ns (map (fun kc =>
             netstring (fst kc)
             ++ netstring (stored_ro false (fst (snd kc)))
             ++ netstring (let rw := or_empty (n_rw (fst (snd kc))) in
                           let salt := mutable_rwcap_salt_hash rw in
                           let key := mutable_rwcap_key_hash salt wk in
                           salt ++ enc key rw ++ hmac key (salt ++ enc key rw))
             ++ netstring (dumps (snd (snd kc)))) m)).
Proof. exact packed_form. Qed.
Print Assumptions rwcap_field_depends_on_writekey.

(* the reader of a read-only directory is a function that never receives the writekey ... *)
Theorem ro_reader_never_uses_writekey :
  forall (classify : bytes -> capclass) (normalize : bytes -> bytes) (MD : Type)
         (loads : bytes -> option MD) (dec : bytes -> bytes -> bytes) (mu : bool) (wk1 wk2 data : bytes),
    unpack_contents classify normalize MD loads dec false mu wk1 data
    = unpack_contents classify normalize MD loads dec false mu wk2 data.
Proof. exact ro_reader_ignores_writekey. Qed.
Print Assumptions ro_reader_never_uses_writekey.

(* ... and what it returns is a function (ro_view_of) of the clear fields (ro_proj: name, read-cap field,
   metadata) alone: two directories that differ only in their children's write caps and in their own
   writekeys look the same to a read-cap holder *)
Theorem ro_view_independent_of_write_caps :
  forall (classify : bytes -> capclass) (normalize : bytes -> bytes) (MD : Type)
         (dumps : MD -> bytes) (loads : bytes -> option MD) (enc dec : bytes -> bytes -> bytes),
    (forall m, loads (dumps m) = Some m) ->
    forall (wk1 wk2 wk1' wk2' : bytes) (m1 m2 : smap (node * MD)),
      all_nodes MD no_err m1 -> all_nodes MD no_err m2 -> ro_proj MD m1 = ro_proj MD m2 ->
      exists d1 d2 c1 c2,
        pack_normalized MD dumps enc (fresh MD m1) (Some wk1) false = inr d1 /\
        pack_normalized MD dumps enc (fresh MD m2) (Some wk2) false = inr d2 /\
        unpack_contents classify normalize MD loads dec false true wk1' d1 = inr c1 /\
        unpack_contents classify normalize MD loads dec false true wk2' d2 = inr c2 /\
        view MD c1 = view MD c2.
Proof. exact Proofs.DirnodePack.ro_view_independent_of_write_caps. Qed.
Print Assumptions ro_view_independent_of_write_caps.

(* only a holder of the directory's writekey recovers the children's write caps: with it, the write
   cap field decrypts to the write cap *)
Theorem writekey_recovers_rwcap :
  forall (enc dec : bytes -> bytes -> bytes),
    (forall k d, dec k (enc k d) = d) ->
    forall wk rw, decrypt_rwcapdata dec wk (encrypt_rw_uri enc wk rw) = rw.
Proof. exact decrypt_encrypt. Qed.
Print Assumptions writekey_recovers_rwcap.

(* The excluded class is real (known finding c18-unknown-rw-with-known-writecap-in-ro-slot).
   A child given as (rw = unknown future cap, ro = a KNOWN WRITE cap without prefix) is accepted by
   UnknownNode (stable, no error); the packer stores the write cap in clear in the read-cap field, and a
   read-only reader of the directory obtains a write-capable node for it. *)
Definition ex_W : bytes := bytes_of_string "URI:SSK:w".
Definition ex_R : bytes := bytes_of_string "URI:SSK-RO:r".
Definition ex_cls := classify_tbl [(ex_W, KWrite false ex_W ex_R); (ex_R, KRead false ex_R)].

Theorem ro_unpack_has_no_rw_refuted :
  exists n, n = create_from_cap ex_cls false (Some (bytes_of_string "future:w")) (Some ex_W) /\
            stableb ex_cls n = true /\ n_err n = None /\
            ro_slot_okb ex_cls n = false /\
            n_rw (reread_ro ex_cls n) = Some ex_W.
Proof. eexists. split; [reflexivity|]. vm_compute. repeat split; reflexivity. Qed.
Print Assumptions ro_unpack_has_no_rw_refuted.

(* non-vacuity *)
Example ex_coherent_nonvacuous : caps_coherent ex_cls.
Proof.
  intros s d c r H. unfold ex_cls, classify_tbl in H. cbn [assoc_bytes] in H.
  destruct (list_N_eqb s ex_W) eqn:E1.
  - inversion H; subst. repeat split; vm_compute; reflexivity.
  - destruct (list_N_eqb s ex_R); discriminate.
Qed.

Example ex_children_nonvacuous :
  forallb (fun n => stableb ex_cls n && ro_slot_okb ex_cls n)
          [create_from_cap ex_cls false (Some ex_W) None;
           create_from_cap ex_cls false None (Some ex_R);
           create_from_cap ex_cls false (Some (bytes_of_string "future:w")) (Some (bytes_of_string "future:r"));
           create_from_cap ex_cls false None (Some (bytes_of_string "ro.future:r"))] = true.
Proof. vm_compute. reflexivity. Qed.

(* a two-level tree on a toy grid, listed through the read cap: the grandchild (stored with its write
   cap under the subdirectory's writekey) is reached without write cap *)
Definition ex_id (x : bytes) := x.
Definition ex_wk (w : bytes) : bytes := bytes_of_string "0123456789abcdef".
Definition ex_Wd : bytes := bytes_of_string "URI:DIR2:w".
Definition ex_Rd : bytes := bytes_of_string "URI:DIR2-RO:r".
Definition ex_cls2 := classify_tbl [(ex_W, KWrite false ex_W ex_R); (ex_R, KRead false ex_R);
                                    (ex_Wd, KWrite true ex_Wd ex_Rd); (ex_Rd, KRead true ex_Rd)].
Definition ex_sub_data : bytes :=
  match pack_normalized bytes dumps_raw (fun _ d => d)
          (fresh bytes [(bytes_of_string "f", (create_from_cap ex_cls2 false (Some ex_W) None, bytes_of_string "{}"))])
          (Some (ex_wk ex_Wd)) false with inr d => d | inl _ => [] end.
Definition ex_grid (r : bytes) : option bytes := if list_N_eqb r ex_Rd then Some ex_sub_data else None.

Example ex_walk_nonvacuous :
  match walk ex_cls2 ex_id bytes loads_raw (fun _ d => d) ex_grid ex_wk
             (create_from_cap ex_cls2 false None (Some ex_Rd)) [bytes_of_string "f"] with
  | Some n' => obeqb (n_rw n') None && obeqb (n_ro n') (Some ex_R)
  | None => false
  end = true
  /\
  match walk ex_cls2 ex_id bytes loads_raw (fun _ d => d) ex_grid ex_wk
             (create_from_cap ex_cls2 false (Some ex_Wd) None) [bytes_of_string "f"] with
  | Some n' => obeqb (n_rw n') (Some ex_W)
  | None => false
  end = true.
Proof. vm_compute. split; reflexivity. Qed.

(* hand-crafted bytes with a write cap in the read-cap field: outside the theorems' scope *)
Example ex_crafted_ro_slot :
  match unpack_contents ex_cls ex_id bytes loads_raw (fun _ d => d) false true []
          (netstring (netstring (bytes_of_string "x") ++ netstring ex_W ++ netstring [] ++ netstring (bytes_of_string "{}"))) with
  | inr [(_, (n, _, _))] => obeqb (n_rw n) (Some ex_W)
  | _ => false
  end = true.
Proof. vm_compute. reflexivity. Qed.
