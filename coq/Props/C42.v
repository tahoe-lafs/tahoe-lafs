(* C42  Backup database reuses caps only for unchanged content.
   Statements only; each is closed by `exact` of a lemma in Proofs/BackupDB.v or
   Proofs/BackupDBDir.v.  Model/BackupDB.v is the hand model of
   scripts/backupdb.py (tied to the code by harness/props/c42.py); SQLite
   tables are finite maps.  A history is any list of operations, in
   chronological order, each carrying what the code read from its environment
   (os.stat result, time.time(), random.random()); `run dirkey empty_db h` is
   the database after it. *)
From Coq Require Import List NArith Bool String.
From Verif Require Import Lib.Hex Model.BackupDB Proofs.BackupDB Proofs.BackupDBDir.
Import ListNotations.
Local Open Scope N_scope.

(* For every history: check_file tells the tool to reuse a cap only when
   timestamps are trusted and (cap, size, mtime, ctime) are exactly what the most
   recent did_upload_file for this path recorded. *)
Theorem reuse_only_if_unchanged_since_last_upload :
  forall dirkey (h : list op) path use_timestamps size mtime ctime now rnd cap,
    was_uploaded (snd (check_file (run dirkey empty_db h) path use_timestamps size mtime ctime now rnd)) = Some cap ->
    use_timestamps = true /\ last_upload_of h path = Some (cap, size, mtime, ctime).
Proof. exact reuse_only_if_unchanged_lem. Qed.
Print Assumptions reuse_only_if_unchanged_since_last_upload.

(* The clock and the random draw feed should_check only: neither the reuse
   decision nor the database after check_file depends on them. *)
Theorem reuse_decision_independent_of_clock_and_random :
  forall d path use_timestamps size mtime ctime now rnd now' rnd',
    was_uploaded (snd (check_file d path use_timestamps size mtime ctime now rnd))
    = was_uploaded (snd (check_file d path use_timestamps size mtime ctime now' rnd'))
    /\ fst (check_file d path use_timestamps size mtime ctime now rnd)
       = fst (check_file d path use_timestamps size mtime ctime now' rnd').
Proof. exact reuse_independent_of_clock_lem. Qed.
Print Assumptions reuse_decision_independent_of_clock_and_random.

(* should_check() is true only together with a cap (it asks for a re-check, it never adds a reuse). *)
Theorem should_check_only_with_cap :
  forall d path use_timestamps size mtime ctime now rnd,
    fr_should_check (snd (check_file d path use_timestamps size mtime ctime now rnd)) = true ->
    fr_filecap (snd (check_file d path use_timestamps size mtime ctime now rnd)) <> None.
Proof. exact should_check_only_with_cap_lem. Qed.
Print Assumptions should_check_only_with_cap.

(* The byte string that is hashed determines the dict: equal strings, equal
   (name, cap) items (netstrings decompose uniquely). *)
Theorem dirhash_preimage_determines_contents :
  forall c1 c2, dir_data c1 = dir_data c2 -> forall e, In e c1 <-> In e c2.
Proof. exact dir_data_items. Qed.
Print Assumptions dirhash_preimage_determines_contents.

(* For every history in which directories are recorded through the
   DirectoryResult (as tahoe_backup.py does): if the directories key (base32 of
   the hash) is injective, check_directory hands back a dircap only if it is
   the one recorded by the most recent did_create for exactly these contents. *)
Theorem dircap_only_for_same_contents :
  forall dirkey : bytes -> bytes,
    (forall a b, dirkey a = dirkey b -> a = b) ->
    forall (h : list op) contents now rnd cap,
      no_raw_create h ->
      was_created (check_directory dirkey (run dirkey empty_db h) contents now rnd) = Some cap ->
      last_create_for h contents = Some cap.
Proof. exact dircap_only_for_same_contents_lem. Qed.
Print Assumptions dircap_only_for_same_contents.

(* The same for the real key function b2a(SHA-256d(netstring(tag) ++ data)),
   without an injectivity hypothesis: otherwise two different byte strings
   with the same key exist. *)
Theorem dircap_same_contents_or_collision :
  forall (h : list op) contents now rnd cap,
    no_raw_create h ->
    was_created (check_directory real_dirkey (run real_dirkey empty_db h) contents now rnd) = Some cap ->
    last_create_for h contents = Some cap
    \/ exists a b : bytes, a <> b /\ real_dirkey a = real_dirkey b.
Proof. exact (dir_reuse_or_collision_lem real_dirkey). Qed.
Print Assumptions dircap_same_contents_or_collision.

(* what `last_create_for h contents = Some cap` says *)
Theorem last_create_for_meaning :
  forall (h : list op) contents cap,
    last_create_for h contents = Some cap ->
    exists c' now, In (ODidCreateDir cap c' now) h /\ forall e, In e c' <-> In e contents.
Proof. exact last_create_for_meaning_lem. Qed.
Print Assumptions last_create_for_meaning.

(* the hypotheses are satisfiable *)
Local Open Scope string_scope.
Definition p1 : bytes := bytes_of_string "/b/f1".
Definition p2 : bytes := bytes_of_string "/b/f2".
Definition capA : bytes := bytes_of_string "URI:CHK:aaaa".
Definition capB : bytes := bytes_of_string "URI:CHK:bbbb".
Definition dcap : bytes := bytes_of_string "URI:DIR2-CHK:dddd".
Definition idkey (x : bytes) : bytes := x.

Definition ex_history : list op :=
  [ OCheckFile p1 true 10 100 100 1000 0;
    ODidUpload capA p1 100 100 10 1000;
    ODidUpload capB p2 200 200 20 1001;
    ODidCreateDir dcap [(bytes_of_string "f2", capB); (bytes_of_string "f1", capA)] 1002 ].

(* unchanged file: reused; size, mtime or ctime changed, timestamps not trusted, renamed: not reused *)
Example ex_reuse_nonvacuous :
  let d := run idkey empty_db ex_history in
  was_uploaded (snd (check_file d p1 true 10 100 100 2000 0)) = Some capA /\
  was_uploaded (snd (check_file d p1 true 11 100 100 2000 0)) = None /\
  was_uploaded (snd (check_file d p1 true 10 101 100 2000 0)) = None /\
  was_uploaded (snd (check_file d p1 true 10 100 101 2000 0)) = None /\
  was_uploaded (snd (check_file d p1 false 10 100 100 2000 0)) = None /\
  was_uploaded (snd (check_file d (bytes_of_string "/b/f3") true 10 100 100 2000 0)) = None.
Proof. vm_compute. repeat split; reflexivity. Qed.

(* a changed file is forgotten: even when the old stat comes back, no reuse until the next upload *)
Example ex_forgotten_after_change :
  let d := fst (check_file (run idkey empty_db ex_history) p1 true 11 100 100 2000 0) in
  was_uploaded (snd (check_file d p1 true 10 100 100 2001 0)) = None.
Proof. vm_compute. reflexivity. Qed.

(* the same dict given in another order is reused; another cap under the same name is not *)
Example ex_dir_reuse_nonvacuous :
  let d := run real_dirkey empty_db ex_history in
  was_created (check_directory real_dirkey d [(bytes_of_string "f1", capA); (bytes_of_string "f2", capB)] 2000 0) = Some dcap /\
  was_created (check_directory real_dirkey d [(bytes_of_string "f1", capB); (bytes_of_string "f2", capB)] 2000 0) = None /\
  no_raw_create ex_history.
Proof.
  vm_compute. repeat split; try reflexivity.
  intros a b c [H|[H|[H|[H|[]]]]]; discriminate.
Qed.

Example ex_idkey_injective_nonvacuous : forall a b, idkey a = idkey b -> a = b.
Proof. intros a b H. exact H. Qed.

(* should_check: never within a month of the last check, always after two *)
Example ex_should_check :
  should_check 2592000 0 0 = false /\ should_check (2 * 2592000) 0 65535 = true /\
  should_check (2592000 + 1296000) 0 32767 = true /\ should_check (2592000 + 1296000) 0 32768 = false.
Proof. vm_compute. repeat split; reflexivity. Qed.
