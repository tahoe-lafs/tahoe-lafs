(* C13  One client serialises operations on a mutable node.
   Model/Serializer.v is the Deferred chain of MutableFileNode._do_serialized
   (three callbacks per request on one long-lived Deferred; a callback that
   returns an unfired Deferred pauses the chain).  Inputs are arbitrary
   interleavings of requests and completions (success or failure) of the
   running operation; `events` is the chronological trace. *)
From Coq Require Import List NArith Bool.
From Verif Require Import Model.Serializer Proofs.Serializer.
From Verif Require Import Gen.NodeMakerKey Proofs.NodeMakerKey.
Import ListNotations.
Local Open Scope N_scope.

(* operations start in request order *)
Theorem fifo_start_order :
  forall inputs, is_prefix (started_ids (events (exec inputs))) (requested_ids inputs).
Proof. intro inputs. rewrite requested_ids_reqs. exact (inv_prefix (inv_exec inputs)). Qed.
Print Assumptions fifo_start_order.

(* none starts before the previous one finished: scanning the trace never meets a
   Started while another operation is open, and the only open one is the running one *)
Theorem fifo_nonoverlap :
  forall inputs, scan None (events (exec inputs)) = Some (waiting (exec inputs)).
Proof. intro inputs. exact (inv_scan (inv_exec inputs)). Qed.
Print Assumptions fifo_nonoverlap.

Theorem idle_trace_bracketed :
  forall inputs, waiting (exec inputs) = None -> nonoverlap None (events (exec inputs)) = true.
Proof. intro inputs. exact (inv_bracketed (inv_exec inputs)). Qed.
Print Assumptions idle_trace_bracketed.

(* nothing is lost or blocked: once the chain is idle every request has been started,
   whatever mixture of failures preceded it *)
Theorem idle_all_started :
  forall inputs, waiting (exec inputs) = None ->
                 started_ids (events (exec inputs)) = requested_ids inputs.
Proof. intros inputs W. rewrite requested_ids_reqs. exact (inv_all_started (inv_exec inputs) W). Qed.
Print Assumptions idle_all_started.

(* a failed operation is reported to its caller and the next queued one starts at once *)
Theorem failure_does_not_block :
  forall inputs w, waiting (exec inputs) = Some w ->
    let s' := step (exec inputs) (Complete Fail) in
    In (Finished w Fail) (events s') /\ In (Delivered w Fail) (events s') /\
    (forall o rest, requested_ids inputs = started_ids (events (exec inputs)) ++ o :: rest ->
                    In (Started o) (events s')).
Proof. intros inputs w W. rewrite requested_ids_reqs. exact (inv_complete Fail (inv_exec inputs) W). Qed.
Print Assumptions failure_does_not_block.

(* every caller receives exactly its own operation's result, in order *)
Theorem results_delivered_in_order :
  forall inputs, delivered (events (exec inputs)) = finished (events (exec inputs)).
Proof. intro inputs. exact (inv_deliv (inv_exec inputs)). Qed.
Print Assumptions results_delivered_in_order.

(* read-modify-write operations run through the serializer lose no update: the final
   contents are the successful modifiers applied in order to the initial contents *)
Theorem modify_sequence_no_lost_update :
  forall (content : Type) (modifier : opid -> content -> content) inputs store,
    waiting (exec inputs) = None ->
    replay content modifier (events (exec inputs)) store None
    = apply_ok content modifier (finished (events (exec inputs))) store.
Proof.
  intros content modifier inputs store W.
  exact (replay_bracketed content modifier _ store None (inv_bracketed (inv_exec inputs) W)).
Qed.
Print Assumptions modify_sequence_no_lost_update.

(* NodeMaker.create_from_cap: the same cap string yields the same node object,
   hence the same serializer *)
Theorem same_cap_same_node :
  forall c k f1 f2,
    let '(c1, n1) := create_from_cap c k f1 in
    let '(_, n2) := create_from_cap c1 k f2 in n1 = n2.
Proof. exact cache_same_cap_same_node. Qed.
Print Assumptions same_cap_same_node.

(* WHICH entry a lookup uses (memokey is translated from nodemaker.py on every run): the read cap
   passed alongside a write cap -- as a parent directory's child lookup does -- never selects
   a different node, so every route to one write cap shares one serializer *)
Theorem same_writecap_same_node :
  forall c di w ro1 ro2 f1 f2,
    w <> [] ->
    exists k, memokey di (Some w) ro1 = Some k /\ memokey di (Some w) ro2 = Some k /\
      let '(c1, n1) := create_from_cap c k f1 in
      let '(_, n2) := create_from_cap c1 k f2 in n1 = n2.
Proof.
  intros c di w ro1 ro2 f1 f2 H. eexists.
  split; [|split]; [exact (memokey_writecap di w ro1 H)|exact (memokey_writecap di w ro2 H)|apply same_cap_same_node].
Qed.
Print Assumptions same_writecap_same_node.

(* and two lookups share an entry ONLY if they resolve the same cap under the same deep_immutable flag *)
Theorem memokey_injective :
  forall di di' wc rc wc' rc' k,
    memokey di wc rc = Some k -> memokey di' wc' rc' = Some k ->
    di = di' /\ py_or wc rc = py_or wc' rc'.
Proof. exact memokey_inj_ok. Qed.
Print Assumptions memokey_injective.

Example ex_memokey :
  memokey false (Some [85; 82; 73]) None = Some [77; 85; 82; 73] /\
  memokey false (Some [85; 82; 73]) (Some [1; 2]) = Some [77; 85; 82; 73] /\
  memokey true None (Some [9]) = Some [73; 9] /\ memokey false None None = None /\ memokey false (Some []) (Some []) = None.
Proof. vm_compute. repeat split. Qed.

(* non-vacuity: a run with a failure in the middle, two queued requests, ends idle with
   all four operations started in order *)
Example ex_run_with_failure :
  let s := exec [Request 1 Async; Request 2 Async; Request 3 (Sync Ok); Complete Fail; Request 4 Async; Complete Ok; Complete Ok] in
  waiting s = None /\ started_ids (events s) = [1; 2; 3; 4] /\
  finished (events s) = [(1, Fail); (2, Ok); (3, Ok); (4, Ok)].
Proof. vm_compute. repeat split. Qed.

From Verif Require Import Gen.MutPins.
From Coq Require Import String.
(* Fingerprints (AST, comments and docstrings excluded) of the source functions this model
   transcribes by hand, regenerated from /repo on every run (harness/translate/mutpins.py):
   the model was written for exactly these versions of them. *)
Theorem model_pins_current :
  pins_C13 =
  [("filenode_do_serialized", "49a58348bbc8e581")%string;
   ("filenode_modify", "c74e998ef15ca065")%string;
   ("filenode_overwrite", "aa41320d46a2086c")%string;
   ("filenode_upload", "5a80db7b7adcfbc6")%string;
   ("filenode_get_best_mutable_version", "79c2113dba6adaf7")%string].
Proof. reflexivity. Qed.
Print Assumptions model_pins_current.
