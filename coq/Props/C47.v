(* C47  A successful mutable publish is recoverable.
   Model/Publish.v: the Publish bookkeeping that decides success (writers per share
   number, connection problems, write answers, the surprised flag, the final test in
   _push).  `answers` is the arbitrary sequence in which the servers' answers arrive. *)
From Coq Require Import List NArith Bool.
From Verif Require Import Model.Publish Proofs.Publish.
Import ListNotations.
Local Open Scope N_scope.

(* success => servers acknowledged (wrote = true) the new version's shares for at least
   k distinct share numbers, and "placed" contains only acknowledged writes *)
Theorem success_implies_k_acked :
  forall k ws answers, covered ws answers ->
    publish_outcome k ws answers = Success ->
    let final := handle_all (start ws) answers in
    k <= distinct_shnums (placed final) /\
    (forall w, In w (placed final) -> exists rd, In (w, Answered true rd) answers).
Proof. exact success_implies_k_acked_ok. Qed.
Print Assumptions success_implies_k_acked.

(* success => no unexpected version was met: no test vector failed, no surprise share *)
Theorem success_implies_not_surprised :
  forall k ws answers, publish_outcome k ws answers = Success ->
    surprised (handle_all (start ws) answers) = false /\
    (forall w rd, ~ In (w, Answered false rd) answers).
Proof. exact success_implies_not_surprised_ok. Qed.
Print Assumptions success_implies_not_surprised.

(* fewer than k share numbers whose write did not fail => an error, never success *)
Theorem fewer_than_k_is_error :
  forall k ws answers,
    distinct_shnums (filter (fun w => negb (has_conn_error answers w)) ws) < k ->
    publish_outcome k ws answers <> Success.
Proof. exact fewer_than_k_is_error_ok. Qed.
Print Assumptions fewer_than_k_is_error.

Theorem surprised_is_uncoordinated_write_error :
  forall k s, surprised s = true -> decide k s = UncoordinatedWrite.
Proof. intros k s H. apply decide_ucwe, H. Qed.
Print Assumptions surprised_is_uncoordinated_write_error.

(* non-vacuity: 3 share numbers on 3 servers, k = 2: one connection error still succeeds,
   a failed test vector gives UncoordinatedWrite, two errors give NotEnoughServers *)
Definition ex_ws := [ {| w_shnum := 0; w_server := 1 |}; {| w_shnum := 1; w_server := 2 |}; {| w_shnum := 2; w_server := 3 |} ].
Example ex_outcomes :
  publish_outcome 2 ex_ws [ ({| w_shnum := 0; w_server := 1 |}, Answered true []);
                            ({| w_shnum := 2; w_server := 3 |}, ConnError);
                            ({| w_shnum := 1; w_server := 2 |}, Answered true []) ] = Success /\
  publish_outcome 2 ex_ws [ ({| w_shnum := 0; w_server := 1 |}, Answered true []);
                            ({| w_shnum := 2; w_server := 3 |}, Answered false [{| r_shnum := 2; r_is_our_checkstring := false |}]);
                            ({| w_shnum := 1; w_server := 2 |}, Answered true []) ] = UncoordinatedWrite /\
  publish_outcome 2 ex_ws [ ({| w_shnum := 0; w_server := 1 |}, ConnError);
                            ({| w_shnum := 2; w_server := 3 |}, ConnError);
                            ({| w_shnum := 1; w_server := 2 |}, Answered true []) ] = NotEnoughServers /\
  covered ex_ws [ ({| w_shnum := 0; w_server := 1 |}, Answered true []);
                  ({| w_shnum := 2; w_server := 3 |}, ConnError);
                  ({| w_shnum := 1; w_server := 2 |}, Answered true []) ].
Proof.
  repeat split; try (vm_compute; reflexivity).
  intros w [H|[H|[H|[]]]]; subst; eexists; cbn; eauto.
Qed.

From Verif Require Import Gen.MutPins.
From Coq Require Import String.
(* Fingerprints (AST, comments and docstrings excluded) of the source functions this model
   transcribes by hand, regenerated from /repo on every run (harness/translate/mutpins.py):
   the model was written for exactly these versions of them. *)
Theorem model_pins_current :
  pins_C47 =
  [("publish_got_write_answer", "166be3157ed17053")%string;
   ("publish_connection_problem", "8866e12b1287c4fd")%string;
   ("publish_push", "e8d2c5fe4539fa11")%string;
   ("publish_failure", "b5ed585237faa250")%string].
Proof. reflexivity. Qed.
Print Assumptions model_pins_current.
