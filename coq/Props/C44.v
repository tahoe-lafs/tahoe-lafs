(* C44  Helper-assisted uploads are equivalent to direct uploads.
   Statements, each closed by `exact` or a short derivation from a lemma of Proofs/Helper.v.
   Model/Helper.v: CHKCiphertextFetcher (_start_reading, _loop, _fetch with resume offset = bytes already in the incoming file), RemoteEncryptedUploadable
   .remote_read_encrypted (no seeking backwards, skip forwards), CHKUploadHelper's encode over the fetched
   file, AssistedUploader._build_verifycap with its four asserts, CHKCheckerAndUEBFetcher.check and
   Helper.remote_upload_chk.
   `encode` / `ueb_hash` (Section variables, universally quantified in every statement): the encoder is the
   same deterministic function of (ciphertext, parameters) on both paths -- CHKUploader.start_encrypted; that
   it is deterministic is C01.  `positive cs`: every round asks for at least one byte (CHUNK_SIZE = 50 kiB in
   the code; a zero chunk size would make _fetch report "all done" at once).  `is_prefix incoming ct`: the
   incoming file was written by earlier sessions for the same storage index (interrupted_leaves_prefix). *)
From Coq Require Import List NArith Arith Bool.
From Verif Require Import Model.Helper Proofs.Helper.
Import ListNotations.

(* for every chunking cs1 of the first session and every interruption point (= length of cs1), every chunking
   cs2 of the resumed session: the resumed transfer ends with exactly the ciphertext, and so does an
   uninterrupted one (chunking cs) *)
Theorem resumed_fetch_equals_uninterrupted :
  forall (ct : bytes) (cs1 cs2 cs : list nat) (f1 : bytes) (r1 : reader),
    positive cs1 -> positive cs2 -> positive cs ->
    fetch_loop cs1 ct fresh_reader [] = (Interrupted f1, r1) ->
    length ct - length f1 <= length cs2 -> length ct <= length cs ->
    fst (fetch_loop cs2 ct fresh_reader f1) = Complete ct
    /\ fst (fetch_loop cs ct fresh_reader []) = Complete ct.
Proof. exact resumed_equals_uninterrupted. Qed.
Print Assumptions resumed_fetch_equals_uninterrupted.

(* what an interruption leaves behind, after any number of earlier sessions: a prefix of the ciphertext *)
Theorem interrupted_leaves_prefix :
  forall (cs : list nat) (ct incoming f : bytes) (r : reader),
    positive cs -> is_prefix incoming ct ->
    fetch_loop cs ct fresh_reader incoming = (Interrupted f, r) -> is_prefix f ct.
Proof. exact interrupted_leaves_prefix_ok. Qed.
Print Assumptions interrupted_leaves_prefix.

(* ... and any such prefix resumes to the ciphertext (a transfer interrupted several times) *)
Theorem resume_from_any_prefix :
  forall (cs : list nat) (ct incoming : bytes),
    positive cs -> is_prefix incoming ct -> length ct - length incoming <= length cs ->
    fst (fetch_loop cs ct fresh_reader incoming) = Complete ct.
Proof. exact resume_from_prefix_ok. Qed.
Print Assumptions resume_from_any_prefix.

(* the loop never reports "done" with anything but the ciphertext, never has a read refused by the client
   (the resume offset is never behind a fresh reader), and a cut leaves a prefix that extends the old file *)
Theorem fetch_loop_sound :
  forall (cs : list nat) (ct : bytes) (r : reader) (file : bytes) (res : fetch_result) (r' : reader),
    positive cs -> is_prefix file ct -> rd_offset r <= length file ->
    fetch_loop cs ct r file = (res, r') ->
    match res with
    | Complete f => f = ct
    | Interrupted f => is_prefix f ct /\ is_prefix file f
    | Refused _ => False
    end.
Proof.
  intros cs ct r file res r' P PR RO H.
  destruct (fetch_loop_spec cs ct r file res r' P PR RO H) as [->|(f & -> & PF & PF' & _)];
    [reflexivity|exact (conj PF' PF)].
Qed.
Print Assumptions fetch_loop_sound.

(* an interruption after j rounds: j reads were served, fewer bytes than the file are on disk *)
Theorem interruption_point :
  forall (cs : list nat) (ct f : bytes) (r : reader),
    positive cs -> fetch_loop cs ct fresh_reader [] = (Interrupted f, r) ->
    is_prefix f ct /\ length f < length ct /\ rd_calls r = length cs.
Proof.
  intros cs ct f r P H.
  destruct (fetch_loop_spec cs ct fresh_reader [] _ r P (nil_prefix ct) (Nat.le_0_l _) H)
    as [E|(f' & E & _ & PF & L & K)]; inversion E; subst f'.
  exact (conj PF (conj (proj2 L) K)).
Qed.
Print Assumptions interruption_point.

(* same key, ciphertext and parameters: the helper-assisted session (from any incoming prefix, any chunking)
   produces the shares and the cap of the direct upload *)
Theorem helper_cap_equals_direct_cap :
  forall (encode : bytes -> params -> list bytes) (ueb_hash : bytes -> params -> bytes)
         (key ct : bytes) (p : params) (cs : list nat) (incoming : bytes),
    positive cs -> is_prefix incoming ct -> length ct - length incoming <= length cs ->
    exists reads,
      assisted_session encode ueb_hash key ct p cs incoming
      = (Complete ct, Some (direct_upload encode ueb_hash key ct p), reads).
Proof. exact helper_equals_direct. Qed.
Print Assumptions helper_cap_equals_direct_cap.

(* all N shares found and a URI extension read: the helper answers "already present", the client serves no
   read_encrypted call; if the shares on the grid are those of (ct, p) the cap is the direct upload's cap *)
Theorem already_present_short_circuits :
  forall (encode : bytes -> params -> list bytes) (ueb_hash : bytes -> params -> bytes)
         (key ct : bytes) (p : params) (cs : list nat) (incoming : bytes) (found : list nat) (u : ueb_info),
    u_n u <= length (nodup Nat.eq_dec found) ->
    upload_chk false found (Some u) = AlreadyPresent (mk_hur (u_hash u) (u_k u) (u_n u) (u_segsize u) (u_size u) 0 0)
    /\ snd (client_upload encode ueb_hash key ct p cs incoming false found (Some u)) = 0
    /\ (u_hash u = ueb_hash ct p -> u_k u = p_k p -> u_n u = p_n p -> u_segsize u = p_segsize p -> u_size u = length ct ->
        fst (client_upload encode ueb_hash key ct p cs incoming false found (Some u))
        = Some (snd (direct_upload encode ueb_hash key ct p))).
Proof. exact already_present. Qed.
Print Assumptions already_present_short_circuits.

(* fewer than N distinct shares, or no readable URI extension: the file is uploaded *)
Theorem incomplete_file_is_uploaded :
  (forall found u active, length (nodup Nat.eq_dec found) < u_n u -> upload_chk active found (Some u) = NeedUpload)
  /\ (forall found active, upload_chk active found None = NeedUpload).
Proof. split; [exact not_all_shares|exact no_ueb]. Qed.
Print Assumptions incomplete_file_is_uploaded.

(* the hypotheses are satisfiable; the model computes the wire traffic *)
Definition ex_ct : bytes := [1; 2; 3; 4; 5; 6; 7; 8; 9; 10]%N.

Example ex_interrupt_resume_nonvacuous :
  fetch_loop [3; 3] ex_ct fresh_reader [] = (Interrupted [1; 2; 3; 4; 5; 6]%N, mk_reader 6 6 2)
  /\ fst (fetch_loop [4; 4] ex_ct fresh_reader [1; 2; 3; 4; 5; 6]%N) = Complete ex_ct
  /\ fetch_requests 20 10 6 4 = [(6, 4)]
  /\ fetch_requests 20 10 0 3 = [(0, 3); (3, 3); (6, 3); (9, 1)].
Proof. vm_compute. repeat split; reflexivity. Qed.

Example ex_helper_equals_direct_nonvacuous :
  let enc := fun (c : bytes) (p : params) => [c; rev c] in
  let ueb := fun (c : bytes) (p : params) => [N.of_nat (length c); N.of_nat (p_k p)] in
  assisted_session enc ueb [9%N] ex_ct (mk_params 1 2 4) [4; 4; 4] [1; 2; 3]%N
  = (Complete ex_ct, Some (direct_upload enc ueb [9%N] ex_ct (mk_params 1 2 4)), 2).
Proof. vm_compute. reflexivity. Qed.

Example ex_already_present_nonvacuous :
  upload_chk false [0; 1; 1; 0] (Some (mk_ueb [7%N] 1 2 4 10)) = AlreadyPresent (mk_hur [7%N] 1 2 4 10 0 0)
  /\ upload_chk false [1; 1] (Some (mk_ueb [7%N] 1 2 4 10)) = NeedUpload.
Proof. vm_compute. split; reflexivity. Qed.
