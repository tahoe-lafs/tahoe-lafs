(* C35  Merkle hash trees accept only genuine leaves.
   Statements only; the theorems are closed by `exact` of a lemma in Proofs/HashTree*.v (the
   refutation by its witness), the examples by `exact` or by evaluation.
   The model is Model/HashTree.v (IncompleteHashTree.set_hashes with its level sets,
   an arbitrary set.pop() order `ord`, arbitrary -- also negative and out-of-range --
   keys in `hashes`/`leaves`, rollback).  Hash values are abstract:
     pair_hash injective, never the empty byte string;
     truthy h  models  `if self[i]:`  (h is not b"").
   G is the tree that produced the trusted root: G p = pair_hash (G (2p+1)) (G (2p+2)).
   `genuine G T`: every present node of T equals the node of G;  `closed T`: a present
   non-root node has its parent and its sibling present (holds initially and after
   every accepted call: accept_preserves_closed);  `all_truthy T`: no stored b"". *)
From Coq Require Import List ZArith Bool.
From Verif Require Import Model.HashTree Proofs.HashTreeBase Proofs.HashTree Proofs.HashTreeStored Proofs.HashTreeLeaf
  Proofs.HashTreeComplete Proofs.HashTreeBuild Proofs.HashTreeSym.
Import ListNotations.
Local Open Scope Z_scope.

(* Soundness: whatever the adversary supplies, an accepted call leaves only genuine nodes. *)
Theorem accept_implies_genuine :
  forall (H : Type) (H_eqb : H -> H -> bool) (pair_hash : H -> H -> H) (truthy : H -> bool),
    (forall a b, H_eqb a b = true <-> a = b) ->
    (forall a b, truthy (pair_hash a b) = true) ->
  forall (G : Z -> H) (n : Z),
    (forall a b c d, pair_hash a b = pair_hash c d -> a = c /\ b = d) ->
    (forall p, 0 <= p -> 2 * p + 2 < n -> G p = pair_hash (G (2 * p + 1)) (G (2 * p + 2))) ->
    (forall j, 0 <= j < n -> truthy (G j) = true) ->
  forall (fl : Z) (T0 : list (option H)) (hashes leaves : list (Z * H)) (ord : list Z) (T1 : list (option H)),
    zlen T0 = n ->
    genuine H G T0 ->
    slot T0 0 <> None ->
    set_hashes H H_eqb pair_hash truthy fl T0 hashes leaves ord = Accepted H T1 ->
    genuine H G T1.
Proof. exact accepted_genuine. Qed.
Print Assumptions accept_implies_genuine.

(* ... in particular an accepted leaf (any accepted non-empty value) is the genuine one. *)
Theorem accepted_leaf_is_genuine :
  forall (H : Type) (H_eqb : H -> H -> bool) (pair_hash : H -> H -> H) (truthy : H -> bool),
    (forall a b, H_eqb a b = true <-> a = b) ->
    (forall a b, truthy (pair_hash a b) = true) ->
  forall (G : Z -> H) (n : Z),
    (forall a b c d, pair_hash a b = pair_hash c d -> a = c /\ b = d) ->
    (forall p, 0 <= p -> 2 * p + 2 < n -> G p = pair_hash (G (2 * p + 1)) (G (2 * p + 2))) ->
    (forall j, 0 <= j < n -> truthy (G j) = true) ->
  forall (fl : Z) (T0 : list (option H)) (hashes leaves : list (Z * H)) (ord : list Z) (T1 : list (option H)),
    zlen T0 = n ->
    genuine H G T0 ->
    slot T0 0 <> None ->
    set_hashes H H_eqb pair_hash truthy fl T0 hashes leaves ord = Accepted H T1 ->
    (forall leafnum h, In (leafnum, h) leaves -> 0 <= fl + leafnum < n -> truthy h = true -> h = G (fl + leafnum)) /\
    (forall k h, In (k, h) hashes -> 0 <= k < n -> truthy h = true -> h = G k).
Proof. exact accepted_values_genuine. Qed.
Print Assumptions accepted_leaf_is_genuine.

(* Completeness: the genuine values for exactly the nodes needed_hashes(leaf, include_leaf=True)
   asks for (through `hashes`, the leaf optionally through `leaves`), in any dict order and any
   set.pop() order, are accepted and the leaf is then known. *)
Theorem genuine_needed_hashes_accepted :
  forall (H : Type) (H_eqb : H -> H -> bool) (pair_hash : H -> H -> H) (truthy : H -> bool),
    (forall a b, H_eqb a b = true <-> a = b) ->
    (forall a b, truthy (pair_hash a b) = true) ->
  forall (G : Z -> H) (n : Z),
    (forall p, 0 <= p -> 2 * p + 2 < n -> G p = pair_hash (G (2 * p + 1)) (G (2 * p + 2))) ->
    (forall j, 0 <= j < n -> truthy (G j) = true) ->
  forall (fl : Z) (T0 : list (option H)) (leafnum : Z) (nd : list Z) (hashes leaves : list (Z * H)) (ord : list Z),
    zlen T0 = n ->
    genuine H G T0 ->
    closed H T0 ->
    slot T0 0 <> None ->
    needed_hashes H fl T0 leafnum true = Some nd ->
    (forall k h, In (k, h) hashes -> In k nd /\ h = G k) ->
    (forall ln h, In (ln, h) leaves -> ln = leafnum /\ h = G (fl + leafnum)) ->
    (forall k, In k nd -> In k (map fst hashes) \/ (k = fl + leafnum /\ leaves <> [])) ->
    exists T1, set_hashes H H_eqb pair_hash truthy fl T0 hashes leaves ord = Accepted H T1 /\
               slot T1 (fl + leafnum) = Some (G (fl + leafnum)).
Proof. exact needed_accepted. Qed.
Print Assumptions genuine_needed_hashes_accepted.

(* Rollback: every rejection (BadHashError, NotEnoughHashesError, IndexError) leaves the list
   exactly as it was, and the uncaught-exception paths of the code (Crash) are unreachable. *)
Theorem reject_restores_state :
  forall (H : Type) (H_eqb : H -> H -> bool) (pair_hash : H -> H -> H) (truthy : H -> bool),
    (forall a b, H_eqb a b = true <-> a = b) ->
    (forall a b, truthy (pair_hash a b) = true) ->
  forall (fl : Z) (T0 : list (option H)) (hashes leaves : list (Z * H)) (ord : list Z) (e : err) (T1 : list (option H)),
    all_truthy H truthy T0 ->
    set_hashes H H_eqb pair_hash truthy fl T0 hashes leaves ord = Rejected H e T1 ->
    T1 = T0 /\ e <> Crash.
Proof. exact rejected_restores. Qed.
Print Assumptions reject_restores_state.

(* Full statement (without `all_truthy T0`) is refuted by the faithful model: the code tests
   `if self[i]:`, so a stored b"" is overwritten and then rolled back to None.
   Known finding "state-changed-after-rejection:empty-value-present" (replayed on the real code
   from corpus/C35/empty-root-not-restored.json). *)
Theorem reject_restores_state_without_nonempty_refuted :
  exists (T0 : sym_tree) (hashes : list (Z * sym)) (e : err) (T1 : sym_tree),
    sym_set_hashes 1 T0 hashes [] [] = Rejected sym e T1 /\ sym_tree_eqb T1 T0 = false.
Proof.
  exists [Some (Junk 0); None; None], [(0, Junk 5); (1, Junk 6)], NotEnoughHashesError, [None; None; None].
  vm_compute. split; reflexivity.
Qed.
Print Assumptions reject_restores_state_without_nonempty_refuted.

(* The preconditions of completeness are invariants of the reachable states. *)
Theorem accept_preserves_closed :
  forall (H : Type) (H_eqb : H -> H -> bool) (pair_hash : H -> H -> H) (truthy : H -> bool),
    (forall a b, H_eqb a b = true <-> a = b) ->
    (forall a b, truthy (pair_hash a b) = true) ->
  forall (fl : Z) (T0 : list (option H)) (hashes leaves : list (Z * H)) (ord : list Z) (T1 : list (option H)),
    all_truthy H truthy T0 -> closed H T0 ->
    set_hashes H H_eqb pair_hash truthy fl T0 hashes leaves ord = Accepted H T1 ->
    closed H T1.
Proof. exact accepted_closed. Qed.
Print Assumptions accept_preserves_closed.

(* HashTree.__init__ produces the Merkle tree over the leaves padded with empty_leaf_hash(i). *)
Theorem hash_tree_is_merkle :
  forall (H : Type) (pair_hash : H -> H -> H) (empty_leaf_hash : Z -> H) (L : list H) (d : H),
    let t := hash_tree H pair_hash empty_leaf_hash L in
    let P := roundup_pow2 (zlen L) in
    zlen t = 2 * P - 1 /\
    (forall i, 0 <= i < zlen L -> nth (Z.to_nat (P - 1 + i)) t d = nth (Z.to_nat i) L d) /\
    (forall i, zlen L <= i < P -> nth (Z.to_nat (P - 1 + i)) t d = empty_leaf_hash i) /\
    (forall p, 0 <= p -> 2 * p + 2 < zlen t ->
       nth (Z.to_nat p) t d = pair_hash (nth (Z.to_nat (2 * p + 1)) t d) (nth (Z.to_nat (2 * p + 2)) t d)).
Proof. exact hash_tree_merkle. Qed.
Print Assumptions hash_tree_is_merkle.

(* Non-vacuity: the symbolic hashes satisfy every hypothesis, on a concrete 5-leaf tree. *)
Example hypotheses_nonvacuous :
  (forall a b, sym_eqb a b = true <-> a = b) /\
  (forall a b, sym_truthy (Pair a b) = true) /\
  (forall a b c d, Pair a b = Pair c d -> a = c /\ b = d) /\
  (forall p, 0 <= p -> 2 * p + 2 < 15 -> G5 p = Pair (G5 (2 * p + 1)) (G5 (2 * p + 2))) /\
  (forall j, 0 <= j < 15 -> sym_truthy (G5 j) = true) /\
  zlen T5_root = 15 /\ genuine sym G5 T5_root /\ closed sym T5_root /\ slot T5_root 0 <> None.
Proof.
  repeat apply conj; [exact sym_eqb_spec|exact sym_pair_truthy|exact sym_pair_inj|exact G5_merkle|exact G5_truthy|
                      reflexivity|exact T5_root_genuine|exact T5_root_closed|discriminate].
Qed.

Example ex_needed_5 : sym_needed_hashes 7 T5_root 2 true = Some [10; 3; 2; 9].
Proof. vm_compute. reflexivity. Qed.

(* genuine chain for leaf 2 of 5: accepted, leaf and the computed parents are now known *)
Example ex_genuine_accepted_5 :
  sym_set_hashes 7 T5_root [(10, G5 10); (3, G5 3); (2, G5 2)] [(2, Leaf 2)] [] =
  Accepted sym [Some (G5 0); Some (G5 1); Some (G5 2); Some (G5 3); Some (G5 4); None; None; None; None;
                Some (Leaf 2); Some (Leaf 3); None; None; None; None].
Proof. vm_compute. reflexivity. Qed.

(* same inputs in another dict order and another pop order *)
Example ex_genuine_accepted_5_other_order :
  sym_set_hashes 7 T5_root [(2, G5 2); (9, Leaf 2); (3, G5 3); (10, G5 10)] [] [10; 3; 1; 2] =
  sym_set_hashes 7 T5_root [(10, G5 10); (3, G5 3); (2, G5 2)] [(2, Leaf 2)] [].
Proof. vm_compute. reflexivity. Qed.

(* a forged leaf, and a forgery that is consistent up to level 1: both rejected, state restored *)
Example ex_forged_leaf_rejected :
  sym_set_hashes 7 T5_root [(10, G5 10); (3, G5 3); (2, G5 2)] [(2, Junk 9)] [9] = Rejected sym BadHashError T5_root.
Proof. vm_compute. reflexivity. Qed.

Example ex_consistent_forgery_rejected :
  sym_set_hashes 7 T5_root [(10, G5 10); (4, Pair (Junk 9) (G5 10)); (1, Pair (G5 3) (Pair (Junk 9) (G5 10))); (3, G5 3); (2, G5 2)]
                 [(2, Junk 9)] [] = Rejected sym BadHashError T5_root.
Proof. vm_compute. reflexivity. Qed.

Example ex_missing_hash_rejected :
  sym_set_hashes 7 T5_root [(10, G5 10); (2, G5 2)] [(2, Leaf 2)] [10; 9] = Rejected sym NotEnoughHashesError T5_root.
Proof. vm_compute. reflexivity. Qed.

Example ex_out_of_range_index_rejected :
  sym_set_hashes 7 T5_root [(10, Junk 3); (99, Junk 4)] [] [] = Rejected sym IndexError T5_root.
Proof. vm_compute. reflexivity. Qed.

Example ex_negative_index_rejected :
  sym_set_hashes 7 T5_root [(-1, Junk 3)] [] [] = Rejected sym IndexError T5_root.
Proof. vm_compute. reflexivity. Qed.

Example ex_hash_tree_5 :
  sym_hash_tree leaves5 =
  [Pair (Pair (Pair (Leaf 0) (Leaf 1)) (Pair (Leaf 2) (Leaf 3))) (Pair (Pair (Leaf 4) (Pad 5)) (Pair (Pad 6) (Pad 7)));
   Pair (Pair (Leaf 0) (Leaf 1)) (Pair (Leaf 2) (Leaf 3)); Pair (Pair (Leaf 4) (Pad 5)) (Pair (Pad 6) (Pad 7));
   Pair (Leaf 0) (Leaf 1); Pair (Leaf 2) (Leaf 3); Pair (Leaf 4) (Pad 5); Pair (Pad 6) (Pad 7);
   Leaf 0; Leaf 1; Leaf 2; Leaf 3; Leaf 4; Pad 5; Pad 6; Pad 7].
Proof. vm_compute. reflexivity. Qed.
