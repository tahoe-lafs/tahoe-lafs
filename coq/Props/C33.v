(* C33  Grid-manager certificates grant permission only when valid.
   Statements only; proofs are in Proofs/GridManager.v.  The model
   (Model/GridManager.v) mirrors grid_manager.py validate_grid_manager_certificate /
   create_grid_manager_verifier and storage_client.py *.upload_permitted.  The
   signature scheme and the JSON/ISO-8601 decoding are universally quantified. *)
From Coq Require Import List NArith ZArith Bool.
From Verif Require Import Lib.Sig Model.GridManager Proofs.GridManager.
Import ListNotations.
Local Open Scope Z_scope.

(* With at least one configured key, and certificates that (when they verify
   under a configured key) decode to a server key and a zone-aware expiry -- the
   inputs on which the real predicate does not raise -- the predicate never
   raises and returns True EXACTLY when some certificate is signed by some
   configured key, names this server's public key and `now < expires`. *)
Theorem permitted_iff :
  forall (pubkey msg sig : Type) (verify : pubkey -> msg -> sig -> bool)
         (spk : Type) (spk_eqb : spk -> spk -> bool)
         (decode : msg -> option (cert_json spk))
         (keys : list pubkey) (certs : list (signed_cert msg sig)) (public_key : spk) (now : Z),
    keys <> [] ->
    certs_wellformed verify decode keys certs ->
    permitted verify spk_eqb decode keys certs public_key now <> Raise /\
    (permitted verify spk_eqb decode keys certs public_key now = Permit <->
     exists c k, In c certs /\ In k keys /\
       verify k (sc_cert c) (sc_sig c) = true /\
       exists f e, decode (sc_cert c) = Some (JFields f) /\ spk_eqb (cf_pk f) public_key = true /\
                   cf_exp f = ExpAware e /\ now < e).
Proof. exact permitted_iff_ok. Qed.
Print Assumptions permitted_iff.

(* The "only if" direction needs no side condition at all: whatever the
   certificates contain (including ones on which the real code raises),
   True is returned only if a valid certificate exists. *)
Theorem permit_only_with_valid_certificate :
  forall (pubkey msg sig : Type) (verify : pubkey -> msg -> sig -> bool)
         (spk : Type) (spk_eqb : spk -> spk -> bool)
         (decode : msg -> option (cert_json spk))
         (keys : list pubkey) (certs : list (signed_cert msg sig)) (public_key : spk) (now : Z),
    keys <> [] ->
    permitted verify spk_eqb decode keys certs public_key now = Permit ->
    exists c k, In c certs /\ In k keys /\ cert_grants verify spk_eqb decode k c public_key now.
Proof. exact permit_only_with_valid_certificate_ok. Qed.
Print Assumptions permit_only_with_valid_certificate.

Theorem no_keys_all_permitted :
  forall (pubkey msg sig : Type) (verify : pubkey -> msg -> sig -> bool)
         (spk : Type) (spk_eqb : spk -> spk -> bool)
         (decode : msg -> option (cert_json spk))
         (certs : list (signed_cert msg sig)) (public_key : spk) (now : Z),
    permitted verify spk_eqb decode [] certs public_key now = Permit
    /\ upload_permitted spk_eqb None public_key now = Permit.
Proof. exact no_keys_all_permitted_ok. Qed.
Print Assumptions no_keys_all_permitted.

(* If verification succeeds only for genuinely signed messages, a set of
   certificates none of whose bytes was signed by a configured key never grants. *)
Theorem tampered_never_grants :
  forall (pubkey msg sig : Type) (verify : pubkey -> msg -> sig -> bool)
         (spk : Type) (spk_eqb : spk -> spk -> bool)
         (decode : msg -> option (cert_json spk))
         (signed : pubkey -> msg -> Prop)
         (keys : list pubkey) (certs : list (signed_cert msg sig)) (public_key : spk) (now : Z),
    sig_sound verify signed ->
    keys <> [] ->
    (forall c k, In c certs -> In k keys -> ~ signed k (sc_cert c)) ->
    permitted verify spk_eqb decode keys certs public_key now <> Permit.
Proof. exact tampered_never_grants_ok. Qed.
Print Assumptions tampered_never_grants.

(* Tampered signature / wrong key, unreadable, other-server, zone-less and
   expired certificates (expiry instant included: e <= now) never grant. *)
Theorem invalid_never_grants :
  forall (pubkey msg sig : Type) (verify : pubkey -> msg -> sig -> bool)
         (spk : Type) (spk_eqb : spk -> spk -> bool)
         (decode : msg -> option (cert_json spk))
         (keys : list pubkey) (certs : list (signed_cert msg sig)) (public_key : spk) (now : Z),
    keys <> [] ->
    (forall c k, In c certs -> In k keys ->
       verify k (sc_cert c) (sc_sig c) = false
       \/ decode (sc_cert c) = None \/ decode (sc_cert c) = Some JNull \/ decode (sc_cert c) = Some JUnreadable
       \/ (exists f, decode (sc_cert c) = Some (JFields f) /\
             (spk_eqb (cf_pk f) public_key = false
              \/ cf_exp f = ExpNaive
              \/ exists e, cf_exp f = ExpAware e /\ e <= now))) ->
    permitted verify spk_eqb decode keys certs public_key now <> Permit.
Proof. exact invalid_never_grants_ok. Qed.
Print Assumptions invalid_never_grants.

(* A long-running client: after any history of announcements, the answer for a server is the
   certificate rule applied to the certificate list of the LATEST announcement of that server
   (renewed, added or withdrawn certificates take effect); other servers are unaffected. *)
Theorem verifier_follows_latest_announcement :
  forall (pubkey msg sig : Type) (verify : pubkey -> msg -> sig -> bool)
         (spk : Type) (spk_eqb : spk -> spk -> bool) (decode : msg -> option (cert_json spk))
         (keys : list pubkey) (h : ann_history msg sig) (id : N) (cs : list (signed_cert msg sig))
         (public_key : spk) (now : Z),
    broker_permitted verify spk_eqb decode keys (h ++ [(id, cs)]) id public_key now
      = Some (permitted verify spk_eqb decode keys cs public_key now) /\
    (forall id', id <> id' ->
       broker_permitted verify spk_eqb decode keys (h ++ [(id, cs)]) id' public_key now
       = broker_permitted verify spk_eqb decode keys h id' public_key now).
Proof. exact verifier_follows_latest_announcement_ok. Qed.
Print Assumptions verifier_follows_latest_announcement.

(* The hypotheses are satisfiable; the boundary behaves as stated.
   Symbolic scheme: grid-manager keys 1 and 2; server keys 10, 11;
   message 100 = {public_key: 10, expires: 5000}, 101 = {public_key: 11, expires: 5000},
   102 = not JSON, 103 = JSON without the members, 104 = {public_key: 10, expires without zone},
   105 = the JSON value null *)
Definition ex_tbl : sym_table :=
  [ (100%N, sym_f 10%N (ExpAware 5000)); (101%N, sym_f 11%N (ExpAware 5000));
    (102%N, None); (103%N, Some JUnreadable); (104%N, sym_f 10%N ExpNaive); (105%N, Some JNull) ].

Example ex_valid_before_expiry :
  sym_permitted ex_tbl [1%N; 2%N] [sym_cert 100 (sym_sign 2 100)] 10%N 4999 = Permit.
Proof. vm_compute. reflexivity. Qed.
Example ex_at_expiry_instant :
  sym_permitted ex_tbl [1%N; 2%N] [sym_cert 100 (sym_sign 2 100)] 10%N 5000 = Deny.
Proof. vm_compute. reflexivity. Qed.
Example ex_other_server :
  sym_permitted ex_tbl [1%N] [sym_cert 101 (sym_sign 1 101)] 10%N 0 = Deny.
Proof. vm_compute. reflexivity. Qed.
Example ex_unconfigured_signer :
  sym_permitted ex_tbl [1%N] [sym_cert 100 (sym_sign 2 100)] 10%N 0 = Deny.
Proof. vm_compute. reflexivity. Qed.
Example ex_tampered_bytes :
  sym_permitted ex_tbl [1%N] [sym_cert 100 (sym_sign 1 101)] 10%N 0 = Deny.
Proof. vm_compute. reflexivity. Qed.
Example ex_second_certificate_counts :
  sym_permitted ex_tbl [1%N] [sym_cert 101 (sym_sign 1 101); sym_cert 100 (SigJunk 7); sym_cert 100 (sym_sign 1 100)] 10%N 0 = Permit.
Proof. vm_compute. reflexivity. Qed.
Example ex_no_keys :
  sym_permitted ex_tbl [] [sym_cert 102 (SigJunk 0)] 10%N 99999 = Permit.
Proof. vm_compute. reflexivity. Qed.
(* inputs excluded by certs_wellformed: the real code raises *)
Example ex_signed_garbage_raises :
  sym_permitted ex_tbl [1%N] [sym_cert 102 (sym_sign 1 102); sym_cert 100 (sym_sign 1 100)] 10%N 0 = Raise.
Proof. vm_compute. reflexivity. Qed.
Example ex_signed_missing_members_raises :
  sym_permitted ex_tbl [1%N] [sym_cert 103 (sym_sign 1 103); sym_cert 100 (sym_sign 1 100)] 10%N 0 = Raise.
Proof. vm_compute. reflexivity. Qed.
Example ex_signed_null_is_skipped :
  sym_permitted ex_tbl [1%N] [sym_cert 105 (sym_sign 1 105); sym_cert 100 (sym_sign 1 100)] 10%N 0 = Permit.
Proof. vm_compute. reflexivity. Qed.
Example ex_zoneless_expiry_raises :
  sym_permitted ex_tbl [1%N] [sym_cert 104 (sym_sign 1 104)] 10%N 0 = Raise.
Proof. vm_compute. reflexivity. Qed.

Example ex_renewed_certificate_takes_effect :
  sym_broker_permitted ex_tbl [1%N] [(5%N, []); (6%N, [sym_cert 100 (sym_sign 1 100)]); (5%N, [sym_cert 100 (sym_sign 1 100)]); (6%N, [])]
                       5%N 10%N [0; 5000]
  = [Some Permit; Some Deny]
  /\ sym_broker_permitted ex_tbl [1%N] [(5%N, []); (6%N, [sym_cert 100 (sym_sign 1 100)]); (6%N, [])] 6%N 10%N [0] = [Some Deny].
Proof. vm_compute. split; reflexivity. Qed.

Example permitted_iff_nonvacuous :
  [1%N; 2%N] <> [] /\
  certs_wellformed sym_verify (sym_decode ex_tbl) [1%N; 2%N]
    [sym_cert 100 (sym_sign 2 100); sym_cert 101 (sym_sign 1 101); sym_cert 102 (SigJunk 3)].
Proof.
  split; [discriminate|].
  intros c k [<-|[<-|[<-|[]]]] [<-|[<-|[]]] V; vm_compute in V; try discriminate;
    vm_compute; eexists; eexists; split; reflexivity.
Qed.

(* a scheme in which only key 1 ever signed, and only message 100 *)
Definition ex_verify (k m : N) (s : sym_sig) : bool := sym_verify k m s && (k =? 1)%N && (m =? 100)%N.
Example tampered_never_grants_nonvacuous :
  sig_sound ex_verify (fun k m => k = 1%N /\ m = 100%N) /\
  [1%N] <> [] /\
  (forall c k, In c [sym_cert 101 (sym_sign 1 100)] -> In k [1%N] -> ~ (k = 1%N /\ sc_cert c = 100%N)).
Proof.
  split; [|split; [discriminate|]].
  - intros k m s H. unfold ex_verify in H. rewrite !andb_true_iff, !N.eqb_eq in H. tauto.
  - intros c k [<-|[]] _ [_ E]. discriminate.
Qed.
