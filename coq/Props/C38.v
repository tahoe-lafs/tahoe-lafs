(* C38  On-disk and wire encodings round-trip.
   "Base32, base62, netstrings, URI extension blocks, lease records and share
    headers decode back to exactly the values that were encoded.  Malformed
    encodings are rejected rather than silently read as a different value."

   Statements only; each is closed by `exact` of lemmas in Proofs/Codecs*.v, the
   tables of constants and the examples by evaluation.
   Models: Model/Base32.v, Base62.v, NetstringCodec.v, Ueb.v, PyInt.v, LeaseRec.v
   over Gen/CodecConsts.v and Gen/Structs.v (regenerated from /repo on every run).

   For every codec:  decode (encode x) = Some x  for all x in the codec's domain
   (stated as a boolean precondition), and the strict converse
   decode s = Some x -> encode x = s.  Where the faithful model of the code in
   /repo REFUTES the converse, the theorem carries the precondition that
   excludes the defect class (and a proof that the encoder's output satisfies
   it), and a `..._refuted` theorem exhibits accepted non-canonical inputs;
   the driver replays those on the implementation (known findings). *)
From Coq Require Import String.
From Coq Require Import List NArith ZArith Bool.
From Verif Require Import Lib.Hex Lib.Decimal Lib.DecimalFacts Lib.Netstring Lib.NetstringFacts Lib.Bytes
     Gen.CodecConsts Gen.Structs
     Model.PyResult Model.PyInt Model.NetstringCodec Model.Ueb Model.Base32 Model.Base62 Model.LeaseRec
     Proofs.CodecsPyInt Proofs.CodecsNetstring Proofs.CodecsUeb Proofs.CodecsBase32 Proofs.CodecsBase62
     Proofs.CodecsStruct.
Import ListNotations.
Local Open Scope N_scope.

Theorem base32_decode_encode :
  forall os, bytes_ok os = true -> b32_a2b (b32_b2a os) = Some os.
Proof. exact b32_roundtrip. Qed.
Print Assumptions base32_decode_encode.

(* FALSE without the precondition on the current tree (next theorem but one):
   forall cs x, b32_a2b cs = Some x -> b32_b2a x = cs. *)
Theorem base32_accepts_only_canonical :
  (forall cs x, b32_a2b cs = Some x -> b32_trailing_zero cs = true -> b32_b2a x = cs) /\
  (forall os, b32_trailing_zero (b32_b2a os) = true).
Proof. exact (conj b32_converse_canonical b32_b2a_trailing_zero). Qed.
Print Assumptions base32_accepts_only_canonical.

Theorem base32_accepts_only_canonical_refuted :
  (exists cs x, b32_a2b cs = Some x /\ b32_b2a x <> cs) /\
  (forallb (fun cs => match b32_a2b cs with
                     | Some x => negb (list_N_eqb (b32_b2a x) cs) && negb (b32_trailing_zero cs)
                     | None => false
                     end) b32_noncanonical_witnesses = true).
Proof. exact (conj b32_converse_refuted b32_noncanonical_accepted). Qed.
Print Assumptions base32_accepts_only_canonical_refuted.

Example ex_base32 :
  b32_b2a (bytes_of_string "hello") = bytes_of_string "nbswy3dp" /\
  b32_a2b (bytes_of_string "nbswy3dp") = Some (bytes_of_string "hello") /\
  b32_a2b (bytes_of_string "nbswy3d") = None /\ b32_a2b (bytes_of_string "NBSWY3DP") = None.
Proof. vm_compute. repeat split. Qed.

Theorem base62_decode_encode :
  (forall os, bytes_ok os = true -> exists cs, b62_b2a os = Some cs /\ b62_a2b cs = Some os) /\
  (forall cs, exists x, b62_a2b cs = Some x).
Proof. exact (conj b62_roundtrip b62_a2b_total). Qed.
Print Assumptions base62_decode_encode.

(* FALSE without the precondition on the current tree:
   forall cs x, b62_a2b cs = Some x -> b62_b2a x = Some cs. *)
Theorem base62_accepts_only_canonical :
  (forall cs x, b62_a2b cs = Some x -> b62_canonical cs = true -> b62_b2a x = Some cs) /\
  (forall os cs, bytes_ok os = true -> b62_b2a os = Some cs -> b62_canonical cs = true).
Proof. exact (conj b62_converse_canonical (fun os cs H => b62_b2a_canonical os H cs)). Qed.
Print Assumptions base62_accepts_only_canonical.

Theorem base62_accepts_only_canonical_refuted :
  (exists cs x, b62_a2b cs = Some x /\ b62_b2a x <> Some cs) /\
  (forallb b62_accepts_noncanonical
          (b62_witness_out_of_alphabet ++ b62_witness_overflow ++ b62_witness_length) = true).
Proof. exact (conj b62_converse_refuted b62_witnesses_accepted). Qed.
Print Assumptions base62_accepts_only_canonical_refuted.

Example ex_base62 :
  b62_b2a [255] = Some (bytes_of_string "47") /\ b62_a2b (bytes_of_string "47") = Some [255] /\
  b62_b2a [] = Some (bytes_of_string "0") /\ b62_a2b (bytes_of_string "0") = Some [].
Proof. vm_compute. repeat split. Qed.

(* netstrings; this one is closed from Lib/NetstringFacts.v *)
Theorem netstring_unique_decomposition :
  forall l1 l2 x y,
    concat (map netstring l1) ++ x = concat (map netstring l2) ++ y ->
    length l1 = length l2 -> l1 = l2 /\ x = y.
Proof. exact netstrings_unique. Qed.
Print Assumptions netstring_unique_decomposition.

Theorem netstring_decode_encode :
  (forall l, split_netstring (concat (map netstring l)) (N.of_nat (length l)) 0 (Some []) =
            Ok (l, blen (concat (map netstring l)))) /\
  (forall l x, l <> [] ->
    split_netstring (concat (map netstring l) ++ x) (N.of_nat (length l)) 0 None =
    Ok (l, blen (concat (map netstring l)))).
Proof.
  exact (conj (split_netstring_roundtrip_with py_int py_int_dec)
              (split_netstring_roundtrip_prefix_with py_int py_int_dec)).
Qed.
Print Assumptions netstring_decode_encode.

(* the strict reader (length numerals exactly as b"%d" prints them) *)
Theorem netstring_strict_reader :
  (forall data ns els p,
    split_netstring_strict data ns 0 (Some []) = Ok (els, p) ->
    concat (map netstring els) = data /\ p = blen data) /\
  (forall data ns pos t r, split_netstring_strict data ns pos t = Ok r -> split_netstring data ns pos t = Ok r) /\
  (forall l, split_netstring_strict (concat (map netstring l)) (N.of_nat (length l)) 0 (Some []) =
            Ok (l, blen (concat (map netstring l)))).
Proof.
  exact (conj split_netstring_strict_converse
          (conj split_netstring_strict_sound (split_netstring_roundtrip_with strict_nat strict_nat_dec))).
Qed.
Print Assumptions netstring_strict_reader.

(* FALSE without the precondition on the current tree:
   forall data ns els p, split_netstring data ns 0 (Some []) = Ok (els, p) -> concat (map netstring els) = data. *)
Theorem netstring_accepts_only_canonical :
  forall data ns els p,
    split_netstring data ns 0 (Some []) = Ok (els, p) ->
    is_ok (split_netstring_strict data ns 0 (Some [])) = true ->
    concat (map netstring els) = data /\ p = blen data.
Proof. exact split_netstring_converse_canonical. Qed.
Print Assumptions netstring_accepts_only_canonical.

Theorem netstring_accepts_only_canonical_refuted :
  (exists data els p, split_netstring data 1 0 (Some []) = Ok (els, p) /\ concat (map netstring els) <> data) /\
  (forallb (fun data =>
    match split_netstring data 1 0 (Some []) with
    | Ok (els, _) => negb (list_N_eqb (concat (map netstring els)) data)
    | Err _ => false
    end) noncanonical_numeral_witnesses = true).
Proof. exact (conj split_netstring_converse_refuted split_netstring_noncanonical_accepted). Qed.
Print Assumptions netstring_accepts_only_canonical_refuted.

Theorem parser_fuel_suffices :
  (forall rd data ns t, split_netstring_with rd data ns 0 t <> Err EFuel) /\
  (forall rdlen rdint keychk s, ueb_unpack_with rdlen rdint keychk s <> Err EFuel).
Proof. exact (conj split_netstring_fuel_suffices ueb_unpack_fuel_suffices). Qed.
Print Assumptions parser_fuel_suffices.

(* Python's int() reads back what b"%d" prints; the strict readers accept nothing else *)
Theorem pyint_reads_percent_d :
  (forall z, py_int (dec_Z z) = Some z) /\
  (forall l z, strict_int l = Some z -> l = dec_Z z).
Proof. exact (conj py_int_dec_Z strict_int_canonical). Qed.
Print Assumptions pyint_reads_percent_d.

Example ex_netstring :
  split_netstring (bytes_of_string "3:abc,0:,") 2 0 (Some []) = Ok ([bytes_of_string "abc"; []], 9) /\
  split_netstring (bytes_of_string "3:abc") 1 0 None = Err EIndex /\
  split_netstring (bytes_of_string "3:abcd") 1 0 None = Err EAssert /\
  split_netstring (bytes_of_string "x:abc,") 1 0 None = Err EValue /\
  is_ok (split_netstring_strict (bytes_of_string "03:abc,") 1 0 (Some [])) = false.
Proof. vm_compute. repeat split. Qed.

Theorem ueb_decode_encode :
  forall d, ueb_wf d = true -> exists s, ueb_pack d = Some s /\ ueb_unpack s = Ok (sort_entries d).
Proof. exact (ueb_roundtrip_with py_int py_int _ py_int_dec py_int_dec_Z (fun _ _ _ _ => eq_refl)). Qed.
Print Assumptions ueb_decode_encode.

Theorem ueb_strict_reader :
  (forall s d, ueb_unpack_strict s = Ok d -> ueb_pack d = Some s) /\
  (forall s d, ueb_unpack_strict s = Ok d -> ueb_unpack s = Ok d) /\
  (forall d, ueb_wf d = true -> exists s, ueb_pack d = Some s /\ ueb_unpack_strict s = Ok (sort_entries d)).
Proof.
  exact (conj ueb_strict_converse (conj ueb_strict_sound
          (ueb_roundtrip_with strict_nat strict_int _ strict_nat_dec strict_int_dec_Z
             (fun _ _ Hk Hb => andb_true_intro (conj Hk Hb))))).
Qed.
Print Assumptions ueb_strict_reader.

(* FALSE without the precondition on the current tree:
   forall s d, ueb_unpack s = Ok d -> ueb_pack d = Some s. *)
Theorem ueb_accepts_only_canonical :
  forall s d, ueb_unpack s = Ok d -> is_ok (ueb_unpack_strict s) = true -> ueb_pack d = Some s.
Proof. exact ueb_converse_canonical. Qed.
Print Assumptions ueb_accepts_only_canonical.

Theorem ueb_accepts_only_canonical_refuted :
  (exists s d, ueb_unpack s = Ok d /\ ueb_pack d <> Some s) /\
  (forallb ueb_accepts_noncanonical
    (ueb_witness_numeral ++ ueb_witness_negative_length ++ ueb_witness_duplicate_key ++
     ueb_witness_unsorted_keys ++ ueb_witness_unencodable_key ++ ueb_witness_int_field) = true).
Proof. exact (conj ueb_converse_refuted ueb_witnesses_accepted). Qed.
Print Assumptions ueb_accepts_only_canonical_refuted.

Example ueb_wf_nonvacuous :
  ueb_wf [(bytes_of_string "size", UInt 1234); (bytes_of_string "codec_name", UBytes (bytes_of_string "crs"));
          (bytes_of_string "crypttext_hash", UBytes (repeat 7 32))] = true /\
  ueb_pack [(bytes_of_string "size", UInt 1234); (bytes_of_string "codec_name", UBytes (bytes_of_string "crs"))]
    = Some (bytes_of_string "codec_name:3:crs,size:4:1234,").
Proof. vm_compute. split; reflexivity. Qed.

Theorem lease_decode_encode :
  (forall l, lease_fits_immutable l = true ->
    exists s, lease_to_immutable l = Some s /\ lease_from_immutable s = Some l /\
              N.of_nat (length s) = lease_immutable_size) /\
  (forall l, lease_fits_mutable l = true ->
    exists s, lease_to_mutable l = Some s /\ lease_from_mutable s = Some l /\
              N.of_nat (length s) = lease_mutable_size).
Proof. exact (conj lease_immutable_roundtrip lease_mutable_roundtrip). Qed.
Print Assumptions lease_decode_encode.

Theorem lease_accepts_only_canonical :
  (forall s l, bytes_ok s = true -> lease_from_immutable s = Some l -> lease_to_immutable l = Some s) /\
  (forall s l, bytes_ok s = true -> lease_from_mutable s = Some l -> lease_to_mutable l = Some s).
Proof. exact (conj lease_immutable_converse lease_mutable_converse). Qed.
Print Assumptions lease_accepts_only_canonical.

(* why the width precondition is needed: struct's "32s" pads and truncates silently *)
Theorem lease_width_precondition_needed :
  exists l s, lease_to_immutable l = Some s /\ lease_from_immutable s <> Some l.
Proof. exact lease_short_secret_not_preserved. Qed.
Print Assumptions lease_width_precondition_needed.

Example lease_fits_nonvacuous :
  lease_fits_immutable (mk_lease (2 ^ 32 - 1) (repeat 255 32) (repeat 0 32) (2 ^ 32 - 1) None) = true /\
  lease_fits_mutable (mk_lease 0 (repeat 1 32) (repeat 2 32) 0 (Some (repeat 3 20))) = true /\
  lease_to_immutable (mk_lease (2 ^ 32) (repeat 255 32) (repeat 0 32) 0 None) = None.
Proof. vm_compute. repeat split. Qed.

Theorem header_decode_encode :
  (forall version max_size, mem_N version ischema_versions = true ->
    exists s, imm_header version max_size = Some s /\
              imm_header_parse s = Some (version, N.min (2 ^ 32 - 1) max_size, 0) /\
              N.of_nat (length s) = immutable_data_offset) /\
  (forall v nid we, mem_N v mschema_versions = true -> length nid = 20%nat -> length we = 32%nat ->
    exists s, mut_header v nid we = Some s /\
              mut_header_parse (firstn (N.to_nat mutable_HEADER_SIZE) s) =
                Some (mk_mut_hdr v nid we 0 mutable_DATA_OFFSET) /\
              mut_read_data_length s = 0 /\
              mut_read_extra_lease_offset s = mutable_DATA_OFFSET /\
              N.of_nat (length s) = mutable_DATA_OFFSET + 4).
Proof. exact (conj imm_header_roundtrip mut_header_roundtrip). Qed.
Print Assumptions header_decode_encode.

Theorem header_accepts_only_canonical :
  (forall s v u n, bytes_ok s = true -> imm_header_parse s = Some (v, u, n) ->
    struct_pack ischema_header_format [VInt v; VInt u; VInt n] = Some s /\ mem_N v ischema_versions = true) /\
  (forall data h, bytes_ok data = true -> mut_header_parse data = Some h ->
    struct_pack mutable_header_read_format
      [VBytes (mut_magic (mh_version h)); VBytes (mh_nodeid h); VBytes (mh_write_enabler h);
       VInt (mh_data_length h); VInt (mh_extra_lease_offset h)] = Some data
    /\ mem_N (mh_version h) mschema_versions = true).
Proof. exact (conj imm_header_converse mut_header_converse). Qed.
Print Assumptions header_accepts_only_canonical.

(* header recognition (schema_from_header / is_valid_header): a header is taken for a mutable
   container of version v exactly when it starts with the complete 32-byte magic of v;
   nothing shorter than the magic is recognised *)
Theorem mutable_header_recognition :
  (forall v r, mem_N v mschema_versions = true ->
     mut_schema_from_header mschema_versions (mut_magic v ++ r) = Some v) /\
  (forall data v, mut_schema_from_header mschema_versions data = Some v ->
     mem_N v mschema_versions = true /\ exists r, data = mut_magic v ++ r) /\
  (forall data, (length data < 32)%nat -> mut_schema_from_header mschema_versions data = None).
Proof. exact (conj mut_schema_of_magic (conj (mut_schema_from_header_inv mschema_versions) mut_schema_from_header_short)). Qed.
Print Assumptions mutable_header_recognition.

(* generic: every struct format the translator can parse round-trips both ways *)
Theorem struct_decode_encode :
  (forall fmt vals, vals_fit fmt vals = true ->
    exists s, struct_pack fmt vals = Some s /\ struct_unpack fmt s = Some vals) /\
  (forall fmt s vals, bytes_ok s = true -> struct_unpack fmt s = Some vals -> struct_pack fmt vals = Some s).
Proof. exact (conj struct_unpack_pack struct_pack_unpack). Qed.
Print Assumptions struct_decode_encode.

(* the sizes, offsets, formats and field orders duplicated across the five source files agree *)
Theorem container_layout_consistent :
  lease_immutable_size = 72 /\ immutable_LEASE_SIZE = lease_immutable_size /\
  lease_mutable_size = 92 /\ mutable_LEASE_SIZE = lease_mutable_size /\
  ischema_header_format = immutable_header_read_format /\
  calcsize ischema_header_format = 12 /\
  immutable_header_read_size = 12 /\ immutable_data_offset = 12 /\ immutable_lease_offset_add = 12 /\
  immutable_lease_count_format_default = [FUInt 4] /\
  mschema_fixed_header_format = mschema_HEADER_FORMAT /\ mutable_header_read_format = mschema_HEADER_FORMAT /\
  mschema_HEADER_SIZE = 100 /\ mutable_HEADER_SIZE = mschema_HEADER_SIZE /\
  mutable_DATA_LENGTH_OFFSET = 84 /\ mutable_EXTRA_LEASE_OFFSET = 92 /\
  mschema_blank_leases_size = 4 * mutable_LEASE_SIZE /\
  mutable_DATA_OFFSET = 468 /\ mschema_EXTRA_LEASE_OFFSET = mutable_DATA_OFFSET /\
  mschema_extra_lease_count_format = [FUInt 4] /\
  forallb (fun b => b) mutable_class_asserts = true /\
  lease_to_immutable_data_fields = lease_from_immutable_data_fields /\
  lease_to_immutable_data_fields = ["owner_num"; "renew_secret"; "cancel_secret"; "expiration_time"]%string /\
  lease_to_mutable_data_fields = lease_from_mutable_data_fields /\
  lease_to_mutable_data_fields = ["owner_num"; "expiration_time"; "renew_secret"; "cancel_secret"; "nodeid"]%string /\
  immutable_header_read_names = ["version"; "unused"; "num_leases"]%string /\
  mutable_header_read_names = ["magic"; "write_enabler_nodeid"; "write_enabler"; "data_length"; "extra_least_offset"]%string /\
  ischema_versions = [2; 1] /\ mschema_versions = [2; 1].
Proof. repeat split. Qed.
Print Assumptions container_layout_consistent.

(* ties to the source: the hand-written model parts mirror these versions *)

Theorem model_pins_current :
  (pin_base32_priv_get_trailing_chars_without_lsbs = "63672c1fb573092b"%string /\
  pin_base32_get_trailing_chars_without_lsbs = "e8fb7cfb0000c40c"%string /\
  pin_base32_b2a = "05059245b43d4da2"%string /\
  pin_base32_add_check_array = "09d0f9f9a6abb679"%string /\
  pin_base32_init_s8 = "8c85ad875866cb86"%string /\
  pin_base32_could_be_base32_encoded = "ffa5706cbe065276"%string /\
  pin_base32_a2b = "7b2a5698909ded7d"%string /\
  pin_base62_b2a = "9816967dfa574794"%string /\
  pin_base62_b2a_l = "84c048552736ee8a"%string /\
  pin_base62_num_octets_that_encode_to_this_many_chars = "11c8cc618dd0c879"%string /\
  pin_base62_a2b = "a23cc7a50ab3a837"%string /\
  pin_base62_a2b_l = "e12c9897002219ae"%string /\
  pin_base62_vals = "fca92a83ae954ab0"%string /\
  pin_base62_c2vtranstable = "8dae5841fe6c1d93"%string /\
  pin_base62_v2ctranstable = "75818f2fa66d5688"%string /\
  pin_netstring_netstring = "0efd09404df60bde"%string /\
  pin_netstring_split_netstring = "1915f9e1e84fd630"%string /\
  pin_uri_pack_extension = "6162de0ed43038da"%string /\
  pin_uri_unpack_extension = "a81405bf33550aea"%string) /\
  (base32_chars = bytes_of_string "abcdefghijklmnopqrstuvwxyz234567" /\
  base32_NUM_QS_TO_NUM_OS = [0; 1; 1; 2; 2; 3; 3; 4] /\
  base32_NUM_QS_LEGIT = [1; 0; 1; 0; 1; 1; 0; 1] /\
  base32_bits_per_octet = 8 /\ base32_s8_lsb_minuend = 4 /\ base32_s8_lsb_modulus = 5 /\
  base62_chars = bytes_of_string "0123456789ABCDEFGHIJKLMNOPQRSTUVWXYZabcdefghijklmnopqrstuvwxyz" /\
  netstring_format = bytes_of_string "%d:%s," /\
  ueb_key_regex = bytes_of_string "^[a-zA-Z_\-]+$" /\
  ueb_int_keys = map bytes_of_string ["size"; "segment_size"; "num_segments"; "needed_shares"; "total_shares"]%string) /\
  (pin_lease_from_immutable_data = "e9ae48618a9d800d"%string /\
  pin_lease_from_mutable_data = "68175935751c1a03"%string /\
  pin_lease_validate_nodeid = "36d777967419dc15"%string /\
  pin_immutable_fix_lease_count_format = "f3d1be21d7c49231"%string /\
  pin_immutable_is_valid_header = "9e8311c9eed55552"%string /\
  pin_ischema_schema_from_version = "551f8c5d14275ae7"%string /\
  pin_mschema_magic = "d48468924ce0cc74"%string /\
  pin_mschema_magic_matches = "840b98b15c285b5f"%string /\
  pin_mschema_schema_from_header = "81e6048eb6d5da4e"%string).
Proof. repeat split. Qed.
Print Assumptions model_pins_current.

