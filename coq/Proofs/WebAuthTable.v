(* C41: facts about the regenerated table Gen/WebOps.v, all by computation on the table itself.
   When the source changes, these are the obligations that move. *)
From Coq Require Import List NArith Bool String.
From Verif Require Import Gen.WebOps Model.WebAuth.
Import ListNotations.
Local Open Scope string_scope.

(* coverage: every dispatch entry has a script, every call is known, the script's calls are the entry's *)
Fixpoint script_calls (s : script) : list string :=
  match s with
  | Call c k => c :: script_calls k
  | If _ a b => script_calls a ++ script_calls b
  | _ => []
  end.

Definition subset (a b : list string) : bool := forallb (fun x => existsb (String.eqb x) b) a.
Definition same_set (a b : list string) : bool := subset a b && subset b a.

Definition known_call (c : string) : bool := match call_sem c with Some _ => true | None => false end.

Definition entry_covered (e : web_op) : bool :=
  match op_script (wo_class e) (wo_method e) (wo_t e) with
  | Some s => forallb (fun c => known_call (fst c)) (wo_calls e) && same_set (script_calls s) (map fst (wo_calls e))
  | None => false
  end.

Lemma table_covered_ok : forall e, In e web_ops -> entry_covered e = true.
Proof. apply forallb_forall. vm_compute. reflexivity. Qed.

(* every (class, method) with a t= dispatch refuses unmatched values; the three DELETE handlers take any t *)
Definition defaults_ok : bool :=
  forallb (fun d => snd d || String.eqb (snd (fst d)) "DELETE") web_defaults.

Lemma defaults_refuse_ok : defaults_ok = true.
Proof. vm_compute. reflexivity. Qed.

(* the handlers for verify caps / unknown caps and for /file have no modifying method at all *)
Lemma passive_handlers_ok :
  assoc "UnknownNodeHandler" handler_methods = Some [] /\ assoc "FileHandler" handler_methods = Some []
  /\ file_handler_get_head_only = true.
Proof. vm_compute. repeat split; reflexivity. Qed.

(* no getChild other than DirectoryNodeHandler's reaches a mutating node-layer call *)
Definition other_getchild_ok : bool :=
  forallb (fun cc => forallb (fun c => negb (match call_sem c with Some k => is_mutating k | None => false end)) (snd cc))
          other_getchild_calls.
Lemma other_getchild_passive_ok : other_getchild_ok = true.
Proof. vm_compute. reflexivity. Qed.

(* DirectoryNodeHandler._got_child creates only through create_subdirectory *)
Lemma getchild_calls_ok :
  getchild_calls = ["node.get"; "node.create_subdirectory"; "PlaceHolderNodeHandler"; "make_handler_for"].
Proof. reflexivity. Qed.

(* structure of the DirectoryNode mutators the model (dn_refusal & co) was written for *)
Definition dn_is_mutator_call (c : string) : bool :=
  existsb (String.eqb c) ["self.set_node"; "self.set_nodes"; "self.delete"; "self.set_children"; "self.set_uri";
                          "self.add_file"; "self.create_subdirectory"; "self.move_child_to"; "self.set_metadata_for";
                          "new_parent.set_node"; "new_parent.delete"; "new_parent.set_nodes"; "new_parent.add_file";
                          "new_parent.set_children"; "new_parent.set_uri"; "new_parent.create_subdirectory"].

Definition dn_mutator_structure : list (string * bool * list string) :=
  map (fun r => (dn_name r, dn_modifies r, filter dn_is_mutator_call (dn_calls r)))
      (filter (fun r => dn_modifies r || existsb dn_is_mutator_call (dn_calls r)) dn_methods).

Lemma dn_structure_ok :
  dn_mutator_structure =
  [ ("set_metadata_for", true, []); ("set_uri", false, ["self.set_node"]); ("set_children", true, []);
    ("set_node", true, []); ("set_nodes", true, []); ("add_file", false, ["self.set_node"]);
    ("delete", true, []); ("create_subdirectory", true, []);
    ("move_child_to", false, ["new_parent.set_node"; "self.delete"]) ].
Proof. vm_compute. reflexivity. Qed.

(* which calls are refused on a read-only target, as a function of the regenerated guard flags *)
Definition ro_version_refuses (m : string) : bool :=
  flag m mfn_via_version && best_version_is_mutable_version && ro_node_gets_readable_version && flag m mfv_asserts.

Definition dn_safe (dn : string) : bool := dn_guards_self dn || ro_version_refuses "modify".

Definition dn_safe_call (dn : string) : bool :=
  if String.eqb dn "set_uri" || String.eqb dn "add_file" then dn_guards_self dn || dn_safe "set_node" else dn_safe dn.

Definition call_safe (ec : list (string * bool)) (c : string) : bool :=
  match call_sem c with
  | None => false
  | Some (KMutDir _ dn) => dn_safe_call dn
  | Some KMove => dn_guards_self "move_child_to"
  | Some KOverwrite => flag c ec || ro_version_refuses "overwrite"
  | Some KUpdate => flag c ec || flag "update" mfv_asserts
  | Some _ => true
  end.

Fixpoint script_safe (ec : list (string * bool)) (s : script) : bool :=
  match s with
  | Call c k => call_safe ec c && script_safe ec k
  | If _ a b => script_safe ec a && script_safe ec b
  | _ => true
  end.

Definition entry_safe (e : web_op) : bool :=
  match op_script (wo_class e) (wo_method e) (wo_t e) with
  | Some s => script_safe (wo_calls e) s
  | None => false
  end.

Lemma all_entries_safe : forall e, In e web_ops -> entry_safe e = true.
Proof. apply forallb_forall. vm_compute. reflexivity. Qed.

Lemma entry_script_safe : forall e s,
    In e web_ops -> op_script (wo_class e) (wo_method e) (wo_t e) = Some s -> script_safe (wo_calls e) s = true.
Proof. intros e s IN OS. generalize (all_entries_safe e IN). unfold entry_safe. rewrite OS. trivial. Qed.

Lemma traversal_mkdir_safe : dn_safe "create_subdirectory" = true.
Proof. vm_compute. reflexivity. Qed.

(* move_child_to checks new_parent.is_readonly() itself, before new_parent.set_node *)
Lemma move_guards_destination : dn_guards_other "move_child_to" "new_parent" = true.
Proof. vm_compute. reflexivity. Qed.

(* get_write_uri of the node classes that can be read-only hides the cap when read-only *)
Lemma write_uri_shapes_ok :
  assoc "DirectoryNode" write_uri_sources = Some "unless_readonly"
  /\ assoc "MutableFileNode" write_uri_sources = Some "unless_readonly"
  /\ assoc "ImmutableFileNode" write_uri_sources = Some "never"
  /\ assoc "LiteralFileNode" write_uri_sources = Some "never"
  /\ assoc "UnknownNode" write_uri_sources = Some "stored:rw_uri".
Proof. vm_compute. repeat split; reflexivity. Qed.

(* every rw_uri field of the JSON renderers comes from <node>.get_write_uri() *)
Lemma rw_uri_emitters_ok :
  rw_uri_emitters = [("_file_json_metadata", "filenode"); ("_directory_json_metadata", "dirnode");
                     ("_directory_json_metadata", "childnode"); ("UnknownJSONMetadata", "node")].
Proof. reflexivity. Qed.
