(* Lists as Python lists: [upd], [nth], matrices.  Lemmas for Proofs/Matching*.v. *)
From Coq Require Import List NArith ZArith Bool Arith Lia.
From Verif Require Export Lib.ListFacts.
From Verif Require Import Model.Matching.
Import ListNotations.

Lemma length_upd : forall (A : Type) (i : nat) (x : A) (l : list A), length (upd i x l) = length l.
Proof.
  intros A i x l. revert i. induction l as [|a r IH]; intros i; destruct i; cbn [upd length]; auto.
Qed.

Lemma nth_upd : forall (A : Type) (i j : nat) (x d : A) (l : list A),
  nth j (upd i x l) d = if Nat.eqb i j then (if Nat.ltb i (length l) then x else nth j l d) else nth j l d.
Proof.
  intros A i j x d l. revert i j. induction l as [|a r IH]; intros [|i] [|j]; cbn [upd nth]; try reflexivity.
  - cbn. destruct (Nat.eqb i j); reflexivity.
  - exact (IH i j).
Qed.

Definition shape (dim : nat) (m : matrix) : Prop :=
  length m = dim /\ forall u, u < dim -> length (nth u m []) = dim.

Lemma shape_zero : forall dim, shape dim (zero_matrix dim).
Proof.
  intros dim. unfold zero_matrix. split; [apply repeat_length|].
  intros u H. rewrite nth_repeat_lt by exact H. apply repeat_length.
Qed.

Lemma mget_zero : forall dim u v, mget (zero_matrix dim) u v = 0%Z.
Proof.
  intros dim u v. unfold mget, zero_matrix. destruct (Nat.lt_ge_cases u dim) as [H|H].
  - rewrite nth_repeat_lt by exact H. apply nth_repeat.
  - rewrite (nth_overflow (repeat _ _)) by (rewrite repeat_length; exact H). destruct v; reflexivity.
Qed.

Lemma shape_mset : forall dim m u v x, shape dim m -> shape dim (mset m u v x).
Proof.
  intros dim m u v x [H1 H2]. unfold mset. split; [rewrite length_upd; exact H1|].
  intros w Hw. rewrite nth_upd. destruct (Nat.eqb u w) eqn:E; [|apply H2; exact Hw].
  apply Nat.eqb_eq in E. subst w. rewrite H1.
  destruct (Nat.ltb u dim); [|apply H2; exact Hw]. rewrite length_upd. apply H2. exact Hw.
Qed.

Lemma mget_mset : forall dim m u v x a b, shape dim m -> u < dim -> v < dim ->
  mget (mset m u v x) a b = if Nat.eqb a u && Nat.eqb b v then x else mget m a b.
Proof.
  intros dim m u v x a b [H1 H2] Hu Hv. unfold mget, mset. rewrite nth_upd, H1.
  destruct (Nat.eqb u a) eqn:E.
  - apply Nat.eqb_eq in E. subst a. rewrite Nat.eqb_refl.
    assert (L : Nat.ltb u dim = true) by (apply Nat.ltb_lt; exact Hu). rewrite L.
    rewrite nth_upd, (H2 u Hu). cbn [andb].
    assert (L' : Nat.ltb v dim = true) by (apply Nat.ltb_lt; exact Hv). rewrite L'.
    rewrite (Nat.eqb_sym b v). reflexivity.
  - rewrite (Nat.eqb_sym a u), E. reflexivity.
Qed.

Lemma mget_mset_same : forall dim m u v x, shape dim m -> u < dim -> v < dim ->
  mget (mset m u v x) u v = x.
Proof.
  intros. erewrite mget_mset by eassumption. rewrite !Nat.eqb_refl. reflexivity.
Qed.

Lemma mget_mset_other : forall dim m u v x a b, shape dim m -> u < dim -> v < dim ->
  (a <> u \/ b <> v) -> mget (mset m u v x) a b = mget m a b.
Proof.
  intros dim m u v x a b Hs Hu Hv Hd. erewrite mget_mset by eassumption.
  destruct (Nat.eqb a u) eqn:E1; [|reflexivity]. destruct (Nat.eqb b v) eqn:E2; [|reflexivity].
  apply Nat.eqb_eq in E1. apply Nat.eqb_eq in E2. lia.
Qed.

Lemma adj_push_adj : forall (g : graph) u v a, u < length g ->
  adj (push_adj g u v) a = if Nat.eqb u a then adj g u ++ [v] else adj g a.
Proof.
  intros g u v a H. unfold push_adj, adj. rewrite nth_upd.
  destruct (Nat.eqb u a) eqn:E; [|reflexivity].
  assert (L : Nat.ltb u (length g) = true) by (apply Nat.ltb_lt; exact H). rewrite L. reflexivity.
Qed.

Lemma length_push_adj : forall (g : graph) u v, length (push_adj g u v) = length g.
Proof. intros. unfold push_adj. apply length_upd. Qed.

Lemma adj_repeat_nil : forall dim u, adj (repeat [] dim) u = [].
Proof. intros dim u. apply nth_repeat. Qed.
