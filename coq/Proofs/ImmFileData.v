(* Data path of an immutable file: segments -> blocks -> shares -> blocks ->
   segments gives back the ciphertext, for every choice of k shares per segment.  *)
From Coq Require Import List NArith ZArith Bool Lia.
Require Import ZifyBool ZifyNat ZifyN.
From Verif Require Import Lib.ListFacts Gen.ImmConsts Model.ImmFile Proofs.ImmFileArith Proofs.ImmFileRead.
Import ListNotations.
Local Open Scope N_scope.

Lemma chunks_length {A} cnt sz (l : list A) : length (chunks cnt sz l) = cnt.
Proof. revert l; induction cnt; intros; cbn [chunks length]; [reflexivity|now rewrite IHcnt]. Qed.

Lemma chunks_concat {A} cnt sz (l : list A) : (length l <= cnt * sz)%nat -> concat (chunks cnt sz l) = l.
Proof.
  revert l; induction cnt as [|c IH]; intros l H; cbn [chunks concat].
  - destruct l; [reflexivity|cbn in H; lia].
  - rewrite IH; [apply firstn_skipn|]. rewrite skipn_length. lia.
Qed.

Lemma chunks_Forall {A} cnt sz (l : list A) : length l = (cnt * sz)%nat ->
  Forall (fun c => length c = sz) (chunks cnt sz l).
Proof.
  revert l; induction cnt as [|c IH]; intros l H; cbn [chunks]; constructor.
  - rewrite firstn_length. lia.
  - apply IH. rewrite skipn_length. lia.
Qed.

Lemma pad_to_length len (l : list N) : (length l <= len)%nat -> length (pad_to len l) = len.
Proof. intros. unfold pad_to. rewrite app_length, repeat_length. lia. Qed.

Lemma pad_to_full len (l : list N) : length l = len -> pad_to len l = l.
Proof. intros. unfold pad_to. replace (len - length l)%nat with 0%nat by lia. apply app_nil_r. Qed.

Lemma firstn_pad_to len (l : list N) : firstn (length l) (pad_to len l) = l.
Proof. now apply firstn_app_exact. Qed.

Lemma slice_skipn {A} (a o n : nat) (l : list A) : slice o n (skipn a l) = slice (a + o) n l.
Proof. unfold slice. now rewrite skipn_add. Qed.

Lemma slice_concat_nth {A} (bs : nat) : forall (ls : list (list A)) (i : nat),
  (i < length ls)%nat -> Forall (fun b => length b = bs) (firstn i ls) ->
  slice (i * bs) (length (nth i ls [])) (concat ls) = nth i ls [].
Proof.
  induction ls as [|b ls IH]; intros i Hi Hf; [cbn in Hi; lia|].
  destruct i as [|i]; cbn [nth concat].
  - now apply firstn_app_exact.
  - cbn [firstn] in Hf. inversion Hf as [|? ? Hb Hf']; subst.
    change (S i * length b)%nat with (length b + i * length b)%nat.
    rewrite <- slice_skipn, skipn_app_exact by reflexivity.
    apply IH; [cbn in Hi; lia|assumption].
Qed.

Lemma share_data_block (segs : list (list (list N))) (j i bs : nat) :
  (i < length segs)%nat ->
  (forall i', (i' < i)%nat -> length (nth j (nth i' segs []) []) = bs) ->
  slice (i * bs) (length (nth j (nth i segs []) [])) (share_data segs j) = nth j (nth i segs []) [].
Proof.
  intros Hi Hbs. unfold share_data. set (col := map (fun blocks => nth j blocks []) segs).
  assert (Hlen : length col = length segs) by apply map_length.
  assert (Hcol : forall i', (i' < length segs)%nat -> nth i' col [] = nth j (nth i' segs []) []).
  { intros i' Hi'. rewrite (nth_indep col [] (nth j [] [])) by lia.
    apply (map_nth (fun blocks => nth j blocks [])). }
  rewrite <- (Hcol i Hi). apply slice_concat_nth; [lia|].
  apply Forall_forall. intros b Hb.
  apply (In_nth _ _ []) in Hb. destruct Hb as (i' & Hi' & <-).
  rewrite firstn_length in Hi'. rewrite nth_firstn_lt, Hcol by lia. apply Hbs. lia.
Qed.

Lemma concat_slices {A} (s : nat) : forall (n : nat) (l : list A), (length l <= n * s)%nat ->
  concat (map (fun i => slice (i * s) s l) (seq 0 n)) = l.
Proof.
  intros n. induction n as [|n IH]; intros l H.
  - destruct l; [reflexivity|cbn in H; lia].
  - rewrite seq_S, map_app, concat_app. cbn [map concat plus]. rewrite app_nil_r.
    transitivity (firstn (n * s) l ++ skipn (n * s) l); [|apply firstn_skipn]. f_equal.
    + rewrite <- (IH (firstn (n * s) l)) by (rewrite firstn_length; lia).
      f_equal. apply map_ext_in. intros i Hi. apply in_seq in Hi.
      unfold slice. rewrite skipn_firstn_comm, firstn_firstn. f_equal. nia.
    + unfold slice. apply firstn_all2. rewrite skipn_length. lia.
Qed.

Lemma to_nat_of_nat_mul i x : N.to_nat (N.of_nat i * x) = (i * N.to_nat x)%nat.
Proof. now rewrite N2Nat.inj_mul, Nat2N.id. Qed.

(* m - 1 segments of s bytes and a tail of t fit in m segments *)
Lemma tail_fits (s t m : nat) : (1 <= m -> t <= s -> s * (m - 1) + t <= m * s)%nat.
Proof. intros Hm Ht. destruct m as [|m]; [lia|]. replace (S m - 1)%nat with m by lia. lia. Qed.

Section Codec.
  Variable enc : N -> N -> list (list N) -> list (list N).
  Variable dec : N -> N -> list (N * list N) -> list (list N).

  Definition good_picks (k n : N) (ids : list N) : Prop :=
    length ids = N.to_nat k /\ NoDup ids /\ Forall (fun j => j < n) ids.

  Variables k n : N.
  Hypothesis Hkn : 1 <= k <= n.
  Let K := N.to_nat k.

  (* what zfec provides for this (k, n) (validated by C36 against the real library) *)
  Hypothesis enc_shape : forall pieces bs,
    length pieces = N.to_nat k -> Forall (fun p => length p = bs) pieces ->
    length (enc k n pieces) = N.to_nat n /\ Forall (fun b => length b = bs) (enc k n pieces).
  Hypothesis any_k_of_n : forall pieces bs ids,
    length pieces = N.to_nat k -> Forall (fun p => length p = bs) pieces -> good_picks k n ids ->
    dec k n (map (fun j => (j, nth (N.to_nat j) (enc k n pieces) [])) ids) = pieces.

  Definition blk (bs tbs nseg i : nat) : nat := if Nat.eqb (S i) nseg then tbs else bs.

  Lemma encode_segments_SS m bs tbs ct :
    encode_segments enc (S (S m)) k n bs tbs ct
    = encode_segment enc k n bs (firstn (K * bs) ct) :: encode_segments enc (S m) k n bs tbs (skipn (K * bs) ct).
  Proof. reflexivity. Qed.

  Lemma encode_segments_length bs tbs : forall nseg ct, length (encode_segments enc nseg k n bs tbs ct) = nseg.
  Proof.
    induction nseg as [|[|m] IH]; intros ct; [reflexivity|reflexivity|].
    rewrite encode_segments_SS. cbn [length]. now rewrite IH.
  Qed.

  (* the tail's read may ask for more than is left of ct: slice clips it *)
  Lemma encode_segments_nth bs tbs : forall nseg ct i, (i < nseg)%nat ->
    nth i (encode_segments enc nseg k n bs tbs ct) [] =
    encode_segment enc k n (blk bs tbs nseg i) (slice (i * (K * bs)) (K * blk bs tbs nseg i) ct).
  Proof.
    induction nseg as [|[|m] IH]; intros ct i Hi; [lia| |].
    - replace i with 0%nat by lia. reflexivity.
    - rewrite encode_segments_SS. destruct i as [|i]; [reflexivity|].
      cbn [nth]. rewrite IH by lia. rewrite slice_skipn. reflexivity.
  Qed.

  Variable ct : list N.
  Variable segsize : N.
  Let size := N.of_nat (length ct).
  Hypothesis Hsize : 1 <= size.
  Hypothesis Hseg : 1 <= segsize.
  Hypothesis Hmod : segsize mod k = 0.

  Let e := encoder_params size k segsize.
  Let d := calculate_sizes size k segsize.
  Let NSEG := N.to_nat (e_num_segments e).
  Let BS := N.to_nat (e_block_size e).
  Let TBS := N.to_nat (e_tail_block_size e).
  Let segs := encode_segments enc NSEG k n BS TBS ct.

  Lemma shape : d_num_segments d = e_num_segments e /\ d_tail_segment_size d = e_tail_size e /\
                d_block_size d = e_block_size e /\ d_tail_block_size d = e_tail_block_size e /\
                (1 <= NSEG)%nat /\ (K * BS)%nat = N.to_nat segsize /\
                length ct = (N.to_nat segsize * (NSEG - 1) + N.to_nat (e_tail_size e))%nat /\
                (1 <= N.to_nat (e_tail_size e) <= N.to_nat segsize)%nat /\
                (N.to_nat (e_tail_size e) <= K * TBS)%nat /\ (1 <= K)%nat.
  Proof.
    pose proof (sizes_agree_ok size k segsize Hsize ltac:(lia) Hseg Hmod) as S. cbv zeta in S. fold e d in S.
    destruct S as (S1 & S2 & _ & S4 & S5 & _ & _ & _ & _ & S10 & S11 & S12 & S13 & _ & S15 & S16).
    unfold NSEG, BS, TBS, K. repeat (split; [assumption|]).
    (* the rest is the N-side facts read in nat; lia is slow under the section's context *)
    clear - Hkn S10 S11 S12 S13 S15 S16. repeat split; lia.
  Qed.

  Lemma last_segment {A} (x y : A) i : (i < NSEG)%nat ->
    (if N.of_nat i =? e_num_segments e - 1 then x else y) = if Nat.eqb (S i) NSEG then x else y.
  Proof.
    intros Hi. unfold NSEG in *. clear - Hi.
    destruct (N.eqb_spec (N.of_nat i) (e_num_segments e - 1)), (Nat.eqb_spec (S i) (N.to_nat (e_num_segments e)));
      reflexivity || lia.
  Qed.

  Definition B (i : nat) : nat := blk BS TBS NSEG i.
  Definition seg_input (i : nat) : list N := slice (i * (K * BS)) (K * B i) ct.

  Lemma seg_input_is_segment i : (i < NSEG)%nat ->
    seg_input i = seg_at ct segsize (N.of_nat i) /\ (length (seg_input i) <= K * B i)%nat /\
    length (seg_input i) = N.to_nat (if N.of_nat i =? e_num_segments e - 1 then e_tail_size e else segsize).
  Proof.
    intros Hi. destruct shape as (_ & _ & _ & _ & _ & S6 & S7 & S8 & S9 & _).
    assert (E : seg_input i = seg_at ct segsize (N.of_nat i)).
    { unfold seg_input, seg_at, B, blk. rewrite S6, to_nat_of_nat_mul.
      destruct (Nat.eqb_spec (S i) NSEG) as [T|T]; [|now rewrite S6].
      (* the tail: both reads run to the end of ct *)
      replace (NSEG - 1)%nat with i in S7 by lia.
      unfold slice. rewrite !firstn_all2 by (rewrite skipn_length; lia). reflexivity. }
    assert (Hi' : N.of_nat i < e_num_segments e) by (unfold NSEG in Hi; lia).
    pose proof (seg_at_length ct segsize Hsize Hseg (N.of_nat i) Hi') as L.
    change (length (seg_at ct segsize (N.of_nat i))
            = N.to_nat (if N.of_nat i =? e_num_segments e - 1 then e_tail_size e else segsize)) in L.
    rewrite E. split; [reflexivity|]. split; [|exact L].
    rewrite L, last_segment by assumption. unfold B, blk. destruct (Nat.eqb (S i) NSEG); lia.
  Qed.

  Definition pieces_of (i : nat) : list (list N) := chunks K (B i) (pad_to (K * B i) (seg_input i)).

  Lemma pieces_ok i : (i < NSEG)%nat ->
    length (pieces_of i) = N.to_nat k /\
    Forall (fun p => length p = B i) (pieces_of i) /\
    nth i segs [] = enc k n (pieces_of i).
  Proof.
    intros Hi. destruct (seg_input_is_segment i Hi) as (_ & L & _).
    split; [apply chunks_length|]. split.
    - apply chunks_Forall. now apply pad_to_length.
    - unfold segs. now rewrite encode_segments_nth.
  Qed.

  Lemma block_length i j : (i < NSEG)%nat -> j < n -> length (nth (N.to_nat j) (nth i segs []) []) = B i.
  Proof.
    intros Hi Hj. destruct (pieces_ok i Hi) as (P1 & P2 & ->).
    destruct (enc_shape _ _ P1 P2) as (E1 & E2).
    rewrite Forall_forall in E2. apply E2, nth_In. lia.
  Qed.

  Lemma block_of_share i j : (i < NSEG)%nat -> j < n ->
    share_block d (nth (N.to_nat j) (upload_shares enc size k n segsize ct) []) (N.of_nat i)
    = nth (N.to_nat j) (nth i segs []) [].
  Proof.
    intros Hi Hj. destruct shape as (S1 & _ & S3 & S4 & _).
    unfold upload_shares. fold e NSEG BS TBS segs.
    rewrite (nth_indep _ [] (share_data segs 0)) by (rewrite map_length, seq_length; lia).
    rewrite map_nth, seq_nth by lia. cbn [plus].
    unfold share_block. rewrite S1, S3, S4, (last_segment _ _ i Hi), to_nat_of_nat_mul. fold BS.
    replace (N.to_nat (if Nat.eqb (S i) NSEG then e_tail_block_size e else e_block_size e))
      with (length (nth (N.to_nat j) (nth i segs []) [])).
    2:{ rewrite block_length by assumption. unfold B, blk, TBS, BS. now destruct (Nat.eqb (S i) NSEG). }
    apply share_data_block.
    - unfold segs. now rewrite encode_segments_length.
    - (* the blocks before segment i are full ones *)
      intros i' Hi'. rewrite block_length by lia.
      unfold B, blk. destruct (Nat.eqb_spec (S i') NSEG); [lia|reflexivity].
  Qed.

  Lemma segment_exact_ok i picks : i < e_num_segments e -> good_picks k n picks ->
    decode_segment dec size k n segsize (upload_shares enc size k n segsize ct) i picks = seg_at ct segsize i.
  Proof.
    intros Hi Hp. set (ii := N.to_nat i). assert (Hii : (ii < NSEG)%nat) by (unfold ii, NSEG; lia).
    replace i with (N.of_nat ii) by (unfold ii; lia).
    destruct shape as (S1 & S2 & _).
    unfold decode_segment. fold d. rewrite S1, S2.
    destruct (pieces_ok ii Hii) as (P1 & P2 & P3).
    rewrite (map_ext_in _ (fun j => (j, nth (N.to_nat j) (enc k n (pieces_of ii)) []))).
    2:{ intros j Hj. destruct Hp as (_ & _ & Hlt). rewrite Forall_forall in Hlt.
        rewrite block_of_share, P3 by auto. reflexivity. }
    rewrite (any_k_of_n (pieces_of ii) _ picks P1 P2 Hp).
    destruct (seg_input_is_segment ii Hii) as (I1 & I2 & I3).
    unfold pieces_of. rewrite chunks_concat by (rewrite pad_to_length by assumption; lia).
    rewrite <- I1.
    destruct (N.of_nat ii =? e_num_segments e - 1) eqn:T.
    - rewrite <- I3. apply firstn_pad_to.
    - (* a full segment needs no padding *)
      apply pad_to_full. rewrite I3. unfold B, blk. rewrite <- (last_segment _ _ ii Hii), T.
      symmetry. apply shape.
  Qed.

  Lemma segments_partition_ok (picks : N -> list N) :
    (forall i, i < e_num_segments e -> good_picks k n (picks i)) ->
    download_ciphertext dec size k n segsize (upload_shares enc size k n segsize ct) picks = ct.
  Proof.
    intros Hp. unfold download_ciphertext. fold d.
    destruct shape as (S1 & _ & _ & _ & S5 & S6 & S7 & S8 & _).
    rewrite S1. unfold nrange. rewrite map_map.
    rewrite (map_ext_in _ (fun i => slice (i * N.to_nat segsize) (N.to_nat segsize) ct)).
    - apply concat_slices. fold NSEG. rewrite S7. apply tail_fits; [exact S5|apply S8].
    - intros i Hi. apply in_seq in Hi. rewrite segment_exact_ok by (try apply Hp; lia).
      unfold seg_at. now rewrite to_nat_of_nat_mul.
  Qed.
End Codec.
