(* C07: specification of the three clauses of the share-placement property and
   soundness of the boolean validator [placement_valid] (all inputs, all claimed
   placements and covers).  The optimality clause re-uses the Koenig certificate
   theorem of Proofs/Matching.v on the graph [allowed]. *)
From Coq Require Import List NArith ZArith Bool Arith.
From Verif Require Import Lib.ListFacts Model.Matching Model.Placement Proofs.Matching.
Import ListNotations.

Definition holds (p2s : smap) (p s : N) : Prop :=
  exists held, lookupN p p2s = Some held /\ In s held.

Definition total_spec (shares : list N) (res : list (N * N)) : Prop :=
  forall s, In s shares -> exists p, In (s, p) res.

Definition readonly_spec (readonly : list N) (p2s : smap) (res : list (N * N)) : Prop :=
  forall s p, In (s, p) res -> In p readonly -> holds p2s p s.

Definition known_spec (peers readonly : list N) (res : list (N * N)) : Prop :=
  forall s p, In (s, p) res -> In p peers \/ In p readonly.

(* n = number of distinct servers the placement uses *)
Definition distinct_servers (res : list (N * N)) (n : nat) : Prop :=
  exists l, NoDup l /\ (forall p, In p l <-> exists s, In (s, p) res) /\ length l = n.

(* the placement spreads over as many servers as any assignment could: a maximum
   matching of (writable server -- every share, read-only server -- shares it holds) *)
Definition maximal_spec (peers readonly shares : list N) (p2s : smap) (res : list (N * N)) : Prop :=
  exists n, distinct_servers res n /\ max_matching_size (allowed peers readonly shares p2s) n.

Lemma edge_app : forall a b p s, edge (a ++ b) p s <-> edge a p s \/ edge b p s.
Proof.
  intros a b p s. unfold edge. split.
  - intros [l [Hin Hs]]. apply in_app_iff in Hin. destruct Hin as [H|H]; [left|right]; exists l; tauto.
  - intros [[l [H Hs]]|[l [H Hs]]]; exists l; (split; [apply in_app_iff; tauto | exact Hs]).
Qed.

Lemma allowed_edge : forall peers readonly shares p2s p s,
  edge (allowed peers readonly shares p2s) p s <->
  (In p peers /\ In s shares) \/ (In p readonly /\ In s shares /\ holds p2s p s).
Proof.
  intros peers readonly shares p2s p s. unfold allowed. rewrite edge_app. unfold edge, holds.
  split.
  - intros [[l [Hin Hs]]|[l [Hin Hs]]].
    + apply in_map_iff in Hin. destruct Hin as [q [E Hq]]. inversion E; subst. left. tauto.
    + apply in_map_iff in Hin. destruct Hin as [q [E Hq]]. inversion E; subst. right.
      destruct (lookupN p p2s) as [held|]; [|destruct Hs].
      apply filter_In in Hs. destruct Hs as [H1 H2]. apply memN_In in H2.
      split; [exact Hq|]. split; [exact H2|]. exists held. tauto.
  - intros [[Hp Hs]|[Hp [Hs [held [E Hh]]]]].
    + left. exists shares. split; [|exact Hs]. apply in_map_iff. exists p. tauto.
    + right. exists (filter (fun s => memN s shares) held). split.
      * apply in_map_iff. exists p. rewrite E. tauto.
      * apply filter_In. split; [exact Hh | apply memN_In; exact Hs].
Qed.

Lemma add_set_In : forall x y l, In y (add_set x l) <-> y = x \/ In y l.
Proof.
  intros x y l. unfold add_set. destruct (memN x l) eqn:E.
  - apply memN_In in E. intuition congruence.
  - rewrite in_app_iff. cbn [In]. intuition congruence.
Qed.

Lemma add_set_NoDup : forall x l, NoDup l -> NoDup (add_set x l).
Proof.
  intros x l H. unfold add_set. destruct (memN x l) eqn:E; [exact H|].
  apply NoDup_snoc; [exact H|]. intro Hin. apply memN_In in Hin. congruence.
Qed.

(* Every set the model accumulates is a fold whose step adds at most one element:
   [sel e] says which. *)
Lemma fold_add_set_acc : forall (A : Type) (step : list N -> A -> list N) (sel : A -> option N),
  (forall acc e, step acc e = match sel e with Some x => add_set x acc | None => acc end) ->
  forall l acc, NoDup acc ->
    NoDup (fold_left step l acc) /\
    forall x, In x (fold_left step l acc) <-> In x acc \/ exists e, In e l /\ sel e = Some x.
Proof.
  intros A step sel Hstep. induction l as [|e r IH]; intros acc Hn; cbn [fold_left].
  - split; [exact Hn | firstorder].
  - rewrite Hstep. destruct (sel e) as [y|] eqn:E.
    + destruct (IH _ (add_set_NoDup y _ Hn)) as [H1 H2]. split; [exact H1|].
      intros x. rewrite H2, add_set_In. cbn [In]. split.
      * intros [[->|H]|[e' [H Hs]]]; [right; exists e; auto | auto | right; exists e'; auto].
      * intros [H|[e' [[<-|H] Hs]]]; [auto | left; left; congruence | right; exists e'; auto].
    + destruct (IH _ Hn) as [H1 H2]. split; [exact H1|].
      intros x. rewrite H2. cbn [In]. split.
      * intros [H|[e' [H Hs]]]; [auto | right; exists e'; auto].
      * intros [H|[e' [[<-|H] Hs]]]; [auto | congruence | right; exists e'; auto].
Qed.

Lemma fold_add_set : forall (A : Type) (step : list N -> A -> list N) (sel : A -> option N) l (Q : N -> Prop),
  (forall acc e, step acc e = match sel e with Some x => add_set x acc | None => acc end) ->
  (forall x, Q x <-> exists e, In e l /\ sel e = Some x) ->
  NoDup (fold_left step l []) /\ forall x, In x (fold_left step l []) <-> Q x.
Proof.
  intros A step sel l Q Hstep HQ. destruct (fold_add_set_acc _ _ _ Hstep l [] (NoDup_nil N)) as [H1 H2].
  split; [exact H1|]. intros x. rewrite H2, HQ. cbn [In]. tauto.
Qed.

Lemma servers_used_spec : forall res,
  NoDup (servers_used res) /\ (forall p, In p (servers_used res) <-> exists s, In (s, p) res).
Proof.
  intros res. apply fold_add_set with (sel := fun e : N * N => Some (snd e)); [reflexivity|].
  intros p. split.
  - intros [s Hin]. exists (s, p). auto.
  - intros [[s q] [Hin E]]. inversion E; subst. eauto.
Qed.

Lemma distinct_servers_used : forall res, distinct_servers res (length (servers_used res)).
Proof.
  intros res. destruct (servers_used_spec res) as [H1 H2].
  exists (servers_used res). split; [exact H1|]. split; [exact H2 | reflexivity].
Qed.

Lemma distinct_servers_unique : forall res n m, distinct_servers res n -> distinct_servers res m -> n = m.
Proof.
  intros res n m [l [Hl [El Ll]]] [k [Hk [Ek Lk]]]. subst n m.
  apply Nat.le_antisymm; apply NoDup_incl_length; try assumption; intros x Hx.
  - apply Ek. apply El. exact Hx.
  - apply El. apply Ek. exact Hx.
Qed.

Lemma total_b_sound : forall shares res, placement_total_b shares res = true -> total_spec shares res.
Proof.
  intros shares res H s Hs. unfold placement_total_b in H. rewrite forallb_forall in H.
  specialize (H _ Hs). apply memN_In in H. apply in_map_iff in H. destruct H as [[s' p] [E Hin]].
  cbn [fst] in E. subst s'. exists p. exact Hin.
Qed.

Lemma readonly_b_sound : forall readonly p2s res,
  readonly_ok_b readonly p2s res = true -> readonly_spec readonly p2s res.
Proof.
  intros readonly p2s res H s p Hin Hro. unfold readonly_ok_b in H. rewrite forallb_forall in H.
  specialize (H _ Hin). cbn [fst snd] in H. apply orb_true_iff in H. destruct H as [H|H].
  - apply memN_In in Hro. rewrite Hro in H. discriminate.
  - unfold holds. destruct (lookupN p p2s) as [held|]; [|discriminate].
    exists held. split; [reflexivity | apply memN_In; exact H].
Qed.

Lemma known_b_sound : forall peers readonly res,
  servers_known_b peers readonly res = true -> known_spec peers readonly res.
Proof.
  intros peers readonly res H s p Hin. unfold servers_known_b in H. rewrite forallb_forall in H.
  specialize (H _ Hin). cbn [snd] in H. apply orb_true_iff in H.
  destruct H as [H|H]; apply memN_In in H; tauto.
Qed.

Theorem placement_valid_sound : forall peers readonly shares p2s res CL CR,
  placement_valid peers readonly shares p2s res CL CR = true ->
  total_spec shares res /\ readonly_spec readonly p2s res /\ known_spec peers readonly res /\
  maximal_spec peers readonly shares p2s res.
Proof.
  intros peers readonly shares p2s res CL CR H. unfold placement_valid in H.
  apply andb_true_iff in H. destruct H as [H H4].
  apply andb_true_iff in H. destruct H as [H H3].
  apply andb_true_iff in H. destruct H as [H1 H2].
  split; [apply total_b_sound; exact H1|].
  split; [apply readonly_b_sound; exact H2|].
  split; [apply known_b_sound; exact H3|].
  destruct (certificate_sound _ _ _ _ _ H4) as [_ [_ Hmax]].
  exists (length (servers_used res)). split; [apply distinct_servers_used|].
  unfold witness_matching in Hmax. rewrite map_length in Hmax. exact Hmax.
Qed.

Lemma placement_certified_inv : forall os peers readonly shares p2s,
  placement_certified os peers readonly shares p2s = true ->
  exists res CL CR, share_placement os peers readonly shares p2s = Some res /\
                    placement_valid peers readonly shares p2s res CL CR = true.
Proof.
  intros os peers readonly shares p2s H. unfold placement_certified in H. unfold share_placement.
  destruct peers as [|p0 pr]; [discriminate|].
  destruct (share_placement_state os (p0 :: pr) readonly shares p2s) as [st|]; [|discriminate].
  cbn [option_map]. destruct (readonly_cover (ps_readonly_phase st)) as [cl cr].
  apply orb_true_iff in H. destruct H as [H|H].
  - exists (ps_result st), [], shares. split; [reflexivity | exact H].
  - exists (ps_result st), ((p0 :: pr) ++ cl), (filter (fun s => memN s shares) cr). split; [reflexivity | exact H].
Qed.

Lemma placement_of_certified : forall os peers readonly shares p2s res,
  placement_certified os peers readonly shares p2s = true ->
  share_placement os peers readonly shares p2s = Some res ->
  total_spec shares res /\ readonly_spec readonly p2s res /\ known_spec peers readonly res /\
  maximal_spec peers readonly shares p2s res.
Proof.
  intros os peers readonly shares p2s res Hc Hr.
  destruct (placement_certified_inv _ _ _ _ _ Hc) as [res' [CL [CR [E V]]]].
  rewrite Hr in E. inversion E; subst res'. eapply placement_valid_sound. exact V.
Qed.

Lemma total_of_certified : forall os peers readonly shares p2s res,
  placement_certified os peers readonly shares p2s = true ->
  share_placement os peers readonly shares p2s = Some res -> total_spec shares res.
Proof. intros. eapply placement_of_certified; eassumption. Qed.

Lemma readonly_of_certified : forall os peers readonly shares p2s res,
  placement_certified os peers readonly shares p2s = true ->
  share_placement os peers readonly shares p2s = Some res ->
  readonly_spec readonly p2s res /\ known_spec peers readonly res.
Proof.
  intros os peers readonly shares p2s res Hc Hr.
  destruct (placement_of_certified _ _ _ _ _ _ Hc Hr) as [_ [H2 [H3 _]]]. split; assumption.
Qed.

Lemma maximal_of_certified : forall os peers readonly shares p2s res,
  placement_certified os peers readonly shares p2s = true ->
  share_placement os peers readonly shares p2s = Some res ->
  maximal_spec peers readonly shares p2s res.
Proof. intros. eapply placement_of_certified; eassumption. Qed.
