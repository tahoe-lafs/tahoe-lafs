(* C43: ==, != and hash() of capability objects and node objects. *)
From Coq Require Import String List NArith ZArith PeanoNat Bool Lia.
From Verif Require Import Lib.Hex Lib.Bytes Gen.Uri Model.UriBase32 Model.Uri Model.UriNodes Proofs.UriBase32 Proofs.UriParse.
Import ListNotations.
Local Open Scope N_scope.

Lemma opt_eqb_eq (a b : option bytes) : opt_eqb list_N_eqb a b = true <-> a = b.
Proof.
  destruct a as [x|], b as [y|]; cbn; split; intro H; try discriminate; try reflexivity.
  - apply list_N_eqb_eq in H. subst. reflexivity.
  - injection H as ->. apply list_N_eqb_eq. reflexivity.
Qed.

Lemma opt_eqb_sym (a b : option bytes) : opt_eqb list_N_eqb a b = opt_eqb list_N_eqb b a.
Proof. apply eq_true_iff_eq. rewrite !opt_eqb_eq. split; congruence. Qed.

Theorem cap_eq_iff_same_string_ok a b : known (co_cap a) = true -> known (co_cap b) = true ->
  (cap_eq a b = true <-> to_string (co_cap a) = to_string (co_cap b)).
Proof. intros Ka Kb. unfold cap_eq. rewrite Ka, Kb. apply list_N_eqb_eq. Qed.

Lemma wf_cap_known c : wf_cap c = true -> known c = true.
Proof. destruct c; [reflexivity|reflexivity|discriminate]. Qed.

Theorem cap_eq_iff_same_cap_ok a b : wf_cap (co_cap a) = true -> wf_cap (co_cap b) = true ->
  (cap_eq a b = true <-> co_cap a = co_cap b).
Proof.
  intros Wa Wb. rewrite (cap_eq_iff_same_string_ok a b (wf_cap_known _ Wa) (wf_cap_known _ Wb)). split.
  - apply to_string_injective; assumption.
  - intros ->. reflexivity.
Qed.

Theorem cap_ne_is_negation_ok a b : cap_ne a b = negb (cap_eq a b).
Proof. unfold cap_ne, cap_eq. destruct (known (co_cap a)), (known (co_cap b)); reflexivity. Qed.

Theorem cap_eq_implies_same_hash_ok a b : cap_eq a b = true -> cap_hash a = cap_hash b.
Proof.
  unfold cap_eq, cap_hash. destruct (known (co_cap a)), (known (co_cap b)); intro H; try discriminate.
  - apply list_N_eqb_eq in H. rewrite H. reflexivity.
  - apply N.eqb_eq in H. rewrite H. reflexivity.
Qed.

Lemma cap_eq_sym a b : cap_eq a b = cap_eq b a.
Proof.
  unfold cap_eq. destruct (known (co_cap a)), (known (co_cap b)); try reflexivity; [apply list_N_eqb_sym|apply N.eqb_sym].
Qed.

(* UnknownURI defines no __eq__: two objects holding the same string are unequal *)
Theorem unknown_uri_eq_refuted :
  exists a b, to_string (co_cap a) = to_string (co_cap b) /\ co_id a <> co_id b /\ cap_eq a b = false.
Proof.
  exists {| co_id := 1; co_cap := CUnknown [102; 111; 111] ENone |}, {| co_id := 2; co_cap := CUnknown [102; 111; 111] ENone |}.
  repeat split. discriminate.
Qed.

Definition node_cap (n : node) : option capobj :=
  match n with
  | NodeImmutable _ u | NodeLiteral _ u | NodeMutable _ u | NodeDirectory _ u | NodeCiphertext _ u => Some u
  | NodeUnknown _ _ _ => None
  end.

Lemma node_wf_known n u : node_wf n = true -> node_cap n = Some u -> known (co_cap u) = true.
Proof.
  destruct n; cbn [node_wf node_cap]; intros W E; try discriminate; injection E as ->;
    destruct (co_cap u); try discriminate; reflexivity.
Qed.

(* nodes of different classes wrap caps of different kinds, hence different strings *)
Lemma cross_class_strings_differ a b ua ub :
  node_wf a = true -> node_wf b = true -> node_cap a = Some ua -> node_cap b = Some ub ->
  to_string (co_cap ua) = to_string (co_cap ub) ->
  match a, b with
  | NodeImmutable _ _, NodeImmutable _ _ | NodeLiteral _ _, NodeLiteral _ _ | NodeMutable _ _, NodeMutable _ _
  | NodeDirectory _ _, NodeDirectory _ _ | NodeCiphertext _ _, NodeCiphertext _ _ => True
  | _, _ => False
  end.
Proof.
  intros Wa Wb Ea Eb E.
  destruct a, b; cbn [node_cap] in Ea, Eb; try discriminate; try exact I;
    injection Ea as <-; injection Eb as <-; cbn [node_wf] in Wa, Wb;
    destruct (co_cap u) as [fa|fa|sa ea]; try discriminate Wa;
    destruct (co_cap u0) as [fb|fb|sb eb]; try discriminate Wb;
    destruct fa; try discriminate Wa; destruct fb; try discriminate Wb;
    match type of E with
    | to_string (CFile ?x) = to_string (CFile ?y) => destruct (to_string_kind false x false y E) as [_ K]; discriminate K
    | to_string (CFile ?x) = to_string (CDir ?y) => destruct (to_string_kind false x true y E) as [K _]; discriminate K
    | to_string (CDir ?x) = to_string (CFile ?y) => destruct (to_string_kind true x false y E) as [K _]; discriminate K
    end.
Qed.

Theorem node_eq_iff_same_string_ok a b :
  node_wf a = true -> node_wf b = true -> compares_by_cap a = true -> compares_by_cap b = true ->
  (node_eq a b = true <-> node_key a = node_key b).
Proof.
  intros Wa Wb Ca Cb.
  destruct a as [i u|i u|i u|i u|i u|i rw ro]; try discriminate Ca;
    destruct b as [j v|j v|j v|j v|j v|j rw' ro']; try discriminate Cb; cbn [node_eq node_key].
  (* same class: cap_eq <-> strings *)
  1,6,11: rewrite cap_eq_iff_same_string_ok;
    [split; [intros ->; reflexivity|intro H; injection H; auto]
    |eapply node_wf_known; [exact Wa|reflexivity]|eapply node_wf_known; [exact Wb|reflexivity]].
  (* UnknownNode vs UnknownNode *)
  13: { rewrite andb_true_iff, !opt_eqb_eq. split; [intros [-> ->]; reflexivity|].
        intro H. injection H as -> ->. split; reflexivity. }
  (* different classes: never equal, and the keys differ *)
  all: split; [discriminate|]; intro H; try discriminate H; injection H as H;
    exact (match cross_class_strings_differ _ _ _ _ Wa Wb eq_refl eq_refl H with end).
Qed.

Theorem node_ne_is_negation_ok a b : node_ne a b = negb (node_eq a b).
Proof.
  destruct a, b; cbn [node_ne node_eq]; try reflexivity. apply cap_ne_is_negation_ok.
Qed.

Theorem node_eq_implies_same_hash_ok a b : node_eq a b = true -> node_hash a = node_hash b.
Proof.
  destruct a, b; cbn [node_eq node_hash]; intro H; try discriminate; try reflexivity;
    try (rewrite (cap_eq_implies_same_hash_ok _ _ H); reflexivity);
    apply N.eqb_eq in H; subst; reflexivity.
Qed.

Theorem node_eq_sym_ok a b : node_eq a b = node_eq b a.
Proof.
  destruct a, b; cbn [node_eq]; try reflexivity; try apply cap_eq_sym; try apply N.eqb_sym.
  rewrite (opt_eqb_sym ro0 ro), (opt_eqb_sym rw0 rw). reflexivity.
Qed.

(* DirectoryNode and CiphertextFileNode define neither __eq__ nor __hash__: two
   node objects for the same capability compare unequal *)
Definition sample_ssk : filecap := SSK (repeat 1 16) (repeat 2 32).
Definition sample_chkv : filecap := CHKVerifier (repeat 1 16) (repeat 2 32) 3 10 1000.

Theorem directory_node_eq_refuted :
  exists a b, node_wf a = true /\ node_wf b = true /\ node_key a = node_key b /\ node_id a <> node_id b /\ node_eq a b = false.
Proof.
  exists (NodeDirectory 1 {| co_id := 11; co_cap := CDir sample_ssk |}), (NodeDirectory 2 {| co_id := 12; co_cap := CDir sample_ssk |}).
  repeat split. discriminate.
Qed.

Theorem ciphertext_node_eq_refuted :
  exists a b, node_wf a = true /\ node_wf b = true /\ node_key a = node_key b /\ node_id a <> node_id b /\ node_eq a b = false.
Proof.
  exists (NodeCiphertext 1 {| co_id := 11; co_cap := CFile sample_chkv |}), (NodeCiphertext 2 {| co_id := 12; co_cap := CFile sample_chkv |}).
  repeat split. discriminate.
Qed.
