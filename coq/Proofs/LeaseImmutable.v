(* C25, immutable share files: ShareFile.get_leases / add_lease / renew_lease /
   add_or_renew_lease on the bytes of the file.  Structured view: 8 header bytes
   (version, legacy length), the 4-byte lease count, the data, the 72-byte leases. *)
From Coq Require Import List NArith Arith Bool Lia.
From Verif Require Import Lib.Hex Lib.ListFacts Gen.MutConsts Model.MutContainer Model.Lease
  Proofs.MutContainerBytes Proofs.MutContainer Proofs.LeaseList.
Import ListNotations.
Local Open Scope N_scope.

Record IC := mkIC { i_head : list N; i_cnt : list N; i_data : list N; i_leases : list N }.

Definition iflat (c : IC) : file := i_head c ++ i_cnt c ++ i_data c ++ i_leases c.
Definition i_n (c : IC) : N := unbe (i_cnt c).
Definition i_lo (c : IC) : N := 12 + len (i_data c).

Record iwf (v : version) (c : IC) : Prop := {
  iw_head : length (i_head c) = 8%nat;
  iw_ver : imm_version_of (unbe (firstn 4 (i_head c))) = Some v;
  iw_cnt : length (i_cnt c) = 4%nat;
  iw_leases : len (i_leases c) = i_n c * 72 }.

Definition parse_imm (r : list N) : lease :=
  mkLease (unbe (pread r 0 4)) (pread r 4 32) (pread r 36 32) (unbe (pread r 68 4)) [].

Definition norm_imm (l : lease) : lease :=
  mkLease (l_owner l) (fit 32 (l_renew l)) (fit 32 (l_cancel l)) (l_expire l) [].

Definition irec (c : IC) (i : N) : list N := pread (i_leases c) (i * 72) 72.
Definition islot (c : IC) (i : N) : lease := parse_imm (irec c i).
Definition ileases (c : IC) : list lease := map (islot c) (nseq (i_n c)).

(* the leases numbered by their position, as the scan of renew_lease meets them *)
Definition ienum (c : IC) : list (N * lease) := map (fun j => (j, islot c j)) (nseq (i_n c)).

Lemma ileases_enum c : map snd (ienum c) = ileases c.
Proof. unfold ienum. rewrite map_map. reflexivity. Qed.

Lemma NoDup_ienum c : NoDup (map fst (ienum c)).
Proof. unfold ienum. rewrite map_map. cbn [fst]. rewrite map_id. apply NoDup_nseq. Qed.

Lemma in_ienum c i l : In (i, l) (ienum c) -> i < i_n c /\ l = islot c i.
Proof. unfold ienum. rewrite in_map_iff. intros (j & [= <- <-] & Hj). apply in_nseq_iff in Hj. auto. Qed.

Lemma iflat_length v c : iwf v c -> length (iflat c) = (12 + length (i_data c) + N.to_nat (i_n c) * 72)%nat.
Proof. intros [? ? ? Hl]. unfold iflat. rewrite !app_length. unfold len in Hl. lia. Qed.

Lemma iflat_head c : iflat c = i_head c ++ i_cnt c ++ (i_data c ++ i_leases c).
Proof. reflexivity. Qed.

Lemma iflat_leases c : iflat c = (i_head c ++ i_cnt c ++ i_data c) ++ i_leases c.
Proof. unfold iflat. rewrite <- !app_assoc. reflexivity. Qed.

Lemma pread_head12 v c : iwf v c -> pread (iflat c) 0 12 = i_head c ++ i_cnt c.
Proof.
  intros [Hh _ Hc _]. rewrite pread_prn. change (N.to_nat 0) with 0%nat. change (N.to_nat 12) with 12%nat.
  unfold iflat. rewrite (app_assoc (i_head c)). rewrite prn_inside by (rewrite app_length; lia).
  unfold prn. cbn [skipn]. apply firstn_all2. rewrite app_length. lia.
Qed.

Lemma head12_fields v c : iwf v c ->
  pread (i_head c ++ i_cnt c) 0 4 = firstn 4 (i_head c) /\ pread (i_head c ++ i_cnt c) 8 4 = i_cnt c.
Proof.
  intros [Hh _ Hc _]. split.
  - rewrite pread_prn. change (N.to_nat 0) with 0%nat. change (N.to_nat 4) with 4%nat.
    rewrite prn_inside by lia. reflexivity.
  - rewrite pread_prn. change (N.to_nat 8) with 8%nat. change (N.to_nat 4) with 4%nat.
    rewrite <- (app_nil_r (i_cnt c)) at 1. apply prn_exact; auto.
Qed.

Lemma imm_open_flat v c : iwf v c -> imm_open (iflat c) = Ok (v, i_lo c).
Proof.
  intro Hw. unfold imm_open. rewrite (pread_head12 v c Hw).
  destruct (head12_fields v c Hw) as [E1 E2]. rewrite E1, E2.
  assert (Hl : length (i_head c ++ i_cnt c) = 12%nat) by (rewrite app_length; destruct Hw; lia).
  rewrite Hl. cbn [Nat.eqb]. rewrite (iw_ver _ _ Hw). f_equal. f_equal.
  unfold i_lo, len. rewrite (iflat_length v c Hw). fold (i_n c). unfold IMM_LEASE_SIZE. lia.
Qed.

Lemma imm_read_num_flat v c : iwf v c -> imm_read_num_leases (iflat c) = Ok (i_n c).
Proof.
  intro Hw. unfold imm_read_num_leases. rewrite pread_prn, iflat_head.
  change (N.to_nat 8) with 8%nat. change (N.to_nat 4) with 4%nat.
  rewrite prn_exact by (destruct Hw; auto). apply unpack_be_ok. destruct Hw; auto.
Qed.

Lemma irec_length v c i : iwf v c -> i < i_n c -> length (irec c i) = 72%nat.
Proof.
  intros Hw Hi. unfold irec. rewrite pread_prn. apply prn_length_inside.
  pose proof (iw_leases _ _ Hw) as Hl. unfold len in Hl. change (N.to_nat 72) with 72%nat. lia.
Qed.

Lemma pread_lease_flat v c i : iwf v c ->
  pread (iflat c) (i_lo c + i * IMM_LEASE_SIZE) IMM_LEASE_SIZE = irec c i.
Proof.
  intros Hw. unfold irec, IMM_LEASE_SIZE. rewrite !pread_prn, iflat_leases, N2Nat.inj_add.
  apply prn_app_skip. rewrite !app_length. unfold i_lo, len. destruct Hw. lia.
Qed.

Lemma unser_immutable_ok r : length r = 72%nat -> unser_immutable r = Ok (parse_imm r).
Proof. intro Hl. unfold unser_immutable. rewrite Hl. reflexivity. Qed.

Lemma imm_read_leases_flat v c L : iwf v c -> (forall i, In i L -> i < i_n c) ->
  imm_read_leases (iflat c) (i_lo c) L = Ok (map (islot c) L).
Proof.
  intro Hw. induction L as [|i r IH]; intro HL; [reflexivity|].
  cbn [imm_read_leases map]. rewrite (pread_lease_flat v) by exact Hw.
  pose proof (irec_length v c i Hw (HL i (or_introl eq_refl))) as Hl.
  destruct (irec c i) as [|x xs] eqn:Er; [discriminate|]. rewrite <- Er.
  rewrite unser_immutable_ok by (rewrite Er; exact Hl). rewrite IH by (intros; apply HL; right; assumption).
  reflexivity.
Qed.

Lemma imm_get_leases_flat v c : iwf v c -> imm_get_leases (iflat c) (i_lo c) = Ok (ileases c).
Proof.
  intro Hw. unfold imm_get_leases. rewrite (pread_head12 v c Hw).
  destruct (head12_fields v c Hw) as [_ E2]. rewrite E2.
  assert (Hl : length (i_head c ++ i_cnt c) = 12%nat) by (rewrite app_length; destruct Hw; lia).
  rewrite Hl. cbn [Nat.eqb]. apply (imm_read_leases_flat v); auto. intros i Hi. apply in_nseq_iff, Hi.
Qed.

Lemma immfile_get_leases_flat v c : iwf v c -> immfile_get_leases (iflat c) = Ok (ileases c).
Proof. intro Hw. unfold immfile_get_leases. rewrite (imm_open_flat v c Hw). apply (imm_get_leases_flat v). exact Hw. Qed.

Lemma imm_data_flat v c : iwf v c -> imm_data (iflat c) = i_data c.
Proof.
  intro Hw. unfold imm_data. rewrite (imm_read_num_flat v c Hw). unfold len, IMM_LEASE_SIZE.
  rewrite (iflat_length v c Hw). rewrite pread_prn. unfold iflat. rewrite (app_assoc (i_head c)).
  replace (N.to_nat 12) with (length (i_head c ++ i_cnt c) + 0)%nat by (rewrite app_length; destruct Hw; lia).
  rewrite prn_app_skip by reflexivity. rewrite prn_inside by lia. unfold prn. cbn [skipn]. apply firstn_all2. lia.
Qed.

Definition iparse (f : file) : IC :=
  let n := N.to_nat (unbe (firstn 4 (skipn 8 f))) in
  mkIC (firstn 8 f) (firstn 4 (skipn 8 f)) (firstn (length f - 12 - n * 72) (skipn 12 f)) (skipn (length f - n * 72) f).

Lemma iflat_layout_ok v c : iwf v c -> imm_layout_ok (iflat c) = true.
Proof.
  intro Hw. unfold imm_layout_ok. rewrite (imm_open_flat v c Hw), (imm_read_num_flat v c Hw).
  apply N.leb_le. unfold len, IMM_LEASE_SIZE. rewrite (iflat_length v c Hw). lia.
Qed.

Lemma iflat_iparse f : (12 + N.to_nat (unbe (firstn 4 (skipn 8 f))) * 72 <= length f)%nat -> iflat (iparse f) = f.
Proof.
  intro Hn. unfold iflat, iparse. cbn [i_head i_cnt i_data i_leases].
  set (k := (length f - N.to_nat (unbe (firstn 4 (skipn 8 f))) * 72)%nat).
  replace (length f - 12 - _)%nat with (k - 12)%nat by lia.
  rewrite (split_at 12 k f) by lia.
  rewrite (firstn_skipn_add 8 4 f : _ ++ skipn 12 f = _). apply firstn_skipn.
Qed.

Lemma imm_layout_ok_iff f : imm_layout_ok f = true <-> exists v c, iwf v c /\ f = iflat c.
Proof.
  split; [|intros (v & c & Hw & ->); apply (iflat_layout_ok v); exact Hw].
  unfold imm_layout_ok. destruct (imm_open f) as [[v lo]|] eqn:Eo; [|discriminate].
  destruct (imm_read_num_leases f) as [n|] eqn:En; [|discriminate]. intro Hc. apply N.leb_le in Hc.
  unfold imm_read_num_leases in En. apply unpack_be_inv in En as [_ ->].
  change (pread f 8 4) with (firstn 4 (skipn 8 f)) in Hc. unfold IMM_LEASE_SIZE, len in Hc.
  unfold imm_open in Eo. change (pread f 0 12) with (firstn 12 f) in Eo.
  change (pread (firstn 12 f) 0 4) with (firstn 4 (firstn 12 f)) in Eo. rewrite firstn_firstn in Eo.
  destruct (length (firstn 12 f) =? 12)%nat; [|discriminate].
  destruct (imm_version_of (unbe (firstn (Nat.min 4 12) f))) as [v'|] eqn:Ev; [|discriminate]. injection Eo as -> _.
  exists v, (iparse f). split; [|symmetry; apply iflat_iparse; lia].
  (* every piece lies inside f, so it has its nominal length *)
  constructor; unfold iparse, i_n, len; cbn [i_head i_cnt i_data i_leases];
    rewrite ?firstn_length, ?skipn_length; try lia.
  rewrite firstn_firstn. exact Ev.
Qed.

(* >L32s32sL: each field starts where the ones before it end *)
Lemma parse_imm_prn r :
  parse_imm r = mkLease (unbe (prn r 0 4)) (prn r (4 + 0) 32) (prn r (4 + (32 + 0)) 32)
                        (unbe (prn r (4 + (32 + (32 + 0))) 4)) [].
Proof. reflexivity. Qed.

Lemma parse_imm_app (o r c e : list N) :
  length o = 4%nat -> length r = 32%nat -> length c = 32%nat -> length e = 4%nat ->
  parse_imm (o ++ r ++ c ++ e) = mkLease (unbe o) r c (unbe e) [].
Proof.
  intros Lo Lr Lc Le. rewrite parse_imm_prn. apply f_equal5; [| | | |reflexivity].
  - f_equal. apply firstn_app_exact, Lo.
  - rewrite (prn_app_skip _ _ _ _ _ Lo). apply firstn_app_exact, Lr.
  - rewrite (prn_app_skip _ _ _ _ _ Lo), (prn_app_skip _ _ _ _ _ Lr). apply firstn_app_exact, Lc.
  - rewrite (prn_app_skip _ _ _ _ _ Lo), (prn_app_skip _ _ _ _ _ Lr), (prn_app_skip _ _ _ _ _ Lc).
    f_equal. apply firstn_all2. rewrite Le. apply Nat.le_refl.
Qed.

Lemma ser_immutable_ok l : l_owner l < 2 ^ 32 -> l_expire l < 2 ^ 32 ->
  exists b, ser_immutable l = Ok b /\ length b = 72%nat /\ parse_imm b = norm_imm l.
Proof.
  intros Ho He. unfold ser_immutable. rewrite !pack_be_ok by assumption.
  eexists. split; [reflexivity|]. split; [rewrite !app_length, !be_length, !fit_length; reflexivity|].
  rewrite parse_imm_app by (apply be_length || apply fit_length). unfold norm_imm.
  rewrite (unbe_be 4 _ Ho), (unbe_be 4 _ He). reflexivity.
Qed.

Record lease_wf_imm (l : lease) : Prop := {
  li_owner : l_owner l < 2 ^ 32; li_expire : l_expire l < 2 ^ 32;
  li_renew : length (l_renew l) = 32%nat; li_cancel : length (l_cancel l) = 32%nat;
  li_nodeid : l_nodeid l = [] }.

Lemma norm_imm_wf l : lease_wf_imm l -> norm_imm l = l.
Proof.
  intros [? ? Hr Hc Hn]. unfold norm_imm. rewrite (fit_id _ _ Hr), (fit_id _ _ Hc). destruct l; cbn in *. subst. reflexivity.
Qed.

(* a 72-byte record parses to a lease of that form once its two numbers are below 2^32,
   which they are when the record consists of bytes *)
Lemma parse_imm_wf r t : length r = 72%nat -> l_owner (parse_imm r) < 2 ^ 32 -> t < 2 ^ 32 ->
  lease_wf_imm (set_expire (parse_imm r) t).
Proof.
  intros Hl Ho Ht. constructor; try assumption; try reflexivity;
    rewrite parse_imm_prn; apply prn_length_inside; lia.
Qed.

Lemma parse_imm_bounds r : length r = 72%nat -> bytes_ok r ->
  l_owner (parse_imm r) < 2 ^ 32 /\ l_expire (parse_imm r) < 2 ^ 32.
Proof. intros Hl Hb. rewrite parse_imm_prn. split; apply (unbe_prn_bound r _ 4 Hb); lia. Qed.

Lemma islot_bounds v c i : iwf v c -> bytes_ok (iflat c) -> i < i_n c ->
  l_owner (islot c i) < 2 ^ 32 /\ l_expire (islot c i) < 2 ^ 32.
Proof.
  intros Hw Hb Hi. apply parse_imm_bounds; [apply (irec_length v); assumption|].
  unfold irec, pread. apply bytes_ok_firstn, bytes_ok_skipn.
  unfold iflat in Hb. rewrite !bytes_ok_app in Hb. tauto.
Qed.

Definition set_ileases (c : IC) (l : list N) : IC := mkIC (i_head c) (i_cnt c) (i_data c) l.

Lemma imm_write_flat v c i b : iwf v c ->
  imm_write_lease_record (iflat c) (i_lo c) i (Ok b) = Done (iflat (set_ileases c (pwrite (i_leases c) (i * 72) b))).
Proof.
  intros Hw. unfold imm_write_lease_record, IMM_LEASE_SIZE. f_equal. rewrite !pwrite_pwn, iflat_leases.
  replace (N.to_nat (i_lo c + i * 72)) with (length (i_head c ++ i_cnt c ++ i_data c) + N.to_nat (i * 72))%nat
    by (rewrite !app_length; unfold i_lo, len; destruct Hw; lia).
  rewrite pwn_app_skip. symmetry. apply (iflat_leases (set_ileases c _)).
Qed.

(* record i <= i_n c written into the lease area (i = i_n c: appended) *)
Lemma irec_set v c c' i b j : iwf v c -> i <= i_n c -> length b = 72%nat ->
  i_leases c' = pwrite (i_leases c) (i * 72) b -> irec c' j = if j =? i then b else irec c j.
Proof.
  intros Hw Hi Hb E. pose proof (iw_leases _ _ Hw) as Hl. unfold irec. rewrite E. apply rec_pwrite; unfold len in *; lia.
Qed.

Lemma iwf_set_ileases v c i b : iwf v c -> i < i_n c -> length b = 72%nat ->
  iwf v (set_ileases c (pwrite (i_leases c) (i * 72) b)).
Proof.
  intros Hw Hi Hb. pose proof (iw_leases _ _ Hw) as Hl. destruct Hw. constructor; auto.
  change (i_n (set_ileases c _)) with (i_n c). cbn [i_leases set_ileases]. rewrite len_pwrite_inside; unfold len in *; lia.
Qed.

Lemma ienum_set v c i b : iwf v c -> i < i_n c -> length b = 72%nat ->
  ienum (set_ileases c (pwrite (i_leases c) (i * 72) b)) = map (set_at i (parse_imm b)) (ienum c).
Proof.
  intros Hw Hi Hb. unfold ienum. change (i_n (set_ileases c _)) with (i_n c). rewrite map_map.
  apply map_ext. intro j. unfold islot, set_at. cbn [fst].
  rewrite (irec_set v c _ i b j Hw (N.lt_le_incl _ _ Hi) Hb) by reflexivity. destruct (N.eqb_spec j i) as [->|]; reflexivity.
Qed.

(* add_lease: the record goes right behind the last one, then the count is bumped *)
Definition iappend (c : IC) (b : list N) : IC :=
  mkIC (i_head c) (be 4 (i_n c + 1)) (i_data c) (pwrite (i_leases c) (i_n c * 72) b).

Lemma imm_add_flat v c b : iwf v c ->
  obind (imm_write_lease_record (iflat c) (i_lo c) (i_n c) (Ok b)) (fun g => Done (pwrite g 8 (be 4 (i_n c + 1))))
  = Done (iflat (iappend c b)).
Proof.
  intros Hw. rewrite (imm_write_flat v c _ b Hw). cbn [obind]. f_equal. rewrite pwrite_pwn. change (N.to_nat 8) with 8%nat.
  apply pwn_exact; [exact (iw_head _ _ Hw)|rewrite be_length; exact (iw_cnt _ _ Hw)].
Qed.

Lemma i_n_append c b : i_n c + 1 < 2 ^ 32 -> i_n (iappend c b) = i_n c + 1.
Proof. intro Hn. exact (unbe_be 4 _ Hn). Qed.

Lemma iwf_append v c b : iwf v c -> i_n c + 1 < 2 ^ 32 -> length b = 72%nat -> iwf v (iappend c b).
Proof.
  intros Hw Hn Hb. pose proof (i_n_append c b Hn) as En. destruct Hw as [? ? ? Hl].
  constructor; auto; try apply be_length. rewrite En. cbn [i_leases iappend].
  rewrite <- Hl, len_pwrite_end. unfold len in *. lia.
Qed.

Lemma ileases_append v c b : iwf v c -> i_n c + 1 < 2 ^ 32 -> length b = 72%nat ->
  ileases (iappend c b) = ileases c ++ [parse_imm b].
Proof.
  intros Hw Hn Hb. unfold ileases. rewrite (i_n_append c b Hn), nseq_succ, map_app. cbn [map].
  assert (Hrec : forall j, irec (iappend c b) j = if j =? i_n c then b else irec c j)
    by (intro j; apply (irec_set v c); [exact Hw|apply N.le_refl|exact Hb|reflexivity]).
  unfold islot. rewrite Hrec, N.eqb_refl. f_equal.
  apply map_ext_in. intros j Hj. apply in_nseq_iff in Hj. rewrite Hrec. destruct (N.eqb_spec j (i_n c)); [lia|reflexivity].
Qed.

(* What every lease operation does to a well-formed share file: it stays one, with the same data,
   and every lease keeps its position with an expiry that is not earlier. *)
Definition igrows (v : version) (c : IC) (o : outcome) : Prop :=
  exists c', out_file o = iflat c' /\ iwf v c' /\ i_data c' = i_data c /\ never_shorter_list (ileases c) (ileases c').

Lemma igrows_same v c o : iwf v c -> out_file o = iflat c -> igrows v c o.
Proof. intros Hw E. exists c. split; [exact E|]. split; [exact Hw|]. split; [reflexivity|apply never_shorter_list_refl]. Qed.

Section WithHash.
Variable H : list N -> list N.

(* renew_lease scans the leases, counting from 0, for the first one answering to the secret *)
Lemma imm_renew_scan_find v f lo (g : N -> lease) s t n :
  imm_renew_scan H v f lo 0 (map g (nseq n)) s t =
  match first_match H v (map (fun j => (j, g j)) (nseq n)) s with
  | None => Raised f EIndex
  | Some (i, l) => if l_expire l <? t then imm_write_lease_record f lo i (ser_immutable (set_expire l t)) else Done f
  end.
Proof.
  unfold nseq, first_match. change 0 with (N.of_nat 0). generalize 0%nat. induction (N.to_nat n) as [|m IH]; intro a; [reflexivity|].
  cbn [seq map imm_renew_scan find snd]. destruct (is_renew_secret H v (g (N.of_nat a)) s); [reflexivity|].
  rewrite <- IH. f_equal. lia.
Qed.

(* renew_lease against the reference `renew_first` on the list of leases *)
Lemma imm_renew_cases v c s t : iwf v c ->
  let o := imm_renew_lease H v (iflat c) (i_lo c) s t in
  match renew_first H v (ileases c) s t with
  | None => o = Raised (iflat c) EIndex
  | Some ls' =>
      o = Raised (iflat c) EStruct /\ ~ (bytes_ok (iflat c) /\ t < 2 ^ 32) \/
      exists c', o = Done (iflat c') /\ iwf v c' /\ i_data c' = i_data c /\ ileases c' = ls'
  end.
Proof.
  intros Hw o. subst o. unfold imm_renew_lease. rewrite (imm_get_leases_flat v c Hw). cbv beta iota.
  pose proof (imm_renew_scan_find v (iflat c) (i_lo c) (islot c) s t (i_n c)) as Hscan.
  fold (ileases c) (ienum c) in Hscan. rewrite Hscan.
  rewrite <- ileases_enum, (renew_first_numbered H v (ienum c) s t (NoDup_ienum c)).
  destruct (first_match H v (ienum c) s) as [[i l]|] eqn:Ef; [|reflexivity].
  apply first_match_in in Ef. destruct Ef as [Hin _]. apply in_ienum in Hin. destruct Hin as [Hi ->].
  cbv beta iota. unfold renewed. destruct (N.ltb_spec (l_expire (islot c i)) t) as [Hlt|Hge].
  - destruct (fit4_cases (l_owner (islot c i)) t) as [[Ho Ht]|Hc].
    + right. destruct (ser_immutable_ok (set_expire (islot c i) t) Ho Ht) as (b & Es & Lb & Pb).
      rewrite Es, (imm_write_flat v c i b Hw).
      eexists. split; [reflexivity|]. split; [apply iwf_set_ileases; assumption|]. split; [reflexivity|].
      rewrite <- ileases_enum, (ienum_set v c i b Hw Hi Lb), Pb, norm_imm_wf; [reflexivity|].
      apply parse_imm_wf; [apply (irec_length v)|..]; assumption.
    + left. rewrite (proj2 (ser_err (set_expire (islot c i) t) Hc)). split; [reflexivity|].
      intros [Hb Ht]. destruct (islot_bounds v c i Hw Hb Hi). lia.
  - right. exists c. split; [reflexivity|]. split; [exact Hw|]. split; [reflexivity|].
    rewrite set_at_id; [symmetry; apply ileases_enum|].
    intros x Hin. apply in_ienum in Hin. destruct Hin as [_ ->]. reflexivity.
Qed.

Lemma imm_renew_grows v c s t : iwf v c -> igrows v c (imm_renew_lease H v (iflat c) (i_lo c) s t).
Proof.
  intro Hw. pose proof (imm_renew_cases v c s t Hw) as Hr. cbv zeta in Hr.
  destruct (renew_first H v (ileases c) s t) as [ls'|] eqn:Ef; [destruct Hr as [[E _]|(c' & E & Hw' & Hd & <-)]|].
  - apply igrows_same; [exact Hw|rewrite E; reflexivity].
  - exists c'. rewrite E. split; [reflexivity|]. split; [exact Hw'|]. split; [exact Hd|].
    exact (renew_first_never_shorter H v _ _ _ _ Ef).
  - apply igrows_same; [exact Hw|rewrite Hr; reflexivity].
Qed.

(* add_lease appends a record and bumps the count, unless one of the two cannot be packed *)
Lemma imm_add_grows v c li : iwf v c -> igrows v c (imm_add_lease H v (iflat c) (i_lo c) li).
Proof.
  intro Hw. unfold imm_add_lease. rewrite (imm_read_num_flat v c Hw). unfold pack_be.
  destruct (N.ltb_spec (i_n c + 1) (256 ^ N.of_nat 4)) as [Hn|Hn]; [|apply igrows_same; [exact Hw|reflexivity]].
  cbv beta iota.
  set (l := stored_form H v li).
  destruct (fit4_cases (l_owner l) (l_expire l)) as [[Ho He]|Hc]; [|rewrite (proj2 (ser_err l Hc)); apply igrows_same; [exact Hw|reflexivity]].
  destruct (ser_immutable_ok l Ho He) as (b & -> & Lb & _). rewrite (imm_add_flat v c b Hw).
  eexists. split; [reflexivity|]. split; [apply iwf_append; assumption|]. split; [reflexivity|].
  rewrite (ileases_append v c b Hw Hn Lb). intros k x Hk. exists x. split; [|apply extends_refl].
  rewrite nth_error_app1; [exact Hk|apply nth_error_Some; congruence].
Qed.

(* add_or_renew_lease is renew_lease, or add_lease (space permitting) when that raises IndexError *)
Lemma imm_add_or_renew_grows v c avail li : iwf v c -> igrows v c (imm_add_or_renew H v (iflat c) (i_lo c) avail li).
Proof.
  intro Hw. unfold imm_add_or_renew. pose proof (imm_renew_grows v c (l_renew li) (l_expire li) Hw) as Hr.
  destruct (imm_renew_lease H v (iflat c) (i_lo c) (l_renew li) (l_expire li)) as [g|g []]; try exact Hr.
  destruct (avail <? IMM_LEASE_SIZE); [apply igrows_same; [exact Hw|reflexivity]|apply imm_add_grows; exact Hw].
Qed.

End WithHash.
