(* Hash-tree steps of the immutable download and verify pipelines, on top of the C35 theorems
   (Proofs/HashTree*.v): a tree that holds its root and only genuine nodes stays so through any
   set_hashes call; set_hashes({0: h}) on a new tree; a tree filled without a root (the verifier's
   get_all_blockhashes) and anchored afterwards. *)
From Coq Require Import List ZArith NArith Bool Lia.
From Verif Require Import Model.HashTree Proofs.HashTreeBase Proofs.HashTree Proofs.HashTreeStored
  Proofs.HashTreeLeaf.
Import ListNotations.
Local Open Scope Z_scope.

Lemma get_0_cons : forall A (x : A) l, get (x :: l) 0 = Some x.
Proof. intros. rewrite (get_lists_valid _ _ _ x) by (unfold validz, zlen; cbn [length]; lia). reflexivity. Qed.

Lemma put_0_cons : forall A (x v : A) l, put (x :: l) 0 v = Some (v :: l).
Proof. intros. rewrite put_valid by (unfold validz, zlen; cbn [length]; lia). reflexivity. Qed.

Lemma upd_same_nil : forall (l : list (list Z)) k, nth k l [] = [] -> upd l k [] = l.
Proof.
  induction l as [|a l IH]; intros [|k] Hn; cbn [upd]; try reflexivity.
  - cbn in Hn. subst a. reflexivity.
  - f_equal. apply IH. exact Hn.
Qed.

Section TreeSteps.
  Variable H : Type.
  Variable H_eqb : H -> H -> bool.
  Variable pair_hash : H -> H -> H.
  Variable truthy : H -> bool.
  Hypothesis H_eqb_spec : forall a b, H_eqb a b = true <-> a = b.
  Hypothesis all_truthy_H : forall h, truthy h = true.
  Hypothesis pair_inj : forall a b c d, pair_hash a b = pair_hash c d -> a = c /\ b = d.

  Notation set_hashes := (set_hashes H H_eqb pair_hash truthy).

  Definition merkle (G : Z -> H) (n : Z) : Prop :=
    forall p, 0 <= p -> 2 * p + 2 < n -> G p = pair_hash (G (2 * p + 1)) (G (2 * p + 2)).

  Record TreeOK (G : Z -> H) (n : Z) (T : tree H) : Prop := {
    tk_len : zlen T = n;
    tk_gen : genuine H G T;
    tk_root : slot T 0 <> None }.

  Lemma pair_truthy : forall a b, truthy (pair_hash a b) = true.
  Proof. intros. apply all_truthy_H. Qed.

  Lemma accepted_keeps : forall fl T hs ls ord T1,
    set_hashes fl T hs ls ord = Accepted H T1 ->
    zlen T1 = zlen T /\ (forall j v, 0 <= j -> slot T j = Some v -> slot T1 j = Some v).
  Proof.
    intros fl T hs ls ord T1 Hacc.
    destruct (accepted_char H H_eqb pair_hash truthy H_eqb_spec pair_truthy fl T hs ls ord T1 Hacc) as [C1 [C2 _]].
    split; [unfold zlen; rewrite C1; reflexivity|].
    intros j v Hj Hs. rewrite (C2 j Hj); [exact Hs|]. rewrite Hs. apply all_truthy_H.
  Qed.

  (* accepted_stores for a non-negative index, every hash being truthy *)
  Lemma accepted_holds : forall fl T hs ls ord T1 k h,
    set_hashes fl T hs ls ord = Accepted H T1 -> In (k, h) hs -> 0 <= k < zlen T -> slot T1 k = Some h.
  Proof.
    intros fl T hs ls ord T1 k h Hacc Hin Hk.
    destruct (accepted_stores H H_eqb pair_hash truthy H_eqb_spec _ _ _ _ _ _ Hacc) as [S1 _].
    specialize (S1 k h Hin ltac:(unfold validz; lia) (all_truthy_H h)).
    rewrite normz_nonneg in S1 by lia. exact S1.
  Qed.

  Lemma step_accepted : forall G n fl T0 hs ls ord T1,
    merkle G n -> TreeOK G n T0 -> set_hashes fl T0 hs ls ord = Accepted H T1 ->
    TreeOK G n T1 /\
    (forall leafnum h, In (leafnum, h) ls -> 0 <= fl + leafnum < n -> h = G (fl + leafnum)) /\
    (forall k h, In (k, h) hs -> 0 <= k < n -> h = G k).
  Proof.
    intros G n fl T0 hs ls ord T1 Hm [Hl Hg Hr] Hacc.
    assert (Hgt : forall j, 0 <= j < n -> truthy (G j) = true) by (intros; apply all_truthy_H).
    destruct (accepted_keeps _ _ _ _ _ _ Hacc) as [Hz Hk].
    destruct (accepted_values_genuine H H_eqb pair_hash truthy H_eqb_spec pair_truthy G n pair_inj Hm Hgt
                  fl T0 hs ls ord T1 Hl Hg Hr Hacc) as [V1 V2].
    split; [|split].
    - constructor.
      + rewrite Hz. exact Hl.
      + apply (accepted_genuine H H_eqb pair_hash truthy H_eqb_spec pair_truthy G n pair_inj Hm Hgt
                 fl T0 hs ls ord T1 Hl Hg Hr Hacc).
      + destruct (slot T0 0) as [v|] eqn:E0; [|congruence]. rewrite (Hk 0 v (Z.le_refl 0) E0). discriminate.
    - intros leafnum h Hin Hrg. apply (V1 leafnum h Hin Hrg). apply all_truthy_H.
    - intros k h Hin Hrg. apply (V2 k h Hin Hrg). apply all_truthy_H.
  Qed.

  Lemma step_rejected : forall G n fl T0 hs ls ord e T1,
    TreeOK G n T0 -> set_hashes fl T0 hs ls ord = Rejected H e T1 -> T1 = T0.
  Proof.
    intros G n fl T0 hs ls ord e T1 [Hl Hg Hr] Hrej.
    assert (Hgt : forall j, 0 <= j < n -> truthy (G j) = true) by (intros; apply all_truthy_H).
    pose proof (genuine_all_truthy H truthy G n Hgt T0 Hl Hg) as Hat.
    apply (rejected_restores H H_eqb pair_hash truthy H_eqb_spec pair_truthy fl T0 hs ls ord e T1 Hat Hrej).
  Qed.

  (* the tree a set_hashes call leaves behind, whatever the outcome *)
  Definition left_by (o : outcome H) : tree H :=
    match o with Accepted _ T => T | Rejected _ _ T => T end.

  Lemma step_keeps : forall G n fl T0 hs ls ord,
    merkle G n -> TreeOK G n T0 -> TreeOK G n (left_by (set_hashes fl T0 hs ls ord)).
  Proof.
    intros G n fl T0 hs ls ord Hm Hok.
    destruct (set_hashes fl T0 hs ls ord) as [T1|e T1] eqn:E; cbn [left_by].
    - apply (step_accepted G n fl T0 hs ls ord T1 Hm Hok E).
    - rewrite (step_rejected G n fl T0 hs ls ord e T1 Hok E). exact Hok.
  Qed.

  Definition rooted (h : H) (n : Z) : tree H := Some h :: repeat None (Z.to_nat (n - 1)).

  Lemma rooted_zlen : forall h n, 1 <= n -> zlen (rooted h n) = n.
  Proof. intros h n Hn. unfold zlen, rooted. cbn [length]. rewrite repeat_length. lia. Qed.

  Lemma rooted_slot : forall h n j, 1 <= j -> slot (rooted h n) j = None.
  Proof.
    intros h n j Hj. unfold slot, rooted. replace (Z.to_nat j) with (S (Z.to_nat (j - 1))) by lia.
    cbn [nth]. apply nth_repeat.
  Qed.

  Lemma rooted_ok : forall G n, 1 <= n -> TreeOK G n (rooted (G 0) n).
  Proof.
    intros G n Hn. constructor.
    - apply rooted_zlen. exact Hn.
    - intros j v Hj Hs. destruct (Z.eq_dec j 0) as [->|Hn0].
      + injection Hs as <-. reflexivity.
      + rewrite rooted_slot in Hs by lia. discriminate.
    - discriminate.
  Qed.

  (* only the root, or nothing at all, is waiting to be checked: the levels are walked through *)
  Lemma run_levels_idle : forall k T lv ruf ord,
    (forall L, (1 <= L)%nat -> nth L lv [] = []) -> nth 0 lv [] = [0] \/ nth 0 lv [] = [] ->
    exists lv', run_levels H H_eqb pair_hash truthy k (mkW H T lv ruf) ord = inl (mkW H T lv' ruf).
  Proof.
    induction k as [|L IH]; intros T lv ruf ord Hnil H0; [eexists; reflexivity|].
    cbn [run_levels wlv wT wruf].
    destruct L as [|L'].
    - destruct H0 as [-> | ->]; cbn [length run_level run_levels]; [|eexists; reflexivity].
      assert (Hp : exists ord', zpop ord [0] = Some (0, [], ord')).
      { destruct ord as [|c ord']; cbn [zpop]; [eauto|].
        cbn [zmem]. destruct (c =? 0) eqn:Ec; [|eauto].
        apply Z.eqb_eq in Ec. subst c. cbn. eauto. }
      destruct Hp as [ord' ->]. cbn [stepC Z.eqb run_level run_levels]. eexists. reflexivity.
    - rewrite (Hnil (S L') ltac:(lia)). cbn [length run_level].
      rewrite upd_same_nil by (apply Hnil; lia). apply IH; assumption.
  Qed.

  Lemma seed_fresh : forall fl n h ord, 1 <= n ->
    set_hashes fl (repeat None (Z.to_nat n)) [(0, h)] [] ord = Accepted H (rooted h n).
  Proof.
    intros fl n h ord Hn. unfold rooted. replace (Z.to_nat n) with (S (Z.to_nat (n - 1))) by lia.
    generalize (Z.to_nat (n - 1)). intros m.
    unfold HashTree.set_hashes. cbn [merge_leaves repeat]. cbv zeta.
    pose proof (depth_nonneg (zlen (@None H :: repeat None m) - 1) ltac:(unfold zlen; cbn [length]; lia)) as Hd.
    destruct (Z.to_nat (depth_of (zlen (@None H :: repeat None m) - 1) + 1)) as [|nl] eqn:Enl; [lia|].
    cbn [phaseB repeat]. unfold stepB. cbn [wT wlv wruf]. rewrite get_0_cons. cbn [is_truthy].
    change (depth_of 0) with 0. rewrite get_0_cons, !put_0_cons. change (zadd 0 []) with [0]. cbn [wlv].
    destruct (run_levels_idle (length ([0] :: repeat [] nl)) (Some h :: repeat None m) ([0] :: repeat [] nl) [0] ord)
      as [lv' ->]; [|left|]; try reflexivity.
    intros [|L] HL; [lia|]. apply (nth_repeat (@nil Z)).
  Qed.

  Lemma set_hashes_known_leaf : forall fl (T : tree H) j h ord,
    0 <= fl + j < zlen T -> slot T (fl + j) = Some h -> set_hashes fl T [] [(j, h)] ord = Accepted H T.
  Proof.
    intros fl T j h ord Hr Hs. unfold HashTree.set_hashes. cbn [merge_leaves assoc app]. cbv zeta.
    cbn [phaseB]. unfold stepB. cbn [wT wlv wruf].
    rewrite get_valid, normz_nonneg by (unfold validz; lia). rewrite Hs. cbn [is_truthy]. rewrite all_truthy_H.
    assert (H_eqb h h = true) as -> by (apply H_eqb_spec; reflexivity).
    cbn [wlv]. generalize (Z.to_nat (depth_of (zlen T - 1) + 1)). intros nl.
    destruct (run_levels_idle (length (repeat (@nil Z) nl)) T (repeat [] nl) [] ord) as [lv' ->]; [|right|reflexivity];
      intros; apply (nth_repeat (@nil Z)).
  Qed.

  Definition consistent (T : tree H) : Prop :=
    forall j, 1 <= j < zlen T -> slot T j <> None -> settled H pair_hash 0 T j.

  (* every node a set_hashes call adds to an empty tree hangs under its parent, and every node
     offered is stored *)
  Lemma filled_from_empty : forall fl m hs ls ord T1,
    set_hashes fl (repeat None m) hs ls ord = Accepted H T1 ->
    consistent T1 /\ zlen T1 = Z.of_nat m /\
    forall k h, In (k, h) hs -> 0 <= k < Z.of_nat m -> slot T1 k = Some h.
  Proof.
    intros fl m hs ls ord T1 Hacc.
    assert (Hz0 : zlen (repeat (@None H) m) = Z.of_nat m) by (unfold zlen; rewrite repeat_length; reflexivity).
    destruct (accepted_keeps _ _ _ _ _ _ Hacc) as [Hz _]. rewrite Hz0 in Hz.
    split; [|split; [exact Hz|]].
    - destruct (accepted_char H H_eqb pair_hash truthy H_eqb_spec pair_truthy _ _ _ _ _ _ Hacc) as [_ [_ C3]].
      intros j Hj Hp. apply C3; [lia|exact Hp|]. unfold slot. rewrite nth_repeat. exact Hp.
    - intros k h Hin Hk. apply (accepted_holds _ _ _ _ _ _ k h Hacc Hin). rewrite Hz0. exact Hk.
  Qed.

  Lemma consistent_step : forall fl T hs ls ord T1,
    consistent T -> set_hashes fl T hs ls ord = Accepted H T1 -> consistent T1.
  Proof.
    intros fl T hs ls ord T1 Hc Hacc.
    destruct (accepted_keeps fl T hs ls ord T1 Hacc) as [Hz Hkeep].
    destruct (accepted_char H H_eqb pair_hash truthy H_eqb_spec pair_truthy fl T hs ls ord T1 Hacc) as [_ [_ C3]].
    intros j Hj Hp. rewrite Hz in Hj.
    destruct (slot T j) as [v|] eqn:Es.
    - destruct (Hc j Hj ltac:(rewrite Es; discriminate)) as [Hz0|[Hj1 [Hd [a [b [Sp [Sl Sr]]]]]]]; [left; exact Hz0|].
      right. split; [exact Hj1|]. split; [exact Hd|]. exists a, b. pose proof (parz_range j Hj1).
      split; [apply Hkeep; [lia|exact Sp]|]. split; [apply Hkeep; [lia|exact Sl]|apply Hkeep; [lia|exact Sr]].
    - apply C3; [lia|exact Hp|rewrite Es; exact Hp].
  Qed.

  (* by induction on the node number: a node's parent is genuine, the parent is the pair of its
     children, and pair_hash is injective *)
  Lemma anchored_genuine : forall G n T,
    merkle G n -> zlen T = n -> consistent T -> slot T 0 = Some (G 0) -> genuine H G T.
  Proof.
    intros G n T Hm Hl Hc H0 j h Hj. revert h. pattern j. apply Zlt_0_ind; [|exact Hj]. clear j Hj.
    intros j IH Hj h Hs.
    destruct (Z.eq_dec j 0) as [->|Hn]; [congruence|].
    pose proof (slot_some_lt _ _ _ _ Hj Hs) as Hjl.
    destruct (Hc j ltac:(lia) ltac:(congruence)) as [Hz|[Hj1 [_ [a [b [Sp [Sl Sr]]]]]]]; [lia|].
    pose proof (parz_range j Hj1) as Hpr.
    pose proof (slot_some_lt _ T (2 * parz j + 2) b ltac:(lia) Sr) as Hch.
    pose proof (IH (parz j) ltac:(lia) _ Sp) as Hpar.
    rewrite (Hm (parz j) ltac:(lia) ltac:(lia)) in Hpar. apply pair_inj in Hpar. destruct Hpar as [-> ->].
    destruct (node_cases j Hj1) as [[E1 _]|[E1 _]]; rewrite E1 in Hs at 1; congruence.
  Qed.

  Lemma anchor_ok : forall G n fl T ord T1,
    merkle G n -> 1 <= n -> zlen T = n -> consistent T ->
    set_hashes fl T [(0, G 0)] [] ord = Accepted H T1 ->
    TreeOK G n T1 /\ consistent T1 /\ genuine H G T.
  Proof.
    intros G n fl T ord T1 Hm Hn Hl Hc Hacc.
    destruct (accepted_keeps _ _ _ _ _ _ Hacc) as [Hz Hk]. rewrite Hl in Hz.
    pose proof (consistent_step _ _ _ _ _ _ Hc Hacc) as Hc1.
    pose proof (accepted_holds _ _ _ _ _ _ 0 (G 0) Hacc (or_introl eq_refl) ltac:(lia)) as S1.
    pose proof (anchored_genuine G n T1 Hm Hz Hc1 S1) as Hg1.
    split; [|split; [exact Hc1|]].
    - constructor; [exact Hz|exact Hg1|congruence].
    - intros j v Hj Hs. apply (Hg1 j v Hj). apply Hk; assumption.
  Qed.
End TreeSteps.
