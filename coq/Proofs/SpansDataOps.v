(* C37: DataSpans.remove / get / pop / len / get_spans and the theorems over whole
   operation histories (refinement of a partial map offset -> byte). *)
From Coq Require Import List Arith NArith Bool Lia ZifyBool ZifyNat ZifyN.
From Verif Require Import Model.Spans Proofs.SpansBase Proofs.SpansAdd Proofs.SpansRemove Proofs.SpansOps
     Proofs.SpansDataBase Proofs.SpansDataAdd.
Import ListNotations.
Local Open Scope N_scope.

Lemma ds_remove_correct s n l : forall e, dwf_from e l ->
  dwf_from e (ds_remove s n l) /\
  forall z, dget z (ds_remove s n l) = if in_iv s n z then None else dget z l.
Proof.
  induction l as [|[ss sd] r IH]; intros e H.
  - split; [exact I|]. intro z. cbn [ds_remove dget]. destruct (in_iv s n z); reflexivity.
  - pose proof H as Hall. cbn [dwf_from fst snd] in H. destruct H as (H1 & H2 & H3).
    destruct (IH _ H3) as [W M]. clear IH. cbn [ds_remove].
    destruct (N.leb_spec (s + n) ss) as [C0|C0].
    + (* break: everything from here on is to the right *)
      split; [exact Hall|]. intro z. destruct (in_iv s n z) eqn:Z; [|reflexivity].
      apply (dget_below _ ss); [|unfold in_iv in Z; lia].
      cbn [dwf_from fst snd]. repeat split; [lia|assumption|assumption].
    + destruct (overlap s n ss (nlen sd)) as [[os ol]|] eqn:O; cbv zeta.
      * apply overlap_some in O. destruct O as (O1 & O2 & O3).
        destruct (N.eqb_spec ol (nlen sd)) as [C2|C2];
          [|destruct (N.eqb_spec os ss) as [C3|C3];
            [|destruct (N.eqb_spec (os + ol) (ss + nlen sd)) as [C4|C4]]].
        -- (* whole segment *)
           split; [apply (dwf_from_weaken (ss + nlen sd + 1)); [lia|exact W]|].
           intro z. rewrite M, dget_cons. iv_cases.
        -- (* drop a prefix *)
           split.
           ++ cbn [dwf_from fst snd]. rewrite nlen_ndrop. repeat split; [lia|lia|].
              apply (dwf_from_weaken (ss + nlen sd + 1)); [lia|exact W].
           ++ intro z. rewrite (dget_drop _ ss sd), M, dget_cons by lia. iv_cases.
        -- (* drop a suffix *)
           split.
           ++ cbn [dwf_from fst snd]. rewrite nlen_ntake. repeat split; [lia|lia|].
              apply (dwf_from_weaken (ss + nlen sd + 1)); [lia|exact W].
           ++ intro z. rewrite dget_take, M, dget_cons by lia. iv_cases.
        -- (* middle: what follows starts beyond the end of this segment *)
           assert (Hm : os = s /\ os + ol = s + n /\ ss < s /\ s + n < ss + nlen sd) by lia.
           destruct Hm as (-> & Ee & L1 & L2). rewrite Ee. clear O1 O2 C2 C3 C4.
           rewrite nlast_pos by lia. replace (nlen sd - (ss + nlen sd - (s + n))) with (s + n - ss) by lia.
           split.
           ++ cbn [dwf_from fst snd]. rewrite nlen_ntake, nlen_ndrop. repeat split; try lia.
              apply (dwf_from_weaken (ss + nlen sd + 1)); [lia|exact H3].
           ++ intro z. rewrite dget_take, (dget_drop _ ss sd), dget_cons by lia.
              destruct (N.lt_ge_cases z (ss + nlen sd + 1)) as [L|L];
                [rewrite (dget_below _ _ _ H3 L)|]; iv_cases.
      * (* no overlap with this segment *)
        apply overlap_none in O. split.
        -- cbn [dwf_from fst snd]. repeat split; assumption.
        -- intro z. rewrite !dget_cons, M. iv_cases.
Qed.

(* get(s, n) looks only at the chunk that holds s, if there is one.  That chunk gives
   the map from its start up to and including the first offset after it, which is
   not held because the next chunk is not adjacent. *)
Lemma ds_get_chunk s n l : forall e, dwf_from e l ->
  (dget s l = None /\ ds_get s n l = None) \/
  (exists ss sd, e <= ss /\ in_iv ss (nlen sd) s = true /\
     (forall z, in_iv ss (nlen sd + 1) z = true -> dget z l = nget sd (z - ss)) /\
     ds_get s n l = if nlen sd <? s - ss + n then None else Some (ntake n (ndrop (s - ss) sd))).
Proof.
  induction l as [|[ss sd] r IH]; intros e H; [left; split; reflexivity|].
  cbn [dwf_from fst snd] in H. destruct H as (H1 & H2 & H3). cbn [ds_get]. rewrite dget_cons.
  destruct (in_iv ss (nlen sd) s) eqn:C; unfold in_iv in C; rewrite C.
  - right. exists ss, sd. repeat split; [exact H1|exact C|].
    intros z Z. rewrite dget_cons. destruct (in_iv ss (nlen sd) z) eqn:Z2; [reflexivity|].
    unfold in_iv in Z, Z2. rewrite nget_none by lia. apply (dget_below _ _ _ H3). lia.
  - destruct (IH _ H3) as [[D G]|(ss' & sd' & He & Z & M & G)].
    + left. split; [exact D|]. destruct (s + n <=? ss); [reflexivity|exact G].
    + right. exists ss', sd'. unfold in_iv in Z.
      assert (F : (s + n <=? ss) = false) by lia. rewrite F. repeat split; [lia|exact Z| |exact G].
      intros z Zz. rewrite dget_cons.
      assert (F2 : in_iv ss (nlen sd) z = false) by (unfold in_iv in *; lia). rewrite F2. apply M, Zz.
Qed.

Lemma ds_get_some s n l e bs : dwf_from e l -> ds_get s n l = Some bs ->
  nlen bs = n /\ forall k, k < n -> dget (s + k) l = nget bs k.
Proof.
  intros H G. destruct (ds_get_chunk s n l e H) as [[_ G']|(ss & sd & _ & Z & M & G')];
    rewrite G' in G; [discriminate|].
  destruct (nlen sd <? s - ss + n) eqn:C; [discriminate|]. injection G as <-. unfold in_iv in Z.
  split; [rewrite nlen_ntake, nlen_ndrop; lia|]. intros k Hk.
  rewrite M by (unfold in_iv; lia). rewrite nget_ntake, nget_ndrop, (proj2 (N.ltb_lt k n) Hk).
  f_equal. lia.
Qed.

Lemma ds_get_none s n l e : dwf_from e l -> 0 < n -> ds_get s n l = None ->
  exists k, k < n /\ dget (s + k) l = None.
Proof.
  intros H Hn G. destruct (ds_get_chunk s n l e H) as [[D _]|(ss & sd & _ & Z & M & G')].
  - exists 0. rewrite N.add_0_r. split; assumption.
  - rewrite G' in G. destruct (nlen sd <? s - ss + n) eqn:C; [|discriminate]. unfold in_iv in Z.
    exists (ss + nlen sd - s). split; [lia|]. rewrite M by (unfold in_iv; lia). apply nget_none. lia.
Qed.

(* zero-length reads: b"" when `start` is held, None otherwise *)
Lemma ds_get_zero_length_from s l e : dwf_from e l ->
  ds_get s 0 l = if is_some (dget s l) then Some [] else None.
Proof.
  intro H. destruct (ds_get_chunk s 0 l e H) as [[D G]|(ss & sd & _ & Z & M & G)]; rewrite G.
  - rewrite D. reflexivity.
  - unfold in_iv in Z. rewrite (M s) by (unfold in_iv; lia). rewrite nget_is_some.
    assert (C1 : (nlen sd <? s - ss + 0) = false) by lia. assert (C2 : (s - ss <? nlen sd) = true) by lia.
    rewrite C1, C2. reflexivity.
Qed.

Theorem ds_get_correct s n l : dwf l -> 0 < n ->
  forall bs, ds_get s n l = Some bs <->
             (nlen bs = n /\ forall k, k < n -> dget (s + k) l = nget bs k).
Proof.
  intros H Hn bs. split; [apply (ds_get_some s n l 0 bs H)|].
  intros [L A]. destruct (ds_get s n l) as [bs'|] eqn:G.
  - destruct (ds_get_some s n l 0 bs' H G) as [L' A']. f_equal.
    apply nget_ext; [lia|]. intros k Hk. rewrite <- A', <- A by lia. reflexivity.
  - destruct (ds_get_none s n l 0 H Hn G) as (k & Hk & D). rewrite (A k Hk) in D.
    destruct (nget_some bs k ltac:(lia)) as [v E]. congruence.
Qed.

Theorem ds_get_None_iff s n l : dwf l -> 0 < n ->
  (ds_get s n l = None <-> exists k, k < n /\ dget (s + k) l = None).
Proof.
  intros H Hn. split; [apply (ds_get_none s n l 0 H Hn)|].
  intros (k & Hk & D). destruct (ds_get s n l) as [bs|] eqn:G; [|reflexivity].
  destruct (ds_get_some s n l 0 bs H G) as [L A]. rewrite (A k Hk) in D.
  destruct (nget_some bs k ltac:(lia)) as [v E]. congruence.
Qed.

Lemma ds_get_spans_shape l : dwf l -> ds_get_spans l = Some (shape l).
Proof.
  intro H. unfold ds_get_spans. fold (shape l).
  pose proof (proj1 (shape_wf l 0) H) as W.
  destruct (spans_of_list_correct (shape l) (wf_all_pos _ _ W)) as (o & E & Wo & M).
  rewrite E. f_equal. apply (wf_unique _ _ Wo W M).
Qed.

Definition ds_offsets (l : dspans) : list N := spans_each (shape l).

Theorem ds_len_cardinality l : dwf l ->
  NoDup (ds_offsets l) /\
  (forall z, In z (ds_offsets l) <-> dget z l <> None) /\
  ds_len l = N.of_nat (length (ds_offsets l)).
Proof.
  intro H. pose proof (proj1 (shape_wf l 0) H) as W.
  destruct (spans_len_cardinality _ W) as (A & B & C). unfold ds_offsets.
  split; [exact A|]. split; [|rewrite <- shape_len; exact C].
  intro z. rewrite B, shape_mem. destruct (dget z l); cbn [is_some]; split; congruence.
Qed.

Definition pmap := N -> option N.

Definition all_present (M : pmap) (s n : N) : bool := forallb (fun x => is_some (M x)) (nrange s n).

Definition map_step (M : pmap) (op : dop) : pmap :=
  match op with
  | DAdd s d => fun z => if in_iv s (nlen d) z then nget d (z - s) else M z     (* later write wins *)
  | DRemove s n => fun z => if in_iv s n z then None else M z
  | DGet _ _ => M
  | DPop s n => fun z => if all_present M s n && in_iv s n z then None else M z (* get, then remove *)
  end.

Definition map_run (ops : list dop) : pmap := fold_left map_step ops (fun _ => None).

Lemma all_present_ext M M' s n : (forall z, M z = M' z) -> all_present M s n = all_present M' s n.
Proof.
  intro E. unfold all_present. induction (nrange s n) as [|x r IH]; cbn [forallb]; [reflexivity|].
  rewrite E, IH. reflexivity.
Qed.

Lemma map_step_ext M M' op : (forall z, M z = M' z) -> forall z, map_step M op z = map_step M' op z.
Proof.
  intros E z. destruct op; cbn [map_step]; rewrite ?E; try reflexivity.
  rewrite (all_present_ext M M' s n E). reflexivity.
Qed.

Lemma all_present_spec M s n : all_present M s n = true <-> forall k, k < n -> M (s + k) <> None.
Proof.
  unfold all_present. rewrite forallb_forall. split.
  - intros A k Hk. specialize (A (s + k)). rewrite In_nrange in A.
    destruct (M (s + k)); [discriminate|]. specialize (A ltac:(lia)). discriminate.
  - intros A x Hx. apply In_nrange in Hx. specialize (A (x - s) ltac:(lia)).
    replace (s + (x - s)) with x in A by lia. destruct (M x); [reflexivity|congruence].
Qed.

Theorem ds_pop_correct s n l : dwf l ->
  fst (ds_pop s n l) = ds_get s n l /\
  dwf (snd (ds_pop s n l)) /\
  forall z, dget z (snd (ds_pop s n l)) =
            if all_present (fun x => dget x l) s n && in_iv s n z then None else dget z l.
Proof.
  intro H. unfold ds_pop. destruct (ds_get s n l) as [[|b bs]|] eqn:G; cbn [fst snd].
  - (* b"": n = 0, nothing removed *)
    destruct (ds_get_some s n l 0 _ H G) as [L _]. rewrite nlen_nil in L. subst n.
    repeat split; [exact H|]. intro z.
    assert (F : in_iv s 0 z = false) by (unfold in_iv; lia). rewrite F, andb_false_r. reflexivity.
  - destruct (ds_get_some s n l 0 _ H G) as [L A].
    destruct (ds_remove_correct s n l 0 H) as [W M].
    repeat split; [exact W|]. intro z. rewrite M.
    assert (P : all_present (fun x => dget x l) s n = true).
    { apply all_present_spec. intros k Hk. rewrite (A k Hk).
      destruct (nget_some (b :: bs) k ltac:(lia)) as [v ->]. discriminate. }
    rewrite P. reflexivity.
  - repeat split; [exact H|]. intro z.
    destruct (N.eq_dec n 0) as [->|Hn].
    + assert (F : in_iv s 0 z = false) by (unfold in_iv; lia). rewrite F, andb_false_r. reflexivity.
    + destruct (ds_get_none s n l 0 H ltac:(lia) G) as (k & Hk & D).
      assert (P : all_present (fun x => dget x l) s n = false).
      { destruct (all_present (fun x => dget x l) s n) eqn:P; [|reflexivity].
        exfalso. apply (proj1 (all_present_spec _ _ _) P k Hk). exact D. }
      rewrite P. reflexivity.
Qed.

Theorem ds_step_correct l op : dwf l ->
  exists l', ds_step l op = Some l' /\ dwf l' /\
             forall z, dget z l' = map_step (fun x => dget x l) op z.
Proof.
  intro H. destruct op as [s d|s n|s n|s n]; cbn [ds_step map_step].
  - apply (ds_add_correct s d l H).
  - destruct (ds_remove_correct s n l 0 H) as [W M]. eauto.
  - exists l. repeat split. exact H.
  - destruct (ds_pop_correct s n l H) as (_ & W & M). eauto.
Qed.

Lemma map_fold_ext ops : forall M M', (forall z, M z = M' z) ->
  forall z, fold_left map_step ops M z = fold_left map_step ops M' z.
Proof.
  induction ops as [|op ops IH]; intros M M' E z; cbn [fold_left]; [apply E|].
  apply IH. apply map_step_ext. exact E.
Qed.

Lemma ds_run_from ops : forall l, dwf l ->
  exists l', fold_left (fun st op => bind st (fun l => ds_step l op)) ops (Some l) = Some l' /\
             dwf l' /\ forall z, dget z l' = fold_left map_step ops (fun x => dget x l) z.
Proof.
  induction ops as [|op ops IH]; intros l H.
  - exists l. repeat split. exact H.
  - destruct (ds_step_correct l op H) as (l1 & E1 & W1 & M1).
    destruct (IH l1 W1) as (l' & E & W & M).
    exists l'. cbn [fold_left bind]. rewrite E1. repeat split; [exact E|exact W|].
    intro z. rewrite M. apply map_fold_ext. exact M1.
Qed.

Theorem ds_run_correct ops :
  exists l, ds_run ops = Some l /\ dwf l /\ forall z, dget z l = map_run ops z.
Proof. exact (ds_run_from ops [] I). Qed.

Lemma dwf_spelled_out l : dwf l <->
  (forall sp, In sp l -> snd sp <> []) /\
  (forall p x y q, l = p ++ x :: y :: q -> fst x + nlen (snd x) < fst y).
Proof.
  unfold dwf. rewrite shape_wf. fold (wf (shape l)). rewrite wf_spelled_out. split; intros [A B]; split.
  - intros sp Hin E. specialize (A (fst sp, nlen (snd sp))). cbn [snd] in A. rewrite E in A.
    assert (Hi : In (fst sp, nlen []) (shape l)).
    { unfold shape. rewrite <- E. apply (in_map (fun sp => (fst sp, nlen (snd sp)))). exact Hin. }
    specialize (A Hi). rewrite nlen_nil in A. lia.
  - intros p x y q E. specialize (B (shape p) (fst x, nlen (snd x)) (fst y, nlen (snd y)) (shape q)).
    cbn [fst snd] in B. apply B. subst l. unfold shape. rewrite map_app. reflexivity.
  - intros sp Hin. unfold shape in Hin. apply in_map_iff in Hin. destruct Hin as (x & <- & Hx).
    cbn [snd]. specialize (A x Hx). destruct (snd x); [congruence|]. rewrite nlen_cons. lia.
  - intros p x y q E. unfold shape in E.
    apply map_eq_app in E. destruct E as (p' & t & -> & <- & E).
    apply map_eq_cons in E. destruct E as (x' & t' & -> & <- & E).
    apply map_eq_cons in E. destruct E as (y' & q' & -> & <- & E).
    cbn [fst snd]. apply (B p' x' y' q'). reflexivity.
Qed.
