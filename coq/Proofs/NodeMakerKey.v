(* C13: which cache entry a NodeMaker lookup uses (Gen/NodeMakerKey.v, translated from
   nodemaker.py on every run) composed with the cache model of Model/Serializer.v. *)
From Coq Require Import List NArith Bool Lia.
From Verif Require Import Gen.NodeMakerKey Model.Serializer Proofs.Serializer.
Import ListNotations.
Local Open Scope N_scope.

(* a non-empty write cap alone decides the key, whatever read cap is passed alongside (directly,
   or the way a parent directory resolves a child) *)
Lemma memokey_writecap di w ro :
  w <> [] ->
  memokey di (Some w) ro = Some ((if di then key_prefix_immutable else key_prefix_mutable) ++ w).
Proof. intro H. destruct w as [|c r]; [contradiction|reflexivity]. Qed.

Lemma memokey_ignores_readcap_ok di w ro1 ro2 :
  w <> [] -> memokey di (Some w) ro1 = memokey di (Some w) ro2.
Proof. intro H. rewrite !memokey_writecap by exact H. reflexivity. Qed.

Lemma memokey_readcap_only_ok di ro :
  memokey di None ro = memokey di (Some []) ro.
Proof. reflexivity. Qed.

Lemma memokey_spec di wc rc k :
  memokey di wc rc = Some k ->
  exists cap, py_or wc rc = Some cap /\ cap <> [] /\
              k = (if di then key_prefix_immutable else key_prefix_mutable) ++ cap.
Proof.
  unfold memokey. destruct (py_or wc rc) as [[|c r]|]; try discriminate.
  intro H. inversion H. exists (c :: r). repeat split. discriminate.
Qed.

Lemma memokey_inj_ok di di' wc rc wc' rc' k :
  memokey di wc rc = Some k -> memokey di' wc' rc' = Some k ->
  di = di' /\ py_or wc rc = py_or wc' rc'.
Proof.
  intros (cap & -> & _ & ->)%memokey_spec (cap' & -> & _ & E)%memokey_spec.
  (* each prefix is one byte and the two differ: the head of the key gives the flag, its tail the cap *)
  destruct di, di'; try discriminate E.
  all: apply app_inv_head in E; rewrite E; auto.
Qed.
