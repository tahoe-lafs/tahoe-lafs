(* C37: Spans.add.  The index-based scan of the model finds a decomposition
   l = pre ++ x :: run ++ post  (no invariant needed); under the representation
   invariant the result is then shown wf and to denote the union. *)
From Coq Require Import List Arith NArith Bool Lia ZifyBool ZifyNat ZifyN Permutation Btauto.
From Verif Require Import Lib.ListFacts Model.Spans Proofs.SpansBase.
Import ListNotations.
Local Open Scope N_scope.

Lemma last_cons {A} (x : A) r d : last (x :: r) d = last r x.
Proof.
  revert x d; induction r as [|y r IH]; intros x d; [reflexivity|].
  change (last (x :: y :: r) d) with (last (y :: r) d). rewrite (IH y d), (IH y x). reflexivity.
Qed.

Lemma nth_last_app {A} (x : A) r q d : nth (length r) ((x :: r) ++ q) d = last r x.
Proof.
  revert x; induction r as [|y r IH]; intro x; [reflexivity|].
  cbn [length]. change ((x :: y :: r) ++ q) with (x :: ((y :: r) ++ q)). cbn [nth]. rewrite IH.
  symmetry. apply last_cons.
Qed.

Lemma slice_facts {A} (pre : list A) x run' post d :
  let l := pre ++ x :: run' ++ post in
  nth (length pre) l d = x /\
  nth (length pre + length run') l d = last run' x /\
  firstn (length pre) l = pre /\
  skipn (S (length pre + length run')) l = post.
Proof.
  cbn zeta. repeat split.
  - apply nth_middle.
  - rewrite app_nth2_plus. apply (nth_last_app x run' post).
  - apply firstn_app_exact. reflexivity.
  - change (x :: run' ++ post) with ((x :: run') ++ post). rewrite app_assoc.
    apply skipn_app_exact. rewrite app_length. cbn [length]. lia.
Qed.

Lemma prefix_split {A} (p : A -> bool) (v : bool) l :
  exists a b, l = a ++ b /\ Forall (fun y => p y = v) a /\
              match b with [] => True | x :: _ => p x = negb v end.
Proof.
  induction l as [|x l (a & b & -> & Ha & Hb)].
  - exists [], []. repeat split; constructor.
  - destruct (bool_dec (p x) v) as [E|E].
    + exists (x :: a), b. repeat split; [constructor; assumption|assumption].
    + exists [], (x :: a ++ b). repeat split; [constructor|]. revert E. destruct (p x), v; cbn [negb]; congruence.
Qed.

Section Add.
Variables s n : N.

Lemma add_scan_cons x r i first last :
  add_scan s n (x :: r) i first last =
  if touches s n x
  then add_scan s n r (S i) (match first with None => Some i | Some _ => first end) (Some i)
  else match first with Some _ => (first, last) | None => add_scan s n r (S i) first last end.
Proof. destruct x. reflexivity. Qed.

(* where the scan breaks: at the end of the list or at a span that does not touch *)
Definition stops (q : spans) : Prop :=
  match q with [] => True | x :: _ => touches s n x = false end.

Lemma add_scan_pre pre rest : Forall (fun y => touches s n y = false) pre -> forall i,
  add_scan s n (pre ++ rest) i None None = add_scan s n rest (i + length pre) None None.
Proof.
  induction 1 as [|y pre T _ IH]; intro i; cbn [app length].
  - rewrite Nat.add_0_r. reflexivity.
  - rewrite add_scan_cons, T, IH. f_equal. lia.
Qed.

(* once a first overlap has been seen, the last one so far is the span just
   before the current index *)
Lemma add_scan_run run post : Forall (fun y => touches s n y = true) run -> stops post ->
  forall f la, add_scan s n (run ++ post) (S la) (Some f) (Some la) = (Some f, Some (la + length run)%nat).
Proof.
  intros HR HP. induction HR as [|y run T _ IH]; intros f la; cbn [app length].
  - rewrite Nat.add_0_r. destruct post as [|y q]; [reflexivity|]. rewrite add_scan_cons, HP. reflexivity.
  - rewrite add_scan_cons, T, IH. do 2 f_equal. lia.
Qed.

Definition newspan (x lst : span) : span :=
  (N.min s (fst x), N.max (s + n) (fst lst + snd lst) - N.min s (fst x)).

Lemma add_raw_cases l :
  (Forall (fun y => touches s n y = false) l /\ spans_add_raw s n l = psort ((s, n) :: l))
  \/
  (exists pre x run post,
      l = pre ++ x :: run ++ post /\
      Forall (fun y => touches s n y = false) pre /\
      touches s n x = true /\
      Forall (fun y => touches s n y = true) run /\ stops post /\
      spans_add_raw s n l = pre ++ newspan x (last run x) :: post).
Proof.
  destruct (prefix_split (touches s n) false l) as (pre & rest & -> & HF & HT).
  destruct rest as [|x rest]; [left|right].
  - rewrite app_nil_r. split; [exact HF|].
    unfold spans_add_raw. rewrite <- (app_nil_r pre) at 1. rewrite (add_scan_pre pre [] HF). reflexivity.
  - destruct (prefix_split (touches s n) true rest) as (run & post & -> & HR & HP). cbn [negb] in HT.
    exists pre, x, run, post. repeat split; try assumption.
    unfold spans_add_raw.
    rewrite (add_scan_pre pre _ HF), add_scan_cons, HT, (add_scan_run run post HR HP). cbn [Nat.add].
    destruct (slice_facts pre x run post (0, 0)) as (S1 & S2 & S3 & S4).
    rewrite S1, S2, S3, S4.
    destruct x as [fs fl]. destruct (last run (fs, fl)) as [ls ll]. reflexivity.
Qed.

Hypothesis Hn : 0 < n.

Lemma nontouch_spec sp : 0 < snd sp -> touches s n sp = false ->
  fst sp + snd sp < s \/ s + n < fst sp.
Proof. intros Hb T. rewrite touches_spec in T by assumption. lia. Qed.

Lemma touch_spec sp : 0 < snd sp -> touches s n sp = true ->
  fst sp <= s + n /\ s <= fst sp + snd sp.
Proof. intros Hb T. rewrite touches_spec in T by assumption. lia. Qed.

(* no overlap: insert(0, ...) + sort() puts the span in its place *)
Lemma pinsert_nontouch e l :
  wf_from e l -> e <= s -> Forall (fun y => touches s n y = false) l ->
  wf_from e (pinsert (s, n) l) /\
  forall z, mem z (pinsert (s, n) l) = mem z l || in_iv s n z.
Proof.
  revert e; induction l as [|y r IH]; intros e H He HF.
  - cbn [pinsert wf_from fst snd]. split; [repeat split; lia|].
    intro z. rewrite mem_cons, !mem_nil. cbn [fst snd]. btauto.
  - cbn [wf_from] in H. destruct H as (H1 & H2 & H3).
    inversion HF as [|? ? T HF']; subst.
    destruct (nontouch_spec y H2 T) as [Hb|Ha].
    + assert (E : pleb (s, n) y = false) by (unfold pleb; cbn [fst snd]; lia).
      cbn [pinsert]. rewrite E.
      destruct (IH (fst y + snd y + 1) H3 ltac:(lia) HF') as [W M].
      split.
      * cbn [wf_from]. auto.
      * intro z. rewrite !mem_cons, M. btauto.
    + assert (E : pleb (s, n) y = true) by (unfold pleb; cbn [fst snd]; lia).
      cbn [pinsert]. rewrite E.
      split.
      * cbn [wf_from fst snd]. repeat split; try lia; assumption.
      * intro z. rewrite !mem_cons. cbn [fst snd]. btauto.
Qed.

(* the run of touching spans after the first one (`cur` is the last touching
   span seen so far) *)
Lemma run_phase run : forall cur post,
  wf_from (fst cur + snd cur + 1) (run ++ post) ->
  fst cur <= s + n -> s <= fst cur + snd cur ->
  Forall (fun y => touches s n y = true) run -> stops post ->
  let hi := N.max (s + n) (fst (last run cur) + snd (last run cur)) in
  wf_from (hi + 1) post /\
  forall lo z, lo <= fst cur ->
    in_iv lo (hi - lo) z = in_iv lo (N.max (s + n) (fst cur + snd cur) - lo) z || mem z run.
Proof.
  induction run as [|y run IH]; intros cur post H C1 C2 HR HP; cbn zeta.
  - cbn [app last] in *. split; [|intros lo z _; rewrite mem_nil; symmetry; apply orb_false_r].
    destruct post as [|y q]; [exact I|]. cbn [wf_from] in H. destruct H as (H1 & H2 & H3).
    destruct (nontouch_spec y H2 HP) as [Hb|Ha]; [lia|].
    cbn [wf_from]. repeat split; [lia|assumption|assumption].
  - cbn [app wf_from] in H. destruct H as (H1 & H2 & H3). inversion HR as [|? ? T HR']; subst.
    destruct (touch_spec y H2 T) as [T1 T2]. rewrite last_cons.
    destruct (IH y post H3 T1 T2 HR' HP) as [W M]. split; [exact W|].
    intros lo z Hlo. rewrite (M lo z) by lia. rewrite mem_cons. unfold in_iv. lia.
Qed.

(* the spans before the run stay, the run is replaced by one span *)
Lemma pre_phase pre : forall e x tl nw post,
  wf_from e (pre ++ x :: tl) ->
  Forall (fun y => touches s n y = false) pre ->
  fst x <= s + n -> e <= s ->
  fst nw = N.min s (fst x) -> 0 < snd nw ->
  wf_from (fst nw + snd nw + 1) post ->
  wf_from e (pre ++ nw :: post).
Proof.
  induction pre as [|y pre IH]; intros e x tl nw post H HF Hx He N1 N2 W; cbn [app] in *.
  - cbn [wf_from] in *. destruct H as (H1 & H2 & H3). repeat split; try assumption. lia.
  - cbn [wf_from] in H. destruct H as (H1 & H2 & H3).
    inversion HF as [|? ? T HF']; subst.
    destruct (wf_from_app_r _ _ _ H3) as [Hyx _].
    cbn [wf_from]. repeat split; try assumption.
    apply (IH _ x tl); try assumption.
    destruct (nontouch_spec y H2 T); lia.
Qed.

Theorem spans_add_raw_correct l : wf l ->
  wf (spans_add_raw s n l) /\
  forall z, mem z (spans_add_raw s n l) = mem z l || in_iv s n z.
Proof.
  intro H. destruct (add_raw_cases l) as [[HF E]|(pre & x & run & post & El & HF & T & HR & HP & E)]; rewrite E.
  - cbn [psort]. rewrite (psort_wf_id _ _ H).
    apply pinsert_nontouch; [exact H|lia|exact HF].
  - subst l. destruct (wf_from_app_r _ _ _ H) as (_ & Hx1 & Hx2).
    destruct (touch_spec x Hx1 T) as [T1 T2].
    destruct (run_phase run x post Hx2 T1 T2 HR HP) as [W M]. cbn zeta in W, M.
    split.
    + unfold wf. apply (pre_phase pre 0 x (run ++ post)); try assumption; try lia.
      * reflexivity.
      * unfold newspan. cbn [snd]. lia.
      * unfold newspan. cbn [fst snd].
        replace (N.min s (fst x) + (N.max (s + n) (fst (last run x) + snd (last run x)) - N.min s (fst x)))
          with (N.max (s + n) (fst (last run x) + snd (last run x))) by lia.
        exact W.
    + intro z. rewrite !mem_app, !mem_cons, !mem_app. unfold newspan. cbn [fst snd].
      rewrite (M (N.min s (fst x)) z) by lia.
      assert (EQ : in_iv (N.min s (fst x)) (N.max (s + n) (fst x + snd x) - N.min s (fst x)) z
                   = in_iv (fst x) (snd x) z || in_iv s n z) by (unfold in_iv; lia).
      rewrite EQ. btauto.
Qed.

Theorem spans_add_correct l : wf l ->
  exists l', spans_add s n l = Some l' /\ wf l' /\
             forall z, mem z l' = mem z l || in_iv s n z.
Proof.
  intro H. destruct (spans_add_raw_correct l H) as [W M].
  exists (spans_add_raw s n l). unfold spans_add.
  assert (E : (n =? 0) = false) by lia. rewrite E, (spans_check_wf _ W). auto.
Qed.

End Add.

Lemma spans_add_zero s l : spans_add s 0 l = None.
Proof. reflexivity. Qed.
