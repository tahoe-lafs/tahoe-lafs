From Coq Require Import List NArith Bool Lia Arith.
From Verif Require Import Lib.ListFacts Model.TestAndSet.
Import ListNotations.
Local Open Scope N_scope.

Lemma set_nth_length {A} n (x : A) l : length (set_nth n x l) = length l.
Proof. revert n; induction l as [|y r IH]; intros [|n]; cbn; auto. Qed.

Lemma In_set_nth {A} n (x y : A) l : In y (set_nth n x l) -> y = x \/ In y l.
Proof.
  revert n; induction l as [|z r IH]; intros [|n] H; cbn in *; auto.
  - destruct H as [H|H]; auto.
  - destruct H as [H|H]; auto. apply IH in H. tauto.
Qed.

Lemma nth_error_set_nth_same {A} n (x y : A) l : nth_error l n = Some y -> nth_error (set_nth n x l) n = Some x.
Proof. revert n; induction l as [|z r IH]; intros [|n]; cbn; try discriminate; auto. Qed.

Lemma nth_error_set_nth_other {A} n m (x : A) l : n <> m -> nth_error (set_nth n x l) m = nth_error l m.
Proof.
  revert n m; induction l as [|y r IH]; intros [|n] [|m] H; cbn; auto; try congruence.
Qed.

Lemma nth_error_set_nth_inv {A} n m (x y : A) l :
  nth_error (set_nth n x l) m = Some y -> (m = n /\ y = x) \/ (m <> n /\ nth_error l m = Some y).
Proof.
  intro H. destruct (Nat.eq_dec n m) as [<-|Hne].
  - left. split; [reflexivity|]. destruct (nth_error l n) as [z|] eqn:E.
    + rewrite (nth_error_set_nth_same n x z l E) in H. congruence.
    + apply nth_error_None in E. rewrite <- (set_nth_length n x l) in E. apply nth_error_None in E. congruence.
  - right. rewrite nth_error_set_nth_other in H by exact Hne. auto.
Qed.

Definition upd (s : sys) (c : list vid) (j : nat) (w : wstate) : sys :=
  {| cells := c; ws := set_nth j w (ws s) |}.

Inductive step_to (s : sys) : ev -> sys -> Prop :=
| st_skip e : step_to s e s          (* no such writer or cell, or a write before the survey *)
| st_survey j w :
    nth_error (ws s) j = Some w ->
    step_to s (Survey j)
      (upd s (cells s) j {| snapshot := Some (cells s); w_surprised := w_surprised w; acked := acked w |})
| st_applied j i w snap v :
    nth_error (ws s) j = Some w -> snapshot w = Some snap ->
    nth_error (cells s) i = Some v -> nth_error snap i = Some v ->
    step_to s (Write j i)
      (upd s (set_nth i (new_version j) (cells s)) j
           {| snapshot := Some snap; w_surprised := w_surprised w; acked := i :: acked w |})
| st_refused j i w snap cur seen :
    nth_error (ws s) j = Some w -> snapshot w = Some snap ->
    nth_error (cells s) i = Some cur -> nth_error snap i = Some seen -> cur <> seen ->
    step_to s (Write j i)
      (upd s (cells s) j {| snapshot := Some snap; w_surprised := true; acked := acked w |}).

Lemma step_cases s e : step_to s e (step s e).
Proof.
  destruct e as [j|j i]; cbn [step].
  - destruct (nth_error (ws s) j) as [w|] eqn:Hw; [apply st_survey, Hw|apply st_skip].
  - destruct (nth_error (ws s) j) as [w|] eqn:Hw; [|apply st_skip].
    destruct (snapshot w) as [snap|] eqn:Hs; [|apply st_skip].
    destruct (nth_error (cells s) i) as [cur|] eqn:Hc; [|apply st_skip].
    destruct (nth_error snap i) as [seen|] eqn:Hn; [|apply st_skip].
    destruct (N.eqb_spec cur seen) as [<-|Hne].
    + exact (st_applied s j i w snap cur Hw Hs Hc Hn).
    + exact (st_refused s j i w snap cur seen Hw Hs Hc Hn Hne).
Qed.

Lemma step_survey s j w :
  nth_error (ws s) j = Some w ->
  step s (Survey j) =
  upd s (cells s) j {| snapshot := Some (cells s); w_surprised := w_surprised w; acked := acked w |}.
Proof. intro Hw. cbn [step]. rewrite Hw. reflexivity. Qed.

Lemma step_write s j i w snap cur seen :
  nth_error (ws s) j = Some w -> snapshot w = Some snap ->
  nth_error (cells s) i = Some cur -> nth_error snap i = Some seen ->
  step s (Write j i) =
  if cur =? seen
  then upd s (set_nth i (new_version j) (cells s)) j
           {| snapshot := Some snap; w_surprised := w_surprised w; acked := i :: acked w |}
  else upd s (cells s) j {| snapshot := Some snap; w_surprised := true; acked := acked w |}.
Proof. intros Hw Hs Hc Hn. cbn [step]. rewrite Hw, Hs, Hc, Hn. reflexivity. Qed.

Lemma nth_error_upd s c j w w' x :
  nth_error (ws s) j = Some w ->
  nth_error (ws (upd s c j w')) x = if Nat.eqb x j then Some w' else nth_error (ws s) x.
Proof.
  intro Hw. cbn [upd ws]. destruct (Nat.eqb_spec x j) as [->|Hne].
  - exact (nth_error_set_nth_same j w' w _ Hw).
  - apply nth_error_set_nth_other. congruence.
Qed.

Lemma nth_error_upd_same s c j w w' :
  nth_error (ws s) j = Some w -> nth_error (ws (upd s c j w')) j = Some w'.
Proof. exact (nth_error_set_nth_same j w' w (ws s)). Qed.

(* what holds of writer x still holds of it after writer j is replaced by a w' that keeps it *)
Lemma writer_upd (P : wstate -> Prop) s c j w w' x :
  nth_error (ws s) j = Some w -> (P w -> P w') ->
  (exists wx, nth_error (ws s) x = Some wx /\ P wx) ->
  exists wx, nth_error (ws (upd s c j w')) x = Some wx /\ P wx.
Proof.
  intros Hw HP (wx & Hx & Px). rewrite (nth_error_upd s c j w w' x Hw).
  destruct (Nat.eqb_spec x j) as [->|Hne]; [|eauto].
  exists w'. split; [reflexivity|]. apply HP. replace w with wx by congruence. exact Px.
Qed.

Definition cells_ok (nwriters : nat) (s : sys) : Prop :=
  forall v, In v (cells s) -> In v (all_versions nwriters).

Lemma new_version_in j n : (j < n)%nat -> In (new_version j) (all_versions n).
Proof. intro H. right. apply in_map, in_seq. lia. Qed.

Lemma step_cells_length s e : length (cells (step s e)) = length (cells s).
Proof. destruct (step_cases s e); cbn [upd cells]; rewrite ?set_nth_length; reflexivity. Qed.

Lemma step_cells_ok n s e :
  length (ws s) = n -> cells_ok n s -> cells_ok n (step s e) /\ length (ws (step s e)) = n.
Proof.
  intros Hl Hok.
  destruct (step_cases s e) as [e|j w Hw|j i w snap v Hw _ _ _|j i w snap cur seen Hw _ _ _ _];
    cbn [upd ws cells]; rewrite ?set_nth_length; auto.
  split; [|exact Hl]. intros x [->|Hx]%In_set_nth; [|exact (Hok x Hx)].
  apply new_version_in. rewrite <- Hl. apply nth_error_Some. congruence.
Qed.

Lemma run_cells_ok ncells n evs :
  let s := run ncells n evs in
  cells_ok n s /\ length (ws s) = n /\ length (cells s) = ncells.
Proof.
  cbv zeta. apply (fold_left_preserves (fun s => cells_ok n s /\ length (ws s) = n /\ length (cells s) = ncells)).
  - intros s e (Hok & Hl & Hc). rewrite step_cells_length. destruct (step_cells_ok n s e Hl Hok). auto.
  - cbn. rewrite !repeat_length. repeat split. intros v ->%repeat_spec. left. reflexivity.
Qed.

Lemma count_v_split v l :
  length l = (count_v v l + length (filter (fun x : vid => negb (x =? v)%N) l))%nat.
Proof. induction l as [|x l IH]; cbn; [reflexivity|]. destruct (x =? v); cbn; lia. Qed.

Lemma count_v_filter_le f v l : (count_v v (filter f l) <= count_v v l)%nat.
Proof.
  induction l as [|x l IH]; cbn; [lia|]. destruct (f x); cbn; destruct (x =? v); lia.
Qed.

(* more than m cells per version on average put more than m cells on one version *)
Lemma pigeonhole_lt vs : forall l m,
  (forall x, In x l -> In x vs) -> (length vs * m < length l)%nat ->
  exists v, In v vs /\ (m < count_v v l)%nat.
Proof.
  induction vs as [|v0 vs IH]; intros l m Hin Hlen.
  - destruct l as [|x l]; [cbn in Hlen; lia|destruct (Hin x (or_introl eq_refl))].
  - destruct (le_lt_dec (count_v v0 l) m) as [Hle|Hlt]; [|exists v0; split; [left; reflexivity|exact Hlt]].
    (* v0 takes at most m cells: look among the others *)
    destruct (IH (filter (fun x : vid => negb (x =? v0)) l) m) as (v & Hv & Hc).
    + intros x [Hx Hne]%filter_In. destruct (Hin x Hx) as [<-|H]; [|exact H].
      rewrite N.eqb_refl in Hne. discriminate.
    + pose proof (count_v_split v0 l). cbn [length Nat.mul] in Hlen. lia.
    + exists v. split; [right; exact Hv|].
      pose proof (count_v_filter_le (fun x : vid => negb (x =? v0)) v l). lia.
Qed.

Lemma pigeonhole vs l k :
  vs <> [] ->
  (forall x, In x l -> In x vs) -> (length vs * k <= length l)%nat -> (1 <= k)%nat ->
  exists v, In v vs /\ (k <= count_v v l)%nat.
Proof.
  intros Hne Hin Hlen Hk.
  destruct (pigeonhole_lt vs l (k - 1) Hin) as (v & Hv & Hc); [|exists v; split; [exact Hv|lia]].
  destruct vs; [congruence|]. cbn [length] in *. nia.
Qed.

Lemma all_versions_length n : length (all_versions n) = S n.
Proof. unfold all_versions. cbn. rewrite map_length, seq_length. reflexivity. Qed.

Lemma crowded_version n k s :
  cells_ok n s -> (1 <= k)%nat -> (S n * k <= length (cells s))%nat ->
  exists v, In v (all_versions n) /\ (k <= count_v v (cells s))%nat.
Proof.
  intros Hok Hk Hb. apply pigeonhole; auto; [discriminate|]. rewrite all_versions_length. exact Hb.
Qed.

Lemma write_applies_iff_test_holds_ok s j i w snap cur seen :
  nth_error (ws s) j = Some w -> snapshot w = Some snap ->
  nth_error (cells s) i = Some cur -> nth_error snap i = Some seen ->
  (cur = seen ->
     nth_error (cells (step s (Write j i))) i = Some (new_version j) /\
     (forall w', nth_error (ws (step s (Write j i))) j = Some w' -> w_surprised w' = w_surprised w /\ acked w' = i :: acked w)) /\
  (cur <> seen ->
     cells (step s (Write j i)) = cells s /\
     (forall w', nth_error (ws (step s (Write j i))) j = Some w' -> w_surprised w' = true /\ acked w' = acked w)).
Proof.
  intros Hw Hs Hc Hn. rewrite (step_write s j i w snap cur seen Hw Hs Hc Hn).
  split; intro H; [apply N.eqb_eq in H|apply N.eqb_neq in H]; rewrite H; cbv iota.
  - split; [exact (nth_error_set_nth_same i _ cur _ Hc)|].
    intros w'. rewrite (nth_error_upd_same _ _ _ _ _ Hw). intros [= <-]. auto.
  - split; [reflexivity|].
    intros w'. rewrite (nth_error_upd_same _ _ _ _ _ Hw). intros [= <-]. auto.
Qed.

(* no silent clobber: a cell that no longer holds what writer j surveyed refuses j's write.
   The rule is stated on the comparison the server makes; that a changed cell never returns
   to the surveyed value (versions are fresh) is the subject of Proofs/TestAndSetTrace.v. *)
Lemma changed_cell_refuses_ok s j i w snap cur seen :
  nth_error (ws s) j = Some w -> snapshot w = Some snap ->
  nth_error (cells s) i = Some cur -> nth_error snap i = Some seen ->
  cur <> seen ->
  let s' := step s (Write j i) in
  cells s' = cells s /\ exists w', nth_error (ws s') j = Some w' /\ w_surprised w' = true.
Proof.
  intros Hw Hs Hc Hn Hne s'. subst s'.
  rewrite (step_write s j i w snap cur seen Hw Hs Hc Hn), (proj2 (N.eqb_neq _ _) Hne).
  split; [reflexivity|]. eexists. split; [exact (nth_error_upd_same _ _ _ _ _ Hw)|reflexivity].
Qed.

Lemma surprised_sticky_ok e s j w :
  nth_error (ws s) j = Some w -> w_surprised w = true ->
  exists w', nth_error (ws (step s e)) j = Some w' /\ w_surprised w' = true.
Proof.
  intros Hw Hs. destruct (step_cases s e); [eauto|..];
    apply (writer_upd (fun w => w_surprised w = true)) with w0; eauto.
Qed.
