(* The symbolic hash instance (free term algebra) satisfies the hypotheses of the
   hash-tree theorems; a concrete 5-leaf tree for the non-vacuity examples. *)
From Coq Require Import List ZArith Bool Lia.
From Verif Require Import Model.HashTree Proofs.HashTreeBase Proofs.HashTree Proofs.HashTreeBuild.
Import ListNotations.
Local Open Scope Z_scope.

Lemma sym_eqb_spec : forall a b, sym_eqb a b = true <-> a = b.
Proof.
  induction a as [x|x|a1 IH1 a2 IH2|x]; destruct b as [y|y|b1 b2|y]; cbn [sym_eqb];
    try (split; [discriminate|intros Hc; discriminate]);
    try (rewrite Z.eqb_eq; split; [intros ->; reflexivity|intros Hc; inversion Hc; reflexivity]).
  rewrite andb_true_iff, IH1, IH2. split; [intros [-> ->]; reflexivity|intros Hc; inversion Hc; auto].
Qed.

Lemma sym_pair_inj : forall a b c d, Pair a b = Pair c d -> a = c /\ b = d.
Proof. intros a b c d Hp. inversion Hp. auto. Qed.

Lemma sym_pair_truthy : forall a b, sym_truthy (Pair a b) = true.
Proof. reflexivity. Qed.

(* five leaves -> padded to 8, 15 nodes *)
Definition leaves5 : list sym := [Leaf 0; Leaf 1; Leaf 2; Leaf 3; Leaf 4].
Definition G5list : list sym := sym_hash_tree leaves5.
Definition G5 (j : Z) : sym := nth (Z.to_nat j) G5list (Junk 0).
Definition T5_root : sym_tree := Some (G5 0) :: repeat None 14.

Lemma G5_merkle : forall p, 0 <= p -> 2 * p + 2 < 15 -> G5 p = Pair (G5 (2 * p + 1)) (G5 (2 * p + 2)).
Proof. exact (proj2 (proj2 (proj2 (hash_tree_merkle sym Pair Pad leaves5 (Junk 0))))). Qed.

Lemma G5_truthy : forall j, 0 <= j < 15 -> sym_truthy (G5 j) = true.
Proof.
  intros j Hj. assert (Hall : forallb sym_truthy G5list = true) by reflexivity.
  rewrite forallb_forall in Hall. apply Hall. apply nth_In. change (length G5list) with 15%nat. lia.
Qed.

Lemma T5_root_genuine : genuine sym G5 T5_root.
Proof.
  intros j h Hj Hs. unfold slot, T5_root in Hs. destruct (Z.to_nat j) as [|k] eqn:E.
  - assert (j = 0) by lia. subst j. inversion Hs. reflexivity.
  - cbn [nth] in Hs. rewrite nth_repeat in Hs. discriminate.
Qed.

Lemma T5_root_closed : closed sym T5_root.
Proof.
  intros j Hj Hp. exfalso. apply Hp. unfold slot, T5_root.
  destruct (Z.to_nat j) as [|k] eqn:E; [lia|]. apply nth_repeat.
Qed.
