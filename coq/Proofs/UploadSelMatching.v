(* C06: the tie to C08.  A happiness value of at least `happy` on a servermap is a set of `happy` distinct
   servers holding distinct shares, each an edge of the map. *)
From Coq Require Import List NArith ZArith Bool.
From Verif Require Import Model.Matching Proofs.Matching Proofs.MatchingNetwork Proofs.MatchingFull Proofs.MatchingTotal
  Model.UploadSel Proofs.UploadSelBase.
Import ListNotations.
Local Open Scope N_scope.

(* C08: the happiness value of a sharemap is the size of a matching of its edges *)
Lemma happy_map_has_matching : forall (sm : dmap) (happy h : Z) (P : N -> N -> Prop),
  servers_of_happiness sm = Some h -> (happy <= h)%Z -> (forall s p, dm_in sm s p -> P p s) ->
  exists M : list (N * N),
    NoDup (map fst M) /\ NoDup (map snd M) /\ (happy <= Z.of_nat (length M))%Z /\
    forall p s, In (p, s) M -> P p s.
Proof.
  intros sm happy h P H Hh HP. destruct (servers_of_happiness_correct sm h H) as [Hpos [[M [[Me [M1 M2]] Ml]] _]].
  exists M. split; [exact M1|]. split; [exact M2|]. split; [rewrite Ml, Z2Nat.id; assumption|].
  intros p s Hin. apply HP, sm_edge_dm_in, shares_by_server_edges, Me. exact Hin.
Qed.

(* the happiness computation always returns (C08: termination), so the model is stuck only on a missing answer *)
Lemma happiness_total : forall st, exists h, happiness st = Some h.
Proof. intros st. unfold happiness. apply servers_of_happiness_total. Qed.
