(* Parsing and printing of capability strings (Model/Uri.v) are mutually
   inverse on every kind; the dispatch of from_string.  For each layer of the
   model (field, field sequence, regex, conversions, one class, from_string)
   `_sound` says what an accepted string looks like and `_complete` that every
   string of that shape is accepted. *)
From Coq Require Import String List NArith ZArith PeanoNat Bool Lia.
From Verif Require Import Lib.Hex Lib.Bytes Lib.ListFacts Lib.Decimal Lib.DecimalFacts Gen.Uri Model.UriBase32 Model.Uri Proofs.UriBase32.
Import ListNotations.
Local Open Scope N_scope.

Lemma strip_prefix_app p : forall s, strip_prefix p (p ++ s) = Some s.
Proof.
  induction p as [|x p IH]; intro s; cbn [strip_prefix app]; [reflexivity|].
  rewrite N.eqb_refl. apply IH.
Qed.

Lemma strip_prefix_some p : forall s r, strip_prefix p s = Some r -> s = p ++ r.
Proof.
  induction p as [|x p IH]; intros s r H; cbn [strip_prefix] in H.
  - injection H as <-. reflexivity.
  - destruct s as [|c s]; [discriminate|]. destruct (c =? x) eqn:E; [|discriminate].
    apply N.eqb_eq in E. subst. cbn [app]. f_equal. apply IH. exact H.
Qed.

Lemma starts_with_strip p s : starts_with p s = true -> exists t, strip_prefix p s = Some t /\ s = p ++ t.
Proof.
  unfold starts_with. destruct (strip_prefix p s) as [t|] eqn:E; [|discriminate].
  intros _. exists t. split; [reflexivity|apply strip_prefix_some; exact E].
Qed.

Lemma starts_with_false_strip p s : starts_with p s = false -> strip_prefix p s = None.
Proof. unfold starts_with. destruct (strip_prefix p s); [discriminate|reflexivity]. Qed.

Lemma starts_with_true p s : starts_with p s = true -> exists r, s = p ++ r.
Proof. intro H. destruct (starts_with_strip p s H) as (r & _ & E). exists r. exact E. Qed.

Lemma starts_with_app p s : starts_with p (p ++ s) = true.
Proof. unfold starts_with. rewrite strip_prefix_app. reflexivity. Qed.

Lemma span_spec f : forall s a b, span f s = (a, b) ->
  s = a ++ b /\ forallb f a = true /\ match b with [] => True | c :: _ => f c = false end.
Proof.
  induction s as [|c s IH]; intros a b H; cbn [span] in H.
  - injection H as <- <-. repeat split.
  - destruct (f c) eqn:E.
    + destruct (span f s) as [a' b'] eqn:Es. injection H as <- <-.
      destruct (IH a' b' eq_refl) as (H1 & H2 & H3). subst s. cbn [app forallb]. rewrite E, H2.
      repeat split; assumption.
    + injection H as <- <-. cbn. rewrite E. repeat split.
Qed.

Lemma span_app f : forall a b, forallb f a = true ->
  match b with [] => True | c :: _ => f c = false end -> span f (a ++ b) = (a, b).
Proof.
  induction a as [|c a IH]; intros b Ha Hb; cbn [app].
  - destruct b as [|c b]; cbn [span]; [reflexivity|]. rewrite Hb. reflexivity.
  - cbn [forallb] in Ha. apply andb_true_iff in Ha. destruct Ha as [Hc Ha].
    cbn [span]. rewrite Hc, (IH b Ha Hb). reflexivity.
Qed.

Lemma snoc_last (g : bytes) n : length g = S n -> g = firstn n g ++ [last g 0].
Proof.
  intro L. assert (Hne : g <> []) by (intros ->; discriminate L).
  destruct (exists_last Hne) as (l & x & ->). rewrite last_last.
  rewrite app_length, Nat.add_1_r in L. injection L as L.
  rewrite firstn_app_exact by exact L. reflexivity.
Qed.

Definition field_ok (f : field) (g : bytes) : Prop :=
  match f with
  | F128 => length g = 26%nat /\ b32_field_ok g
  | F256 => length g = 52%nat /\ b32_field_ok g
  | FNUM => canonical_dec g = true
  | FANY => b32_field_ok g
  end.

(* what may follow a field for the matcher to stop where the printer stopped *)
Definition stops (f : field) (rest : bytes) : Prop :=
  match f, rest with
  | _, [] => True
  | (F128 | F256), _ => True
  | FNUM, c :: _ => is_digit c = false
  | FANY, c :: _ => is_b32char c = false
  end.

Lemma match_b32_sound n cls s g r : match_b32 n cls s = Some (g, r) ->
  s = g ++ r /\ length g = S n /\ forallb is_b32char (firstn n g) = true /\ mem (last g 0) cls = true.
Proof.
  unfold match_b32. remember (S n) as m eqn:Em. intro H.
  destruct ((length (firstn m s) =? m)%nat && forallb is_b32char (firstn n (firstn m s))
            && mem (last (firstn m s) 0) cls) eqn:E; [|discriminate].
  injection H as <- <-. apply andb_true_iff in E. destruct E as [E E3]. apply andb_true_iff in E.
  destruct E as [E1 E2]. apply Nat.eqb_eq in E1.
  repeat split; try assumption. symmetry. apply firstn_skipn.
Qed.

Lemma match_b32_complete n cls g r : length g = S n -> forallb is_b32char g = true ->
  mem (last g 0) cls = true -> match_b32 n cls (g ++ r) = Some (g, r).
Proof.
  intros L C M. unfold match_b32. remember (S n) as m eqn:Em.
  rewrite firstn_app_exact by exact L. rewrite skipn_app_exact by exact L.
  rewrite L, Nat.eqb_refl, M, forallb_firstn by exact C. reflexivity.
Qed.

(* [C]{n}[last] spells a well-shaped field when S n is a length some octet
   count produces and `last` is the class of its pad count *)
Lemma fixed_field_ok n g : length g = S n -> (pad_of (S n) <=? 4)%nat = true ->
  forallb is_b32char (firstn n g) = true -> mem (last g 0) (cls_pad (pad_of (S n))) = true -> b32_field_ok g.
Proof.
  intros L P C M. rewrite <- L in P, M. apply b32_field_intro; [|apply Nat.leb_le, P|intros _; exact M].
  rewrite (snoc_last g n L), forallb_app, C. cbn [forallb andb].
  rewrite (cls_pad_alphabet _ _ M). reflexivity.
Qed.

(* the tail alternatives of BASE32STR_anybytes, by length mod 8, are the pad classes *)
Lemma anybytes_tail_spec g :
  anybytes_tail_ok g = (pad_of (length g) <=? 4)%nat
                       && ((pad_of (length g) =? 0)%nat || mem (last g 0) (cls_pad (pad_of (length g)))).
Proof.
  unfold anybytes_tail_ok. rewrite <- (pad_of_mod8 (length g)).
  pose proof (Nat.mod_upper_bound (length g) 8 ltac:(discriminate)) as B.
  destruct (length g mod 8)%nat as [|[|[|[|[|[|[|[|r]]]]]]]]; try reflexivity. exfalso. clear -B. lia.
Qed.

Lemma field_ok_anybytes g : b32_field_ok g <-> forallb is_b32char g = true /\ anybytes_tail_ok g = true.
Proof.
  unfold b32_field_ok. rewrite anybytes_tail_spec, legit_iff, andb_true_iff, orb_true_iff, Nat.leb_le, Nat.eqb_eq.
  tauto.
Qed.

Lemma match_field_sound f s g r : match_field f s = Some (g, r) -> s = g ++ r /\ field_ok f g.
Proof.
  destruct f; cbn [match_field field_ok]; intro H.
  1,2: apply match_b32_sound in H; destruct H as (E & L & C & M); split; [exact E|]; split; [exact L|];
    exact (fixed_field_ok _ g L eq_refl C M).
  - unfold match_number in H. destruct (span is_digit s) as [d r'] eqn:Es.
    destruct (canonical_dec d) eqn:Ec; [|discriminate]. injection H as <- <-.
    apply span_spec in Es. destruct Es as (E & _ & _). split; assumption.
  - unfold match_anybytes in H. destruct (span is_b32char s) as [d r'] eqn:Es.
    destruct (anybytes_tail_ok d) eqn:Ec; [|discriminate]. injection H as <- <-.
    apply span_spec in Es. destruct Es as (E & C & _). split; [exact E|].
    apply field_ok_anybytes. split; assumption.
Qed.

Lemma match_field_complete f g r : field_ok f g -> stops f r -> match_field f (g ++ r) = Some (g, r).
Proof.
  destruct f; cbn [match_field field_ok]; intros H S.
  1,2: destruct H as [L H]; pose proof (field_ok_last g H) as M; rewrite L in M;
    apply match_b32_complete; [exact L|apply H|apply M; intros ->; discriminate L].
  - unfold match_number. apply canonical_dec_spec in H as H'. destruct H' as (_ & D & _).
    rewrite (span_app is_digit g r D); [rewrite H; reflexivity|].
    destruct r; [exact I|exact S].
  - unfold match_anybytes. apply field_ok_anybytes in H. destruct H as [C T].
    rewrite (span_app is_b32char g r C); [rewrite T; reflexivity|].
    destruct r; [exact I|exact S].
Qed.

Fixpoint last_stops (fs : list field) (rest : bytes) : Prop :=
  match fs with
  | [] => True
  | [f] => stops f rest
  | _ :: fs' => last_stops fs' rest
  end.

Lemma stops_colon f r : stops f (colon :: r).
Proof. destruct f; cbn; try exact I; reflexivity. Qed.

Lemma join_colon_cons g g' gs : join_colon (g :: g' :: gs) = g ++ colon :: join_colon (g' :: gs).
Proof. reflexivity. Qed.

Lemma match_fields_sound : forall fs s gs rest, match_fields fs s = Some (gs, rest) ->
  s = join_colon gs ++ rest /\ Forall2 field_ok fs gs.
Proof.
  induction fs as [|f fs IH]; intros s gs rest H; cbn [match_fields] in H.
  - injection H as <- <-. split; [reflexivity|constructor].
  - destruct (match_field f s) as [[g r]|] eqn:Ef; [|discriminate].
    apply match_field_sound in Ef. destruct Ef as [Es Hg].
    destruct fs as [|f' fs'].
    + injection H as <- <-. split; [exact Es|]. constructor; [exact Hg|constructor].
    + destruct r as [|c r']; [discriminate|]. destruct (c =? colon) eqn:Ec; [|discriminate].
      apply N.eqb_eq in Ec. subst c.
      destruct (match_fields (f' :: fs') r') as [[gs' r'']|] eqn:Er; [|discriminate].
      injection H as Hgs Hrest. subst gs rest. destruct (IH r' gs' r'' Er) as [E2 F2].
      split; [|constructor; assumption].
      inversion F2 as [|f0 g' fs0 gs'' Hg' F2' Ef0 Egs']; subst gs'.
      rewrite join_colon_cons, Es, <- app_assoc. cbn [app]. f_equal. f_equal. exact E2.
Qed.

Lemma match_fields_cons2 f f' fs s :
  match_fields (f :: f' :: fs) s =
  match match_field f s with
  | None => None
  | Some (g, r) =>
    match r with
    | c :: r' => if c =? colon then
                   match match_fields (f' :: fs) r' with
                   | Some (gs, r'') => Some (g :: gs, r'')
                   | None => None
                   end
                 else None
    | [] => None
    end
  end.
Proof. reflexivity. Qed.

Lemma match_fields_complete : forall fs gs rest, Forall2 field_ok fs gs -> last_stops fs rest ->
  match_fields fs (join_colon gs ++ rest) = Some (gs, rest).
Proof.
  induction fs as [|f fs IH]; intros gs rest F S; inversion F as [|f0 g fs0 gs' Hg F' E1 E2]; subst.
  - reflexivity.
  - destruct fs as [|f' fs'].
    + inversion F'; subst. cbn [join_colon match_fields].
      rewrite match_field_complete by assumption. reflexivity.
    + inversion F' as [|f1 g' fs1 gs'' Hg' F'' E3 E4]; subst.
      rewrite match_fields_cons2, join_colon_cons, <- app_assoc. cbn [app].
      rewrite match_field_complete; [|exact Hg|apply stops_colon].
      rewrite N.eqb_refl. rewrite (IH (g' :: gs'') rest F' S). reflexivity.
Qed.

Lemma last_stops_nil fs : last_stops fs [].
Proof.
  induction fs as [|f fs IH]; [exact I|]. destruct fs as [|f' fs']; [destruct f; exact I|exact IH].
Qed.

Lemma in_join_length g : forall gs, In g gs -> (length g <= length (join_colon gs))%nat.
Proof.
  induction gs as [|a gs IH]; intro H; [contradiction|].
  destruct gs as [|b gs'].
  - destruct H as [->|[]]. cbn [join_colon]. lia.
  - change (join_colon (a :: b :: gs')) with (a ++ colon :: join_colon (b :: gs')).
    rewrite app_length. cbn [length]. destruct H as [->|H]; [lia|]. specialize (IH H). lia.
Qed.

Definition ext_ok (k : fkind) (ext : bytes) : Prop :=
  ext = [] \/ (ending_of_kind k = EndColonOrZ /\ exists e, ext = colon :: e).

Lemma end_ok_ext k ext : end_ok (ending_of_kind k) ext = true <-> ext_ok k ext.
Proof.
  unfold ext_ok. destruct ext as [|c e]; [destruct (ending_of_kind k); cbn; tauto|].
  destruct (ending_of_kind k); cbn [end_ok]; split.
  - discriminate.
  - intros [H|[H _]]; discriminate.
  - intro H. apply N.eqb_eq in H. subst. right. split; [reflexivity|eexists; reflexivity].
  - intros [H|[_ [e' H]]]; [discriminate|]. injection H as -> _. apply N.eqb_refl.
Qed.

Lemma regex_match_sound k s gs : regex_match k s = Some gs ->
  exists ext, s = file_prefix k ++ join_colon gs ++ ext /\ Forall2 field_ok (fields_of_kind k) gs /\ ext_ok k ext.
Proof.
  unfold regex_match. destruct (strip_prefix (file_prefix k) s) as [r|] eqn:Ep; [|discriminate].
  destruct (match_fields (fields_of_kind k) r) as [[gs' rest]|] eqn:Em; [|discriminate].
  destruct (end_ok (ending_of_kind k) rest) eqn:Ee; [|discriminate]. intro H. injection H as <-.
  apply strip_prefix_some in Ep. apply match_fields_sound in Em. destruct Em as [Er F].
  exists rest. subst. repeat split; [exact F|apply end_ok_ext; exact Ee].
Qed.

Lemma regex_match_complete k gs ext : Forall2 field_ok (fields_of_kind k) gs -> ext_ok k ext ->
  regex_match k (file_prefix k ++ join_colon gs ++ ext) = Some gs.
Proof.
  intros F E. unfold regex_match. rewrite strip_prefix_app.
  rewrite match_fields_complete; [|exact F|].
  - apply end_ok_ext in E. rewrite E. reflexivity.
  - (* only kinds whose last field has a fixed width take an extension *)
    destruct E as [->|[Hk [e ->]]]; [apply last_stops_nil|].
    destruct k; try discriminate Hk; exact I.
Qed.

Lemma a2b_checked_ok g : b32_field_ok g -> a2b_checked g = Some (a2b g).
Proof. intro H. unfold a2b_checked. rewrite field_ok_could_be by exact H. reflexivity. Qed.

Lemma py_int_canonical g : canonical_dec g = true ->
  (py_int g = None /\ (int_max_str_digits < length g)%nat)
  \/ (exists n, py_int g = Some n /\ dec n = g /\ wf_num n = true).
Proof.
  intro H. unfold py_int. destruct (int_max_str_digits <? length g)%nat eqn:E.
  - left. apply Nat.ltb_lt in E. split; [reflexivity|exact E].
  - right. destruct (canonical_dec_inv g H) as (n & Hu & Hd). exists n.
    repeat split; [exact Hu|exact Hd|]. unfold wf_num. rewrite Hd. apply Nat.leb_le, Nat.ltb_ge, E.
Qed.

Lemma py_int_dec n : wf_num n = true -> py_int (dec n) = Some n.
Proof.
  intro H. unfold py_int. apply Nat.leb_le, Nat.ltb_ge in H. rewrite H. apply undec_dec.
Qed.

(* wf_key and wf_hash are this with n = 16 and 32; num_quintets gives 26 and 52 *)
Lemma wf_octets n a : ((length a =? n)%nat && wf_bytes a)%bool = true -> length a = n /\ wf_bytes a = true.
Proof. intro H. apply andb_true_iff in H. destruct H as [L B]. apply Nat.eqb_eq in L. split; assumption. Qed.

Lemma octets_field n a : ((length a =? n)%nat && wf_bytes a)%bool = true ->
  length (b2a a) = num_quintets n /\ b32_field_ok (b2a a).
Proof.
  intro H. destruct (wf_octets n a H) as [L B]. rewrite b2a_length, L. split; [reflexivity|apply b2a_field_ok, B].
Qed.

Lemma field_octets n g : length g = num_quintets n -> ((length (a2b g) =? n)%nat && wf_bytes (a2b g))%bool = true.
Proof.
  intro L. unfold wf_bytes. rewrite a2b_length, L, octets_of_quintets, Nat.eqb_refl, a2b_bytes_ok. reflexivity.
Qed.

Lemma a2b_checked_b2a a : wf_bytes a = true -> a2b_checked (b2a a) = Some a.
Proof. intro H. rewrite (a2b_checked_ok _ (b2a_field_ok a H)), (a2b_b2a a H). reflexivity. Qed.

(* the fields a well-formed cap prints, one lemma per field format *)
Lemma key_field a : wf_key a = true -> field_ok F128 (b2a a).
Proof. exact (octets_field 16 a). Qed.

Lemma hash_field a : wf_hash a = true -> field_ok F256 (b2a a).
Proof. exact (octets_field 32 a). Qed.

Lemma num_field n : field_ok FNUM (dec n).
Proof. apply canonical_dec_dec. Qed.

Lemma any_field a : wf_bytes a = true -> field_ok FANY (b2a a).
Proof. apply b2a_field_ok. Qed.

Lemma wf_key_bytes a : wf_key a = true -> wf_bytes a = true.
Proof. intro H. apply (wf_octets 16 a H). Qed.

Lemma wf_hash_bytes a : wf_hash a = true -> wf_bytes a = true.
Proof. intro H. apply (wf_octets 32 a H). Qed.

Lemma groups_fields_ok f : wf_filecap f = true -> Forall2 field_ok (fields_of_kind (kind_of f)) (groups_of f).
Proof.
  destruct f; cbn [wf_filecap kind_of fields_of_kind groups_of]; intro H; rewrite ?andb_true_iff in H; decompose [and] H;
    repeat apply Forall2_cons; try apply Forall2_nil; auto using key_field, hash_field, num_field, any_field.
Qed.

(* every group converts back to the value it was printed from *)
Lemma build_complete f : wf_filecap f = true -> build (kind_of f) (groups_of f) = PKnown f.
Proof.
  destruct f; cbn [wf_filecap kind_of groups_of build]; intro H; rewrite ?andb_true_iff in H; decompose [and] H;
    rewrite !a2b_checked_b2a, ?py_int_dec by auto using wf_key_bytes, wf_hash_bytes; reflexivity.
Qed.

Ltac inv_forall2 :=
  repeat match goal with
         | H : Forall2 _ (_ :: _) _ |- _ => inversion H; clear H; subst
         | H : Forall2 _ [] _ |- _ => inversion H; clear H; subst
         end.

(* the conversions succeed on what the regex accepted, or raise ValueError for
   an over-long numeral; never the a2b precondition *)
Lemma build_sound k gs : Forall2 field_ok (fields_of_kind k) gs ->
  (exists f, build k gs = PKnown f /\ kind_of f = k /\ groups_of f = gs /\ wf_filecap f = true)
  \/ (build k gs = PValueError /\ exists g, In g gs /\ canonical_dec g = true /\ (int_max_str_digits < length g)%nat).
Proof.
  intro F.
  destruct k; cbn [fields_of_kind] in F; inv_forall2; cbn [field_ok] in *;
    repeat match goal with H : _ /\ _ |- _ => destruct H end; cbn [build];
    rewrite !a2b_checked_ok by assumption.
  (* the numerals of the CHK kinds, left to right *)
  1,2: repeat match goal with
         | H : canonical_dec ?g = true |- context [py_int ?g] =>
           destruct (py_int_canonical g H) as [[-> ?]|(? & -> & <- & ?)];
             [right; split; [reflexivity|exists g; split; [cbn; tauto|split; assumption]]|]
         end.
  (* what is built prints the groups again (b2a_a2b) and is well-formed (field_octets) *)
  all: left; eexists; split; [reflexivity|]; cbn [kind_of groups_of wf_filecap];
    rewrite !b2a_a2b by assumption; repeat split;
    unfold wf_key, wf_hash; rewrite ?(field_octets 16), ?(field_octets 32) by assumption;
    rewrite ?a2b_bytes_ok; repeat match goal with H : wf_num _ = true |- _ => rewrite H; clear H end; reflexivity.
Qed.

Lemma init_from_string_sound k s f : init_from_string k s = PKnown f ->
  kind_of f = k /\ wf_filecap f = true /\ exists ext, s = file_to_string f ++ ext /\ ext_ok k ext.
Proof.
  unfold init_from_string. destruct (regex_match k s) as [gs|] eqn:E; [|discriminate].
  intro H. apply regex_match_sound in E. destruct E as (ext & Es & F & X).
  destruct (build_sound k gs F) as [(f' & Hb & Hk & Hg & Hw)|[Hb _]]; rewrite Hb in H; [|discriminate].
  injection H as <-. repeat split; try assumption. exists ext. split; [|exact X].
  unfold file_to_string, file_body. rewrite Hk, Hg, <- app_assoc. exact Es.
Qed.

Lemma init_from_string_complete f ext : wf_filecap f = true -> ext_ok (kind_of f) ext ->
  init_from_string (kind_of f) (file_to_string f ++ ext) = PKnown f.
Proof.
  intros W X. unfold init_from_string, file_to_string, file_body. rewrite <- app_assoc.
  rewrite regex_match_complete; [|apply groups_fields_ok; exact W|exact X].
  apply build_complete. exact W.
Qed.

Lemma init_from_string_no_assertion k s : init_from_string k s <> PAssertion.
Proof.
  unfold init_from_string. destruct (regex_match k s) as [gs|] eqn:E; [|discriminate].
  apply regex_match_sound in E. destruct E as (ext & _ & F & _).
  destruct (build_sound k gs F) as [(f' & -> & _)|[-> _]]; discriminate.
Qed.

Lemma init_from_string_value_error k bits : init_from_string k (file_prefix k ++ bits) = PValueError ->
  exists g, canonical_dec g = true /\ (int_max_str_digits < length g)%nat /\ (length g <= length bits)%nat.
Proof.
  unfold init_from_string. destruct (regex_match k (file_prefix k ++ bits)) as [gs|] eqn:Er; [|discriminate].
  apply regex_match_sound in Er. destruct Er as (ext & Es & F & _). apply app_inv_head in Es.
  destruct (build_sound k gs F) as [(f' & -> & _)|(_ & g & Hin & Hc & Hl)]; [discriminate|]. intros _.
  exists g. repeat split; [exact Hc|exact Hl|].
  pose proof (in_join_length g gs Hin). subst bits. rewrite app_length. lia.
Qed.

Lemma dir_to_string_opt_eq f : dir_to_string_opt f = Some (dir_prefix (kind_of f) ++ file_body f).
Proof. unfold dir_to_string_opt, file_to_string. rewrite strip_prefix_app. reflexivity. Qed.

Lemma dir_to_string_eq f : dir_to_string f = dir_prefix (kind_of f) ++ file_body f.
Proof. unfold dir_to_string. rewrite dir_to_string_opt_eq. reflexivity. Qed.

Lemma dir_to_string_opt_some f : dir_to_string_opt f = Some (dir_to_string f).
Proof. rewrite dir_to_string_eq. apply dir_to_string_opt_eq. Qed.

Lemma to_string_prefix dir f : to_string (mk_cap dir f) = cap_prefix dir (kind_of f) ++ file_body f.
Proof. destruct dir; cbn [mk_cap to_string]; [apply dir_to_string_eq|reflexivity]. Qed.

Lemma inner_mk_cap dir f : inner (mk_cap dir f) = Some f.
Proof. destruct dir; reflexivity. Qed.

Lemma wf_cap_mk c : wf_cap c = true -> exists dir f, c = mk_cap dir f /\ wf_filecap f = true.
Proof. destruct c as [f|f|s e]; [exists false, f|exists true, f|discriminate]; split; auto. Qed.

(* files and directories parse alike: strip the class's own prefix and give the
   file class's prefix with the rest to the file class's parser *)
Lemma cap_init_eq dir k s :
  cap_init_from_string dir k s =
  match strip_prefix (cap_prefix dir k) s with
  | Some bits => init_from_string k (file_prefix k ++ bits)
  | None => PBad
  end.
Proof.
  destruct dir; [reflexivity|]. cbn [cap_init_from_string]. change (cap_prefix false k) with (file_prefix k).
  destruct (strip_prefix (file_prefix k) s) as [bits|] eqn:E.
  - apply strip_prefix_some in E. rewrite E. reflexivity.
  - unfold init_from_string, regex_match. rewrite E. reflexivity.
Qed.

Lemma cap_init_sound dir k s f : cap_init_from_string dir k s = PKnown f ->
  kind_of f = k /\ wf_filecap f = true /\ exists ext, s = to_string (mk_cap dir f) ++ ext /\ ext_ok k ext.
Proof.
  rewrite cap_init_eq. destruct (strip_prefix (cap_prefix dir k) s) as [bits|] eqn:E; [|discriminate].
  apply strip_prefix_some in E. intro H. apply init_from_string_sound in H.
  destruct H as (Hk & Hw & ext & Hs & X). repeat split; try assumption. exists ext. split; [|exact X].
  unfold file_to_string in Hs. rewrite Hk, <- app_assoc in Hs. apply app_inv_head in Hs.
  rewrite E, Hs, to_string_prefix, Hk, app_assoc. reflexivity.
Qed.

Lemma cap_init_complete dir f ext : wf_filecap f = true -> ext_ok (kind_of f) ext ->
  cap_init_from_string dir (kind_of f) (to_string (mk_cap dir f) ++ ext) = PKnown f.
Proof.
  intros W X. rewrite cap_init_eq, to_string_prefix, <- app_assoc, strip_prefix_app, app_assoc.
  exact (init_from_string_complete f ext W X).
Qed.

Lemma cap_init_no_assertion dir k s : cap_init_from_string dir k s <> PAssertion.
Proof.
  rewrite cap_init_eq. destruct (strip_prefix (cap_prefix dir k) s); [apply init_from_string_no_assertion|discriminate].
Qed.

Lemma cap_init_prefix dir k s : cap_init_from_string dir k s <> PBad -> exists r, s = cap_prefix dir k ++ r.
Proof.
  rewrite cap_init_eq. destruct (strip_prefix (cap_prefix dir k) s) as [bits|] eqn:E.
  - intros _. exists bits. apply strip_prefix_some, E.
  - intro H. exfalso. apply H. reflexivity.
Qed.

Lemma cap_init_value_error dir k s : cap_init_from_string dir k s = PValueError ->
  exists g, canonical_dec g = true /\ (int_max_str_digits < length g)%nat /\ (length g <= length s)%nat.
Proof.
  rewrite cap_init_eq. destruct (strip_prefix (cap_prefix dir k) s) as [bits|] eqn:E; [|discriminate].
  apply strip_prefix_some in E. intro H.
  destruct (init_from_string_value_error k bits H) as (g & Hc & Hl & Hb).
  exists g. rewrite E, app_length. repeat split; [exact Hc|exact Hl|lia].
Qed.

Definition entry_eqb (a b : bool * fkind * guard) : bool :=
  let '(d1, k1, _) := a in let '(d2, k2, _) := b in Bool.eqb d1 d2 && fkind_eqb k1 k2.

Definition prefixes_pairwise_non_prefixing : bool :=
  forallb (fun a => forallb (fun b => entry_eqb a b || negb (starts_with (entry_prefix a) (entry_prefix b))) dispatch) dispatch.

Lemma fkind_eqb_eq a b : fkind_eqb a b = true -> a = b.
Proof. destruct a, b; cbn; congruence. Qed.

Lemma starts_with_app_l p q r : starts_with p (q ++ r) = true -> starts_with q (p ++ []) = true \/ starts_with p q = true.
Proof.
  revert q. induction p as [|x p IH]; intros q H.
  - right. reflexivity.
  - destruct q as [|y q].
    + left. reflexivity.
    + unfold starts_with in *. cbn [strip_prefix app] in *. destruct (y =? x) eqn:E; [|discriminate].
      apply N.eqb_eq in E. subst. rewrite N.eqb_refl. apply IH. exact H.
Qed.

(* the if/elif chain reaches the entry of the prefix the string starts with *)
Lemma dispatch_find dir k rest : exists g,
  find (fun e => starts_with (entry_prefix e) (cap_prefix dir k ++ rest)) dispatch = Some (dir, k, g).
Proof. destruct dir, k; vm_compute; eexists; reflexivity. Qed.

Lemma dispatch_guard_of dir k : exists g, In (dir, k, g) dispatch.
Proof. destruct (dispatch_find dir k []) as [g E]. exists g. apply find_some in E. apply E. Qed.

Theorem dispatch_prefix_unique s dir k dir' k' r r' :
  s = cap_prefix dir k ++ r -> s = cap_prefix dir' k' ++ r' -> dir = dir' /\ k = k'.
Proof.
  intros -> E. destruct (dispatch_find dir k r) as [g Ef], (dispatch_find dir' k' r') as [g' Ef'].
  rewrite E, Ef' in Ef. injection Ef as -> -> _. split; reflexivity.
Qed.

Lemma alleged_none dir k rest :
  strip_prefix imm_prefix (cap_prefix dir k ++ rest) = None /\ strip_prefix ro_prefix (cap_prefix dir k ++ rest) = None.
Proof. destruct dir, k; vm_compute; split; reflexivity. Qed.

(* which entries can produce writeable / mutable caps *)
Lemma dispatch_guards : forall dir k g, In (dir, k, g) dispatch ->
  (is_readonly_k k = false -> g = GWriteable) /\ (is_mutable_k k = true -> g = GWriteable \/ g = GMutable).
Proof.
  intros dir k g H. cbn in H.
  repeat (destruct H as [H|H]; [injection H as <- <- <-; cbn; split; intro; try discriminate; auto|]).
  contradiction.
Qed.

Lemma strip_alleged_spec di u cbm cbw s : strip_alleged di u = (cbm, cbw, s) ->
  (u = imm_prefix ++ s /\ cbm = false /\ cbw = false)
  \/ (u = ro_prefix ++ s /\ cbm = negb di /\ cbw = false /\ strip_prefix imm_prefix u = None)
  \/ (u = s /\ cbm = negb di /\ cbw = negb di /\ strip_prefix imm_prefix u = None /\ strip_prefix ro_prefix u = None).
Proof.
  unfold strip_alleged. destruct (strip_prefix imm_prefix u) as [a|] eqn:E1.
  - intro H. injection H as <- <- <-. left. apply strip_prefix_some in E1. auto.
  - destruct (strip_prefix ro_prefix u) as [a|] eqn:E2; intro H; injection H as <- <- <-.
    + right; left. apply strip_prefix_some in E2. auto.
    + right; right. auto.
Qed.

(* how from_string reports what the chosen class's parser answered *)
Definition lift (u : bytes) (dir : bool) (p : parsed) : outcome :=
  match p with
  | PKnown f => Ok (mk_cap dir f)
  | PBad => Ok (CUnknown u EBadURI)
  | PValueError => RaisesValueError
  | PAssertion => RaisesAssertion
  end.

(* the branch of from_string taken once a dispatch entry is found *)
Lemma from_string_dispatch di u cbm cbw s dir k g : strip_alleged di u = (cbm, cbw, s) ->
  find (fun e => starts_with (entry_prefix e) s) dispatch = Some (dir, k, g) ->
  from_string di u = if guard_ok g cbm cbw then lift u dir (cap_init_from_string dir k s)
                     else Ok (CUnknown u (constraint_error cbm)).
Proof.
  intros Ea Ef. unfold from_string. rewrite Ea, Ef.
  destruct (guard_ok g cbm cbw); [destruct (cap_init_from_string dir k s)|]; reflexivity.
Qed.

(* from_string either wraps the string it was given as an UnknownURI, or hands
   the prefix-stripped string to the parser of a dispatch entry the context allows *)
Lemma from_string_cases di u cbm cbw s : strip_alleged di u = (cbm, cbw, s) ->
  (exists e, from_string di u = Ok (CUnknown u e))
  \/ (exists dir k g, In (dir, k, g) dispatch /\ guard_ok g cbm cbw = true
                      /\ from_string di u = lift u dir (cap_init_from_string dir k s)).
Proof.
  intro Ea. destruct (find (fun e => starts_with (entry_prefix e) s) dispatch) as [[[dir k] g]|] eqn:Ef.
  - rewrite (from_string_dispatch _ _ _ _ _ _ _ _ Ea Ef).
    destruct (guard_ok g cbm cbw) eqn:G; [right|left; eexists; reflexivity].
    exists dir, k, g. apply find_some in Ef. destruct Ef as [Hin _]. auto.
  - left. unfold from_string. rewrite Ea, Ef.
    destruct ((starts_with future_writeable s && negb cbw) || (starts_with future_mutable s && negb cbm))%bool;
      eexists; reflexivity.
Qed.

Lemma from_string_known di u c cbm cbw s : strip_alleged di u = (cbm, cbw, s) ->
  from_string di u = Ok c -> known c = true ->
  exists dir f g ext,
    c = mk_cap dir f /\ In (dir, kind_of f, g) dispatch /\ guard_ok g cbm cbw = true /\ wf_filecap f = true
    /\ s = to_string c ++ ext /\ ext_ok (kind_of f) ext.
Proof.
  intros Ea H K. destruct (from_string_cases di u cbm cbw s Ea) as [[e E]|(dir & k & g & Hin & G & E)]; rewrite E in H.
  - injection H as <-. discriminate K.
  - destruct (cap_init_from_string dir k s) as [f| | |] eqn:Ei; try discriminate H;
      injection H as <-; [|discriminate K].
    apply cap_init_sound in Ei. destruct Ei as (<- & Hw & ext & Hs & X).
    exists dir, f, g, ext. repeat split; assumption.
Qed.

Lemma is_mdmf_ext c ext : known c = true ->
  (ext = [] \/ (is_mdmf c = true /\ exists e, ext = colon :: e))
  <-> match inner c with Some f => ext_ok (kind_of f) ext | None => False end.
Proof.
  unfold is_mdmf, ext_ok. destruct c as [f|f|x e]; [| |discriminate]; intros _; cbn [inner];
    destruct (ending_of_kind (kind_of f)); intuition congruence.
Qed.

Theorem from_string_complete c ext : wf_cap c = true ->
  (ext = [] \/ (is_mdmf c = true /\ exists e, ext = colon :: e)) ->
  from_string false (to_string c ++ ext) = Ok c.
Proof.
  intros W X. destruct (wf_cap_mk c W) as (dir & f & -> & Wf).
  apply is_mdmf_ext in X; [|destruct dir; reflexivity]. rewrite inner_mk_cap in X.
  unfold from_string, strip_alleged. rewrite to_string_prefix, <- app_assoc.
  destruct (alleged_none dir (kind_of f) (file_body f ++ ext)) as [-> ->].
  destruct (dispatch_find dir (kind_of f) (file_body f ++ ext)) as [g ->].
  assert (G : guard_ok g (negb false) (negb false) = true) by (destruct g; reflexivity). rewrite G.
  rewrite app_assoc, <- to_string_prefix, cap_init_complete by assumption. reflexivity.
Qed.

Theorem from_string_parse_print di u c : from_string di u = Ok c -> known c = true ->
  wf_cap c = true /\
  exists pre ext, In pre alleged_prefixes /\ u = pre ++ to_string c ++ ext
                  /\ (ext = [] \/ (is_mdmf c = true /\ exists e, ext = colon :: e)).
Proof.
  intros H K. destruct (strip_alleged di u) as [[cbm cbw] s] eqn:Ea.
  destruct (from_string_known di u c cbm cbw s Ea H K) as (dir & f & g & ext & Ec & _ & _ & Wf & Hs & X).
  split; [subst c; destruct dir; exact Wf|].
  assert (M : ext = [] \/ (is_mdmf c = true /\ exists e, ext = colon :: e)).
  { apply (is_mdmf_ext c ext K). subst c. rewrite inner_mk_cap. exact X. }
  apply strip_alleged_spec in Ea. unfold alleged_prefixes.
  destruct Ea as [(Eu & _)|[(Eu & _)|(Eu & _)]]; subst u s.
  - exists imm_prefix, ext. cbn; auto.
  - exists ro_prefix, ext. cbn; auto.
  - exists [], ext. cbn; auto.
Qed.

Theorem from_string_unknown_keeps_string di u s e : from_string di u = Ok (CUnknown s e) -> s = u.
Proof.
  destruct (strip_alleged di u) as [[cbm cbw] s'] eqn:Ea.
  destruct (from_string_cases di u cbm cbw s' Ea) as [[e' ->]|(dir & k & g & _ & _ & ->)].
  - intro H. injection H as <- _. reflexivity.
  - destruct (cap_init_from_string dir k s'); cbn [lift]; intro H; try discriminate H.
    + destruct dir; discriminate H.
    + injection H as <- _. reflexivity.
Qed.

Theorem from_string_no_assertion di u : from_string di u <> RaisesAssertion.
Proof.
  destruct (strip_alleged di u) as [[cbm cbw] s] eqn:Ea.
  destruct (from_string_cases di u cbm cbw s Ea) as [[e ->]|(dir & k & g & _ & _ & ->)]; [discriminate|].
  pose proof (cap_init_no_assertion dir k s) as N.
  destruct (cap_init_from_string dir k s); try discriminate. contradiction.
Qed.

Theorem from_string_value_error di u : from_string di u = RaisesValueError ->
  exists g, canonical_dec g = true /\ (int_max_str_digits < length g)%nat /\ (length g <= length u)%nat.
Proof.
  destruct (strip_alleged di u) as [[cbm cbw] s] eqn:Ea.
  destruct (from_string_cases di u cbm cbw s Ea) as [[e ->]|(dir & k & g & _ & _ & ->)]; [discriminate|].
  destruct (cap_init_from_string dir k s) eqn:Ei; try discriminate. intros _.
  destruct (cap_init_value_error dir k s Ei) as (g0 & Hc & Hl & Hs). exists g0. repeat split; [exact Hc|exact Hl|].
  apply strip_alleged_spec in Ea. destruct Ea as [(-> & _)|[(-> & _)|(-> & _)]]; rewrite ?app_length; lia.
Qed.

Theorem from_string_never_misread di u cbm cbw s dir k f :
  strip_alleged di u = (cbm, cbw, s) -> cap_init_from_string dir k s = PKnown f ->
  exists g, In (dir, k, g) dispatch /\
            from_string di u = if guard_ok g cbm cbw then Ok (mk_cap dir f) else Ok (CUnknown u (constraint_error cbm)).
Proof.
  intros Ea Ei. assert (Hp : cap_init_from_string dir k s <> PBad) by (rewrite Ei; discriminate).
  apply cap_init_prefix in Hp. destruct Hp as [r Hs].
  destruct (dispatch_find dir k r) as [g Ef]. rewrite <- Hs in Ef.
  exists g. split; [apply find_some in Ef; apply Ef|].
  rewrite (from_string_dispatch _ _ _ _ _ _ _ _ Ea Ef), Ei. reflexivity.
Qed.

Theorem from_string_known_by_own_parser di u c : from_string di u = Ok c -> known c = true ->
  exists cbm cbw s dir f, strip_alleged di u = (cbm, cbw, s) /\ c = mk_cap dir f
                          /\ cap_init_from_string dir (kind_of f) s = PKnown f.
Proof.
  intros H K. destruct (strip_alleged di u) as [[cbm cbw] s] eqn:Ea.
  destruct (from_string_known di u c cbm cbw s Ea H K) as (dir & f & g & ext & -> & _ & _ & Wf & -> & X).
  exists cbm, cbw, (to_string (mk_cap dir f) ++ ext), dir, f. repeat split. apply cap_init_complete; assumption.
Qed.

Theorem to_string_injective c1 c2 : wf_cap c1 = true -> wf_cap c2 = true -> to_string c1 = to_string c2 -> c1 = c2.
Proof.
  intros W1 W2 E. pose proof (from_string_complete c1 [] W1 (or_introl eq_refl)) as P1.
  pose proof (from_string_complete c2 [] W2 (or_introl eq_refl)) as P2.
  rewrite E in P1. rewrite P1 in P2. injection P2 as ->. reflexivity.
Qed.

(* known caps of different kinds never print the same string (no well-formedness needed) *)
Lemma to_string_kind dir1 f1 dir2 f2 : to_string (mk_cap dir1 f1) = to_string (mk_cap dir2 f2) ->
  dir1 = dir2 /\ kind_of f1 = kind_of f2.
Proof.
  intro E. rewrite !to_string_prefix in E.
  exact (dispatch_prefix_unique _ _ _ _ _ _ _ eq_refl E).
Qed.

Theorem from_string_parse_print_exact di u c : from_string di u = Ok c -> known c = true ->
  is_mdmf c = false -> starts_with ro_prefix u = false -> starts_with imm_prefix u = false -> to_string c = u.
Proof.
  intros H K M R I. destruct (from_string_parse_print di u c H K) as (_ & pre & ext & Hin & -> & X).
  destruct X as [->|[X _]]; [|congruence]. rewrite app_nil_r in *.
  destruct Hin as [<-|[<-|[<-|[]]]]; [reflexivity| |].
  - rewrite starts_with_app in R. discriminate.
  - rewrite starts_with_app in I. discriminate.
Qed.
