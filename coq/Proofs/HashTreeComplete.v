(* Completeness of IncompleteHashTree.set_hashes: the genuine values for
   needed_hashes(leaf, include_leaf=True) are accepted in every order. *)
From Coq Require Import List ZArith Bool Lia.
From Verif Require Import Model.HashTree Proofs.HashTreeBase Proofs.HashTree.
Import ListNotations.
Local Open Scope Z_scope.

(* ancestors-or-self of a node *)
Inductive anc (leaf : Z) : Z -> Prop :=
| anc_self : anc leaf leaf
| anc_up : forall y, anc leaf y -> 1 <= y -> anc leaf (parz y).

Lemma anc_start : forall a y, anc a y -> y = a \/ (1 <= a /\ anc (parz a) y).
Proof.
  intros a y Ha. induction Ha as [|y Ha IH Hy]; [left; reflexivity|].
  destruct IH as [->|[H1 H2]]; right; (split; [assumption|]).
  - apply anc_self.
  - apply anc_up; assumption.
Qed.

Lemma anc_from_parent : forall a y, 1 <= a -> anc (parz a) y -> anc a y.
Proof.
  intros a y Ha Hy. induction Hy as [|y Hy IH Hy1].
  - apply anc_up; [apply anc_self|exact Ha].
  - apply anc_up; assumption.
Qed.

Lemma anc_zero : forall y, anc 0 y -> y = 0.
Proof. intros y Hy. induction Hy as [|y Hy IH Hy1]; [reflexivity|lia]. Qed.

Lemma anc_le : forall a y, 0 <= a -> anc a y -> 0 <= y <= a.
Proof.
  intros a y Ha Hy. induction Hy as [|y Hy IH Hy1]; [lia|]. pose proof (parz_range y Hy1). lia.
Qed.

(* the nodes set_hashes may touch when validating `leaf` *)
Definition fam (leaf y : Z) : Prop := 1 <= y /\ (anc leaf y \/ anc leaf (sibz y)).

Lemma fam_parent : forall leaf i, fam leaf i -> anc leaf (parz i).
Proof.
  intros leaf i [Hi [Ha|Ha]].
  - apply anc_up; assumption.
  - rewrite <- (parz_sibz i Hi). apply anc_up; [exact Ha|apply sibz_ge1; exact Hi].
Qed.

Lemma fam_sib : forall leaf i, fam leaf i -> fam leaf (sibz i).
Proof.
  intros leaf i [Hi Ha]. split; [apply sibz_ge1; exact Hi|]. rewrite sibz_invol by exact Hi. tauto.
Qed.

Lemma needed_for_loop_spec : forall fuel n here r,
  0 <= here -> needed_for_loop fuel n here = Some r ->
  (forall y, 1 <= y -> anc here y -> In (sibz y) r /\ 2 * parz y + 2 < n) /\
  (forall k, In k r -> exists y, 1 <= y /\ anc here y /\ k = sibz y).
Proof.
  induction fuel as [|f IH]; intros n here r Hh Hr; cbn [needed_for_loop] in Hr;
    destruct (here =? 0) eqn:E; try discriminate.
  1, 2: apply Z.eqb_eq in E; subst here; inversion Hr; subst r;
    (split; [intros y Hy Ha; apply anc_zero in Ha; lia|intros k []]).
  apply Z.eqb_neq in E. destruct (sibling n here) as [s|] eqn:Es; [|discriminate].
  destruct (parent n here) as [p|] eqn:Ep; [|discriminate].
  destruct (needed_for_loop f n p) as [r'|] eqn:Er; [|discriminate]. inversion Hr. subst r. clear Hr.
  apply sibling_some in Es. destruct Es as [Hh1 [Hc Hs]]. apply parent_some in Ep. destruct Ep as [_ ->].
  pose proof (parz_range here Hh1) as Hpr.
  destruct (IH n (parz here) r' ltac:(lia) Er) as [I1 I2].
  split.
  - intros y Hy Ha. apply anc_start in Ha. destruct Ha as [->|[_ Ha]].
    + split; [left; exact Hs|exact Hc].
    + destruct (I1 y Hy Ha) as [J1 J2]. split; [right; exact J1|exact J2].
  - intros k [<-|Hk].
    + exists here. split; [exact Hh1|]. split; [apply anc_self|exact Hs].
    + destruct (I2 k Hk) as [y [Hy [Ha Hky]]]. exists y. split; [exact Hy|]. split; [|exact Hky].
      apply anc_from_parent; assumption.
Qed.

Lemma needed_for_spec : forall n leaf nf,
  needed_for n leaf = Some nf ->
  0 <= leaf < n /\
  (forall y, 1 <= y -> anc leaf y -> In (sibz y) nf /\ 2 * parz y + 2 < n) /\
  (forall k, In k nf -> exists y, 1 <= y /\ anc leaf y /\ k = sibz y).
Proof.
  intros n leaf nf Hn. unfold needed_for in Hn.
  destruct (leaf <? 0) eqn:E1; [discriminate|]. destruct (n <=? leaf) eqn:E2; [discriminate|]. cbn [orb] in Hn.
  apply Z.ltb_ge in E1. apply Z.leb_gt in E2. split; [lia|].
  apply (needed_for_loop_spec _ _ _ _ E1 Hn).
Qed.

Lemma needed_for_root : forall n, 1 <= n -> needed_for n 0 = Some [].
Proof.
  intros n Hn. unfold needed_for.
  assert ((0 <? 0) || (n <=? 0) = false) as -> by (apply orb_false_iff; split; [reflexivity|apply Z.leb_gt; lia]).
  destruct (Z.to_nat n); reflexivity.
Qed.

Lemma needed_for_loop_total : forall fuel n here,
  Z.odd n = true -> 0 <= here < n -> here <= Z.of_nat fuel -> exists r, needed_for_loop fuel n here = Some r.
Proof.
  induction fuel as [|f IH]; intros n here Ho Hh Hf; cbn [needed_for_loop].
  - assert (here = 0) by lia. subst here. exists []. reflexivity.
  - destruct (here =? 0) eqn:E; [exists []; reflexivity|]. apply Z.eqb_neq in E.
    assert (H1 : 1 <= here) by lia. pose proof (parz_range here H1) as Hp.
    assert (Hc : 2 * parz here + 2 < n).
    { destruct (node_cases here H1) as [[E1 E2]|[E1 E2]]; [|lia].
      (* here = 2p+1 is odd and below the odd n, so 2p+2 < n *)
      assert (Hn : n <> here + 1).
      { intros Hc. rewrite Hc in Ho. rewrite E1 in Ho. replace (2 * parz here + 1 + 1) with (2 * (parz here + 1)) in Ho by lia.
        rewrite Z.odd_mul in Ho. cbn in Ho. discriminate. }
      lia. }
    rewrite (sibling_intro n here H1 Hc).
    assert (Hpar : parent n here = Some (parz here)) by (apply parent_some; split; [lia|reflexivity]).
    rewrite Hpar.
    destruct (IH n (parz here) Ho ltac:(lia) ltac:(lia)) as [r ->]. eexists. reflexivity.
Qed.

Lemma needed_for_total : forall n leaf, Z.odd n = true -> 0 <= leaf < n -> exists nf, needed_for n leaf = Some nf.
Proof.
  intros n leaf Ho Hl. unfold needed_for.
  assert ((leaf <? 0) || (n <=? leaf) = false) as -> by (apply orb_false_iff; split; [apply Z.ltb_ge|apply Z.leb_gt]; lia).
  apply needed_for_loop_total; [exact Ho|exact Hl|lia].
Qed.

Lemma needed_for_entries : forall n leaf nf k, needed_for n leaf = Some nf -> In k nf -> 1 <= k < n.
Proof.
  intros n leaf nf k Hn Hk. destruct (needed_for_spec _ _ _ Hn) as [_ [N1 N2]].
  destruct (N2 k Hk) as [y [Hy [Ha ->]]]. destruct (N1 y Hy Ha) as [_ Hc]. pose proof (sibz_ge1 y Hy).
  destruct (node_cases y Hy) as [[E1 E2]|[E1 E2]]; lia.
Qed.

Lemma needed_for_nil_root : forall n leaf, needed_for n leaf = Some [] -> leaf = 0.
Proof.
  intros n leaf Hn. destruct (needed_for_spec _ _ _ Hn) as [Hl [N1 _]].
  destruct (Z.eq_dec leaf 0) as [E|E]; [exact E|]. destruct (N1 leaf ltac:(lia) (anc_self leaf)) as [[] _].
Qed.

Section Completeness.
  Variable H : Type.
  Variable H_eqb : H -> H -> bool.
  Variable pair_hash : H -> H -> H.
  Variable truthy : H -> bool.
  Hypothesis H_eqb_spec : forall a b, H_eqb a b = true <-> a = b.
  Hypothesis pair_truthy : forall a b, truthy (pair_hash a b) = true.
  Variable G : Z -> H.
  Variable n : Z.
  Hypothesis merkle : forall p, 0 <= p -> 2 * p + 2 < n -> G p = pair_hash (G (2 * p + 1)) (G (2 * p + 2)).
  Hypothesis G_truthy : forall j, 0 <= j < n -> truthy (G j) = true.

  Notation tree := (list (option H)).
  Notation wst := (wst H).
  Notation is_truthy := (is_truthy H truthy).
  Notation stepB := (stepB H H_eqb truthy).
  Notation phaseB := (phaseB H H_eqb truthy).
  Notation stepC := (stepC H H_eqb pair_hash truthy).
  Notation run_level := (run_level H H_eqb pair_hash truthy).
  Notation run_levels := (run_levels H H_eqb pair_hash truthy).
  Notation set_hashes := (set_hashes H H_eqb pair_hash truthy).
  Notation mkW := (mkW H).
  Notation RInv := (RInv H truthy).
  Notation VInv := (VInv H pair_hash).
  Notation genuine := (genuine H G).
  Notation closed := (closed H).

  Variable T0 : tree.
  Variable leaf : Z.
  Hypothesis Hn : zlen T0 = n.
  Hypothesis Hg0 : genuine T0.
  Hypothesis Hroot : slot T0 0 <> None.
  (* every ancestor-or-self y of leaf other than the root lies, with its sibling, inside the tree:
     2 * parz y + 2 is the larger of the two (min_max_sib).  needed_for_spec provides it. *)
  Hypothesis Hstatic : forall y, 1 <= y -> anc leaf y -> 2 * parz y + 2 < n.

  Lemma root_truthy : is_truthy (slot T0 0) = true.
  Proof. apply (genuine_all_truthy H truthy G n G_truthy T0 Hn Hg0); [lia|exact Hroot]. Qed.

  (* Phase C when every stored value is genuine; M is this_level, as in VInv.  c_mark: only nodes
     of the family of leaf are marked; c_sib: the sibling of every ancestor is present;
     c_anc: every ancestor is present, or a marked child of it is still to be popped, and popping
     it fills the ancestor. *)
  Record CInv (M : list Z) (st : wst) : Prop := {
    c_gen : genuine (wT H st);
    c_mark : forall key, marked M (wlv H st) key -> fam leaf key /\ key < n;
    c_sib : forall y, 1 <= y -> anc leaf y -> slot (wT H st) (sibz y) <> None;
    c_anc : forall y, 1 <= y -> anc leaf y ->
            slot (wT H st) y <> None \/ exists c, marked M (wlv H st) c /\ 1 <= c /\ parz c = y
  }.

  Lemma genuine_slot : forall T x, genuine T -> 0 <= x -> slot T x <> None -> slot T x = Some (G x).
  Proof. intros T x Hg Hx Hp. destruct (slot T x) as [h|] eqn:E; [|congruence]. rewrite (Hg x h Hx E). reflexivity. Qed.

  (* CInv sees the tree and the marked keys only *)
  Lemma CInv_marked : forall M st M' st',
    wT H st' = wT H st -> (forall key, marked M' (wlv H st') key <-> marked M (wlv H st) key) ->
    CInv M st -> CInv M' st'.
  Proof.
    intros M st M' st' HT Hm [C1 C2 C3 C4]. constructor; rewrite ?HT; auto.
    - intros key Hk. apply C2. apply Hm. exact Hk.
    - intros y Hy Ha. destruct (C4 y Hy Ha) as [Hp|[c [Hc Hr]]]; [left; exact Hp|].
      right. exists c. split; [apply Hm; exact Hc|exact Hr].
  Qed.

  Lemma CInv_settle : forall i cur st,
    CInv (i :: cur) st -> 1 <= i -> slot (wT H st) (parz i) <> None -> CInv (zdiscard (sibz i) cur) st.
  Proof.
    intros i cur st [C1 C2 C3 C4] Hi Hp. constructor; auto.
    - intros key Hm. apply C2. destruct Hm as [Hk|Hk]; [left; right; apply in_zdiscard in Hk; apply Hk|right; exact Hk].
    - intros y Hy Hay. destruct (C4 y Hy Hay) as [Hpres|[c [Hm [Hc1 Hpc]]]]; [left; exact Hpres|].
      destruct Hm as [[<-|Hk]|Hk].
      + left. rewrite <- Hpc. exact Hp.
      + destruct (Z.eq_dec c (sibz i)) as [->|Hne].
        * left. rewrite <- Hpc, parz_sibz by exact Hi. exact Hp.
        * right. exists c. split; [left; apply in_zdiscard; auto|auto].
      + right. exists c. split; [right; exact Hk|auto].
  Qed.

  Lemma CInv_add : forall M st p kk ruf',
    CInv M st -> 1 <= p < n -> anc leaf p -> zlen (wT H st) = n -> (kk < length (wlv H st))%nat ->
    CInv M (mkW (upd (wT H st) (Z.to_nat p) (Some (G p))) (upd (wlv H st) kk (zadd p (nth kk (wlv H st) []))) ruf').
  Proof.
    intros M st p kk ruf' [C1 C2 C3 C4] Hp Ha Hz Hkk.
    assert (Hmono : forall x, 0 <= x -> slot (wT H st) x <> None -> slot (upd (wT H st) (Z.to_nat p) (Some (G p))) x <> None).
    { intros x Hx Hpx. rewrite slot_upd by lia. destruct (p =? x); [discriminate|exact Hpx]. }
    constructor; cbn [wT wlv wruf].
    - intros x h Hx Hsx. rewrite slot_upd in Hsx by lia. destruct (p =? x) eqn:E; [|apply (C1 x h Hx Hsx)].
      apply Z.eqb_eq in E. subst x. congruence.
    - intros key Hm. apply marked_add in Hm; [|exact Hkk]. destruct Hm as [->|Hm]; [|apply C2; exact Hm].
      split; [split; [lia|left; exact Ha]|lia].
    - intros y Hy Hay. apply Hmono; [pose proof (sibz_ge1 y Hy); lia|apply (C3 y Hy Hay)].
    - intros y Hy Hay. destruct (C4 y Hy Hay) as [Hpres|[c [Hm Hr]]]; [left; apply Hmono; [lia|exact Hpres]|].
      right. exists c. split; [apply marked_add; auto|exact Hr].
  Qed.

  Lemma stepC_complete : forall l i cur st,
    RInv T0 st -> VInv T0 l (i :: cur) st -> CInv (i :: cur) st -> l < zlen (wlv H st) ->
    match stepC l i cur st with
    | inl (cur', st') => CInv cur' st'
    | inr _ => False
    end.
  Proof.
    intros l i cur st R V C Hdl. pose proof (RInv_zlen _ _ _ _ R) as Hz. rewrite Hn in Hz.
    destruct (c_mark _ _ C i (or_introl (or_introl eq_refl))) as [Hfam Hin].
    pose proof Hfam as [Hi1 Hanc].
    pose proof (parz_range i Hi1) as Hp.
    assert (Hc : 2 * parz i + 2 < n).
    { destruct Hanc as [Ha|Ha]; [apply (Hstatic i Hi1 Ha)|].
      rewrite <- (parz_sibz i Hi1). apply Hstatic; [apply sibz_ge1; exact Hi1|exact Ha]. }
    pose proof (sibz_ge1 i Hi1) as Hs1.
    destruct (popped_depth _ _ _ _ _ _ _ V Hi1) as [Hdi [Hdp Hl1]].
    (* the sibling is present: as an ancestor it would otherwise have a marked child, one level too deep *)
    assert (Hsp : slot (wT H st) (sibz i) <> None).
    { destruct Hanc as [Ha|Ha]; [apply (c_sib _ _ C i Hi1 Ha)|].
      destruct (c_anc _ _ C (sibz i) Hs1 Ha) as [Hpres|[c [Hm [Hc1 Hpc]]]]; [exact Hpres|]. exfalso.
      pose proof (depth_parz c Hc1) as Dc. rewrite Hpc, depth_sibz, Hdi in Dc by exact Hi1.
      destruct Hm as [Hm|[k Hk]].
      - destruct (v_lvM _ _ _ _ _ _ V c Hm ltac:(lia)) as [_ Dc']. lia.
      - destruct (v_lv _ _ _ _ _ _ V k c Hk ltac:(lia)) as [_ Dc'].
        rewrite (v_empty _ _ _ _ _ _ V k) in Hk by lia. destruct Hk. }
    destruct (popped_children _ _ _ _ _ _ _ V Hi1 Hsp) as [a [b [Ha Hb]]].
    rewrite stepC_slots, Ha, Hb by (assumption || lia).
    destruct (slot (wT H st) (sibz i)); [|congruence].
    rewrite (c_gen _ _ C (2 * parz i + 1) a ltac:(lia) Ha), (c_gen _ _ C (2 * parz i + 2) b ltac:(lia) Hb).
    unfold pair_step. rewrite <- (merkle (parz i) ltac:(lia) Hc).
    destruct (is_truthy (slot (wT H st) (parz i))) eqn:Et.
    - destruct (slot (wT H st) (parz i)) as [ph|] eqn:Esp; [|discriminate Et].
      rewrite (c_gen _ _ C (parz i) ph ltac:(lia) Esp), (proj2 (H_eqb_spec _ _) eq_refl).
      apply CInv_settle; [exact C|exact Hi1|rewrite Esp; discriminate].
    - assert (Hp1 : 1 <= parz i).
      { destruct (Z.eq_dec (parz i) 0) as [E0|E0]; [|lia]. rewrite E0, (r_keep _ _ _ _ R 0), root_truthy in Et; [discriminate|lia|apply root_truthy]. }
      rewrite Hdp, Z.eqb_refl. cbn [negb].
      rewrite (get_nth _ _ _ []), put_nonneg by lia.
      apply CInv_settle; cbn [wT]; [|exact Hi1|rewrite slot_upd_same by lia; discriminate].
      apply CInv_add; [exact C|lia|apply (fam_parent leaf i Hfam)|exact Hz|unfold zlen in *; lia].
  Qed.

  Lemma run_level_complete : forall l fuel cur st ord,
    (length cur <= fuel)%nat -> RInv T0 st -> VInv T0 l cur st -> CInv cur st -> l < zlen (wlv H st) ->
    match run_level fuel l cur st ord with
    | inl (st', _, cur') =>
        cur' = [] /\ RInv T0 st' /\ VInv T0 l [] st' /\ CInv [] st' /\ length (wlv H st') = length (wlv H st)
    | inr _ => False
    end.
  Proof.
    intros l fuel cur st ord Hlen R V C Hdl.
    apply (run_level_rule H H_eqb pair_hash truthy l
             (fun c s => RInv T0 s /\ VInv T0 l c s /\ CInv c s /\ length (wlv H s) = length (wlv H st))
             (fun _ => False)); [| |exact Hlen|auto].
    - intros c c' s Hc [R' [V' [C' L']]]. split; [exact R'|]. split; [apply (VInv_ext H pair_hash _ _ _ _ _ Hc V')|].
      split; [|exact L']. apply (CInv_marked c s c' s eq_refl (fun key => marked_ext _ _ _ key Hc) C').
    - intros i c s [R' [V' [C' L']]].
      pose proof (stepC_ok H H_eqb pair_hash truthy H_eqb_spec pair_truthy T0 l i c s R' V') as Hok.
      pose proof (stepC_complete l i c s R' V' C') as Hco. unfold zlen in Hco. rewrite L' in Hco. specialize (Hco Hdl).
      destruct (stepC l i c s) as [[c' s']|x]; [|exact Hco].
      destruct Hok as [R'' [V'' [Hl Hlv]]]. split; [exact Hl|]. split; [exact R''|]. split; [exact V''|]. split; [exact Hco|congruence].
  Qed.

  Lemma run_levels_complete : forall k st ord,
    RInv T0 st -> VInv T0 (Z.of_nat k) [] st -> CInv [] st -> (k <= length (wlv H st))%nat ->
    exists st', run_levels k st ord = inl st' /\ RInv T0 st' /\ VInv T0 0 [] st' /\ CInv [] st'.
  Proof.
    intros k. induction k as [|L IH]; intros st ord R V C Hk; cbn [HashTree.run_levels].
    - exists st. auto.
    - pose proof (VInv_next H pair_hash T0 L st V) as V'.
      pose proof (RInv_lv H truthy T0 st (upd (wlv H st) L []) R) as R'.
      pose proof (CInv_marked [] st _ (mkW (wT H st) (upd (wlv H st) L []) (wruf H st)) eq_refl (marked_take _ L) C) as C'.
      pose proof (run_level_complete (Z.of_nat L) _ _ _ ord (le_n _) R' V' C') as Hs.
      cbn [wlv] in Hs. rewrite zlen_upd, upd_length in Hs. specialize (Hs ltac:(unfold zlen; lia)). revert Hs.
      destruct (run_level _ _ _ _ _) as [[[st1 ord1] c1]|x]; intros Hs; [|destruct Hs].
      destruct Hs as [_ [R1 [V1 [C1 L1]]]]. apply IH; try assumption. lia.
  Qed.

  (* Phase B.  keys: the node numbers of the entries of new_hashes processed so far.  b_new and
     b_mark: the marked nodes are those whose slot is None in T0 and filled in the working tree,
     each by a processed key. *)
  Record BInv (keys : list Z) (st : wst) : Prop := {
    b_gen : genuine (wT H st);
    b_mono : forall x, 0 <= x -> slot T0 x <> None -> slot (wT H st) x <> None;
    b_keys : forall k, In k keys -> 0 <= k -> slot (wT H st) k <> None;
    b_new : forall x, 0 <= x -> slot (wT H st) x <> None -> slot T0 x = None -> marked [] (wlv H st) x;
    b_mark : forall key, marked [] (wlv H st) key -> In key keys /\ slot T0 key = None
  }.

  Lemma stepB_complete : forall keys st i h,
    BInv keys st -> RInv T0 st -> 0 <= i < n -> h = G i ->
    (forall x, 0 <= x < n -> depth_of x < zlen (wlv H st)) ->
    exists st', stepB st i h = inl st' /\ BInv (i :: keys) st'.
  Proof.
    intros keys st i h B R Hi -> Hdl. pose proof (RInv_zlen _ _ _ _ R) as Hz. rewrite Hn in Hz.
    unfold HashTree.stepB. rewrite get_slot by lia.
    destruct (is_truthy (slot (wT H st) i)) eqn:Et.
    - destruct (slot (wT H st) i) as [c|] eqn:Es; [|discriminate Et].
      rewrite (b_gen _ _ B i c ltac:(lia) Es), (proj2 (H_eqb_spec _ _) eq_refl).
      exists st. split; [reflexivity|]. destruct B as [B1 B2 B3 B4 B5]. constructor; auto.
      + intros k [<-|Hk] Hk0; [rewrite Es; discriminate|apply B3; assumption].
      + intros key Hm. destruct (B5 key Hm) as [Hk Hs]. split; [right; exact Hk|exact Hs].
    - assert (Hnone : slot (wT H st) i = None).
      { destruct (slot (wT H st) i) as [c|] eqn:Es; [|reflexivity].
        rewrite (b_gen _ _ B i c ltac:(lia) Es) in Et. cbn in Et. rewrite G_truthy in Et by lia. discriminate. }
      assert (H0none : slot T0 i = None).
      { destruct (slot T0 i) as [c|] eqn:Es; [|reflexivity]. exfalso.
        apply (b_mono _ _ B i ltac:(lia)); [rewrite Es; discriminate|exact Hnone]. }
      pose proof (depth_nonneg i ltac:(lia)) as Hd0. pose proof (Hdl i Hi) as Hd1.
      rewrite (get_nth _ _ _ []), !put_nonneg by lia.
      eexists. split; [reflexivity|].
      assert (Hkk : (Z.to_nat (depth_of i) < length (wlv H st))%nat) by (unfold zlen in Hd1; lia).
      destruct B as [B1 B2 B3 B4 B5]. constructor; cbn [wT wlv wruf].
      + intros x c Hx Hsx. rewrite slot_upd in Hsx by lia. destruct (i =? x) eqn:E; [|apply (B1 x c Hx Hsx)].
        apply Z.eqb_eq in E. subst x. congruence.
      + intros x Hx Hp. rewrite slot_upd by lia. destruct (i =? x); [discriminate|apply B2; assumption].
      + intros k Hk Hk0. rewrite slot_upd by lia. destruct (i =? k) eqn:E; [discriminate|].
        destruct Hk as [<-|Hk]; [rewrite Z.eqb_refl in E; discriminate|apply B3; assumption].
      + intros x Hx Hp H0x. apply marked_add; [exact Hkk|]. rewrite slot_upd in Hp by lia.
        destruct (i =? x) eqn:E; [left; symmetry; apply Z.eqb_eq; exact E|right; apply B4; assumption].
      + intros key Hm. apply marked_add in Hm; [|exact Hkk].
        destruct Hm as [->|Hm]; [split; [left; reflexivity|exact H0none]|].
        destruct (B5 key Hm) as [Hk Hs]. split; [right; exact Hk|exact Hs].
  Qed.

  Lemma phaseB_complete : forall nh keys st,
    (forall k h, In (k, h) nh -> 0 <= k < n /\ h = G k) ->
    BInv keys st -> RInv T0 st -> VInv T0 (zlen (wlv H st)) [] st ->
    (forall x, 0 <= x < n -> depth_of x < zlen (wlv H st)) ->
    exists st' keys', phaseB nh st = inl st' /\ BInv keys' st' /\ RInv T0 st' /\
       VInv T0 (zlen (wlv H st')) [] st' /\ (forall k, In k keys' <-> In k keys \/ In k (map fst nh)).
  Proof.
    induction nh as [|[i h] r IH]; intros keys st Hnh B R V Hdl; cbn [HashTree.phaseB].
    - exists st, keys. split; [reflexivity|]. split; [exact B|]. split; [exact R|]. split; [exact V|].
      intros k. split; [auto|intros [Hk|[]]; exact Hk].
    - destruct (Hnh i h (or_introl eq_refl)) as [Hi Hh].
      destruct (stepB_complete keys st i h B R Hi Hh Hdl) as [st' [E B']].
      pose proof (stepB_ok H H_eqb pair_hash truthy pair_truthy T0 (zlen (wlv H st)) st i h R V) as Hok.
      rewrite Hn in Hok. specialize (Hok Hdl eq_refl). rewrite E in Hok. destruct Hok as [R' [V' Hl]].
      rewrite E.
      assert (Hzl : zlen (wlv H st') = zlen (wlv H st)) by (unfold zlen; rewrite Hl; reflexivity).
      rewrite <- Hzl in V'.
      destruct (IH (i :: keys) st' (fun k h' Hin => Hnh k h' (or_intror Hin)) B' R' V') as [st2 [keys2 [E2 [B2 [R2 [V2 K2]]]]]].
      { intros x Hx. rewrite Hzl. apply Hdl; exact Hx. }
      exists st2, keys2. split; [exact E2|]. split; [exact B2|]. split; [exact R2|]. split; [exact V2|].
      intros k. rewrite K2. cbn [map fst In]. clear. tauto.
  Qed.

  Theorem complete_core : forall fl hashes leaves nh ord,
    closed T0 -> 0 <= leaf < n ->
    merge_leaves H H_eqb fl hashes leaves = Some nh ->
    (forall k h, In (k, h) nh -> 0 <= k < n /\ h = G k /\ (k = 0 \/ fam leaf k)) ->
    (forall y, 1 <= y -> anc leaf y -> slot T0 (sibz y) <> None \/ In (sibz y) (map fst nh)) ->
    (slot T0 leaf <> None \/ In leaf (map fst nh)) ->
    exists T1, set_hashes fl T0 hashes leaves ord = Accepted H T1 /\ slot T1 leaf = Some (G leaf).
  Proof.
    intros fl hashes leaves nh ord Hcl Hleaf Hmerge HK HA HA'.
    unfold HashTree.set_hashes. rewrite Hmerge. cbv zeta. rewrite Hn.
    set (nl := Z.to_nat (depth_of (n - 1) + 1)).
    destruct (init_inv H pair_hash truthy T0 nl) as [R0 V0].
    set (st0 := mkW T0 (repeat [] nl) []) in *.
    assert (Hzl0 : zlen (wlv H st0) = Z.of_nat nl) by (unfold st0; cbn [wlv]; unfold zlen; rewrite repeat_length; reflexivity).
    assert (Hdl0 : forall x, 0 <= x < n -> depth_of x < zlen (wlv H st0)).
    { intros x Hx. rewrite Hzl0. pose proof (depth_bound n x Hx). unfold nl. lia. }
    assert (B0 : BInv [] st0).
    { unfold st0. constructor; cbn [wT wlv wruf].
      - exact Hg0.
      - intros x _ Hp. exact Hp.
      - intros k [].
      - intros x _ Hp H0. congruence.
      - intros key [[]|[k Hk]]. rewrite nth_repeat in Hk. destruct Hk. }
    rewrite <- Hzl0 in V0.
    assert (HK' : forall k h, In (k, h) nh -> 0 <= k < n /\ h = G k).
    { intros k h Hin. destruct (HK k h Hin) as [a [b _]]. split; assumption. }
    destruct (phaseB_complete nh [] st0 HK' B0 R0 V0 Hdl0) as [st1 [keys1 [E1 [B1 [R1 [V1 K1]]]]]].
    rewrite E1.
    assert (Hhave : forall x, 0 <= x -> slot T0 x <> None \/ In x (map fst nh) -> slot (wT H st1) x <> None).
    { intros x Hx [Hp|Hk]; [apply (b_mono _ _ B1); assumption|apply (b_keys _ _ B1); [apply K1; right; exact Hk|exact Hx]]. }
    assert (C1 : CInv [] st1).
    { constructor.
      - apply (b_gen _ _ B1).
      - intros key Hm. destruct (b_mark _ _ B1 key Hm) as [Hk H0]. apply K1 in Hk. destruct Hk as [[]|Hk].
        apply in_map_iff in Hk. destruct Hk as [[k h] [Hfst Hin]]. cbn in Hfst. subst k.
        destruct (HK key h Hin) as [Hr [_ [->|Hf]]]; [congruence|split; [exact Hf|lia]].
      - intros y Hy Ha. apply Hhave; [pose proof (sibz_ge1 y Hy); lia|apply HA; assumption].
      - intros y Hy Ha. destruct Ha as [|y' Ha' Hy']; [left; apply Hhave; [lia|exact HA']|].
        pose proof (sibz_ge1 y' Hy') as Hs1. pose proof (parz_range y' Hy') as Hpr.
        destruct (slot T0 (sibz y')) as [v|] eqn:Es.
        + left. apply (b_mono _ _ B1); [lia|]. rewrite <- (parz_sibz y' Hy'). apply (Hcl (sibz y') Hs1). rewrite Es. discriminate.
        + right. exists (sibz y'). split; [|split; [exact Hs1|apply parz_sibz; exact Hy']].
          apply (b_new _ _ B1); [lia| |exact Es]. apply Hhave; [lia|apply HA; assumption]. }
    destruct (run_levels_complete (length (wlv H st1)) st1 ord R1 V1 C1 (le_n _)) as [st2 [E2 [R2 [V2 C2]]]].
    rewrite E2. exists (wT H st2). split; [reflexivity|].
    assert (Hpres : slot (wT H st2) leaf <> None).
    { destruct (Z.eq_dec leaf 0) as [->|Hl0].
      - rewrite (r_keep _ _ _ _ R2 0); [exact Hroot|lia|apply root_truthy].
      - destruct (c_anc _ _ C2 leaf ltac:(lia) (anc_self leaf)) as [Hp|[c [[[]|[k Hk]] _]]]; [exact Hp|].
        rewrite (v_empty _ _ _ _ _ _ V2 k) in Hk by lia. destruct Hk. }
    exact (genuine_slot _ leaf (c_gen _ _ C2) ltac:(lia) Hpres).
  Qed.
End Completeness.

Section NeededAccepted.
  Variable H : Type.
  Variable H_eqb : H -> H -> bool.
  Variable pair_hash : H -> H -> H.
  Variable truthy : H -> bool.
  Hypothesis H_eqb_spec : forall a b, H_eqb a b = true <-> a = b.
  Hypothesis pair_truthy : forall a b, truthy (pair_hash a b) = true.
  Variable G : Z -> H.
  Variable n : Z.
  Hypothesis merkle : forall p, 0 <= p -> 2 * p + 2 < n -> G p = pair_hash (G (2 * p + 1)) (G (2 * p + 2)).
  Hypothesis G_truthy : forall j, 0 <= j < n -> truthy (G j) = true.

  Lemma slot_none_spec : forall (T : list (option H)) k, 0 <= k < zlen T -> (slot_none H T k = true <-> slot T k = None).
  Proof.
    intros T k Hk. unfold slot_none. rewrite get_valid by (unfold validz; lia). rewrite normz_nonneg by lia.
    destruct (slot T k); split; congruence.
  Qed.

  Theorem needed_accepted : forall fl T0 leafnum nd hashes leaves ord,
    zlen T0 = n -> genuine H G T0 -> closed H T0 -> slot T0 0 <> None ->
    needed_hashes H fl T0 leafnum true = Some nd ->
    (forall k h, In (k, h) hashes -> In k nd /\ h = G k) ->
    (forall ln h, In (ln, h) leaves -> ln = leafnum /\ h = G (fl + leafnum)) ->
    (forall k, In k nd -> In k (map fst hashes) \/ (k = fl + leafnum /\ leaves <> [])) ->
    exists T1, set_hashes H H_eqb pair_hash truthy fl T0 hashes leaves ord = Accepted H T1 /\
               slot T1 (fl + leafnum) = Some (G (fl + leafnum)).
  Proof.
    intros fl T0 leafnum nd hashes leaves ord Hn Hg Hcl Hroot Hnd Hh Hl Hcover.
    set (leaf := fl + leafnum) in *.
    unfold needed_hashes in Hnd. fold leaf in Hnd. rewrite Hn in Hnd.
    destruct (needed_for n leaf) as [nf|] eqn:Enf; [|discriminate]. apply Some_inj in Hnd.
    destruct (needed_for_spec _ _ _ Enf) as [Hleaf [N1 N2]].
    set (P := fun k => 0 <= k < n /\ (k = 0 \/ fam leaf k)).
    assert (Hleaf_P : P leaf).
    { split; [exact Hleaf|]. destruct (Z.eq_dec leaf 0); [left; assumption|right; split; [lia|left; apply anc_self]]. }
    assert (Hnf_P : forall k, In k nf -> P k).
    { intros k Hk. pose proof (needed_for_entries _ _ _ k Enf Hk) as Hr. split; [lia|right].
      destruct (N2 k Hk) as [y [Hy [Ha ->]]]. split; [lia|]. right. rewrite sibz_invol by exact Hy. exact Ha. }
    assert (Hnd_in : forall k, In k nd <-> (k = leaf \/ In k nf) /\ slot_none H T0 k = true).
    { intros k. rewrite <- Hnd, filter_In, in_zadd. reflexivity. }
    assert (Hnd_P : forall k, In k nd -> P k).
    { intros k Hk. apply Hnd_in in Hk. destruct Hk as [[->|Hk] _]; [exact Hleaf_P|apply Hnf_P; exact Hk]. }
    destruct (merge_consistent H H_eqb H_eqb_spec fl G leaves hashes) as [nh Em].
    { intros k h Hin. apply (Hh k h Hin). }
    { intros ln h Hin. destruct (Hl ln h Hin) as [-> Hv]. exact Hv. }
    pose proof (merge_spec H H_eqb H_eqb_spec _ _ _ _ Em) as Hnh.
    assert (Hsup : forall k, 0 <= k < n -> (k = leaf \/ In k nf) -> slot T0 k <> None \/ In k (map fst nh)).
    { intros k Hk Hin. destruct (slot T0 k) as [v|] eqn:Es; [left; discriminate|right].
      assert (Hknd : In k nd) by (apply Hnd_in; split; [exact Hin|apply slot_none_spec; [rewrite Hn; exact Hk|exact Es]]).
      destruct (Hcover k Hknd) as [Hc|[-> Hne]].
      - apply in_map_iff in Hc. destruct Hc as [[k' h] [Hf Hc]]. cbn in Hf. subst k'.
        apply (in_map fst nh (k, h)). apply Hnh. left. exact Hc.
      - destruct leaves as [|[ln h] r]; [congruence|]. destruct (Hl ln h (or_introl eq_refl)) as [-> _].
        apply (in_map fst nh (leaf, h)). apply Hnh. right. exists leafnum. split; [reflexivity|left; reflexivity]. }
    apply (complete_core H H_eqb pair_hash truthy H_eqb_spec pair_truthy G n merkle G_truthy T0 leaf Hn Hg Hroot
             (fun y Hy Ha => proj2 (N1 y Hy Ha)) fl hashes leaves nh ord Hcl Hleaf Em).
    - intros k h Hin. apply Hnh in Hin. destruct Hin as [Hin|[ln [-> Hin]]].
      + destruct (Hh k h Hin) as [Hk Hv]. destruct (Hnd_P k Hk) as [Hr Hf]. auto.
      + destruct (Hl ln h Hin) as [-> Hv]. destruct Hleaf_P as [Hr Hf]. auto.
    - intros y Hy Ha. destruct (N1 y Hy Ha) as [Hin _].
      apply Hsup; [pose proof (needed_for_entries _ _ _ _ Enf Hin); lia|right; exact Hin].
    - apply Hsup; [exact Hleaf|left; reflexivity].
  Qed.
End NeededAccepted.
