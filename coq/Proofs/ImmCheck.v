(* The verifier marks a share good only if everything in it is the uploader's
   (Model/ImmCheck.v: verify_share), for arbitrary share contents. *)
From Coq Require Import List ZArith NArith Bool Lia.
From Verif Require Import Lib.ListFacts Gen.ImmConsts Model.HashTree Model.ImmFile Model.ImmVerify Model.ImmCheck
  Proofs.HashTreeBase Proofs.HashTree Proofs.HashTreeStored Proofs.HashTreeBuild Proofs.ImmVerifyTree Proofs.ImmVerify.
Import ListNotations.
Local Open Scope Z_scope.

Lemma in_zrange : forall n b, In b (zrange n) <-> 0 <= b < n.
Proof.
  intros n b. unfold zrange. rewrite in_map_iff. split.
  - intros [x [<- Hin]]. apply in_seq in Hin. lia.
  - intros Hb. exists (Z.to_nat b). split; [lia|]. apply in_seq. lia.
Qed.

(* The verifier runs its steps one after the other; a step that fails ends the run with its
   verdict, one that succeeds hands its result to the rest. *)
Lemma bind_inl : forall A B E (x : A + E) (k : A -> B + E) r,
  match x with inl a => k a | inr e => inr e end = inl r -> exists a, x = inl a /\ k a = inl r.
Proof. intros A B E [a|e] k r Hr; [eauto|discriminate]. Qed.

Lemma bind_inr : forall A B E (x : A + E) (k : A -> B + E) e,
  match x with inl a => k a | inr e => inr e end = inr e -> x = inr e \/ exists a, k a = inr e.
Proof. intros A B E [a|e'] k e Hr; [right; eauto|left; injection Hr as ->; reflexivity]. Qed.

Section VerifySound.
  Variable H : Type.
  Variable H_eqb : H -> H -> bool.
  Variable pair_hash : H -> H -> H.
  Variable truthy : H -> bool.
  Variable empty_leaf : Z -> H.
  Variable block_hash : list N -> H.
  Variable seg_hash : list N -> H.
  Variable UB : Type.
  Variable ueb_hash : UB -> H.
  Variable parse_ueb : UB -> option (ueb H).
  Variable ser_ueb : ueb H -> UB.

  Hypothesis H_eqb_spec : forall a b, H_eqb a b = true <-> a = b.
  Hypothesis all_truthy_H : forall h, truthy h = true.
  Hypothesis pair_inj : forall a b c d, pair_hash a b = pair_hash c d -> a = c /\ b = d.
  Hypothesis block_inj : forall a b, block_hash a = block_hash b -> a = b.
  Hypothesis ueb_inj : forall a b, ueb_hash a = ueb_hash b -> a = b.
  Hypothesis parse_ser : forall u, parse_ueb (ser_ueb u) = Some u.

  Variable f : efile.
  Variable key : list N.
  Hypothesis Hwf : ef_wf f.

  Notation c := (g_cap H pair_hash empty_leaf block_hash seg_hash UB ueb_hash ser_ueb key f).
  Notation set_hashes := (set_hashes H H_eqb pair_hash truthy).
  Notation TreeOK := (TreeOK H).
  Notation consistent := (consistent H pair_hash).
  Notation nn := (nn f).
  Notation nseg := (nseg f).
  Notation ns := (ns f).
  Notation nc := (nc f).
  Notation Gs := (Gs H pair_hash empty_leaf block_hash f).
  Notation Gc := (Gc H pair_hash empty_leaf seg_hash f).
  Notation Gb := (Gb H pair_hash empty_leaf block_hash f).
  Notation sht_merkle := (sht_merkle H pair_hash empty_leaf block_hash f).
  Notation sht_leaf_read := (sht_leaf_read H pair_hash empty_leaf block_hash f).
  Notation bht_merkle := (bht_merkle H pair_hash empty_leaf block_hash f Hwf).
  Notation accepted_block :=
    (accepted_block H H_eqb pair_hash truthy empty_leaf block_hash H_eqb_spec all_truthy_H pair_inj block_inj f Hwf).
  Notation cht_merkle := (cht_merkle H pair_hash empty_leaf seg_hash f Hwf).
  Notation step_accepted := (step_accepted H H_eqb pair_hash truthy H_eqb_spec all_truthy_H pair_inj).
  Notation consistent_step := (consistent_step H H_eqb pair_hash truthy H_eqb_spec all_truthy_H).
  Notation anchor_ok := (anchor_ok H H_eqb pair_hash truthy H_eqb_spec all_truthy_H pair_inj).

  Definition vblock (vs : vshare H UB) (b : Z) : list N :=
    match zassoc b (v_blocks vs) with Some d => d | None => [] end.

  (* One get_block/_got_data of the (fixed) verifier.  The block hash tree was filled from the share
     without a root; anchoring it under the share's leaf of the share hash tree makes it, and what
     it held on entry, genuine. *)
  Lemma verify_block_sound : forall s b vs sht bht ords sht' bht',
    0 <= s < nn -> 0 <= b < nseg ->
    TreeOK Gs ns sht -> consistent bht -> zlen bht = nc ->
    verify_block H H_eqb pair_hash truthy block_hash UB true nn nseg s b vs sht bht ords = inl (sht', bht') ->
    TreeOK Gs ns sht' /\ consistent bht' /\ zlen bht' = nc /\ genuine H (Gb s) bht /\ vblock vs b = gblock f s b.
  Proof.
    intros s b vs sht bht ords sht' bht' Hs Hb Hsht Hcon Hlen Hv. unfold verify_block in Hv.
    destruct (needed_hashes H (first_leaf_num nn) sht s false) as [ndS|]; [|discriminate].
    apply bind_inl in Hv as [sht1 [E0 Hv]].
    assert (Hsht1 : TreeOK Gs ns sht1).
    { destruct ndS as [|x ndS]; [injection E0 as <-; exact Hsht|].
      destruct (v_share_hashes vs) as [l|]; [|discriminate].
      destruct (set_hashes (first_leaf_num nn) sht (pydict l) [] (ords 0%nat)) as [T|e T] eqn:E; [|discriminate].
      injection E0 as <-. apply (step_accepted Gs ns _ _ _ _ _ _ sht_merkle Hsht E). }
    apply bind_inl in Hv as [bht1 [E1 Hv]]. cbn [orb] in E1.
    destruct (get sht1 (first_leaf_num nn + s)) as [[h|]|] eqn:Egl; try discriminate.
    rewrite (sht_leaf_read sht1 s h Hsht1 Hs Egl) in E1.
    destruct (set_hashes (first_leaf_num nseg) bht [(0, Gb s 0)] [] (ords 1%nat)) as [T|e T] eqn:E; [|discriminate].
    injection E1 as ->.
    destruct (anchor_ok (Gb s) nc _ _ _ _ (bht_merkle s) (nc_ge1 f) Hlen Hcon E) as [Hok1 [Hcon1 Hgen]].
    destruct (needed_hashes H (first_leaf_num nseg) bht1 b false) as [ndB|]; [|discriminate].
    apply bind_inl in Hv as [bht2 [E2 Hv]].
    assert (Hbht2 : TreeOK (Gb s) nc bht2 /\ consistent bht2).
    { destruct ndB as [|x ndB]; [injection E2 as <-; split; assumption|]. cbv zeta in E2.
      destruct (set_hashes (first_leaf_num nseg) bht1 _ [] (ords 2%nat)) as [T|e T] eqn:E'; [|discriminate].
      injection E2 as <-. split; [apply (step_accepted _ _ _ _ _ _ _ _ (bht_merkle s) Hok1 E')|apply (consistent_step _ _ _ _ _ _ Hcon1 E')]. }
    destruct Hbht2 as [Hok2 Hcon2].
    fold (vblock vs b) in Hv.
    destruct (set_hashes (first_leaf_num nseg) bht2 [] [(b, block_hash (vblock vs b))] (ords 3%nat)) as [T|e T] eqn:E3; [|discriminate].
    injection Hv as <- <-.
    destruct (accepted_block s bht2 b _ _ T Hb Hok2 E3) as [Hok3 Vb].
    split; [exact Hsht1|]. split; [apply (consistent_step _ _ _ _ _ _ Hcon2 E3)|].
    split; [apply Hok3|]. split; [exact Hgen|exact Vb].
  Qed.

  Lemma rej_not_good : forall e, rej e <> VGood /\ rej_strict e <> VGood.
  Proof. intros e. destruct e; split; discriminate. Qed.

  Lemma verify_block_not_good : forall anchor s b vs sht bht ords,
    verify_block H H_eqb pair_hash truthy block_hash UB anchor nn nseg s b vs sht bht ords <> inr VGood.
  Proof.
    intros anchor s b vs sht bht ords Hv. unfold verify_block in Hv.
    destruct (needed_hashes H (first_leaf_num nn) sht s false) as [ndS|]; [|discriminate].
    apply bind_inr in Hv as [Hv|[sht1 Hv]].
    { destruct ndS; [discriminate|]. destruct (v_share_hashes vs); [|discriminate].
      destruct (set_hashes _ _ _ _ _) as [T|e T]; [discriminate|]. injection Hv. apply rej_not_good. }
    apply bind_inr in Hv as [Hv|[bht1 Hv]].
    { destruct (_ || _); [|discriminate]. destruct (get sht1 _) as [[h|]|]; try discriminate.
      destruct (set_hashes _ _ _ _ _) as [T|e T]; [discriminate|]. injection Hv. apply rej_not_good. }
    destruct (needed_hashes H (first_leaf_num nseg) bht1 b false) as [ndB|]; [|discriminate].
    apply bind_inr in Hv as [Hv|[bht2 Hv]].
    { destruct ndB; [discriminate|]. cbv zeta in Hv.
      destruct (set_hashes _ _ _ _ _) as [T|e T]; [discriminate|]. injection Hv. apply rej_not_good. }
    destruct (set_hashes _ _ _ _ _) as [T|e T]; [discriminate|]. injection Hv. apply rej_not_good.
  Qed.

  Lemma verify_blocks_sound : forall s vs todo sht bht ords,
    0 <= s < nn -> (forall b, In b todo -> 0 <= b < nseg) ->
    TreeOK Gs ns sht -> consistent bht -> zlen bht = nc ->
    verify_blocks H H_eqb pair_hash truthy block_hash UB true nn nseg s vs todo sht bht ords = VGood ->
    forall b, In b todo -> vblock vs b = gblock f s b /\ genuine H (Gb s) bht.
  Proof.
    intros s vs todo. induction todo as [|b r IH]; intros sht bht ords Hs Hin Hsht Hcon Hlen Hv.
    - intros b [].
    - cbn [verify_blocks] in Hv.
      destruct (verify_block H H_eqb pair_hash truthy block_hash UB true nn nseg s b vs sht bht (ords (Z.to_nat b))) as [[sht' bht']|v] eqn:E;
        [|subst v; exfalso; exact (verify_block_not_good _ _ _ _ _ _ _ E)].
      destruct (verify_block_sound _ _ _ _ _ _ _ _ Hs (Hin b (or_introl eq_refl)) Hsht Hcon Hlen E) as [S1 [S2 [S3 [S4 S5]]]].
      intros b' Hb'. split; [|exact S4]. destruct Hb' as [<-|Hb']; [exact S5|].
      apply (IH sht' bht' ords Hs (fun b0 Hb0 => Hin b0 (or_intror Hb0)) S1 S2 S3 Hv b' Hb').
  Qed.

  Lemma vs_nseg_eq : Z.of_N (vs_num_segments (ueb_sizes H c (g_ueb H pair_hash empty_leaf block_hash seg_hash f))) = nseg.
  Proof. reflexivity. Qed.

  Theorem verify_share_sound : forall s vs ords0 ords,
    0 <= s < nn ->
    verify_share H H_eqb pair_hash truthy block_hash UB ueb_hash parse_ueb c s vs ords0 ords = VGood ->
    v_ueb vs = UebBytes (ser_ueb (g_ueb H pair_hash empty_leaf block_hash seg_hash f)) /\
    (forall j, 0 <= j < nseg -> vblock vs j = gblock f s j) /\
    (forall k h l, v_share_hashes vs = Some l -> In (k, h) (pydict l) -> 0 <= k < ns -> h = Gs k) /\
    (forall k h, In (k, h) (enumerate (v_ct_hashes vs)) -> 0 <= k < nc -> h = Gc k) /\
    (1 <= nseg -> forall k h, In (k, h) (enumerate (v_block_hashes vs)) -> 0 <= k < nc -> h = Gb s k).
  Proof.
    intros s vs ords0 ords Hs Hv. unfold verify_share, verify_share_gen in Hv.
    destruct (negb ((v_version vs =? 1) || (v_version vs =? 2))%N); [discriminate|].
    destruct (v_ueb vs) as [b| |] eqn:Eu; try discriminate.
    destruct (H_eqb (ueb_hash b) (c_ueb_hash c)) eqn:Eh; cbn [negb] in Hv; [|discriminate].
    apply H_eqb_spec in Eh. cbn [g_cap c_ueb_hash] in Eh. apply ueb_inj in Eh. subst b.
    rewrite parse_ser in Hv.
    destruct (negb (ueb_consistent H c (g_ueb H pair_hash empty_leaf block_hash seg_hash f))); [discriminate|].
    rewrite vs_nseg_eq in Hv. cbn [g_cap c_n] in Hv. fold nn in Hv.
    cbn [g_ueb u_share_root u_crypttext_root] in Hv.
    rewrite !seed_root_fresh in Hv by assumption. fold ns nc (Gs 0) (Gc 0) in Hv.
    destruct (v_share_hashes vs) as [l|] eqn:El; [|discriminate].
    destruct (set_hashes (first_leaf_num nn) _ (pydict l) [] (ords0 1%nat)) as [sht1|e T] eqn:E1; [|destruct e; discriminate].
    destruct (step_accepted Gs ns _ _ _ _ _ _ sht_merkle (rooted_ok H Gs ns (ns_ge1 f)) E1) as [Hsht1 [_ Vs]].
    unfold fresh_tree, iht_init in Hv. fold nc in Hv.
    destruct (zlen (v_block_hashes vs) <? zlen (repeat None (Z.to_nat nc))); [discriminate|].
    destruct (set_hashes (first_leaf_num nseg) (repeat None (Z.to_nat nc)) (enumerate (v_block_hashes vs)) [] (ords0 2%nat)) as [bht1|e T] eqn:E2;
      [|destruct e; discriminate].
    destruct (filled_from_empty H H_eqb pair_hash truthy H_eqb_spec all_truthy_H _ _ _ _ _ _ E2) as [Hcon1 [Hlen1 Hst1]].
    pose proof (nc_ge1 f) as Hnc. rewrite Z2Nat.id in Hlen1, Hst1 by lia.
    destruct (zlen (v_ct_hashes vs) <? _); [discriminate|].
    destruct (set_hashes (first_leaf_num nseg) _ (enumerate (v_ct_hashes vs)) [] (ords0 4%nat)) as [cht1|e T] eqn:E3; [|destruct e; discriminate].
    destruct (step_accepted Gc nc _ _ _ _ _ _ cht_merkle (rooted_ok H Gc nc Hnc) E3) as [_ [_ Vc]].
    pose proof (verify_blocks_sound s vs (zrange nseg) sht1 bht1 ords Hs (fun b Hb => proj1 (in_zrange nseg b) Hb) Hsht1 Hcon1 Hlen1 Hv) as B.
    split; [reflexivity|]. split; [intros j Hj; apply B, in_zrange, Hj|].
    split; [intros k h l' Hl' Hin Hk; inversion Hl'; subst l'; apply (Vs k h Hin Hk)|].
    split; [exact Vc|].
    (* the share's nodes were stored in bht1, which the first block anchored *)
    intros Hn k h Hin Hk. destruct (B 0 (proj2 (in_zrange nseg 0) ltac:(lia))) as [_ Hgen].
    apply (Hgen k h ltac:(lia) (Hst1 k h Hin Hk)).
  Qed.
End VerifySound.

Definition good_set (rs : list server_result) (l : list Z) : Prop :=
  NoDup l /\ forall s, In s l <-> exists r, In r rs /\ In s (sr_verified r).

Lemma good_shares_spec : forall rs, good_set rs (good_shares rs).
Proof.
  intros rs. unfold good_set, good_shares, zdedup. split; [apply NoDup_nodup|].
  intros s. rewrite nodup_In, in_flat_map. reflexivity.
Qed.

Lemma good_set_length : forall rs l1 l2, good_set rs l1 -> good_set rs l2 -> length l1 = length l2.
Proof.
  intros rs l1 l2 [N1 S1] [N2 S2].
  assert (I12 : incl l1 l2) by (intros x Hx; apply S2; apply S1; exact Hx).
  assert (I21 : incl l2 l1) by (intros x Hx; apply S1; apply S2; exact Hx).
  pose proof (NoDup_incl_length N1 I12). pose proof (NoDup_incl_length N2 I21). lia.
Qed.

Lemma format_results_some : forall k n rs cr, format_results k n rs = Some cr ->
  cr_healthy cr = (N.of_nat (length (good_shares rs)) =? n)%N /\
  cr_recoverable cr = (k <=? N.of_nat (length (good_shares rs)))%N.
Proof.
  intros k n rs cr Hf. unfold format_results in Hf.
  destruct (n <? N.of_nat (length (good_shares rs)))%N; [discriminate|]. injection Hf as <-. split; reflexivity.
Qed.

Theorem healthy_iff : forall k n rs cr, format_results k n rs = Some cr ->
  (cr_healthy cr = true <-> exists l, good_set rs l /\ N.of_nat (length l) = n).
Proof.
  intros k n rs cr Hf. destruct (format_results_some k n rs cr Hf) as [-> _].
  rewrite N.eqb_eq. split.
  - intros E. exists (good_shares rs). split; [apply good_shares_spec|exact E].
  - intros [l [Hg E]]. rewrite (good_set_length rs _ _ (good_shares_spec rs) Hg). exact E.
Qed.

Theorem recoverable_iff : forall k n rs cr, format_results k n rs = Some cr ->
  (cr_recoverable cr = true <->
   exists l, NoDup l /\ N.of_nat (length l) = k /\ forall s, In s l -> exists r, In r rs /\ In s (sr_verified r)).
Proof.
  intros k n rs cr Hf. destruct (format_results_some k n rs cr Hf) as [_ ->].
  rewrite N.leb_le. destruct (good_shares_spec rs) as [Nd Sp]. split.
  - intros Hle. exists (firstn (N.to_nat k) (good_shares rs)). split; [|split].
    + rewrite <- (firstn_skipn (N.to_nat k) (good_shares rs)) in Nd. apply NoDup_app_iff in Nd. apply Nd.
    + rewrite firstn_length. lia.
    + intros s Hin. apply Sp. rewrite <- (firstn_skipn (N.to_nat k)). apply in_or_app. left. exact Hin.
  - intros [l [Nl [El Hl]]]. rewrite <- El.
    assert (Hincl : incl l (good_shares rs)) by (intros x Hx; apply Sp; apply Hl; exact Hx).
    pose proof (NoDup_incl_length Nl Hincl). lia.
Qed.

(* _format_results refuses (AssertionError) exactly when more than N distinct numbers were reported *)
Theorem format_results_defined : forall k n rs,
  format_results k n rs = None <-> (n < N.of_nat (length (good_shares rs)))%N.
Proof.
  intros k n rs. unfold format_results. destruct (n <? N.of_nat (length (good_shares rs)))%N eqn:E.
  - apply N.ltb_lt in E. split; [intros _; exact E|reflexivity].
  - apply N.ltb_ge in E. split; [discriminate|lia].
Qed.
