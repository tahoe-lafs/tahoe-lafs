(* C07: what the steps of share_placement do to the mapping they build.  Sets are
   duplicate-free lists, dicts are association lists updated in place; the steps after the
   three matchings only ever assign keys, which is all the property needs to know of them. *)
From Coq Require Import List NArith ZArith Bool Arith Lia.
From Verif Require Import Lib.ListFacts Model.Matching Model.Placement Proofs.Matching Proofs.Placement.
Import ListNotations.

Lemma option_all_map : forall (A : Type) (l : list (option A)) r, option_all l = Some r -> l = map Some r.
Proof.
  intros A. induction l as [|a l IH]; intros r H; cbn [option_all] in H.
  - inversion H; subst. reflexivity.
  - destruct a as [a|]; [|discriminate]. destruct (option_all l) as [t|]; [|discriminate].
    inversion H; subst. cbn [map]. f_equal. apply IH. reflexivity.
Qed.

Lemma option_all_nth : forall (A B : Type) (h : A -> option B) (l : list A) r,
  option_all (map h l) = Some r ->
  length r = length l /\
  forall j a, nth_error l j = Some a -> exists b, nth_error r j = Some b /\ h a = Some b.
Proof.
  intros A B h l r H. apply option_all_map in H. split.
  - rewrite <- (map_length h l), H. symmetry. apply map_length.
  - intros j a Hj. apply (map_nth_error h) in Hj. rewrite H, nth_error_map in Hj.
    destruct (nth_error r j) as [b|]; [|discriminate]. exists b. split; [reflexivity|]. inversion Hj. reflexivity.
Qed.

Section Ordered.
Context {given set l : list N}.
Hypothesis H : ordered given set = Some l.

Lemma ordered_perm : is_perm l set = true.
Proof. unfold ordered in H. destruct (is_perm given set) eqn:E; [|discriminate]. inversion H; subst. exact E. Qed.

Lemma ordered_NoDup : NoDup l.
Proof. pose proof ordered_perm as E. unfold is_perm in E. rewrite !andb_true_iff in E. apply nodupN_NoDup, E. Qed.

Lemma ordered_length : length l = length set.
Proof. pose proof ordered_perm as E. unfold is_perm in E. rewrite !andb_true_iff in E. apply Nat.eqb_eq, E. Qed.

Lemma ordered_incl : forall x, In x l -> In x set.
Proof.
  pose proof ordered_perm as E. unfold is_perm in E. rewrite !andb_true_iff, forallb_forall in E.
  intros x Hx. apply memN_In, E, Hx.
Qed.

Lemma ordered_complete : forall x, In x set <-> In x l.
Proof.
  intros x. split; [|apply ordered_incl].
  apply (NoDup_length_incl ordered_NoDup); [rewrite ordered_length; lia | exact ordered_incl].
Qed.
End Ordered.

Lemma diffN_In : forall a b x, In x (diffN a b) <-> In x a /\ ~ In x b.
Proof.
  intros a b x. unfold diffN. rewrite filter_In, negb_true_iff, <- (memN_In x b).
  destruct (memN x b); intuition congruence.
Qed.

Lemma diffN_NoDup : forall a b, NoDup a -> NoDup (diffN a b).
Proof. intros a b H. apply NoDup_filter. exact H. Qed.

Lemma diffN_disjoint : forall a b, (forall x, In x a -> ~ In x b) -> diffN a b = a.
Proof.
  induction a as [|x r IH]; intros b H; unfold diffN; cbn [filter]; [reflexivity|].
  assert (E : memN x b = false).
  { destruct (memN x b) eqn:Em; [|reflexivity]. apply memN_In in Em. destruct (H x); auto with datatypes. }
  rewrite E. cbn [negb]. f_equal. apply IH. auto with datatypes.
Qed.

Lemma diffN_length : forall a b, NoDup a -> length a <= length (diffN a b) + length b.
Proof.
  intros a b Hnd. unfold diffN. rewrite (filter_split_length (fun x => negb (memN x b)) a).
  apply Nat.add_le_mono_l. apply NoDup_incl_length; [apply NoDup_filter; exact Hnd|].
  intros x Hx. apply filter_In in Hx. rewrite negb_involutive in Hx. apply memN_In, Hx.
Qed.

Lemma diffN_length2 : forall a b c, NoDup a -> length a <= length (diffN (diffN a b) c) + length b + length c.
Proof.
  intros a b c H. apply (Nat.le_trans _ _ _ (diffN_length a b H)).
  rewrite <- Nat.add_assoc, (Nat.add_comm (length b)), Nat.add_assoc.
  apply Nat.add_le_mono_r, diffN_length, diffN_NoDup, H.
Qed.

(* share_placement removes the first phase's servers and shares a second time before the third *)
Lemma diffN_twice : forall a b c, diffN (diffN (diffN a b) c) b = diffN (diffN a b) c.
Proof. intros a b c. apply diffN_disjoint. intros x Hx Hb. rewrite !diffN_In in Hx. tauto. Qed.

Lemma diffN3_In : forall a b c x, In x (diffN (diffN (diffN a b) c) b) <-> In x a /\ ~ In x b /\ ~ In x c.
Proof. intros a b c x. rewrite !diffN_In. tauto. Qed.

Section Dict.
Context {A : Type}.
Implicit Types (d : list (N * A)) (k x : N) (v w : A).

Lemma lookupN_In : forall k d v, lookupN k d = Some v -> In (k, v) d.
Proof.
  intros k. induction d as [|[k' v'] r IH]; intros v H; cbn [lookupN] in H; [discriminate|].
  destruct (N.eqb_spec k k') as [->|_]; [inversion H; left; reflexivity | right; apply IH, H].
Qed.

Lemma In_lookupN : forall k d v, NoDup (map fst d) -> In (k, v) d -> lookupN k d = Some v.
Proof.
  intros k. induction d as [|[k' v'] r IH]; intros v Hnd H; [destruct H|].
  cbn [map fst] in Hnd. apply NoDup_cons_iff in Hnd. destruct Hnd as [Hn Hr]. cbn [lookupN].
  destruct H as [H|H]; [inversion H; subst; rewrite N.eqb_refl; reflexivity|].
  destruct (N.eqb_spec k k') as [->|_]; [|apply IH; assumption].
  destruct Hn. apply (in_map fst _ _ H).
Qed.

Lemma dict_set_keys : forall k v d x, In x (map fst (dict_set k v d)) <-> x = k \/ In x (map fst d).
Proof.
  intros k v. induction d as [|[k' v'] r IH]; intros x; cbn [dict_set map fst In]; [intuition congruence|].
  destruct (N.eqb_spec k k') as [->|_]; cbn [map fst In]; [|rewrite IH]; intuition congruence.
Qed.

Lemma dict_set_NoDup : forall k v d, NoDup (map fst d) -> NoDup (map fst (dict_set k v d)).
Proof.
  intros k v. induction d as [|[k' v'] r IH]; cbn [dict_set map fst]; intros H.
  - repeat constructor. intros [].
  - apply NoDup_cons_iff in H. destruct H as [Hn Hr].
    destruct (N.eqb_spec k k') as [->|Hne]; cbn [map fst]; constructor; auto.
    rewrite dict_set_keys. intuition congruence.
Qed.

Lemma dict_set_has : forall k v d, In (k, v) (dict_set k v d).
Proof.
  intros k v. induction d as [|[k' v'] r IH]; cbn [dict_set]; [left; reflexivity|].
  destruct (N.eqb_spec k k') as [->|_]; [left; reflexivity | right; exact IH].
Qed.

Lemma dict_set_In : forall k v d x w, In (x, w) (dict_set k v d) -> (x = k /\ w = v) \/ In (x, w) d.
Proof.
  intros k v. induction d as [|[k' v'] r IH]; intros x w H; cbn [dict_set] in H.
  - destruct H as [H|[]]. inversion H. auto.
  - destruct (N.eqb_spec k k') as [->|_]; destruct H as [H|H];
      [inversion H; auto | right; right; exact H | right; left; exact H | destruct (IH _ _ H); [auto | right; right; assumption]].
Qed.

Lemma dict_set_other : forall k v d x w, x <> k -> In (x, w) d -> In (x, w) (dict_set k v d).
Proof.
  intros k v. induction d as [|[k' v'] r IH]; intros x w Hne H; [destruct H|]. cbn [dict_set].
  destruct (N.eqb_spec k k') as [->|_]; destruct H as [H|H];
    [inversion H; congruence | right; exact H | left; exact H | right; apply IH; assumption].
Qed.

(* [updates R d d']: [d'] comes from [d] by a sequence of assignments d[k] = v with R k v.
   Merging, lease renewal and the priority-queue loop all are such sequences; what they
   preserve is proved here once. *)
Inductive updates (R : N -> A -> Prop) : list (N * A) -> list (N * A) -> Prop :=
| updates_refl d : updates R d d
| updates_set k v d d' : R k v -> updates R (dict_set k v d) d' -> updates R d d'.

Lemma updates_weaken : forall (R R' : N -> A -> Prop) d d',
  (forall k v, R k v -> R' k v) -> updates R d d' -> updates R' d d'.
Proof. intros R R' d d' HR H. induction H; [constructor | econstructor; eauto]. Qed.

Lemma updates_trans : forall R d d' d'', updates R d d' -> updates R d' d'' -> updates R d d''.
Proof. intros R d d' d'' H H'. induction H; [exact H' | econstructor; eauto]. Qed.

Section Updates.
Variable R : N -> A -> Prop.

Lemma updates_keys : forall d d', updates R d d' -> forall x, In x (map fst d) -> In x (map fst d').
Proof. intros d d' H. induction H as [|k v d0 d1 _ _ IH]; intros x Hx; [exact Hx|]. apply IH, dict_set_keys. auto. Qed.

Lemma updates_keys_inv : forall d d', updates R d d' ->
  forall x, In x (map fst d') -> In x (map fst d) \/ exists v, R x v.
Proof.
  intros d d' H. induction H as [|k v d0 d1 Hk _ IH]; intros x Hx; [auto|].
  destruct (IH x Hx) as [H1|H1]; [|auto]. apply dict_set_keys in H1. destruct H1 as [->|H1]; eauto.
Qed.

Lemma updates_NoDup : forall d d', updates R d d' -> NoDup (map fst d) -> NoDup (map fst d').
Proof. intros d d' H. induction H as [|k v d0 d1 _ _ IH]; intros Hnd; [exact Hnd|]. apply IH, dict_set_NoDup, Hnd. Qed.

Lemma updates_In : forall d d', updates R d d' -> forall x w, In (x, w) d' -> In (x, w) d \/ R x w.
Proof.
  intros d d' H. induction H as [|k v d0 d1 Hk _ IH]; intros x w Hx; [auto|].
  destruct (IH x w Hx) as [H1|H1]; [|auto]. apply dict_set_In in H1. destruct H1 as [[-> ->]|H1]; auto.
Qed.

Lemma updates_other : forall d d', updates R d d' ->
  forall x w, (forall v, ~ R x v) -> In (x, w) d -> In (x, w) d'.
Proof.
  intros d d' H. induction H as [|k v d0 d1 Hk _ IH]; intros x w Hn Hx; [exact Hx|].
  apply IH; [exact Hn|]. apply dict_set_other; [|exact Hx]. intros ->. exact (Hn _ Hk).
Qed.
End Updates.
End Dict.

Lemma used_peers_spec : forall m,
  NoDup (used_peers_of m) /\ forall p, In p (used_peers_of m) <-> exists s, In (s, Some p) m.
Proof.
  intros m. apply fold_add_set with (sel := fun e : N * option N => snd e); [reflexivity|].
  intros p. split.
  - intros [s Hin]. exists (s, Some p). auto.
  - intros [[s q] [Hin E]]. cbn [snd] in E. subst q. eauto.
Qed.

Lemma used_shares_spec : forall m,
  NoDup (used_shares_of m) /\ forall s, In s (used_shares_of m) <-> exists p, In (s, Some p) m.
Proof.
  intros m. apply fold_add_set with (sel := fun e : N * option N => match snd e with Some _ => Some (fst e) | None => None end).
  - intros acc [k [p|]]; reflexivity.
  - intros s. split.
    + intros [p Hin]. exists (s, Some p). auto.
    + intros [[s' [p|]] [Hin E]]; inversion E; subst. eauto.
Qed.

Definition homeless_of (m : list (N * option N)) : list N :=
  fold_left (fun acc e => match snd e with None => add_set (fst e) acc | Some _ => acc end) m [].

Lemma homeless_of_In : forall m s, In s (homeless_of m) <-> In (s, None) m.
Proof.
  intros m. apply fold_add_set with (sel := fun e : N * option N => match snd e with Some _ => None | None => Some (fst e) end).
  - intros acc [k [p|]]; reflexivity.
  - intros s. split.
    + intros Hin. exists (s, None). auto.
    + intros [[s' [p|]] [Hin E]]; inversion E; subst. exact Hin.
Qed.

Definition dfold (l d : list (N * option N)) : list (N * option N) :=
  fold_left (fun d e => dict_set (fst e) (snd e) d) l d.

Lemma dfold_updates : forall l d, updates (fun k v => In (k, v) l) d (dfold l d).
Proof.
  induction l as [|[k v] r IH]; intros d; cbn [dfold fold_left fst snd]; [constructor|].
  apply (updates_set _ k v); [left; reflexivity|].
  eapply updates_weaken; [|apply IH]. intros; right; assumption.
Qed.

Lemma dfold_keys : forall l d x, In x (map fst l) -> In x (map fst (dfold l d)).
Proof.
  induction l as [|[k v] r IH]; intros d x Hx; [destruct Hx|]. cbn [dfold fold_left fst snd map] in *.
  destruct Hx as [<-|Hx]; [|apply IH, Hx].
  apply (updates_keys _ _ _ (dfold_updates r _)), dict_set_keys. auto.
Qed.

Lemma dfold_has : forall l d k v, NoDup (map fst l) -> In (k, v) l -> In (k, v) (dfold l d).
Proof.
  induction l as [|[k' v'] r IH]; intros d k v Hnd Hin; [destruct Hin|].
  cbn [map fst] in Hnd. apply NoDup_cons_iff in Hnd. destruct Hnd as [Hn Hr]. cbn [dfold fold_left fst snd].
  destruct Hin as [E|Hin]; [inversion E; subst | apply IH; assumption].
  apply (updates_other _ _ _ (dfold_updates r _)); [|apply dict_set_has].
  intros w Hw. apply Hn. apply (in_map fst _ _ Hw).
Qed.

Lemma merge_dfold : forall a b c, merge_mappings a b c = dfold c (dfold b (dfold a [])).
Proof. intros a b c. unfold merge_mappings, dfold. rewrite !fold_left_app. reflexivity. Qed.

Lemma merged_NoDup : forall a b c, NoDup (map fst (merge_mappings a b c)).
Proof. intros a b c. apply (updates_NoDup _ _ _ (dfold_updates (a ++ b ++ c) [])). constructor. Qed.

Lemma merge_In : forall a b c x w, In (x, w) (merge_mappings a b c) -> In (x, w) a \/ In (x, w) b \/ In (x, w) c.
Proof.
  intros a b c x w H. destruct (updates_In _ _ _ (dfold_updates (a ++ b ++ c) []) _ _ H) as [[]|H1].
  rewrite !in_app_iff in H1. exact H1.
Qed.

Lemma merge_keys : forall a b c x,
  In x (map fst (merge_mappings a b c)) <-> In x (map fst a) \/ In x (map fst b) \/ In x (map fst c).
Proof.
  intros a b c x. rewrite <- !in_app_iff, <- !map_app. split; [|apply dfold_keys].
  intros H. destruct (updates_keys_inv _ _ _ (dfold_updates (a ++ b ++ c) []) _ H) as [[]|[v Hv]].
  apply (in_map fst _ _ Hv).
Qed.

(* an entry whose key no later mapping assigns is in the merge *)
Lemma merge_persist_c : forall a b c k v, NoDup (map fst c) -> In (k, v) c -> In (k, v) (merge_mappings a b c).
Proof. intros a b c k v Hnd Hin. rewrite merge_dfold. apply dfold_has; assumption. Qed.

Lemma merge_persist_b : forall a b c k v, NoDup (map fst b) -> In (k, v) b ->
  ~ In k (map fst c) -> In (k, v) (merge_mappings a b c).
Proof.
  intros a b c k v Hnd Hin Hc. rewrite merge_dfold.
  apply (updates_other _ _ _ (dfold_updates c _)); [|apply dfold_has; assumption].
  intros w Hw. apply Hc. apply (in_map fst _ _ Hw).
Qed.

Lemma merge_persist_a : forall a b c k v, NoDup (map fst a) -> In (k, v) a ->
  ~ In k (map fst b) -> ~ In k (map fst c) -> In (k, v) (merge_mappings a b c).
Proof.
  intros a b c k v Hnd Hin Hb Hc. rewrite merge_dfold.
  apply (updates_other _ _ _ (dfold_updates c _)); [intros w Hw; apply Hc, (in_map fst _ _ Hw)|].
  apply (updates_other _ _ _ (dfold_updates b _)); [intros w Hw; apply Hb, (in_map fst _ _ Hw)|].
  apply dfold_has; assumption.
Qed.

Lemma pq_min_In : forall l best, In (pq_min best l) (best :: l).
Proof.
  induction l as [|y l IH]; intros best; cbn [pq_min]; [left; reflexivity|].
  destruct (IH (if pq_less y best then y else best)) as [H|H]; [|right; right; exact H].
  destruct (pq_less y best); [right; left; exact H | left; exact H].
Qed.

Lemma pq_remove_In : forall b l y, In y (pq_remove b l) -> In y l.
Proof.
  intros b. induction l as [|z l IH]; intros y Hy; cbn [pq_remove] in Hy; [destruct Hy|].
  destruct (Nat.eqb (fst b) (fst z) && N.eqb (snd b) (snd z)); [right; exact Hy|].
  destruct Hy as [Hy|Hy]; [left; exact Hy | right; apply IH, Hy].
Qed.

Lemma distribute_updates : forall shares pq m m', distribute shares pq m = Some m' ->
  updates (fun k v => In k shares /\ exists p, v = Some p /\ In p (map snd pq)) m m'.
Proof.
  induction shares as [|s r IH]; intros pq m m' H; cbn [distribute] in H; [inversion H; constructor|].
  destruct pq as [|e rest]; [discriminate|]. set (best := pq_min e rest) in *.
  assert (Hb : In (snd best) (map snd (e :: rest))) by apply in_map, pq_min_In.
  apply (updates_set _ s (Some (snd best))); [split; [left; reflexivity | eauto]|].
  eapply updates_weaken; [|apply (IH _ _ _ H)].
  intros k v [Hk [p [-> Hp]]]. split; [right; exact Hk|]. exists p. split; [reflexivity|].
  destruct Hp as [<-|Hp]; [exact Hb|]. apply in_map_iff in Hp. destruct Hp as [y [<- Hy]].
  apply in_map, (pq_remove_In best), Hy.
Qed.

Lemma first_holder_spec : forall share wp2s p, first_holder share wp2s = Some p ->
  exists held, In (p, held) wp2s /\ In share held.
Proof.
  intros share wp2s p H. unfold first_holder in H.
  destruct (find (fun e : N * list N => memN share (snd e)) wp2s) as [[q held]|] eqn:E; [|discriminate].
  inversion H; subst. apply find_some in E. destruct E as [E1 E2]. apply memN_In in E2. eauto.
Qed.

(* one iteration of the first loop: renew the lease of a share some writable server holds,
   queue the others for distribution *)
Definition lease_step (wp2s : smap) (shareids : list N) (st : list (N * option N) * list N) (share : N) :=
  let '(mm, td) := st in
  if memN share shareids
  then match first_holder share wp2s with
       | Some p => (dict_set share (Some p) mm, td)
       | None => (mm, td)
       end
  else (mm, add_set share td).

Lemma lease_fold_updates : forall wp2s shareids all homeless m td m1 td1,
  incl homeless all ->
  fold_left (lease_step wp2s shareids) homeless (m, td) = (m1, td1) ->
  updates (fun k v => In k all /\ exists p, v = Some p /\ In p (map fst wp2s)) m m1 /\
  (forall x, In x td1 -> In x td \/ In x all).
Proof.
  intros wp2s shareids all. induction homeless as [|s r IH]; intros m td m1 td1 Hall H; cbn [fold_left] in H.
  - inversion H; subst. split; [constructor | auto].
  - apply incl_cons_inv in Hall. destruct Hall as [Hs Hr].
    unfold lease_step at 2 in H. destruct (memN s shareids).
    + destruct (first_holder s wp2s) as [q|] eqn:Ef; [|exact (IH _ _ _ _ Hr H)].
      destruct (IH _ _ _ _ Hr H) as [U T]. split; [|exact T].
      apply (updates_set _ s (Some q)); [|exact U]. split; [exact Hs|]. exists q. split; [reflexivity|].
      destruct (first_holder_spec _ _ _ Ef) as [held [Hq _]]. apply (in_map fst _ _ Hq).
    + destruct (IH _ _ _ _ Hr H) as [U T]. split; [exact U|]. intros x Hx.
      destruct (T x Hx) as [H3|H3]; [|auto]. apply add_set_In in H3. destruct H3 as [->|H3]; auto.
Qed.

Lemma distribute_homeless_updates : forall os m homeless wp2s m',
  distribute_homeless os m homeless wp2s = Some m' ->
  updates (fun k v => In k homeless /\ exists p, v = Some p /\ In p (map fst wp2s)) m m'.
Proof.
  intros os m homeless wp2s m' H. unfold distribute_homeless in H.
  destruct (fold_left _ homeless (m, [])) as [m1 td] eqn:Ef.
  apply (lease_fold_updates _ _ _ _ _ _ _ _ (incl_refl homeless)) in Ef. destruct Ef as [U T].
  destruct wp2s as [|e0 w]; [inversion H; subst; exact U|]. set (wp2s := e0 :: w) in *. cbn [map] in H.
  destruct (ordered (o_todist os td) td) as [tdo|] eqn:Eo; [|discriminate].
  apply distribute_updates in H. apply (updates_trans _ _ _ _ U).
  eapply updates_weaken; [|exact H]. intros x v [Hx [p [-> Hp]]]. split.
  - destruct (T x (ordered_incl Eo x Hx)) as [[]|Hh]. exact Hh.
  - exists p. split; [reflexivity|]. change (In p (map snd (map (fun q => (count_mapped q m1, q)) (map fst wp2s)))) in Hp.
    rewrite map_map, map_id in Hp. exact Hp.
Qed.

Lemma round_robin_spec : forall rr m i res, round_robin rr i m = Some res ->
  map fst res = map fst m /\
  (forall s p, In (s, p) res -> In (s, Some p) m \/ In p rr) /\
  (forall s p, In (s, Some p) m -> In (s, p) res).
Proof.
  intros rr. induction m as [|[k [q|]] r IH]; intros i res H; cbn [round_robin] in H.
  - inversion H; subst. split; [reflexivity|]. split; intros s p [].
  - destruct (round_robin rr i r) as [t|] eqn:E; [|discriminate]. inversion H; subst.
    destruct (IH _ _ E) as (H1 & H2 & H3). split; [cbn [map fst]; f_equal; exact H1|]. split.
    + intros s p [Hp|Hp]; [inversion Hp; subst; auto with datatypes|]. destruct (H2 s p Hp); auto with datatypes.
    + intros s p [Hp|Hp]; [inversion Hp; subst; left; reflexivity | right; apply H3, Hp].
  - destruct (nth_error rr (i mod length rr)) as [q|] eqn:En; [|discriminate].
    destruct (round_robin rr (S i) r) as [t|] eqn:E; [|discriminate]. inversion H; subst.
    destruct (IH _ _ E) as (H1 & H2 & H3). split; [cbn [map fst]; f_equal; exact H1|]. split.
    + intros s p [Hp|Hp]; [inversion Hp; subst; right; apply (nth_error_In _ _ En)|]. destruct (H2 s p Hp); auto with datatypes.
    + intros s p [Hp|Hp]; [discriminate | right; apply H3, Hp].
Qed.

Definition ro_shares (readonly : list N) (p2s : smap) : list N :=
  fold_left (fun acc e => fold_left (fun a s => add_set s a) (snd e) acc) (held_by_readonly readonly p2s) [].
Definition peers2 (peers : list N) (ro : phase_result) : list N := diffN peers (used_peers_of (pr_mappings ro)).
Definition shares2 (shares : list N) (ro : phase_result) : list N := diffN shares (used_shares_of (pr_mappings ro)).
Definition smap2 (p2s : smap) (ro : phase_result) : smap :=
  remaining_servermap p2s (used_peers_of (pr_mappings ro)) (used_shares_of (pr_mappings ro)).
Definition peers3 (peers : list N) (ro ex : phase_result) : list N :=
  diffN (diffN (peers2 peers ro) (used_peers_of (pr_mappings ex))) (used_peers_of (pr_mappings ro)).
Definition shares3 (shares : list N) (ro ex : phase_result) : list N :=
  diffN (diffN (shares2 shares ro) (used_shares_of (pr_mappings ex))) (used_shares_of (pr_mappings ro)).
Definition merged (ro ex nw : phase_result) : list (N * option N) :=
  merge_mappings (pr_mappings ro) (pr_mappings ex) (pr_mappings nw).
Definition writable_p2s (readonly : list N) (p2s : smap) : smap :=
  filter (fun e : N * list N => negb (memN (fst e) readonly)) p2s.

Lemma insertN_In : forall x l y, In y (insertN x l) <-> y = x \/ In y l.
Proof.
  intros x. induction l as [|a r IH]; intros y; cbn [insertN In]; [intuition congruence|].
  destruct (N.leb x a); cbn [In]; [|rewrite IH]; intuition congruence.
Qed.

Lemma sortN_In : forall l y, In y (sortN l) <-> In y l.
Proof.
  induction l as [|a r IH]; intros y; cbn [sortN fold_right In]; [tauto|].
  fold (sortN r). rewrite insertN_In, IH. intuition congruence.
Qed.

Lemma held_by_readonly_In : forall readonly p2s p held,
  In (p, held) (held_by_readonly readonly p2s) -> In p readonly /\ lookupN p p2s = Some held.
Proof.
  intros readonly p2s p held H. unfold held_by_readonly in H. apply in_flat_map in H.
  destruct H as [peer [_ H]]. destruct (memN peer readonly) eqn:E; [|destruct H].
  destruct (lookupN peer p2s) as [shs|] eqn:El; [|destruct H]. destruct H as [H|[]]. inversion H; subst.
  split; [apply memN_In, E | exact El].
Qed.

Lemma held_by_readonly_lookup : forall readonly p2s p held,
  In p readonly -> lookupN p p2s = Some held -> lookupN p (held_by_readonly readonly p2s) = Some held.
Proof.
  intros readonly p2s p held Hro Hl. unfold held_by_readonly.
  assert (Hin : In p (sortN (map fst p2s))) by apply sortN_In, (in_map fst _ _ (lookupN_In _ _ _ Hl)).
  induction (sortN (map fst p2s)) as [|x L IH]; [destruct Hin|]. cbn [flat_map].
  destruct (N.eqb_spec p x) as [<-|Hne].
  - rewrite (proj2 (memN_In _ _) Hro), Hl. cbn [app lookupN]. rewrite N.eqb_refl. reflexivity.
  - destruct Hin as [Hin|Hin]; [congruence|]. apply N.eqb_neq in Hne.
    destruct (memN x readonly); [destruct (lookupN x p2s)|]; cbn [app lookupN]; rewrite ?Hne; apply IH, Hin.
Qed.

Lemma ro_shares_In : forall readonly p2s s,
  In s (ro_shares readonly p2s) <-> exists p held, In (p, held) (held_by_readonly readonly p2s) /\ In s held.
Proof.
  intros readonly p2s. unfold ro_shares. generalize (held_by_readonly readonly p2s). intros L.
  assert (Hflat : forall acc, fold_left (fun acc (e : N * list N) => fold_left (fun a s => add_set s a) (snd e) acc) L acc
                              = fold_left (fun a s => add_set s a) (flat_map snd L) acc).
  { induction L as [|e r IH]; intros acc; cbn [fold_left flat_map]; [reflexivity|]. rewrite fold_left_app. apply IH. }
  rewrite Hflat. apply fold_add_set with (sel := fun s : N => Some s); [reflexivity|].
  intros s. split.
  - intros [p [held [Hin Hs]]]. exists s. split; [|reflexivity]. apply in_flat_map. exists (p, held). auto.
  - intros [s' [Hin E]]. inversion E; subst s'. apply in_flat_map in Hin. destruct Hin as [[p held] [Hin Hs]]. eauto.
Qed.

(* What the steps after the merge leave of a mapping [d]: they assign only keys that [d] maps
   to None, to servers satisfying [Q] (homeless shares) or taken from [rr] (round-robin). *)
Lemma finish_spec : forall (d m' : list (N * option N)) (Q : N -> Prop) rr res,
  NoDup (map fst d) ->
  updates (fun k v => In (k, None) d /\ exists p, v = Some p /\ Q p) d m' ->
  round_robin rr 0 m' = Some res ->
  NoDup (map fst res) /\
  (forall s, In s (map fst res) <-> In s (map fst d)) /\
  (forall s p, In (s, Some p) d -> In (s, p) res) /\
  (forall s p, In (s, p) res -> In (s, Some p) d \/ Q p \/ In p rr).
Proof.
  intros d m' Q rr res Hnd Hm Hrr. destruct (round_robin_spec _ _ _ _ Hrr) as (Kres & Hfrom & Hto).
  rewrite Kres. split; [apply (updates_NoDup _ _ _ Hm), Hnd|]. split; [|split].
  - intros s. split; [|apply (updates_keys _ _ _ Hm)].
    intros Hin. destruct (updates_keys_inv _ _ _ Hm _ Hin) as [Hk|[v [Hk _]]]; [exact Hk | apply (in_map fst _ _ Hk)].
  - intros s p Hin. apply Hto, (updates_other _ _ _ Hm); [|exact Hin].
    intros v [Hnone _]. pose proof (NoDup_fst_unique _ _ _ _ Hnd Hin Hnone). discriminate.
  - intros s p Hin. destruct (Hfrom s p Hin) as [H1|H1]; [|auto].
    destruct (updates_In _ _ _ Hm _ _ H1) as [H2|[_ [q [Eq Hq]]]]; [auto|]. inversion Eq; subst q. auto.
Qed.

(* A successful run: three matchings, then homeless shares (keys mapped to None by the merge)
   are given to writable servers that reported shares, then whatever is still None is dealt
   round-robin over the writable servers. *)
Lemma share_placement_inv : forall os peers readonly shares p2s res,
  peers <> [] -> share_placement os peers readonly shares p2s = Some res ->
  exists ro ex nw,
    calculate_mappings (o_ro os) readonly (ro_shares readonly p2s) (held_by_readonly readonly p2s) = Some ro /\
    calculate_mappings (o_ex os) (peers2 peers ro) (shares2 shares ro) (smap2 p2s ro) = Some ex /\
    calculate_mappings (o_new os) (peers3 peers ro ex) (shares3 shares ro ex) [] = Some nw /\
    NoDup (map fst res) /\
    (forall s, In s (map fst res) <-> In s (map fst (merged ro ex nw))) /\
    (forall s p, In (s, Some p) (merged ro ex nw) -> In (s, p) res) /\
    (forall s p, In (s, p) res -> In (s, Some p) (merged ro ex nw) \/
                                   In p (map fst (writable_p2s readonly p2s)) \/ (In p peers /\ ~ In p readonly)).
Proof.
  intros os peers readonly shares p2s res Hne H. unfold share_placement in H.
  destruct peers as [|p0 pr]; [contradiction|]. set (peers := p0 :: pr) in *.
  destruct (share_placement_state os peers readonly shares p2s) as [st|] eqn:Es; [|discriminate].
  inversion H; subst res. clear H. unfold share_placement_state in Es. fold (ro_shares readonly p2s) in Es.
  destruct (calculate_mappings (o_ro os) readonly _ _) as [ro|] eqn:E1; [|discriminate].
  fold (peers2 peers ro) (shares2 shares ro) (smap2 p2s ro) in Es.
  destruct (calculate_mappings (o_ex os) _ _ _) as [ex|] eqn:E2; [|discriminate].
  fold (peers3 peers ro ex) (shares3 shares ro ex) in Es.
  destruct (calculate_mappings (o_new os) _ _ _) as [nw|] eqn:E3; [|discriminate].
  fold (merged ro ex nw) in Es. fold (homeless_of (merged ro ex nw)) in Es. fold (writable_p2s readonly p2s) in Es.
  match type of Es with match ?X with Some _ => _ | None => _ end = _ => destruct X as [m'|] eqn:E4; [|discriminate] end.
  match type of Es with match ?X with Some _ => _ | None => _ end = _ => destruct X as [rr|] eqn:E5; [|discriminate] end.
  destruct (round_robin rr 0 m') as [res|] eqn:E6; [|discriminate]. inversion Es; subst st. cbn [ps_result].
  assert (Hrr : forall p, In p rr -> In p peers /\ ~ In p readonly).
  { intros p Hp. destruct (has_none m'); [|inversion E5; subst; destruct Hp].
    apply diffN_In, (ordered_incl E5), Hp. }
  apply (finish_spec (merged ro ex nw) m' (fun p => In p (map fst (writable_p2s readonly p2s)))) in E6;
    [|apply merged_NoDup|].
  - destruct E6 as (Hnd & Hkeys & Hto & Hfrom).
    exists ro, ex, nw. do 3 (split; [first [reflexivity | assumption]|]).
    split; [exact Hnd|]. split; [exact Hkeys|]. split; [exact Hto|].
    intros s p Hin. destruct (Hfrom s p Hin) as [H1|[H1|H1]]; auto.
  - destruct (homeless_of (merged ro ex nw)) as [|h hs] eqn:Eh; [inversion E4; constructor|].
    destruct (ordered (o_homeless os (h :: hs)) (h :: hs)) as [ho|] eqn:Eo; [|discriminate].
    apply distribute_homeless_updates in E4. eapply updates_weaken; [|exact E4].
    intros k v [Hk Hv]. split; [|exact Hv]. apply homeless_of_In. rewrite Eh. apply (ordered_incl Eo), Hk.
Qed.
