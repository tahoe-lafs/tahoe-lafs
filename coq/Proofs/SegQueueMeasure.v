(* C46: progress measure of the segment queue + readers.  Every step the system takes
   by itself -- a queued _maybe_fetch_next or _deliver runs, the active fetcher calls
   process_blocks or fetch_failed -- strictly decreases `weight` (step_weight); a consumer's
   pause adds nothing (pause_stop_weight, which is about SPause alone) and a resume at most
   one (resume_weight).  So between two outside calls only finitely many steps happen. *)
From Coq Require Import List NArith Bool Arith Lia.
From Verif Require Import Lib.ListFacts Model.SegQueue Proofs.SegQueueBase Proofs.SegQueueRange Proofs.SegQueueLive.
Import ListNotations.

Definition retry (known : bool) (r : reader) : nat :=
  match rd_active r with
  | Some (_, _, false) => 1
  | Some (_, _, true) => 0
  | None => if known then 0 else 1
  end.

(* A request in flight weighs 2 in the queue, then 1 as a queued delivery.  Its reader
   pays the 2 when it issues the request and needs them back when the request retires:
   they come out of the 3 of a delivered byte, or of the one retry that a request made
   with a guessed segment size is allowed. *)
Definition pot (known : bool) (r : reader) : nat :=
  rd_mfn r +
  match rd_result r with
  | Some _ => 0
  | None => 3 * N.to_nat (rd_size r) + 3 * retry known r + match rd_active r with None => 2 | Some _ => 0 end
  end.

Definition weight (s : sys) : nat :=
  list_sum (map (pot (s_known s)) (s_readers s)) + 2 * length (s_reqs s) + length (s_deliveries s).

(* the steps the system takes by itself, and when they can happen *)
Definition system_step (s : sys) (e : sev) : Prop :=
  match e with
  | SMaybeFetch i => exists r, nth_error (s_readers s) i = Some r /\ rd_mfn r > 0
  | SFetchFailed _ | SBlocks _ _ => s_active s <> None
  | SDeliver _ => s_deliveries s <> []
  | _ => False
  end.

Lemma pot_finish known r x : pot known (rd_finish r x) = rd_mfn r.
Proof. unfold pot. cbn [rd_finish rd_result rd_mfn]. lia. Qed.

Lemma pot_ge_mfn known r : rd_mfn r <= pot known r.
Proof. unfold pot. lia. Qed.

Lemma sum_set_nth {A} (f : A -> nat) i x y l :
  nth_error l i = Some x -> list_sum (map f (set_nth i y l)) + f x = list_sum (map f l) + f y.
Proof.
  unfold list_sum. revert i. induction l as [|z r IH]; intros [|i] H; cbn [nth_error set_nth map fold_right] in *; try discriminate.
  - inversion H; subst. lia.
  - specialize (IH i H). lia.
Qed.

Section Measure.
  Variable ct : list N.
  Variables segsize guess : N.

  Notation mfn := (maybe_fetch_next segsize guess).
  Notation fired := (reader_fired ct segsize guess).
  Notation step := (sstep true ct segsize guess).

  Lemma weight_set_reader s i r0 r :
    nth_error (s_readers s) i = Some r0 ->
    weight (set_reader s i r) + pot (s_known s) r0 = weight s + pot (s_known s) r.
  Proof.
    intros H. unfold weight, set_reader. cbn [s_known s_readers s_reqs s_deliveries].
    pose proof (sum_set_nth (pot (s_known s)) i r0 r _ H). lia.
  Qed.

  Lemma mfn_weight s i r0 r :
    nth_error (s_readers s) i = Some r0 -> (rd_alive r = true -> rd_result r = None) ->
    weight (fst (mfn s i r)) + pot (s_known s) r0 <= weight s + pot (s_known s) r.
  Proof.
    intros H Hal. destruct (mfn_cases segsize guess s i r) as [Idle|A Hg Ac Z|w A Hg Ac NZ]; cbn [fst].
    - pose proof (weight_set_reader s i r0 r H). lia.
    - pose proof (weight_set_reader s i r0 (rd_finish r RDone) H). unfold pot in *. cbn [rd_finish rd_result rd_mfn] in *. lia.
    - destruct (get_segment_fields s w) as (R & Nx & In & D & K & Rd & _). cbn zeta in *.
      set (s1 := fst (fst (get_segment s w))) in *.
      assert (H1 : nth_error (s_readers s1) i = Some r0) by now rewrite Rd.
      pose proof (weight_set_reader s1 i r0 (rd_set_active r (Some (w, s_next_rid s, s_known s))) H1) as W.
      rewrite K in W.
      assert (weight s1 = weight s + 2) as W1.
      { unfold weight. rewrite K, Rd, R, D, app_length. cbn [length]. lia. }
      assert (pot (s_known s) (rd_set_active r (Some (w, s_next_rid s, s_known s))) + 2 = pot (s_known s) r) as P.
      { unfold pot, retry. cbn [rd_set_active rd_result rd_active rd_mfn rd_size]. rewrite (Hal A), Ac. destruct (s_known s); lia. }
      lia.
  Qed.

  Lemma fired_weight s i r sg rid k res react :
    nth_error (s_readers s) i = Some r -> rd_active r = Some (sg, rid, k) -> rd_result r = None -> rd_alive r = true ->
    ((exists n, res = SegData n) \/ res = SegErr EBadSegNum -> s_known s = true) ->
    weight (fst (fired s i r k res react)) <= weight s.
  Proof.
    intros H Ea Rr Al Hk.
    (* a write delivers at least one byte, which pays for the next request *)
    assert (Wr : forall data, got_data ct segsize r res data -> pot (s_known s) (rd_write r data) + 1 <= pot (s_known s) r).
    { intros data G. destruct (got_data_spec ct segsize r res data G) as [_ Hd].
      assert (Kn : s_known s = true) by (destruct G as (n & _ & -> & _); apply Hk; eauto).
      unfold pot, retry. cbn [rd_write rd_result rd_active rd_mfn rd_size]. rewrite Rr, Ea, Kn. destruct k; lia. }
    destruct (fired_cases ct segsize guess s i r k res react) as [data G|data G|data G|x _|Ek Hres].
    - pose proof (mfn_weight s i r (rd_write r data) H (fun _ => Rr)). specialize (Wr data G). lia.
    - pose proof (weight_set_reader s i r (rd_set_flags (rd_write r data) false (rd_alive r)) H). specialize (Wr data G).
      change (pot (s_known s) (rd_set_flags (rd_write r data) false (rd_alive r))) with (pot (s_known s) (rd_write r data)) in *. lia.
    - pose proof (weight_set_reader s i r (rd_finish (rd_write r data) RStopped) H) as W. rewrite pot_finish in W.
      pose proof (pot_ge_mfn (s_known s) (rd_write r data)). specialize (Wr data G). lia.
    - pose proof (weight_set_reader s i r (rd_finish (rd_set_active r None) x) H) as W. rewrite pot_finish in W.
      pose proof (pot_ge_mfn (s_known s) r). cbn [rd_set_active rd_mfn] in W. lia.
    - (* the request was made with a guessed segment size, which is known now: no further retry *)
      pose proof (mfn_weight s i r (rd_set_active r None) H (fun _ => Rr)) as M.
      assert (pot (s_known s) (rd_set_active r None) + 1 = pot (s_known s) r) as P.
      { unfold pot, retry. cbn [rd_set_active rd_result rd_active rd_mfn rd_size]. rewrite Rr, Ea, Ek, (Hk Hres). lia. }
      lia.
  Qed.

  Lemma finish_weight s fid seg res :
    queue_ok s -> s_active s = Some (fid, seg) ->
    weight (fst (start_new (extract (clear_active s) seg res))) < weight s.
  Proof.
    intros Q A.
    destruct (start_new_fields (extract (clear_active s) seg res)) as (F1 & F2 & F3 & F4 & F5 & F6).
    destruct (extract_fields (clear_active s) seg res) as (E1 & E2 & E3 & E4 & E5 & E6 & E7).
    unfold weight. rewrite F1, F4, F5, F6, E4, E5, E6, E7. cbn [clear_active upd_node s_known s_readers s_reqs s_deliveries].
    rewrite app_length, map_length.
    (* a queued request is for seg: at least one moves from the queue (2 each) to the deliveries (1 each) *)
    unfold queue_ok, segs in Q. rewrite A in Q. apply in_map_iff in Q. destruct Q as (q & E & Hq).
    pose proof (filter_split_length (fun r => N.eqb (r_seg r) seg) (s_reqs s)).
    assert (length (filter (fun r => negb (N.eqb (r_seg r) seg)) (s_reqs s)) < length (s_reqs s))
      by (apply (filter_length_lt _ _ q Hq); now rewrite E, N.eqb_refl).
    lia.
  Qed.

  Lemma weight_pop s inact rid res rest : s_deliveries s = (rid, res) :: rest -> weight (pop s inact rest) + 1 = weight s.
  Proof. intros D. unfold weight, pop. cbn [upd_node s_known s_readers s_reqs s_deliveries]. rewrite D. cbn [length]. lia. Qed.

  Lemma step_weight s e :
    LInv s -> queue_ok s -> sev_ok s e -> system_step s e -> weight (fst (step s e)) < weight s.
  Proof.
    intros L Q Hok Hsys. destruct e as [off sz|i|i|i|i| |e|ok e|react]; cbn [system_step sstep] in *; try contradiction.
    - destruct Hsys as (r & E & M). rewrite E. destruct (rd_mfn r) as [|n] eqn:Mf; [lia|].
      pose proof (mfn_weight s i r (rd_set_mfn r n) E) as W.
      assert (pot (s_known s) (rd_set_mfn r n) + 1 = pot (s_known s) r) as P.
      { unfold pot, retry. cbn [rd_set_mfn rd_result rd_active rd_mfn rd_size]. rewrite Mf. lia. }
      assert (rd_alive r = true -> rd_result r = None) as Hal.
      { intros Al. destruct (rd_result r) eqn:Rr; [|reflexivity].
        destruct (l_finished _ s L i r E) as [_ X]; congruence. }
      specialize (W Hal). lia.
    - destruct (s_active s) as [[fid seg]|] eqn:A; [|contradiction]. now apply (finish_weight s fid seg).
    - destruct (s_active s) as [[fid seg]|] eqn:A; [|contradiction]. destruct ok; now apply (finish_weight s fid seg).
    - pose proof (deliver_cases true ct segsize guess s react) as C. cbn [sstep] in C.
      destruct C as [E|rid res rest D _|rid res rest D _ _|rid res rest i r sg k D _ Nth Ea]; [contradiction| | |].
      + pose proof (weight_pop s (s_inactive s) rid res rest D). lia.
      + pose proof (weight_pop s (rid :: s_inactive s) rid res rest D). lia.
      + pose proof (weight_pop s (rid :: s_inactive s) rid res rest D).
        pose proof (linv_waiting _ s i r _ L Nth Ea) as Rr.
        assert (weight (fst (fired (pop s (rid :: s_inactive s) rest) i r k res react)) <= weight (pop s (rid :: s_inactive s) rest)); [|lia].
        apply (fired_weight (pop s (rid :: s_inactive s) rest) i r sg rid k res react Nth Ea Rr (linv_alive s i r L Nth Rr)).
        intros X. apply (l_known _ s L (rid, res)); [rewrite D; now left|exact X].
  Qed.

  Lemma pause_stop_weight s i : weight (fst (step s (SPause i))) <= weight s.
  Proof.
    cbn [sstep]. destruct (nth_error _ i) as [r|] eqn:E; [|cbn [fst]; lia]. destruct (rd_result r) eqn:Rr; [cbn [fst]; lia|]. cbn [fst].
    pose proof (weight_set_reader s i r (rd_set_flags r false (rd_alive r)) E).
    assert (pot (s_known s) (rd_set_flags r false (rd_alive r)) = pot (s_known s) r) by reflexivity. lia.
  Qed.

  Lemma resume_weight s i : weight (fst (step s (SResume i))) <= weight s + 1.
  Proof.
    cbn [sstep]. destruct (nth_error _ i) as [r|] eqn:E; [|cbn [fst]; lia]. destruct (rd_result r) eqn:Rr; [cbn [fst]; lia|]. cbn [fst].
    pose proof (weight_set_reader s i r (rd_set_mfn (rd_set_flags r true (rd_alive r)) (S (rd_mfn r))) E).
    assert (pot (s_known s) (rd_set_mfn (rd_set_flags r true (rd_alive r)) (S (rd_mfn r))) = pot (s_known s) r + 1).
    { unfold pot, retry. cbn. lia. }
    lia.
  Qed.
End Measure.
