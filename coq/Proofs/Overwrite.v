(* C39: invariant of OverwriteableFileConsumer (DESIGN.md A.4) and its preservation
   by every operation of Model/Overwrite.v. *)
From Coq Require Import List NArith Bool Lia Sorted.
From Verif Require Import Model.Overwrite Proofs.OverwriteLists.
Import ListNotations.
Local Open Scope N_scope.

(* the overwrite heap: intervals (start, end) sorted by start, each with start <= end *)
Definition srt (l : list (N * N)) : Prop := StronglySorted (fun a b => fst a <= fst b) l.
Definition owf (l : list (N * N)) : Prop := Forall (fun p => fst p <= snd p) l.

Lemma inow_Exists l i : inow l i <-> Exists (fun p => fst p <= i < snd p) l.
Proof.
  rewrite Exists_exists. split.
  - intros (st & en & H & Hr). exists (st, en). auto.
  - intros ([st en] & H & Hr). exists st, en. auto.
Qed.

Lemma inow_nil i : ~ inow [] i.
Proof. rewrite inow_Exists, Exists_nil. tauto. Qed.

Lemma inow_cons a b l i : inow ((a, b) :: l) i <-> (a <= i < b) \/ inow l i.
Proof. rewrite !inow_Exists. apply Exists_cons. Qed.

Lemma inow_app a b i : inow (a ++ b) i <-> inow a i \/ inow b i.
Proof. rewrite !inow_Exists. apply Exists_app. Qed.

Lemma Exists_insert (P : N * N -> Prop) x l : Exists P (ow_insert x l) <-> P x \/ Exists P l.
Proof.
  induction l as [|y r IH]; simpl; [|destruct (ow_leb x y)]; rewrite ?Exists_cons, ?IH; tauto.
Qed.

Lemma Forall_insert (P : N * N -> Prop) x l : Forall P (ow_insert x l) <-> P x /\ Forall P l.
Proof.
  induction l as [|y r IH]; simpl; [|destruct (ow_leb x y)]; rewrite ?Forall_cons_iff, ?IH; tauto.
Qed.

Lemma inow_insert a b l i : inow (ow_insert (a, b) l) i <-> (a <= i < b) \/ inow l i.
Proof. rewrite !inow_Exists. apply Exists_insert. Qed.

Lemma cov_insert d a b l i : cov d (ow_insert (a, b) l) i <-> cov d l i \/ a <= i < b.
Proof. unfold cov. rewrite inow_insert. tauto. Qed.

Lemma ow_leb_fst x y : if ow_leb x y then fst x <= fst y else fst y <= fst x.
Proof.
  unfold ow_leb.
  destruct (N.ltb_spec (fst x) (fst y)), (N.eqb_spec (fst x) (fst y)), (snd x <=? snd y); simpl; lia.
Qed.

Lemma srt_insert x l : srt l -> srt (ow_insert x l).
Proof.
  unfold srt. induction 1 as [|y r Hr IH Hy]; simpl; [repeat constructor|].
  pose proof (ow_leb_fst x y) as Hxy. destruct (ow_leb x y).
  - repeat constructor; try assumption.
    eapply Forall_impl; [|exact Hy]. simpl. intros z Hz. lia.
  - constructor; [exact IH|]. apply Forall_insert. auto.
Qed.

Lemma owf_insert x l : fst x <= snd x -> owf l -> owf (ow_insert x l).
Proof. intros. apply Forall_insert. auto. Qed.

(* the heap after a client mutation that may add the interval [x, y) *)
Lemma insert_if (b : bool) x y l :
  (b = true -> x <= y) -> srt l -> owf l ->
  let l' := if b then ow_insert (x, y) l else l in
  srt l' /\ owf l' /\ forall d i, cov d l' i <-> cov d l i \/ (b = true /\ x <= i < y).
Proof.
  intros Hxy Hs Hf. destruct b; simpl.
  - split; [apply srt_insert, Hs|]. split; [apply owf_insert; [apply Hxy; reflexivity | exact Hf]|].
    intros d i. rewrite cov_insert. tauto.
  - split; [exact Hs|]. split; [exact Hf|]. intros d i. intuition discriminate.
Qed.

Lemma srt_head_min a b l i : srt ((a, b) :: l) -> inow ((a, b) :: l) i -> a <= i.
Proof.
  intros H Hi. apply StronglySorted_inv in H. destruct H as [_ Hall].
  apply inow_cons in Hi. destruct Hi as [Hi | (st & en & Hin & Hr)]; [lia|].
  rewrite Forall_forall in Hall. specialize (Hall _ Hin). simpl in Hall. lia.
Qed.

Lemma srt_suffix pre l : srt (pre ++ l) -> srt l.
Proof.
  unfold srt. induction pre as [|x pre IH]; simpl; intro H; [exact H|].
  inversion H; subst. auto.
Qed.

(* the inner merge loop: what it pops is absorbed into the end of the interval *)
Lemma merge_spec : forall l en en' l',
  merge en l = (en', l') ->
  en <= en' /\ (exists pre, l = pre ++ l') /\ forall i, cov en l i <-> cov en' l' i.
Proof.
  induction l as [|[s1 e1] r IH]; intros en en' l' H; simpl in H.
  - inversion H; subst. split; [lia|]. split; [exists []; reflexivity | tauto].
  - destruct (N.ltb_spec en s1).
    + inversion H; subst. split; [lia|]. split; [exists []; reflexivity | tauto].
    + apply IH in H. destruct H as (Hle & (pre & Hpre) & Hcov).
      split; [lia|]. split; [exists ((s1, e1) :: pre); simpl; congruence|].
      intro i. rewrite <- Hcov. unfold cov. rewrite inow_cons. intuition lia.
Qed.

Lemma merge_length l en en' l' : merge en l = (en', l') -> (length l' <= length l)%nat.
Proof.
  intro H. apply merge_spec in H. destruct H as (_ & (pre & Hp) & _).
  subst. rewrite app_length. lia.
Qed.

(* popping the head (st, en) of the heap after the bytes below it have been written *)
Lemma pop_cov d st en rest i :
  st <= en -> (cov d ((st, en) :: rest) i \/ d <= i < N.max d st) <-> (i < d \/ cov en rest i).
Proof. intro H. unfold cov. rewrite inow_cons. intuition lia. Qed.

Section Inv.
Variable g : N -> N.          (* contents of file holes: arbitrary *)
Variable O : list N.          (* original contents *)

(* I1-I3 over the components they depend on *)
Definition I123 (ref fl : list N) (c ds d : N) (l : list (N * N)) : Prop :=
  (forall i, i < c -> cov d l i -> get fl i = get ref i) /\
  (forall i, ds <= i -> i < c -> get fl i = get ref i) /\
  (forall i, i < ds -> ~ cov d l i -> get ref i = get O i).

(* the state against the reference contents [ref]: sizes, shape of the heap, I1-I3 *)
Record Core (s : state) (ref : list N) : Prop := mkCore {
  c_cur : cur s = len ref;
  c_ds : dsize s <= cur s;
  c_len : len (f s) <= cur s;
  c_srt : srt (ows s);
  c_wf : owf (ows s);
  c_I : I123 ref (f s) (cur s) (dsize s) (dl s) (ows s);
  c_D : done s = true -> closed s = false -> forall i, i < dsize s -> covered s i
    (* once the download is done everything below download_size is covered *)
}.

Lemma core_done s ref : Core s ref -> done s = true -> closed s = false -> f s = ref.
Proof.
  intros [H1 H2 H2' _ _ (I1 & I2 & _) H6] Hd Hc.
  apply get_ext. intro i. destruct (N.lt_ge_cases i (cur s)) as [Hi | Hi].
  - destruct (N.lt_ge_cases i (dsize s)); [apply I1; [exact Hi | apply H6; assumption] | apply I2; assumption].
  - rewrite !get_none; [reflexivity | lia | lia].
Qed.

(* a read that has not been answered: released and waiting for its turn, or behind a milestone *)
Definition outst (s : state) (r : rd) : Prop := In r (fired s) \/ exists n, In (n, r) (ms s).

(* until close: a waiting read lies inside the file and its milestone is at or after its last
   wanted byte below download_size; a released one is covered wherever it lies below download_size *)
Definition RInv (s : state) : Prop :=
  closed s = false ->
  (forall n r, In (n, r) (ms s) -> roff r + rlen r <= cur s /\ N.min (roff r + rlen r) (dsize s) <= n) /\
  (forall r, In r (fired s) -> roff r + rlen r <= cur s /\
     forall i, roff r <= i < roff r + rlen r -> i < dsize s -> covered s i).

(* [t] is a state the download side can bring [s] to: sizes and the closed flag
   are kept, coverage only grows, no read is added. *)
Record later (s t : state) : Prop := mkLater {
  l_cur : cur t = cur s;
  l_ds : dsize t = dsize s;
  l_closed : closed t = closed s;
  l_cov : forall i, covered s i -> covered t i;
  l_outst : forall r, outst t r -> outst s r;
  l_R : RInv s -> RInv t
}.

Lemma later_refl s : later s s.
Proof. constructor; auto. Qed.

Lemma later_trans s t u : later s t -> later t u -> later s u.
Proof. intros [] []. constructor; auto; congruence. Qed.

Lemma dd_proj s :
  f (download_done s) = f s /\ cur (download_done s) = cur s /\ dsize (download_done s) = dsize s /\
  dl (download_done s) = dl s /\ ows (download_done s) = ows s /\ closed (download_done s) = closed s /\
  done (download_done s) = true.
Proof. unfold download_done. destruct (done s) eqn:E; simpl; auto 10. Qed.

Lemma dd_core s ref :
  Core s ref -> (closed s = false -> forall i, i < dsize s -> covered s i) -> Core (download_done s) ref.
Proof.
  intros [H1 H2 H2' H3 H4 H5 H6] Hc.
  destruct (dd_proj s) as (E1 & E2 & E3 & E4 & E5 & E6 & E7).
  constructor; unfold covered; rewrite ?E1, ?E2, ?E3, ?E4, ?E5, ?E6; auto.
Qed.

Lemma dd_outst s r : outst (download_done s) r -> outst s r.
Proof.
  unfold download_done, outst. destruct (done s); simpl; [tauto|].
  intros [H | [n []]]. apply in_app_or in H. destruct H as [H | H]; [left; exact H|].
  apply in_map_iff in H. destruct H as ([n r'] & E & H). simpl in E. subst. right. eauto.
Qed.

(* every waiting read is released, so all of them must be covered *)
Lemma dd_R s :
  RInv s -> (closed s = false -> forall i, i < dsize s -> covered s i) -> RInv (download_done s).
Proof.
  unfold RInv, download_done, covered. intros HR Hc. destruct (done s); simpl; [exact HR|].
  intro Hcl. specialize (HR Hcl). specialize (Hc Hcl). destruct HR as [HM HF].
  split; [intros n r []|].
  intros r H. apply in_app_or in H. destruct H as [H | H]; [apply HF; exact H|].
  apply in_map_iff in H. destruct H as ([n r'] & E & H). simpl in E. subst.
  destruct (HM _ _ H) as [Ha _]. split; [exact Ha|]. intros i _ Hi. apply Hc. exact Hi.
Qed.

Lemma dd_later s :
  (closed s = false -> forall i, i < dsize s -> covered s i) -> later s (download_done s).
Proof.
  intro Hc. destruct (dd_proj s) as (E1 & E2 & E3 & E4 & E5 & E6 & E7).
  constructor; auto using dd_outst, dd_R.
  unfold covered. rewrite E4, E5. auto.
Qed.

Lemma ms_split_spec : forall l m a b,
  ms_split m l = (a, b) ->
  (forall r, In r a -> exists n, In (n, r) l /\ n <= m) /\ (forall x, In x b -> In x l).
Proof.
  induction l as [|[n r0] l IH]; intros m a b H; simpl in H.
  - inversion H; subst. split; intros ? [].
  - destruct (N.ltb_spec m n).
    + inversion H; subst. split; [intros ? []|auto].
    + destruct (ms_split m l) as [a' b'] eqn:E. inversion H; subst.
      destruct (IH _ _ _ E) as [Ha Hb]. split.
      * intros r [Hr | Hr].
        -- subst. exists n. split; [left; reflexivity | lia].
        -- destruct (Ha _ Hr) as (n' & Hin & Hle). exists n'. split; [right; exact Hin | exact Hle].
      * intros x Hx. right. auto.
Qed.

Lemma milestone_cov l nd i : i < milestone_of l nd -> cov nd l i.
Proof.
  unfold milestone_of, cov. destruct l as [|[st en] r]; [auto|].
  destruct (N.leb_spec st nd); destruct (N.ltb_spec nd en); simpl; auto.
  intro Hi. destruct (N.lt_ge_cases i nd); [auto|].
  right. apply inow_cons. left. lia.
Qed.

Lemma milestone_ge l nd : nd <= milestone_of l nd.
Proof.
  unfold milestone_of. destruct l as [|[st en] r]; [lia|].
  destruct (N.leb_spec st nd); destruct (N.ltb_spec nd en); simpl; lia.
Qed.

Lemma upd_proj s nd :
  let s' := update_downloaded s nd in
  f s' = f s /\ cur s' = cur s /\ dsize s' = dsize s /\ dl s' = nd /\ ows s' = ows s /\ closed s' = closed s /\
  (done s = true -> done s' = true) /\
  (done s' = true -> done s = true \/ dsize s <= milestone_of (ows s) nd).
Proof.
  unfold update_downloaded. destruct (ms_split (milestone_of (ows s) nd) (ms s)) as [now rest].
  destruct rest as [|x rest].
  - destruct (N.leb_spec (dsize s) (milestone_of (ows s) nd)).
    + match goal with |- context [download_done ?t] => destruct (dd_proj t) as (E1 & E2 & E3 & E4 & E5 & E6 & E7) end.
      simpl in *. rewrite E1, E2, E3, E4, E5, E6, E7. auto 10.
    + simpl. auto 10.
  - simpl. auto 10.
Qed.

Lemma upd_dl s nd : dl (update_downloaded s nd) = nd.
Proof. apply upd_proj. Qed.

Lemma upd_core s nd ref :
  Core (set_dl s nd) ref -> Core (update_downloaded s nd) ref.
Proof.
  intros [H1 H2 H2' H3 H4 H5 H6]. simpl in *.
  destruct (upd_proj s nd) as (E1 & E2 & E3 & E4 & E5 & E6 & E7 & E8).
  constructor; unfold covered in *; simpl in *; rewrite ?E1, ?E2, ?E3, ?E4, ?E5, ?E6; auto.
  intros Hd Hc i Hi. destruct (E8 Hd) as [Hd' | Hm]; [auto|].
  apply milestone_cov. lia.
Qed.

(* [update_downloaded s nd] is the state [t] below, or [download_done t] *)
Lemma upd_cases s nd (P : state -> Prop) :
  (forall now rest, ms_split (milestone_of (ows s) nd) (ms s) = (now, rest) ->
     let t := mkSt (f s) (cur s) (dsize s) nd (ows s) rest (fired s ++ now) (done s) (closed s) in
     P t /\ (dsize s <= milestone_of (ows s) nd -> P (download_done t))) ->
  P (update_downloaded s nd).
Proof.
  intro H. unfold update_downloaded.
  destruct (ms_split (milestone_of (ows s) nd) (ms s)) as [now rest] eqn:E.
  destruct (H now rest eq_refl) as [Ht Hd].
  destruct rest; [|exact Ht]. destruct (N.leb_spec (dsize s) (milestone_of (ows s) nd)); auto.
Qed.

Lemma upd_outst s nd r : outst (update_downloaded s nd) r -> outst s r.
Proof.
  apply upd_cases. intros now rest E t. destruct (ms_split_spec _ _ _ _ E) as [Ha Hb].
  assert (outst t r -> outst s r) as Ht.
  { intros [H | [n H]]; simpl in H.
    - apply in_app_or in H. destruct H as [H | H]; [left; exact H|].
      destruct (Ha _ H) as (n & Hin & _). right. eauto.
    - right. eauto. }
  split; [exact Ht|]. intros _ H. apply Ht, dd_outst, H.
Qed.

(* the reads released by the milestone loop lie below the milestone, which is covered *)
Lemma upd_R s nd : RInv (set_dl s nd) -> RInv (update_downloaded s nd).
Proof.
  intro HR. apply upd_cases. intros now rest E t. destruct (ms_split_spec _ _ _ _ E) as [Ha Hb].
  assert (RInv t) as Ht.
  { intro Hcl. destruct (HR Hcl) as [HM HF]. split.
    - intros n r H. apply HM, Hb, H.
    - intros r H. apply in_app_or in H. destruct H as [H | H]; [exact (HF _ H)|].
      destruct (Ha _ H) as (n & Hin & Hn). destruct (HM _ _ Hin) as [H1 H2].
      split; [exact H1|]. intros i Hi Hd. apply milestone_cov. simpl in *. lia. }
  split; [exact Ht|]. intro Hm. apply dd_R; [exact Ht|].
  intros _ i Hi. apply milestone_cov. simpl in *. lia.
Qed.

Lemma upd_later s nd : later (set_dl s nd) (update_downloaded s nd).
Proof.
  destruct (upd_proj s nd) as (E1 & E2 & E3 & E4 & E5 & E6 & E7 & E8).
  constructor; [exact E2 | exact E3 | exact E6 | | apply upd_outst | apply upd_R].
  intros i Hi. unfold covered. rewrite E4, E5. exact Hi.
Qed.

Lemma get_eq_lt (a b : list N) i : get a i = get b i -> i < len b -> i < len a.
Proof.
  intros E H. destruct (get_some b i H) as [x Hx]. rewrite Hx in E. eapply get_lt; eauto.
Qed.

(* data = O[d, min(next, ds)) *)
Definition aligned (data : list N) (d next ds : N) : Prop :=
  len data = N.min next ds - d /\ forall k, k < len data -> get data k = get O (d + k).

Lemma aligned_drop data d next ds e :
  aligned data d next ds -> d <= e -> aligned (drop (e - d) data) e next ds.
Proof.
  intros [Hl Hd] He. split.
  - rewrite len_drop. lia.
  - intros k Hk. rewrite len_drop in Hk. rewrite get_drop. rewrite Hd by lia. f_equal. lia.
Qed.

(* How any operation carries I1-I3 over: [new] is what becomes covered.  The new file has to
   agree with the new reference there, beyond the old size, and wherever the old pair agreed;
   below download_size and outside the covered set the reference is kept. *)
Lemma I123_change ref fl c ds d l ref' fl' c' ds' d' l' (new : N -> Prop) :
  I123 ref fl c ds d l ->
  ds' <= ds -> ds' = ds \/ c' <= ds' ->
  (forall i, cov d' l' i <-> cov d l i \/ new i) ->
  (forall i, i < c' -> new i \/ c <= i \/ get fl i = get ref i -> get fl' i = get ref' i) ->
  (forall i, i < ds' -> ~ cov d' l' i -> get ref' i = get ref i) ->
  I123 ref' fl' c' ds' d' l'.
Proof.
  intros (I1 & I2 & I3) Hle Hds Hcov Hag Href. split; [|split].
  - intros i Hi Hcv. apply Hag; [exact Hi|]. apply Hcov in Hcv. destruct Hcv as [Hcv | Hn]; [|auto].
    destruct (N.lt_ge_cases i c); [right; right; apply I1; assumption | auto].
  - intros i Hd Hi. apply Hag; [exact Hi|].
    destruct (N.lt_ge_cases i c); [right; right; apply I2; [lia | assumption] | auto].
  - intros i Hi Hn. rewrite Href by assumption. apply I3; [lia|]. intro Hx. apply Hn, Hcov. left. exact Hx.
Qed.

(* Writing data[0, w-d) at d, where [d, w) is not overwritten: the invariant holds
   for any (d', l') that covers exactly what (d, l) covered together with [d, w). *)
Lemma write_region ref fl c ds d l data next w d' l' :
  c = len ref ->
  I123 ref fl c ds d l ->
  aligned data d next ds ->
  w <= next ->
  (forall i, d <= i < w -> ~ inow l i) ->
  (forall i, cov d' l' i <-> (cov d l i \/ d <= i < w)) ->
  I123 ref (fwrite g fl d (take (w - d) data)) c ds d' l'.
Proof.
  intros Hc HI (Hlen & Hdat) Hw Hun Hcov. pose proof HI as (_ & I2 & I3).
  set (wd := take (w - d) data).
  assert (len wd = N.min (w - d) (len data)) as Hwd by (unfold wd; apply len_take).
  apply I123_change with (1 := HI) (new := fun i => d <= i < w); [lia | auto | exact Hcov | | reflexivity].
  intros i Hi H.
  assert (d <= i < d + len wd \/ ~ (d <= i < d + len wd)) as [Hin | Hout] by lia.
  - (* written: the chunk holds O there, and so does the reference, [d, w) being uncovered *)
    rewrite get_fwrite_in by exact Hin. unfold wd. rewrite get_take.
    destruct (N.ltb_spec (i - d) (w - d)); [|lia]. rewrite Hdat by lia. replace (d + (i - d)) with i by lia.
    symmetry. apply I3; [lia|]. intros [Hx | Hx]; [lia|]. apply (Hun i); [lia | exact Hx].
  - (* in [d, w) but beyond the chunk is at or beyond download_size *)
    assert (get fl i = get ref i) as E by (destruct H as [H | [H | H]]; [apply I2; lia | lia | exact H]).
    rewrite get_fwrite_out; [exact E | eapply get_eq_lt; [exact E | lia] | exact Hout].
Qed.

Lemma write_region_len fl c ds d data next w :
  ds <= c -> len fl <= c -> len data = N.min next ds - d ->
  len (fwrite g fl d (take (w - d) data)) <= c.
Proof.
  intros H1 H2 H3. rewrite len_fwrite, len_take. destruct (N.eqb_spec (N.min (w - d) (len data)) 0); lia.
Qed.

Definition wpost (ref : list N) (s s' : state) : Prop := Core s' ref /\ later s s'.

Lemma wpost_trans ref s t u : wpost ref s t -> wpost ref t u -> wpost ref s u.
Proof. intros [_ H1] [HC H2]. split; [exact HC | exact (later_trans _ _ _ H1 H2)]. Qed.

Lemma wpost_upd ref s t nd : wpost ref s (set_dl t nd) -> wpost ref s (update_downloaded t nd).
Proof.
  intros [HC HL]. split; [apply upd_core, HC | exact (later_trans _ _ _ HL (upd_later t nd))].
Qed.

(* one pass of the loop body up to its [update_downloaded]: data[0, w - dl) is
   written, the heap becomes l' and downloaded d' *)
Lemma write_step ref s data next w l' d' :
  Core s ref -> aligned data (dl s) next (dsize s) -> w <= next ->
  (forall i, dl s <= i < w -> ~ inow (ows s) i) -> srt l' -> owf l' ->
  (forall i, cov d' l' i <-> covered s i \/ dl s <= i < w) ->
  wpost ref s (set_dl (set_ows (set_f s (fwrite g (f s) (dl s) (take (w - dl s) data))) l') d').
Proof.
  intros [H1 H2 H2' H3 H4 H5 H6] Hal Hw Hun Hs Hf Hcov.
  assert (forall i, covered s i -> cov d' l' i) as Hmono by (intros i Hi; apply Hcov; left; exact Hi).
  split; constructor; simpl; auto.
  - apply write_region_len with (ds := dsize s) (next := next); auto. apply Hal.
  - apply write_region with (d := dl s) (l := ows s) (next := next); auto.
  - intros Hd Hc i Hi. apply Hmono, H6; auto.
  - intros HR Hcl. destruct (HR Hcl) as [HM HF]. split; [exact HM|].
    intros r Hr. destruct (HF r Hr) as [Ha Hb]. split; [exact Ha|].
    intros i Hi Hd. apply Hmono, Hb; assumption.
Qed.

Lemma wexit ref next s data :
  Core s ref -> dl s <= next -> aligned data (dl s) next (dsize s) ->
  (forall i, dl s <= i < next -> ~ inow (ows s) i) ->
  wpost ref s (update_downloaded (set_f s (fwrite g (f s) (dl s) data)) next).
Proof.
  intros HC Hdl Hal Hun. apply wpost_upd.
  rewrite <- (take_all (next - dl s) data) by (destruct Hal; lia).
  apply (write_step ref s data next next (ows s) next);
    [exact HC | exact Hal | lia | exact Hun | exact (c_srt _ _ HC) | exact (c_wf _ _ HC) |].
  intro i. unfold covered, cov. intuition lia.
Qed.

(* the conditional write of the chunk's prefix below the first overwrite, as one unconditional
   write: of nothing when there is no such prefix *)
Lemma pre_write s st data :
  (if dl s <? st then set_f s (fwrite g (f s) (dl s) (take (st - dl s) data)) else s) =
  set_f s (fwrite g (f s) (dl s) (take (N.max (dl s) st - dl s) data)).
Proof.
  destruct (N.ltb_spec (dl s) st).
  - rewrite N.max_r by lia. reflexivity.
  - rewrite N.max_l, N.sub_diag by lia. destruct s. reflexivity.
Qed.

Lemma wloop_ok ref next : forall fuel s data s',
  Core s ref -> dl s <= next -> aligned data (dl s) next (dsize s) ->
  wloop g fuel s data next = Some s' ->
  wpost ref s s' /\ dl s' = next.
Proof.
  induction fuel as [|k IH]; intros s data s' HC Hdl Hal Hw; [discriminate|].
  pose proof (c_srt _ _ HC) as Hsrt. pose proof (c_wf _ _ HC) as Hwf.
  simpl in Hw. destruct (ows s) as [|[st en] rest] eqn:Hows.
  { inversion Hw; subst. split; [|apply upd_dl]. apply wexit; auto.
    intros i _. rewrite Hows. apply inow_nil. }
  destruct (N.leb_spec next st) as [Hns | Hns].
  { inversion Hw; subst. split; [|apply upd_dl]. apply wexit; auto.
    intros i Hi Hin. rewrite Hows in Hin. apply srt_head_min in Hin; [lia | exact Hsrt]. }
  (* an overwrite starts inside the chunk: pop it, merged with those it reaches *)
  rewrite pre_write in Hw.
  set (F := fwrite g (f s) (dl s) (take (N.max (dl s) st - dl s) data)) in Hw.
  destruct (merge en rest) as [en' rest'] eqn:Hm.
  destruct (merge_spec _ _ _ _ Hm) as (Hee & (pre & ->) & Hmc).
  apply Forall_cons_iff in Hwf. destruct Hwf as [Hse Hf']. apply Forall_app in Hf'. simpl in Hse.
  pose proof (srt_suffix ((st, en) :: pre) _ Hsrt) as Hs'.
  assert (forall d' l', srt l' -> owf l' -> (forall i, cov d' l' i <-> i < dl s \/ cov en' rest' i) ->
          wpost ref s (set_dl (set_ows (set_f s F) l') d')) as Hstep.
  { intros d' l' Hs Hf Hc. apply write_step with (next := next); auto; [lia | |].
    - intros i Hi Hin. rewrite Hows in Hin. apply srt_head_min in Hin; [lia | exact Hsrt].
    - intro i. rewrite Hc, <- Hmc. unfold covered. rewrite Hows. symmetry. apply pop_cov, Hse. }
  assert (forall t data', wpost ref s t -> dl t <= next -> aligned data' (dl t) next (dsize s) ->
          wloop g k t data' next = Some s' -> wpost ref s s' /\ dl s' = next) as Hrec.
  { intros t data' Ht Hn Ha Hl. rewrite <- (l_ds _ _ (proj2 Ht)) in Ha.
    destruct (IH t data' s' (proj1 Ht) Hn Ha Hl) as [Hp He].
    split; [exact (wpost_trans _ _ _ _ Ht Hp) | exact He]. }
  destruct (N.leb_spec next en') as [Hne | Hne]; [|destruct (N.leb_spec (dl s) en') as [Hde | Hde]].
  - (* it reaches past the chunk: what is left of it goes back on the heap *)
    inversion Hw; subst s'. split; [|apply upd_dl]. apply wpost_upd, Hstep.
    + apply srt_insert, Hs'.
    + apply owf_insert; [simpl; lia | apply Hf'].
    + intro i. unfold cov. rewrite inow_insert. intuition lia.
  - (* it ends inside the chunk: skip over it *)
    apply Hrec in Hw; [exact Hw | | rewrite upd_dl; lia | rewrite upd_dl; apply aligned_drop; assumption].
    apply wpost_upd, Hstep; [exact Hs' | apply Hf' |]. intro i. unfold cov. intuition lia.
  - (* a stale overwrite that lies entirely below downloaded *)
    apply Hrec in Hw; [exact Hw | | exact Hdl | exact Hal].
    refine (Hstep (dl s) rest' Hs' (proj2 Hf') _). intro i. unfold cov. intuition lia.
Qed.

Lemma wloop_total next : forall fuel s data,
  (length (ows s) < fuel)%nat -> exists s', wloop g fuel s data next = Some s'.
Proof.
  induction fuel as [|k IH]; intros s data Hl; [lia|].
  simpl. destruct (ows s) as [|[st en] rest] eqn:Hows; [eauto|].
  destruct (next <=? st); [eauto|].
  destruct (merge en rest) as [en' rest'] eqn:Hm.
  pose proof (merge_length _ _ _ _ Hm) as Hlen. simpl in Hl.
  destruct (next <=? en'); [eauto|].
  destruct (dl s <=? en').
  - apply IH.
    match goal with |- context [update_downloaded ?t ?n] => destruct (upd_proj t n) as (_ & _ & _ & _ & E5 & _) end.
    rewrite E5. simpl. lia.
  - apply IH. simpl. lia.
Qed.

Lemma write_total s data : exists s', write g s data = Some s'.
Proof.
  unfold write. destruct (closed s); [eauto|]. destruct (dsize s <=? dl s); [eauto|].
  apply wloop_total. lia.
Qed.

(* write(data) where data are the next bytes of the original contents; [p] is the
   stream position, which is [downloaded] for as long as the download is wanted *)
Lemma write_ok ref s data s' p :
  Core s ref ->
  (closed s = false -> dl s < dsize s -> p = dl s) ->
  (forall k, k < len data -> get data k = get O (p + k)) ->
  write g s data = Some s' ->
  wpost ref s s' /\ (closed s' = false -> dl s' < dsize s' -> p + len data = dl s').
Proof.
  intros HC Hp Hd Hw. unfold write in Hw.
  destruct (closed s) eqn:Hcl.
  { inversion Hw; subst. split; [split; [exact HC | apply later_refl] | congruence]. }
  destruct (N.leb_spec (dsize s) (dl s)) as [Hdone | Hlt].
  { inversion Hw; subst. split; [split; [exact HC | apply later_refl] | lia]. }
  specialize (Hp eq_refl Hlt). subst p.
  apply wloop_ok with (ref := ref) in Hw; [| exact HC | lia |].
  - destruct Hw as [HP Hn]. split; [exact HP | intros _ _; symmetry; exact Hn].
  - unfold aligned. destruct (N.ltb_spec (dsize s) (dl s + len data)).
    + split; [rewrite len_take; lia|]. intros k Hk. rewrite len_take in Hk. rewrite get_take.
      destruct (N.ltb_spec k (dsize s - dl s)); [|lia]. apply Hd. lia.
    + split; [lia|]. exact Hd.
Qed.

(* overwrite() and set_current_size() fill [c, n) with zeros when the file is extended *)
Lemma zero_fill fl c n :
  let f1 := if c <? n then fwrite g fl c (zeros (n - c)) else fl in
  len f1 = (if c <? n then N.max (len fl) n else len fl) /\
  (forall i, c <= i < n -> get f1 i = Some 0) /\
  (forall i, i < len fl -> ~ c <= i < n -> get f1 i = get fl i).
Proof.
  destruct (N.ltb_spec c n) as [H | H]; cbv zeta.
  - split; [|split].
    + rewrite len_fwrite, len_zeros. destruct (N.eqb_spec (n - c) 0); lia.
    + intros i Hi. rewrite get_fwrite_in, get_zeros by (rewrite len_zeros; lia).
      destruct (N.ltb_spec (i - c) (n - c)); [reflexivity | lia].
    + intros i H1 H2. apply get_fwrite_out; [exact H1 | rewrite len_zeros; lia].
  - split; [reflexivity|]. split; [intros; lia | reflexivity].
Qed.

(* The file after overwrite(off, data), with the gap up to off zero-filled, agrees
   with the new reference on the written range, on the zero fill, and wherever the
   old file agreed with the old reference. *)
Lemma ow_file ref fl c off data :
  c = len ref -> len fl <= c ->
  let f1 := if c <? off then fwrite g fl c (zeros (off - c)) else fl in
  let f2 := fwrite g f1 off data in
  len f2 <= N.max c (off + len data) /\
  forall i, i < N.max c (off + len data) ->
    off <= i < off + len data \/ c <= i \/ get fl i = get ref i ->
    get f2 i = get (ref_write ref off data) i.
Proof.
  intros Hc Hl f1 f2.
  destruct (zero_fill fl c off) as (L & L5 & L4). fold f1 in L, L5, L4.
  assert (len fl <= len f1 /\ len f1 <= N.max c off /\ (c < off -> len f1 = off)) as (L1 & L2 & L3)
    by (destruct (N.ltb_spec c off); lia).
  split.
  - unfold f2. rewrite len_fwrite. destruct (len data =? 0); lia.
  - intros i Hi H. unfold f2.
    assert (off <= i < off + len data \/ ~ (off <= i < off + len data)) as [Hin | Hout] by lia.
    { rewrite get_fwrite_in, get_ref_write_in by exact Hin. reflexivity. }
    rewrite get_ref_write_out by exact Hout. destruct (N.ltb_spec i (len ref)) as [Hlt | Hge].
    + destruct H as [H | [H | E]]; [lia | lia |].
      assert (i < len fl) by (eapply get_eq_lt; [exact E | exact Hlt]).
      rewrite get_fwrite_out; [rewrite L4; [exact E | assumption | lia] | lia | exact Hout].
    + destruct (N.ltb_spec i off); [|lia].
      rewrite get_fwrite_out; [apply L5; lia | rewrite L3; lia | exact Hout].
Qed.

(* a client mutation: file, reference, size, download_size and heap change, downloaded stays *)
Lemma core_mutate ref s ref' f' c' ds' l' (new : N -> Prop) :
  Core s ref ->
  c' = len ref' -> ds' = N.min c' (dsize s) -> len f' <= c' -> srt l' -> owf l' ->
  (forall i, cov (dl s) l' i <-> cov (dl s) (ows s) i \/ new i) ->
  (forall i, i < c' -> new i \/ cur s <= i \/ get (f s) i = get ref i -> get f' i = get ref' i) ->
  (forall i, i < c' -> i < dsize s -> ~ cov (dl s) l' i -> get ref' i = get ref i) ->
  Core (mkSt f' c' ds' (dl s) l' (ms s) (fired s) (done s) (closed s)) ref'.
Proof.
  intros [H1 H2 H2' H3 H4 HI H6] Hc Hds Hl Hs Hf Hcov Hag Href.
  constructor; simpl; [exact Hc | lia | exact Hl | exact Hs | exact Hf | |].
  - apply I123_change with (1 := HI) (new := new); [lia | lia | exact Hcov | exact Hag |].
    intros i Hi. apply Href; lia.
  - intros Hd Hcl i Hi. unfold covered. simpl. apply Hcov. left. apply H6; [exact Hd | exact Hcl | lia].
Qed.

Lemma overwrite_ok ref s off data :
  Core s ref ->
  let s' := overwrite g s off data in
  Core s' (ref_write ref off data) /\ dsize s' = dsize s /\ dl s' = dl s /\ ms s' = ms s /\
  fired s' = fired s /\ closed s' = closed s /\
  (forall i, off <= i < off + len data -> covered s' i).
Proof.
  intro HC. pose proof HC as [H1 H2 H2' H3 H4 _ _].
  destruct (ow_file ref (f s) (cur s) off data H1 H2') as (F4 & Hag).
  set (start := if cur s <? off then cur s else off).
  set (en := off + len data) in *.
  assert (start <= off /\ (start < off -> start = cur s)) as (Hso & Hsc).
  { unfold start. destruct (N.ltb_spec (cur s) off); lia. }
  destruct (insert_if (dl s <? en) start en (ows s)) as (Hs' & Hf' & Hcov); [lia | exact H3 | exact H4 |].
  set (l' := if dl s <? en then ow_insert (start, en) (ows s) else ows s) in *.
  assert (overwrite g s off data =
          mkSt (fwrite g (if cur s <? off then fwrite g (f s) (cur s) (zeros (off - cur s)) else f s) off data)
               (N.max (cur s) en) (dsize s) (dl s) l' (ms s) (fired s) (done s) (closed s)) as Es.
  { unfold overwrite, l', en, start. destruct (cur s <? off); destruct (dl s <? off + len data); reflexivity. }
  simpl. rewrite Es. simpl.
  assert (forall i, off <= i < en -> cov (dl s) l' i) as Hnew.
  { intros i Hi. apply Hcov. destruct (N.ltb_spec (dl s) en); [right; split; [reflexivity | lia] | left; left; lia]. }
  split; [|repeat (split; auto)].
  apply core_mutate with (ref := ref) (new := fun i => (dl s <? en) = true /\ start <= i < en);
    [exact HC | | lia | exact F4 | exact Hs' | exact Hf' | apply Hcov | |].
  - rewrite len_ref_write, <- H1. reflexivity.
  - intros i Hi H. apply Hag; [exact Hi|].
    destruct H as [H | H]; [|tauto]. assert (off <= i < en \/ cur s <= i) by lia. tauto.
  - intros i Hi Hd Hn. rewrite get_ref_write_out by (intro Hx; apply Hn, Hnew, Hx).
    destruct (N.ltb_spec i (len ref)); [reflexivity | lia].
Qed.

Lemma ss_file ref fl c d size :
  c = len ref -> len fl <= c ->
  let ft := if (size <? c) || (size <? d) then ftrunc g fl size else fl in
  let f' := if c <? size then fwrite g ft c (zeros (size - c)) else ft in
  len f' <= size /\
  forall i, i < size -> c <= i \/ get fl i = get ref i -> get f' i = get (ref_resize ref size) i.
Proof.
  intros Hc Hl ft f'.
  assert ((len ft = size \/ (len ft = len fl /\ c <= size)) /\
          (forall i, i < len fl -> i < size -> get ft i = get fl i)) as (L1 & L2).
  { unfold ft. destruct (N.ltb_spec size c); destruct (N.ltb_spec size d); simpl.
    all: try (split; [left; apply len_ftrunc|];
              intros i H1 H2; rewrite get_ftrunc;
              destruct (N.ltb_spec i size); [|lia]; destruct (N.ltb_spec i (len fl)); [reflexivity | lia]).
    split; [right; lia | auto]. }
  destruct (zero_fill ft c size) as (L & Z & K). fold f' in L, Z, K.
  split; [destruct (N.ltb_spec c size); lia|].
  intros i Hi H. rewrite get_ref_resize. destruct (N.ltb_spec i size); [|lia].
  destruct (N.ltb_spec i (len ref)) as [Hr | Hr]; [|apply Z; lia].
  destruct H as [H | E]; [lia|].
  assert (i < len fl) by (eapply get_eq_lt; [exact E | exact Hr]).
  rewrite K; [rewrite L2; [exact E | assumption | assumption] | lia | lia].
Qed.

Definition ss_pre (s : state) (size : N) : state :=
  let ft := if (size <? cur s) || (size <? dl s) then ftrunc g (f s) size else f s in
  mkSt (if cur s <? size then fwrite g ft (cur s) (zeros (size - cur s)) else ft)
       size (if size <? dsize s then size else dsize s) (dl s)
       (if (cur s <? size) && (dl s <? size) then ow_insert (cur s, size) (ows s) else ows s)
       (ms s) (fired s) (done s) (closed s).

Lemma ss_eq s size :
  dsize s <= cur s ->
  set_current_size g s size =
    let t := ss_pre s size in if dsize t <=? dl t then download_done t else t.
Proof.
  intro Hds. unfold set_current_size, ss_pre.
  destruct ((size <? cur s) || (size <? dl s)); simpl;
    destruct (N.ltb_spec (cur s) size) as [Hc | Hc]; simpl.
  (* extending: overwrite(cur, zeros) with cur + |zeros| = size *)
  1, 3: unfold overwrite; simpl; rewrite N.ltb_irrefl, len_zeros;
        replace (cur s + (size - cur s)) with size by lia;
        replace (N.max (cur s) size) with size by lia;
        destruct (dl s <? size); simpl; destruct (N.ltb_spec size (dsize s)); try lia; reflexivity.
  all: destruct (N.ltb_spec size (dsize s)); reflexivity.
Qed.

Lemma setsize_ok ref s size :
  Core s ref ->
  let s' := set_current_size g s size in
  Core s' (ref_resize ref size) /\ dl s' = dl s /\ closed s' = closed s /\ dsize s' <= dsize s /\
  (ms s = [] -> fired s = [] -> ms s' = [] /\ fired s' = []).
Proof.
  intro HC. pose proof HC as [H1 H2 H2' H3 H4 _ _]. simpl. rewrite (ss_eq s size H2).
  destruct (ss_file ref (f s) (cur s) (dl s) size H1 H2') as (F3 & Hag).
  destruct (insert_if ((cur s <? size) && (dl s <? size)) (cur s) size (ows s)) as (Hs' & Hf' & Hcov);
    [| exact H3 | exact H4 |].
  { intro E. apply andb_prop in E. destruct E as [E _]. apply N.ltb_lt in E. lia. }
  set (t := ss_pre s size).
  assert (Core t (ref_resize ref size)) as HCt.
  { unfold t, ss_pre. cbv zeta.
    apply core_mutate with (ref := ref)
      (new := fun i => (cur s <? size) && (dl s <? size) = true /\ cur s <= i < size);
      [exact HC | | | exact F3 | exact Hs' | exact Hf' | apply Hcov | |].
    - symmetry. apply len_ref_resize.
    - destruct (N.ltb_spec size (dsize s)); lia.
    - intros i Hi H. apply Hag; [exact Hi | tauto].
    - intros i Hi Hd _. rewrite get_ref_resize. destruct (N.ltb_spec i size); [|lia].
      destruct (N.ltb_spec i (len ref)); [reflexivity | lia]. }
  assert (dsize t <= dsize s) as D1
    by (unfold t, ss_pre; simpl; destruct (N.ltb_spec size (dsize s)); lia).
  assert (dl t = dl s /\ closed t = closed s /\ ms t = ms s /\ fired t = fired s)
    as (T1 & T2 & T3 & T4) by (unfold t, ss_pre; simpl; auto).
  cbv zeta. fold t. destruct (N.leb_spec (dsize t) (dl t)) as [Hdn | Hdn].
  - destruct (dd_proj t) as (E1 & E2 & E3 & E4 & E5 & E6 & E7).
    split; [apply dd_core; [exact HCt|]; intros _ i Hi; left; lia|].
    split; [congruence|]. split; [congruence|]. split; [rewrite E3; exact D1|].
    intros M1 M2. unfold download_done. destruct (done t); simpl; rewrite ?T3, ?T4, ?M1, ?M2; auto.
  - split; [exact HCt|]. split; [exact T1|]. split; [exact T2|]. split; [exact D1|].
    intros M1 M2. rewrite T3, T4. auto.
Qed.
End Inv.
