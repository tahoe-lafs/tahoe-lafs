From Coq Require Import List NArith Bool Lia Arith.
From Verif Require Import Lib.ListFacts Model.ServerMap Proofs.ServerMap Model.MutRetry.
Import ListNotations.
Local Open Scope N_scope.

Lemma filter_filter_absorb {A} (f g : A -> bool) l :
  (forall x, f x = true -> g x = true) -> filter f (filter g l) = filter f l.
Proof.
  intro H. induction l as [|x r IH]; [reflexivity|]. cbn. destruct (f x) eqn:F.
  - rewrite (H x F). cbn. rewrite F, IH. reflexivity.
  - destruct (g x); cbn; rewrite ?F; exact IH.
Qed.

Lemma good_count_le_visible l v : good_count l v <= count_shares (vis l) v.
Proof. apply count_shares_incl, incl_map, incl_filter. Qed.

Lemma all_good_same_count l v :
  (forall s, In s l -> is_bad_of v s = false) -> count_shares (vis l) v = good_count l v.
Proof.
  intro H. apply N.le_antisymm; [|apply good_count_le_visible].
  apply count_shares_mono. intros s [g [<- Hg]]%in_map_iff Hv.
  apply in_map, filter_In. split; [exact Hg|].
  specialize (H g Hg). unfold is_bad_of in H. apply version_eqb_eq in Hv.
  rewrite Hv, andb_true_r in H. apply negb_false_iff, H.
Qed.

Section Retry.
  Variable pick : list gshare -> version -> gshare -> bool.

  Lemma mark_keeps_good l v : filter gs_good (mark pick l v) = filter gs_good l.
  Proof.
    apply filter_filter_absorb. intros s G. unfold is_bad_of. rewrite G. reflexivity.
  Qed.

  Lemma mark_good_count l v w : good_count (mark pick l v) w = good_count l w.
  Proof. unfold good_count. rewrite mark_keeps_good. reflexivity. Qed.

  Hypothesis pick_progress :
    forall l v, (exists s, In s l /\ is_bad_of v s = true) -> exists s, In s l /\ is_bad_of v s = true /\ pick l v s = true.

  Lemma failed_attempt_progress l v :
    vk v <= count_shares (vis l) v -> good_count l v < vk v -> (length (mark pick l v) < length l)%nat.
  Proof.
    intros Hrec Hbad.
    assert (Hex : exists s, In s l /\ is_bad_of v s = true).
    { destruct (existsb (is_bad_of v) l) eqn:E; [apply existsb_exists, E|].
      rewrite all_good_same_count in Hrec; [lia|].
      intros s Hs. destruct (is_bad_of v s) eqn:B; [|reflexivity].
      rewrite <- E. symmetry. apply existsb_exists. eauto. }
    destruct (pick_progress l v Hex) as [s [Hin [Hb Hp]]].
    apply (filter_length_lt _ l s Hin). rewrite Hb, Hp. reflexivity.
  Qed.

  (* LIVENESS: g has k >= 1 good distinct shares; whatever else the map calls recoverable and sorts
     at or above g cannot be retrieved (e.g. versions made of tampered shares).  Then the read ends
     with g, whichever bad shares the failed attempts happened to see. *)
  Lemma retry_finds_genuine g : forall fuel l,
    (length l < fuel)%nat ->
    1 <= vk g -> vk g <= good_count l g ->
    (forall w, In w (recoverable_versions (vis l)) -> w <> g -> version_leb g w = true ->
               good_count l w < vk w) ->
    retry pick fuel l = Some g.
  Proof.
    induction fuel as [|f IH]; intros l Hf Hk HG HA; [lia|]. cbn [retry].
    pose proof (good_count_le_visible l g) as Hvis.
    destruct (best_of_recoverable (vis l) g) as [b [-> [Hb Hmax]]]; [apply recoverable_intro; lia|].
    destruct (version_eq_dec b g) as [->|Hne].
    - apply N.leb_le in HG. rewrite HG. reflexivity.
    - pose proof (HA b Hb Hne Hmax) as Hbad. rewrite (proj2 (N.leb_gt _ _) Hbad).
      apply recoverable_In in Hb. destruct Hb as [_ Hrec].
      pose proof (failed_attempt_progress l b Hrec Hbad) as Hprog.
      apply IH; [lia|exact Hk|rewrite mark_good_count; exact HG|].
      intros w Hw. rewrite mark_good_count. apply HA.
      revert Hw. apply recoverable_mono, incl_map, incl_filter.
  Qed.

  Lemma retry_sound : forall fuel l v, retry pick fuel l = Some v -> vk v <= good_count l v.
  Proof.
    induction fuel as [|f IH]; intros l v H; [discriminate|]. cbn [retry] in H.
    destruct (best_recoverable_version (vis l)) as [b|]; [|discriminate].
    destruct (vk b <=? good_count l b) eqn:E.
    - injection H as <-. apply N.leb_le, E.
    - apply IH in H. rewrite mark_good_count in H. exact H.
  Qed.
End Retry.
