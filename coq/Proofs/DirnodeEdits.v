(* C20: the modifiers applied to packed bytes refine updates of a name map. *)
From Coq Require Import List NArith ZArith Bool Lia.
From Verif Require Import Lib.ListFacts Lib.Hex Lib.Netstring Lib.HashPrim Gen.Hashutil
     Model.Dirnode Proofs.DirnodeBase Proofs.DirnodeCaps Proofs.DirnodePack.
Import ListNotations.
Local Open Scope N_scope.

Lemma set_nth_length {A} d (x : A) l : List.length (set_nth d x l) = List.length l.
Proof. revert d. induction l as [|y r IH]; intro d; [destruct d; reflexivity|]. destruct d; cbn; [reflexivity|]. rewrite IH. reflexivity. Qed.

Lemma nth_error_set_nth_same {A} d (x y : A) l : nth_error l d = Some y -> nth_error (set_nth d x l) d = Some x.
Proof. revert d. induction l as [|z r IH]; intros [|d] H; cbn in *; try discriminate; [reflexivity|]. apply IH. exact H. Qed.

Lemma nth_error_set_nth_other {A} d d' (x : A) l : d <> d' -> nth_error (set_nth d x l) d' = nth_error l d'.
Proof.
  revert d d'. induction l as [|z r IH]; intros [|d] [|d'] H; cbn; try reflexivity; try congruence.
  apply IH. congruence.
Qed.

Lemma Forall_set_nth {A} (P : A -> Prop) d x l : Forall P l -> P x -> Forall P (set_nth d x l).
Proof.
  revert d. induction l as [|z r IH]; intros d Hl Hx; [destruct d; constructor|].
  inversion Hl; subst. destruct d; cbn; constructor; auto.
Qed.

Definition sum_map {E A B} (f : A -> B) (x : E + A) : E + B :=
  match x with inl e => inl e | inr a => inr (f a) end.

(* An invariant of name maps that assignment and deletion keep is kept by the three modifiers.
   Q is what the invariant asks of the nodes in the map. *)
Section Closed.
  Variable classify : bytes -> capclass.
  Variable normalize : bytes -> bytes.
  Context {C : Type} (c_of : node -> jobj -> C) (nd : C -> node) (mdof : C -> jobj).
  Variable P : smap C -> Prop.
  Variable Q : node -> Prop.
  Hypothesis P_set : forall k n md m, P m -> Q n -> P (sm_set (normalize k) (c_of n md) m).
  Hypothesis P_del : forall k m, P m -> P (sm_del k m).
  Hypothesis P_get : forall k c m, P m -> sm_get k m = Some c -> Q (nd c).
  Hypothesis Q_ro : forall n n', Q n -> create_readonly_node classify n = inr n' -> Q n'.

  Lemma adder_step_closed ov now m e m' :
    P m -> (n_err (snd (fst e)) = None -> Q (snd (fst e))) ->
    adder_step classify normalize C c_of nd mdof ov now m e = inr m' -> P m'.
  Proof.
    intros H He. destruct e as [[namex chld] nmd]. unfold adder_step. cbn [fst snd] in He.
    destruct (n_err chld); [discriminate|]. specialize (He eq_refl).
    destruct (match sm_get (normalize namex) m with Some c => _ | None => None end); [discriminate|].
    destruct (no_write _); [destruct (create_readonly_node classify chld) eqn:Ec; [discriminate|]|];
      intro E; inversion E; subst; apply P_set; eauto.
  Qed.

  Lemma adder_loop_closed ov now entries m m' :
    P m -> (forall namex n md, In (namex, n, md) entries -> n_err n = None -> Q n) ->
    adder_loop classify normalize C c_of nd mdof ov now m entries = inr m' -> P m'.
  Proof.
    revert m. induction entries as [|e r IH]; intros m H He E; cbn [adder_loop] in E.
    - inversion E; subst. exact H.
    - destruct (adder_step classify normalize C c_of nd mdof ov now m e) as [x|m1] eqn:S; [discriminate|].
      apply (IH m1); [|intros namex n md Hin; apply (He namex n md); right; exact Hin|exact E].
      apply (adder_step_closed ov now m e m1 H); [|exact S].
      destruct e as [[namex n] md]. apply (He namex n md). left. reflexivity.
  Qed.

  Lemma deleter_closed namex me mbd mbf m m' :
    P m -> deleter_core normalize C nd namex me mbd mbf m = inr (Some m') -> P m'.
  Proof.
    intro H. unfold deleter_core. destruct (sm_get (normalize namex) m); [|destruct me; discriminate].
    destruct (mbd && _); [discriminate|]. destruct (mbf && _); [discriminate|].
    intro E; inversion E; subst. apply P_del. exact H.
  Qed.

  Lemma setmd_closed namex md now m m' :
    P m -> setmd_core classify normalize C c_of nd mdof namex md now m = inr m' -> P m'.
  Proof.
    intro H. unfold setmd_core. destruct (sm_get (normalize namex) m) as [c|] eqn:Eg; [|discriminate].
    pose proof (P_get _ _ _ H Eg) as Hq.
    destruct (no_write _); [destruct (create_readonly_node classify (nd c)) eqn:Ec; [discriminate|]|];
      intro E; inversion E; subst; apply P_set; eauto.
  Qed.
End Closed.

Section EditFacts.
  Variable classify : bytes -> capclass.
  Variable normalize : bytes -> bytes.
  Variable dumps : jobj -> bytes.
  Variable loads : bytes -> option jobj.
  Variable enc dec : bytes -> bytes -> bytes.
  Hypothesis normalize_idem : forall x, normalize (normalize x) = normalize x.
  Hypothesis loads_dumps : forall m, loads (dumps m) = Some m.
  Hypothesis dec_enc : forall k d, dec k (enc k d) = d.

  Local Notation bchild := (child jobj).
  Local Notation view := (view jobj).
  Local Notation pi := (fun c : bchild => (c_node jobj c, c_md jobj c)).
  Local Notation a_adder := (a_adder classify normalize).
  Local Notation a_step := (a_step classify normalize).
  Local Notation a_run := (a_run classify normalize).
  Local Notation b_step := (b_step classify normalize dumps loads enc dec).
  Local Notation b_run := (b_run classify normalize dumps loads enc dec).
  Local Notation b_unpack := (b_unpack classify normalize loads dec).
  Local Notation b_pack := (b_pack dumps enc).
  Local Notation pack_amap := (pack_amap dumps enc).
  Local Notation pack_entry := (pack_entry jobj dumps enc).

  (* the three modifier bodies commute with forgetting the cached entries *)
  Lemma view_get k (cm : smap bchild) : sm_get k (view cm) = option_map pi (sm_get k cm).
  Proof. exact (kvmap_get (fun (_ : bytes) (c : bchild) => pi c) k cm). Qed.

  Lemma view_del k (cm : smap bchild) : view (sm_del k cm) = sm_del k (view cm).
  Proof. exact (kvmap_del (fun (_ : bytes) (c : bchild) => pi c) k cm). Qed.

  Lemma adder_step_view ov now (cm : smap bchild) e :
    sum_map view (adder_step classify normalize bchild b_c_of (c_node jobj) (c_md jobj) ov now cm e)
    = adder_step classify normalize (node * jobj) (fun n m => (n, m)) fst snd ov now (view cm) e.
  Proof.
    destruct e as [[namex chld] nmd]. unfold adder_step.
    destruct (n_err chld); [reflexivity|].
    rewrite view_get. destruct (sm_get (normalize namex) cm) as [c|]; cbn [option_map fst snd].
    - destruct ov; cbn [sum_map]; try reflexivity.
      + destruct (no_write _); [destruct (create_readonly_node classify chld)|]; cbn [sum_map]; try reflexivity; rewrite view_set; reflexivity.
      + destruct (is_dir (c_node jobj c)); [reflexivity|].
        destruct (no_write _); [destruct (create_readonly_node classify chld)|]; cbn [sum_map]; try reflexivity; rewrite view_set; reflexivity.
    - destruct (no_write _); [destruct (create_readonly_node classify chld)|]; cbn [sum_map]; try reflexivity; rewrite view_set; reflexivity.
  Qed.

  Lemma adder_loop_view ov now entries (cm : smap bchild) :
    sum_map view (adder_loop classify normalize bchild b_c_of (c_node jobj) (c_md jobj) ov now cm entries)
    = a_adder ov now (view cm) entries.
  Proof.
    revert cm. induction entries as [|e r IH]; intro cm; [reflexivity|].
    unfold Dirnode.a_adder in *. cbn [adder_loop].
    rewrite <- adder_step_view.
    destruct (adder_step classify normalize bchild _ _ _ ov now cm e) as [x|cm']; cbn [sum_map]; [reflexivity|apply IH].
  Qed.

  Lemma deleter_view namex me mbd mbf (cm : smap bchild) :
    sum_map (option_map view) (deleter_core normalize bchild (c_node jobj) namex me mbd mbf cm)
    = a_deleter normalize namex me mbd mbf (view cm).
  Proof.
    unfold a_deleter, deleter_core. rewrite view_get.
    destruct (sm_get (normalize namex) cm) as [c|]; cbn [option_map fst].
    - destruct (mbd && is_file (c_node jobj c)); [reflexivity|].
      destruct (mbf && is_dir (c_node jobj c)); [reflexivity|].
      cbn [sum_map option_map]. rewrite view_del. reflexivity.
    - destruct me; reflexivity.
  Qed.

  Lemma setmd_view namex md now (cm : smap bchild) :
    sum_map view (setmd_core classify normalize bchild b_c_of (c_node jobj) (c_md jobj) namex md now cm)
    = a_setmd classify normalize namex md now (view cm).
  Proof.
    unfold a_setmd, setmd_core. rewrite view_get.
    destruct (sm_get (normalize namex) cm) as [c|]; cbn [option_map fst snd]; [|reflexivity].
    destruct (no_write _); [destruct (create_readonly_node classify (c_node jobj c))|]; cbn [sum_map]; try reflexivity; rewrite view_set; reflexivity.
  Qed.

  (* cached entries that are what the packer would write anyway *)
  Definition aux_ok (wk : bytes) (cm : smap bchild) : Prop :=
    forall k c, In (k, c) cm -> c_aux jobj c = None \/ c_aux jobj c = Some (pack_entry (Some wk) false k (c_node jobj c) (c_md jobj c)).

  Lemma pack_aux_eq wk (cm : smap bchild) :
    aux_ok wk cm ->
    b_pack wk cm = pack_amap wk (view cm).
  Proof.
    unfold Dirnode.b_pack, Dirnode.pack_amap.
    induction cm as [|[k [[n md] aux]] r IH]; intro H; [reflexivity|].
    cbn [view map fresh pack_normalized fst snd c_node c_md c_aux].
    destruct (n_err n); [reflexivity|]. cbn [andb negb].
    fold (view r). fold (fresh jobj (view r)).
    rewrite <- IH by (intros ? ? ?; eapply H; right; eassumption).
    destruct (H k (n, md, aux) (or_introl eq_refl)) as [E|E]; cbn [c_aux c_node c_md fst snd] in E; subst aux.
    - reflexivity.
    - (* a cached entry is used when non-empty; an empty one would be re-packed to itself *)
      destruct (pack_entry (Some wk) false k n md); reflexivity.
  Qed.

  Lemma aux_ok_set wk k n md cm : aux_ok wk cm -> aux_ok wk (sm_set k (b_c_of n md) cm).
  Proof.
    intros H k' c Hin. apply sm_set_in in Hin. destruct Hin as [[-> ->]|Hin]; [left; reflexivity|eapply H; exact Hin].
  Qed.

  Lemma aux_ok_del wk k cm : aux_ok wk cm -> aux_ok wk (sm_del k cm).
  Proof. intros H k' c Hin. apply sm_del_in in Hin. eapply H. exact Hin. Qed.

  (* directories whose children the node maker reproduces *)
  Definition dir_ok (am : amap) : Prop :=
    sm_sorted am = true /\ names_normal normalize jobj am /\ all_nodes jobj (goodb classify) am.

  Definition entries_ok (entries : list (bytes * node * option jobj)) : Prop :=
    forall namex n md, In (namex, n, md) entries -> n_err n = None -> goodb classify n = true.

  Definition op_ok (o : op) : Prop :=
    match o with
    | OAdd _ entries _ => entries_ok entries
    | _ => True
    end.

  Lemma good_stable n : goodb classify n = true -> stableb classify n = true.
  Proof. unfold goodb. intro H. apply andb_prop in H. tauto. Qed.

  Lemma good_diminish n n' : goodb classify n = true -> create_readonly_node classify n = inr n' -> goodb classify n' = true.
  Proof.
    unfold goodb, diminish_okb. intros H E. apply andb_prop in H. destruct H as [_ H]. rewrite E in H.
    apply andb_prop in H. destruct H as [Hs Hd]. rewrite Hs. cbn [andb].
    destruct (create_readonly_node classify n') as [x|n''] eqn:E2; [discriminate|].
    apply node_eqb_eq in Hd. subst n''. rewrite Hs, E2. cbn [andb]. apply node_eqb_eq. reflexivity.
  Qed.

  Definition packed (wk : bytes) (am : amap) : bytes := concat_ns (map (entry_of jobj dumps enc (Some wk) false) am).

  Lemma dir_ok_stable am : dir_ok am -> all_nodes jobj (stableb classify) am.
  Proof. intros (_ & _ & H) k v Hin. apply good_stable. exact (H _ _ Hin). Qed.

  Lemma pack_amap_ok wk am : dir_ok am -> pack_amap wk am = inr (packed wk am).
  Proof.
    intro H. unfold Dirnode.pack_amap, packed. apply pack_no_err, (stable_no_err classify), dir_ok_stable, H.
  Qed.

  (* what the writer of a directory unpacks: every entry cached as written *)
  Local Notation unpacked wk am := (with_aux jobj dumps enc (fun n => n) (Some wk) false am).

  Lemma unpack_packed_dir wk am : dir_ok am -> b_unpack wk (packed wk am) = inr (unpacked wk am).
  Proof.
    intro H. pose proof H as (Hs & Hn & _).
    destruct (unpack_pack_map classify normalize jobj dumps loads enc dec loads_dumps dec_enc
                              wk am Hs Hn (dir_ok_stable _ H)) as (data & Hp & children & Hu & _ & Hc).
    fold (pack_amap wk am) in Hp. rewrite (pack_amap_ok wk am H) in Hp. inversion Hp; subst data.
    unfold Dirnode.b_unpack. rewrite Hu, Hc. reflexivity.
  Qed.

  Lemma view_unpacked wk am : view (unpacked wk am) = am.
  Proof. apply view_with_aux_id. reflexivity. Qed.

  Lemma aux_ok_unpacked wk (am : amap) : aux_ok wk (unpacked wk am).
  Proof.
    intros k c Hin. unfold with_aux, kvmap in Hin. rewrite in_map_iff in Hin.
    destruct Hin as ([k0 [n md]] & E & _). cbn [fst snd] in E. inversion E; subst. right. reflexivity.
  Qed.

  (* after an edit the packer reproduces the cached entries and packs the fresh ones *)
  Lemma repack wk cm : aux_ok wk cm -> dir_ok (view cm) -> b_pack wk cm = inr (packed wk (view cm)).
  Proof. intros Ha Hd. rewrite (pack_aux_eq wk cm Ha). apply pack_amap_ok. exact Hd. Qed.

  Lemma dir_ok_set am k n md :
    dir_ok am -> goodb classify n = true -> dir_ok (sm_set (normalize k) (n, md) am).
  Proof.
    intros (Hs & Hn & Hg) Hgood. split; [apply sm_set_sorted; exact Hs|]. split.
    - intros k' v' Hin. apply sm_set_in in Hin. destruct Hin as [[-> _]|Hin]; [apply normalize_idem|eapply Hn; exact Hin].
    - intros k' v' Hin. apply sm_set_in in Hin. destruct Hin as [[_ ->]|Hin]; [exact Hgood|eapply Hg; exact Hin].
  Qed.

  Lemma dir_ok_del am k : dir_ok am -> dir_ok (sm_del k am).
  Proof.
    intros (Hs & Hn & Hg). split; [apply sm_del_sorted; exact Hs|]. split.
    - intros k' v' Hin. apply sm_del_in in Hin. eapply Hn; exact Hin.
    - intros k' v' Hin. apply sm_del_in in Hin. eapply Hg; exact Hin.
  Qed.

  Lemma dir_ok_get am k c : dir_ok am -> sm_get k am = Some c -> goodb classify (fst c) = true.
  Proof. intros (_ & _ & Hg) E. apply sm_get_in in E. exact (Hg _ _ E). Qed.

  Lemma a_adder_ok ov now entries am am' :
    dir_ok am -> entries_ok entries -> a_adder ov now am entries = inr am' -> dir_ok am'.
  Proof.
    intros H He. apply (adder_loop_closed classify normalize _ fst snd dir_ok (fun n => goodb classify n = true));
      eauto using dir_ok_set, good_diminish.
  Qed.

  Lemma a_deleter_ok namex me mbd mbf am am' :
    dir_ok am -> a_deleter normalize namex me mbd mbf am = inr (Some am') -> dir_ok am'.
  Proof. apply deleter_closed. intros k m. apply dir_ok_del. Qed.

  Lemma a_setmd_ok namex md now am am' :
    dir_ok am -> a_setmd classify normalize namex md now am = inr am' -> dir_ok am'.
  Proof.
    apply (setmd_closed classify normalize _ fst snd dir_ok (fun n => goodb classify n = true));
      eauto using dir_ok_set, dir_ok_get, good_diminish.
  Qed.

  (* each modifier on packed bytes = the edit on the map, re-packed *)
  Lemma adder_modify_refines wk entries ov now am :
    dir_ok am -> entries_ok entries ->
    adder_modify classify normalize dumps loads enc dec wk entries ov now (packed wk am)
    = sum_map (packed wk) (a_adder ov now am entries).
  Proof.
    intros H He. unfold adder_modify, Dirnode.bchild. fold (b_unpack wk (packed wk am)). rewrite (unpack_packed_dir wk am H).
    pose proof (adder_loop_view ov now entries (unpacked wk am)) as V. rewrite view_unpacked in V. rewrite <- V.
    destruct (adder_loop classify normalize bchild _ _ _ ov now _ entries) as [x|cm'] eqn:L; cbn [sum_map] in *; [reflexivity|].
    fold (b_pack wk cm'). apply repack.
    - revert L. apply adder_loop_closed with (Q := fun _ => True); auto using aux_ok_set, aux_ok_unpacked.
    - exact (a_adder_ok ov now entries am _ H He (eq_sym V)).
  Qed.

  Lemma deleter_modify_refines wk namex me mbd mbf am :
    dir_ok am ->
    deleter_modify classify normalize dumps loads enc dec wk namex me mbd mbf (packed wk am)
    = sum_map (option_map (packed wk)) (a_deleter normalize namex me mbd mbf am).
  Proof.
    intro H. unfold deleter_modify, Dirnode.bchild. fold (b_unpack wk (packed wk am)). rewrite (unpack_packed_dir wk am H).
    pose proof (deleter_view namex me mbd mbf (unpacked wk am)) as V. rewrite view_unpacked in V. rewrite <- V.
    destruct (deleter_core normalize bchild _ namex me mbd mbf _) as [x|[cm'|]] eqn:L; cbn [sum_map option_map] in *; try reflexivity.
    fold (b_pack wk cm'). rewrite repack; [reflexivity| |].
    - revert L. apply deleter_closed; auto using aux_ok_del, aux_ok_unpacked.
    - exact (a_deleter_ok namex me mbd mbf am _ H (eq_sym V)).
  Qed.

  Lemma setmd_modify_refines wk namex md now am :
    dir_ok am ->
    setmd_modify classify normalize dumps loads enc dec wk namex md now (packed wk am)
    = sum_map (packed wk) (a_setmd classify normalize namex md now am).
  Proof.
    intro H. unfold setmd_modify, Dirnode.bchild. fold (b_unpack wk (packed wk am)). rewrite (unpack_packed_dir wk am H).
    pose proof (setmd_view namex md now (unpacked wk am)) as V. rewrite view_unpacked in V. rewrite <- V.
    destruct (setmd_core classify normalize bchild _ _ _ namex md now _) as [x|cm'] eqn:L; cbn [sum_map] in *; [reflexivity|].
    fold (b_pack wk cm'). apply repack.
    - revert L. apply setmd_closed with (Q := fun _ => True); auto using aux_ok_set, aux_ok_unpacked.
    - exact (a_setmd_ok namex md now am _ H (eq_sym V)).
  Qed.

  (* the store: writekeys paired with packed directories *)
  Definition conc (wks : list bytes) (dirs : list amap) : list bdir :=
    map (fun p => (fst p, packed (fst p) (snd p))) (combine wks dirs).

  Lemma nth_conc wks dirs d :
    nth_error (conc wks dirs) d
    = match nth_error wks d, nth_error dirs d with
      | Some wk, Some am => Some (wk, packed wk am)
      | _, _ => None
      end.
  Proof.
    unfold conc. revert dirs d.
    induction wks as [|wk wks IH]; intros [|am dirs] [|d]; cbn [combine map nth_error fst snd]; try reflexivity.
    - destruct (nth_error wks d); reflexivity.
    - apply IH.
  Qed.

  Lemma set_nth_conc wks dirs d wk am' :
    nth_error wks d = Some wk ->
    set_nth d (wk, packed wk am') (conc wks dirs) = conc wks (set_nth d am' dirs).
  Proof.
    unfold conc. revert dirs d.
    induction wks as [|wk0 wks IH]; intros [|am dirs] [|d] E; try discriminate;
      cbn [combine map set_nth nth_error fst snd] in *.
    - reflexivity.
    - reflexivity.
    - inversion E. reflexivity.
    - f_equal. apply IH. exact E.
  Qed.

  Definition store_ok (wks : list bytes) (dirs : list amap) : Prop :=
    List.length wks = List.length dirs /\ Forall dir_ok dirs.

  Lemma store_ok_set wks dirs d am' : store_ok wks dirs -> dir_ok am' -> store_ok wks (set_nth d am' dirs).
  Proof. intros [HL HF] H. split; [rewrite set_nth_length; exact HL|apply Forall_set_nth; assumption]. Qed.

  Lemma conc_lookup wks dirs d :
    store_ok wks dirs ->
    match nth_error dirs d with
    | None => nth_error (conc wks dirs) d = None
    | Some am => dir_ok am /\ exists wk, nth_error wks d = Some wk /\ nth_error (conc wks dirs) d = Some (wk, packed wk am)
    end.
  Proof.
    intros [HL HF]. rewrite nth_conc. destruct (nth_error dirs d) as [am|] eqn:Ed.
    - split; [exact (Forall_nth_error _ _ _ _ HF Ed)|].
      destruct (nth_error wks d) as [wk|] eqn:Ew; [eauto|].
      apply nth_error_None in Ew. rewrite HL in Ew. apply nth_error_None in Ew. congruence.
    - destruct (nth_error wks d); reflexivity.
  Qed.

  Local Notation a_add := (a_add classify normalize).
  Local Notation a_delete := (a_delete normalize).
  Local Notation b_add := (b_add classify normalize dumps loads enc dec).
  Local Notation b_delete := (b_delete classify normalize dumps loads enc dec).

  Lemma b_add_refines wks dirs d entries ov now :
    store_ok wks dirs -> entries_ok entries ->
    b_add (conc wks dirs) d entries ov now
    = (fst (a_add dirs d entries ov now), conc wks (snd (a_add dirs d entries ov now)))
    /\ store_ok wks (snd (a_add dirs d entries ov now)).
  Proof.
    intros Hst He. unfold Dirnode.b_add, Dirnode.a_add. pose proof (conc_lookup wks dirs d Hst) as L.
    destruct (nth_error dirs d) as [am|]; [|rewrite L; cbn [fst snd]; auto].
    destruct L as (Hok & wk & Ew & ->). rewrite (adder_modify_refines wk entries ov now am Hok He).
    destruct (a_adder ov now am entries) as [x|am'] eqn:Ea; cbn [sum_map fst snd]; [auto|].
    rewrite set_nth_conc by exact Ew.
    split; [reflexivity|apply store_ok_set; [exact Hst|exact (a_adder_ok _ _ _ _ _ Hok He Ea)]].
  Qed.

  Lemma b_delete_refines wks dirs d namex me mbd mbf :
    store_ok wks dirs ->
    b_delete (conc wks dirs) d namex me mbd mbf
    = (fst (a_delete dirs d namex me mbd mbf), conc wks (snd (a_delete dirs d namex me mbd mbf)))
    /\ store_ok wks (snd (a_delete dirs d namex me mbd mbf)).
  Proof.
    intros Hst. unfold Dirnode.b_delete, Dirnode.a_delete. pose proof (conc_lookup wks dirs d Hst) as L.
    destruct (nth_error dirs d) as [am|]; [|rewrite L; cbn [fst snd]; auto].
    destruct L as (Hok & wk & Ew & ->). rewrite (deleter_modify_refines wk namex me mbd mbf am Hok).
    destruct (a_deleter normalize namex me mbd mbf am) as [x|[am'|]] eqn:Ea; cbn [sum_map option_map fst snd]; auto.
    rewrite set_nth_conc by exact Ew.
    split; [reflexivity|apply store_ok_set; [exact Hst|exact (a_deleter_ok _ _ _ _ _ _ Hok Ea)]].
  Qed.

  Lemma b_step_refines wks dirs o now :
    store_ok wks dirs -> op_ok o ->
    b_step (conc wks dirs) o now = (fst (a_step dirs o now), conc wks (snd (a_step dirs o now)))
    /\ store_ok wks (snd (a_step dirs o now)).
  Proof.
    intros Hst Hop.
    destruct o as [d entries ov|d namex me mbd mbf|d namex md|src namex dst new_namex ov]; cbn [Dirnode.b_step Dirnode.a_step].
    - apply b_add_refines; assumption.
    - apply b_delete_refines; assumption.
    - pose proof (conc_lookup wks dirs d Hst) as L.
      destruct (nth_error dirs d) as [am|]; [|rewrite L; cbn [fst snd]; auto].
      destruct L as (Hok & wk & Ew & ->). rewrite (setmd_modify_refines wk namex md now am Hok).
      destruct (a_setmd classify normalize namex md now am) as [x|am'] eqn:Ea; cbn [sum_map fst snd]; [auto|].
      rewrite set_nth_conc by exact Ew.
      split; [reflexivity|apply store_ok_set; [exact Hst|exact (a_setmd_ok _ _ _ _ _ Hok Ea)]].
    - destruct (Nat.eqb src dst && beqb _ _); [cbn [fst snd]; auto|].
      pose proof (conc_lookup wks dirs src Hst) as L.
      destruct (nth_error dirs src) as [am|]; [|rewrite L; cbn [fst snd]; auto].
      destruct L as (Hok & wk & Ew & ->).
      fold (b_unpack wk (packed wk am)). rewrite (unpack_packed_dir wk am Hok).
      unfold with_aux at 1. rewrite kvmap_get.
      destruct (sm_get (normalize namex) am) as [[chld md]|] eqn:Eg; cbn [option_map fst snd c_node c_md]; [|auto].
      set (new := match new_namex with Some x => normalize x | None => normalize namex end).
      assert (He : entries_ok [(new, chld, Some md)]).
      { intros a b c [E|[]] _. inversion E; subst. exact (dir_ok_get _ _ _ Hok Eg). }
      destruct (b_add_refines wks dirs dst [(new, chld, Some md)] ov now Hst He) as [Eb Hst'].
      rewrite Eb. destruct (a_add dirs dst [(new, chld, Some md)] ov now) as [[| |e] dirs'] eqn:Ea; cbn [fst snd] in *; auto.
      apply b_delete_refines. exact Hst'.
  Qed.

  (* C20: any history of edits *)
  Theorem run_refines ops :
    forall wks dirs,
      store_ok wks dirs -> Forall (fun on => op_ok (fst on)) ops ->
      b_run (conc wks dirs) ops = (fst (a_run dirs ops), conc wks (snd (a_run dirs ops)))
      /\ store_ok wks (snd (a_run dirs ops)).
  Proof.
    induction ops as [|[o now] r IH]; intros wks dirs Hst Hops; cbn [Dirnode.b_run Dirnode.a_run].
    - cbn [fst snd]. auto.
    - inversion Hops as [|? ? Ho Hr]; subst. cbn [fst] in Ho.
      destruct (b_step_refines wks dirs o now Hst Ho) as [Eb Hst'].
      rewrite Eb. destruct (a_step dirs o now) as [out dirs'] eqn:Ea. cbn [fst snd] in *.
      destruct (IH wks dirs' Hst' Hr) as [Er Hst''].
      rewrite Er. destruct (a_run dirs' r) as [outs dirs''] eqn:Ear. cbn [fst snd] in *.
      auto.
  Qed.
End EditFacts.
