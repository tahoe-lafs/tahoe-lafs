(* Packing and unpacking of directory contents (C19) and what a read-cap holder
   gets out of them (C18). *)
From Coq Require Import List NArith ZArith Bool Lia.
From Verif Require Import Lib.ListFacts Lib.Hex Lib.Decimal Lib.DecimalFacts Lib.Netstring Lib.SHA256 Lib.HashPrim Gen.Hashutil
     Model.Dirnode Proofs.DirnodeBase Proofs.DirnodeCaps.
Import ListNotations.
Local Open Scope N_scope.

Section CryptFacts.
  Variable enc dec : bytes -> bytes -> bytes.
  Hypothesis dec_enc : forall k d, dec k (enc k d) = d.

  Lemma decrypt_encrypt wk rw : decrypt_rwcapdata dec wk (encrypt_rw_uri enc wk rw) = rw.
  Proof.
    unfold decrypt_rwcapdata, encrypt_rw_uri.
    set (salt := mutable_rwcap_salt_hash rw).
    set (key := mutable_rwcap_key_hash salt wk).
    set (ct := enc key rw).
    set (mac := hmac key (salt ++ ct)).
    assert (Hs : List.length salt = 16%nat) by apply salt_length.
    assert (Hm : List.length mac = 32%nat) by apply hmac_length.
    rewrite (firstn_app_exact salt (ct ++ mac) 16 Hs). fold key.
    rewrite (skipn_app_exact salt (ct ++ mac) 16 Hs).
    rewrite !app_length, Hs, Hm, Nat.add_assoc, Nat.add_sub, (Nat.add_comm 16), Nat.add_sub.
    rewrite (firstn_app_exact ct mac _ eq_refl).
    unfold ct. apply dec_enc.
  Qed.

  Lemma encrypt_nonempty wk rw : encrypt_rw_uri enc wk rw <> [].
  Proof.
    unfold encrypt_rw_uri. intro H. apply app_eq_nil in H. destruct H as [H _].
    pose proof (salt_length rw) as L. rewrite H in L. discriminate.
  Qed.

End CryptFacts.

Section PackFacts.
  Variable classify : bytes -> capclass.
  Variable normalize : bytes -> bytes.
  Variable MD : Type.
  Variable dumps : MD -> bytes.
  Variable loads : bytes -> option MD.
  Variable enc dec : bytes -> bytes -> bytes.
  Hypothesis normalize_idem : forall x, normalize (normalize x) = normalize x.
  Hypothesis loads_dumps : forall m, loads (dumps m) = Some m.
  Hypothesis dec_enc : forall k d, dec k (enc k d) = d.

  Local Notation child := (child MD).
  Local Notation pack_entry := (pack_entry MD dumps enc).
  Local Notation pack_normalized := (pack_normalized MD dumps enc).
  Local Notation unpack_entry := (unpack_entry classify normalize MD loads dec).
  Local Notation unpack_entries := (unpack_entries classify normalize MD loads dec).
  Local Notation unpack_contents := (unpack_contents classify normalize MD loads dec).

  Definition entry_of (wk : option bytes) (di : bool) (kc : bytes * (node * MD)) : bytes :=
    pack_entry wk di (fst kc) (fst (snd kc)) (snd (snd kc)).

  Definition no_err (n : node) : bool := match n_err n with None => true | Some _ => false end.

  Lemma parse_pack_entry wk di name n md :
    parse_k 4 (pack_entry wk di name n md)
    = Some ([name; stored_ro di n;
             match wk with Some wk => encrypt_rw_uri enc wk (or_empty (n_rw n)) | None => [] end;
             dumps md], []).
  Proof.
    unfold Dirnode.pack_entry. rewrite <- (app_nil_r (netstring (dumps md))). destruct wk; apply parse_k4.
  Qed.

  (* through a writeable mutable directory *)
  Lemma unpack_entry_rw wk name n md :
    unpack_entry true true wk (pack_entry (Some wk) false name n md)
    = inr (if no_err (reread classify n)
           then Some (normalize name, (reread classify n, md, Some (pack_entry (Some wk) false name n md)))
           else None).
  Proof.
    unfold unpack_entry. rewrite parse_pack_entry. cbn [negb andb].
    rewrite (decrypt_encrypt enc dec dec_enc). fold (reread classify n).
    unfold no_err. destruct (n_err (reread classify n)); [reflexivity|].
    cbn [orb]. rewrite loads_dumps. reflexivity.
  Qed.

  (* through a read-only mutable directory: the writekey argument is never looked at *)
  Lemma unpack_entry_ro wk wk' name n md :
    unpack_entry false true wk' (pack_entry (Some wk) false name n md)
    = inr (if no_err (reread_ro classify n)
           then Some (normalize name, (reread_ro classify n, md, Some (pack_entry (Some wk) false name n md)))
           else None).
  Proof.
    unfold unpack_entry. rewrite parse_pack_entry. cbn [negb andb rstrip_sp nonempty].
    fold (reread_ro classify n).
    unfold no_err. destruct (n_err (reread_ro classify n)); [reflexivity|].
    cbn [orb]. rewrite loads_dumps. reflexivity.
  Qed.

  (* an entry of an immutable directory *)
  Lemma unpack_entry_imm wk' name n md :
    unpack_entry false false wk' (pack_entry None true name n md)
    = inr (if no_err (reread_imm classify n) && allowed_in_immutable (reread_imm classify n)
           then Some (normalize name, (reread_imm classify n, md, Some (pack_entry None true name n md)))
           else None).
  Proof.
    unfold unpack_entry. rewrite parse_pack_entry. cbn [negb andb rstrip_sp nonempty].
    fold (reread_imm classify n).
    unfold no_err. destruct (n_err (reread_imm classify n)); [reflexivity|].
    cbn [orb andb]. destruct (allowed_in_immutable (reread_imm classify n)); [|reflexivity].
    rewrite loads_dumps. reflexivity.
  Qed.

  (* what a reader that maps each child n to (g n), keeping it when keep (g n), collects *)
  Fixpoint rebuild (g : node -> node) (keep : node -> bool) (wk : option bytes) (di : bool)
           (l : list (bytes * (node * MD))) (acc : smap child) : smap child :=
    match l with
    | [] => acc
    | kc :: r =>
      let n' := g (fst (snd kc)) in
      if keep n'
      then rebuild g keep wk di r (sm_set (normalize (fst kc)) (n', snd (snd kc), Some (entry_of wk di kc)) acc)
      else rebuild g keep wk di r acc
    end.

  Lemma unpack_entries_rebuild w mu wk' wk di (g : node -> node) (keep : node -> bool) l acc :
    (forall k n md, unpack_entry w mu wk' (pack_entry wk di k n md)
                    = inr (if keep (g n) then Some (normalize k, (g n, md, Some (pack_entry wk di k n md))) else None)) ->
    unpack_entries w mu wk' (map (entry_of wk di) l) acc = inr (rebuild g keep wk di l acc).
  Proof.
    intro H. revert acc. induction l as [|[k [n md]] r IH]; intro acc; [reflexivity|].
    cbn [map Dirnode.unpack_entries rebuild fst snd]. unfold entry_of at 1. cbn [fst snd].
    rewrite H. destruct (keep (g n)); apply IH.
  Qed.

  Lemma unpack_entries_rw wk l acc :
    unpack_entries true true wk (map (entry_of (Some wk) false) l) acc
    = inr (rebuild (reread classify) no_err (Some wk) false l acc).
  Proof. apply unpack_entries_rebuild, unpack_entry_rw. Qed.

  Lemma unpack_entries_ro wk wk' l acc :
    unpack_entries false true wk' (map (entry_of (Some wk) false) l) acc
    = inr (rebuild (reread_ro classify) no_err (Some wk) false l acc).
  Proof. apply unpack_entries_rebuild, unpack_entry_ro. Qed.

  Lemma unpack_entries_imm wk' l acc :
    unpack_entries false false wk' (map (entry_of None true) l) acc
    = inr (rebuild (reread_imm classify) (fun n => no_err n && allowed_in_immutable n) None true l acc).
  Proof. apply unpack_entries_rebuild, unpack_entry_imm. Qed.

  Definition packable (di : bool) (n : node) : bool := no_err n && (negb di || allowed_in_immutable n).

  Definition all_nodes (P : node -> bool) (m : smap (node * MD)) : Prop := forall k v, In (k, v) m -> P (fst v) = true.

  Definition first_unpackable (di : bool) (m : smap (node * MD)) : option (bytes * (node * MD)) :=
    find (fun kv => negb (packable di (fst (snd kv)))) m.

  (* the packer on a dict without cached entries: the first child (in name order) that is an error
     node or not allowed decides the exception *)
  Lemma pack_fresh (m : smap (node * MD)) wk di :
    pack_normalized (fresh MD m) wk di
    = match first_unpackable di m with
      | None => inr (concat_ns (map (entry_of wk di) m))
      | Some (_, (n, _)) => inl (match n_err n with Some e => ECap e | None => EDeepImmutable end)
      end.
  Proof.
    unfold first_unpackable. induction m as [|[k [n md]] r IH]; [reflexivity|].
    cbn [fresh map Dirnode.pack_normalized find fst snd c_node c_md c_aux]. fold (fresh MD r). rewrite IH.
    unfold packable, no_err. destruct (n_err n) eqn:E; cbn [andb negb]; [rewrite E; reflexivity|].
    destruct di, (allowed_in_immutable n); cbn [andb orb negb]; rewrite ?E; try reflexivity;
      destruct (find _ r) as [[? [? ?]]|]; reflexivity.
  Qed.

  Lemma pack_fresh_ok (m : smap (node * MD)) wk di :
    all_nodes (packable di) m ->
    pack_normalized (fresh MD m) wk di = inr (concat_ns (map (entry_of wk di) m)).
  Proof.
    intro H. rewrite pack_fresh. unfold first_unpackable.
    destruct (find _ m) as [[k v]|] eqn:F; [|reflexivity].
    apply find_some in F. destruct F as [Hin F]. cbn [fst snd] in F. rewrite (H _ _ Hin) in F. discriminate.
  Qed.

  Lemma pack_no_err (m : smap (node * MD)) wk :
    all_nodes no_err m -> pack_normalized (fresh MD m) wk false = inr (concat_ns (map (entry_of wk false) m)).
  Proof. intro H. apply pack_fresh_ok. intros k v Hin. unfold packable. rewrite (H _ _ Hin). reflexivity. Qed.

  Lemma stable_no_err (m : smap (node * MD)) : all_nodes (stableb classify) m -> all_nodes no_err m.
  Proof. intros H k v Hin. unfold no_err. rewrite (proj1 (stable_inv classify _ (H _ _ Hin))). reflexivity. Qed.

  Lemma unpack_packed w mu wk es :
    unpack_contents w mu wk (concat_ns es) = unpack_entries w mu wk es [].
  Proof. unfold Dirnode.unpack_contents. rewrite parse_all_packed. reflexivity. Qed.

  (* the AuxValueDict the unpacker leaves of packed m: under each name the node as it is read back
     (g n), the metadata, and the packed entry cached as auxiliary value *)
  Definition with_aux (g : node -> node) (wk : option bytes) (di : bool) (m : smap (node * MD)) : smap child :=
    kvmap (fun k v => (g (fst v), snd v, Some (pack_entry wk di k (fst v) (snd v)))) m.

  Lemma rebuild_as_fold g keep wk di l acc :
    (forall k v, In (k, v) l -> keep (g (fst v)) = true) ->
    rebuild g keep wk di l acc
    = fold_left (fun m kv => sm_set (fst kv) (snd kv) m)
                (map (fun kc => (normalize (fst kc), (g (fst (snd kc)), snd (snd kc), Some (entry_of wk di kc)))) l) acc.
  Proof.
    revert acc. induction l as [|[k [n md]] r IH]; intros acc H; [reflexivity|].
    cbn [rebuild map fold_left fst snd].
    pose proof (H k (n, md) (or_introl eq_refl)) as Hk. cbn [fst] in Hk. rewrite Hk. apply IH. intros ? ? ?. eapply H. right. eassumption.
  Qed.

  Definition names_normal (m : smap (node * MD)) : Prop := forall k v, In (k, v) m -> normalize k = k.

  Lemma rebuild_sorted g keep wk di m :
    sm_sorted m = true -> names_normal m ->
    (forall k v, In (k, v) m -> keep (g (fst v)) = true) ->
    rebuild g keep wk di m [] = with_aux g wk di m.
  Proof.
    intros Hs Hn Hk. rewrite rebuild_as_fold by exact Hk.
    replace (map (fun kc => (normalize (fst kc), (g (fst (snd kc)), snd (snd kc), Some (entry_of wk di kc)))) m)
      with (with_aux g wk di m).
    - apply (fold_set_sorted (with_aux g wk di m) []). cbn [app]. unfold with_aux. rewrite kvmap_sorted. exact Hs.
    - unfold with_aux, kvmap. apply map_ext_in. intros [k [n md]] Hin. cbn [fst snd].
      rewrite (Hn _ _ Hin). reflexivity.
  Qed.

  Lemma view_with_aux g wk di m : view MD (with_aux g wk di m) = kvmap (fun _ v => (g (fst v), snd v)) m.
  Proof. unfold view, with_aux, kvmap. rewrite map_map. reflexivity. Qed.

  Lemma view_with_aux_id g wk di m :
    (forall k v, In (k, v) m -> g (fst v) = fst v) -> view MD (with_aux g wk di m) = m.
  Proof.
    intro H. rewrite view_with_aux. apply kvmap_id. intros k [n md] Hin. cbn [fst snd].
    pose proof (H _ _ Hin) as E. cbn [fst] in E. rewrite E. reflexivity.
  Qed.

  (* C19: the round trip on a directory held as a map *)
  Theorem unpack_pack_map wk (m : smap (node * MD)) :
    sm_sorted m = true -> names_normal m -> all_nodes (stableb classify) m ->
    exists data,
      pack_normalized (fresh MD m) (Some wk) false = inr data /\
      exists children, unpack_contents true true wk data = inr children /\ view MD children = m /\
                       children = with_aux (fun n => n) (Some wk) false m.
  Proof.
    intros Hs Hn Hst.
    assert (Hre : forall k v, In (k, v) m -> reread classify (fst v) = fst v).
    { intros k v Hin. apply (stable_inv classify _ (Hst _ _ Hin)). }
    exists (concat_ns (map (entry_of (Some wk) false) m)). split; [apply pack_no_err, stable_no_err, Hst|].
    exists (with_aux (fun n => n) (Some wk) false m).
    rewrite unpack_packed, unpack_entries_rw, rebuild_sorted; try assumption.
    - split; [|split; [apply view_with_aux_id; auto|reflexivity]].
      f_equal. unfold with_aux. apply kvmap_ext. intros k v Hin. rewrite (Hre _ _ Hin). reflexivity.
    - intros k v Hin. rewrite (Hre _ _ Hin). exact (stable_no_err m Hst _ _ Hin).
  Qed.

  (* the same starting from the caller's dict (pack_children) *)
  Definition normalized_list (l : list (bytes * (node * MD))) : list (bytes * (node * MD)) :=
    map (fun kv => (normalize (fst kv), snd kv)) l.

  Lemma pack_children_as_map l wk di :
    pack_children normalize MD dumps enc l wk di = pack_normalized (fresh MD (sm_of_list (normalized_list l))) wk di.
  Proof.
    unfold pack_children. f_equal.
    unfold fresh. change (map (fun kc => (fst kc, (fst (snd kc), snd (snd kc), @None bytes))) (sm_of_list (normalized_list l)))
      with (kvmap (fun _ (v : node * MD) => (fst v, snd v, @None bytes)) (sm_of_list (normalized_list l))).
    rewrite kvmap_of_list. f_equal. unfold normalized_list. rewrite map_map. reflexivity.
  Qed.

  Lemma normalized_list_in l k v : In (k, v) (normalized_list l) -> normalize k = k /\ exists k0, In (k0, v) l.
  Proof.
    unfold normalized_list. rewrite in_map_iff. intros ([k0 v0] & E & Hin). cbn [fst snd] in E. inversion E; subst.
    split; [apply normalize_idem|eauto].
  Qed.

  Theorem unpack_pack_list wk (l : list (bytes * (node * MD))) :
    (forall k v, In (k, v) l -> stableb classify (fst v) = true) ->
    exists data,
      pack_children normalize MD dumps enc l (Some wk) false = inr data /\
      exists children, unpack_contents true true wk data = inr children /\
                       view MD children = sm_of_list (normalized_list l).
  Proof.
    intro Hst. rewrite pack_children_as_map.
    destruct (unpack_pack_map wk (sm_of_list (normalized_list l))) as (data & Hp & children & Hu & Hv & _).
    - apply sm_of_list_is_sorted.
    - intros k v Hin. apply sm_of_list_in in Hin. apply normalized_list_in in Hin. tauto.
    - intros k v Hin. apply sm_of_list_in in Hin. apply normalized_list_in in Hin. destruct Hin as [_ [k0 Hin]].
      eapply Hst. exact Hin.
    - exists data. split; [exact Hp|]. exists children. split; [exact Hu|exact Hv].
  Qed.

  (* later duplicates win.  In the caller's dict: two names with the same normal form *)
  Theorem pack_children_later_wins wk (l : list (bytes * (node * MD))) name :
    (forall k v, In (k, v) l -> stableb classify (fst v) = true) ->
    exists data children,
      pack_children normalize MD dumps enc l (Some wk) false = inr data /\
      unpack_contents true true wk data = inr children /\
      sm_get name (view MD children) = last_binding name (normalized_list l).
  Proof.
    intro Hst. destruct (unpack_pack_list wk l Hst) as (data & Hp & children & Hu & Hv).
    exists data, children. split; [exact Hp|]. split; [exact Hu|].
    rewrite Hv. apply sm_of_list_get.
  Qed.

  (* in the stored bytes: entries whose names normalise to the same name, in any order *)
  Theorem unpack_later_entry_wins wk (l : list (bytes * (node * MD))) name :
    (forall k v, In (k, v) l -> stableb classify (fst v) = true) ->
    exists children,
      unpack_contents true true wk (concat_ns (map (entry_of (Some wk) false) l)) = inr children /\
      sm_get name (view MD children) = last_binding name (normalized_list l).
  Proof.
    intro Hst.
    rewrite unpack_packed, unpack_entries_rw.
    assert (Hre : forall k v, In (k, v) l -> reread classify (fst v) = fst v /\ no_err (fst v) = true).
    { intros k v Hin. split; [apply (stable_inv classify _ (Hst _ _ Hin))|exact (stable_no_err l Hst _ _ Hin)]. }
    eexists. split; [reflexivity|].
    rewrite rebuild_as_fold.
    2:{ intros k v Hin. destruct (Hre _ _ Hin) as [R E]. rewrite R. exact E. }
    unfold view.
    change (map (fun kc : bytes * child => (fst kc, (c_node MD (snd kc), c_md MD (snd kc)))))
      with (kvmap (fun (_ : bytes) (c : child) => (c_node MD c, c_md MD c))).
    rewrite kvmap_fold. cbn [kvmap map]. rewrite map_map. cbn [fst snd c_node c_md].
    rewrite fold_set_get. cbn [sm_get].
    replace (map (fun x : bytes * (node * MD) => (normalize (fst x), (reread classify (fst (snd x)), snd (snd x)))) l)
      with (normalized_list l).
    - destruct (last_binding name (normalized_list l)); reflexivity.
    - unfold normalized_list. apply map_ext_in. intros [k [n md]] Hin. cbn [fst snd].
      destruct (Hre _ _ Hin) as [R _]. cbn [fst] in R. rewrite R. reflexivity.
  Qed.

  Theorem immutable_pack_refuses (m : smap (node * MD)) :
    match first_unpackable true m with
    | None => exists data, pack_normalized (fresh MD m) None true = inr data
    | Some (_, (n, _)) =>
      pack_normalized (fresh MD m) None true
      = inl (match n_err n with Some e => ECap e | None => EDeepImmutable end)
    end.
  Proof.
    rewrite pack_fresh. destruct (first_unpackable true m) as [[k [n md]]|]; eauto.
  Qed.

  (* a child that is mutable, or carries a write cap, makes the packer of an immutable directory raise
     MustBeDeepImmutableError (provided no child is an opaque error node, which raises its own error first) *)
  Definition mutable_or_writecap (n : node) : bool := (negb (is_unknown n) && n_mut n) || has_rw n.

  Lemma not_allowed_of_mutable_or_writecap n :
    shape_ok n = true -> mutable_or_writecap n = true -> allowed_in_immutable n = false.
  Proof.
    unfold shape_ok, mutable_or_writecap, allowed_in_immutable.
    destruct (is_unknown n), (has_rw n), (n_mut n), (n_err n); cbn; congruence.
  Qed.

  Theorem immutable_pack_rejects (m : smap (node * MD)) k n md :
    all_nodes no_err m -> all_nodes shape_ok m ->
    In (k, (n, md)) m -> mutable_or_writecap n = true ->
    pack_normalized (fresh MD m) None true = inl EDeepImmutable.
  Proof.
    intros Hne Hsh Hin Hmw.
    pose proof (immutable_pack_refuses m) as H.
    destruct (first_unpackable true m) as [[k1 [n1 md1]]|] eqn:F.
    - rewrite H. unfold first_unpackable in F. apply find_some in F. destruct F as [Hin1 _].
      pose proof (Hne _ _ Hin1) as E. unfold no_err in E. cbn [fst] in E. destruct (n_err n1); [discriminate|reflexivity].
    - exfalso. unfold first_unpackable in F. pose proof (find_none _ _ F _ Hin) as Hp. cbn [fst snd] in Hp.
      apply negb_false_iff in Hp. unfold packable in Hp. apply andb_prop in Hp. destruct Hp as [_ Hp]. cbn [negb orb] in Hp.
      rewrite (not_allowed_of_mutable_or_writecap n) in Hp; [discriminate| |exact Hmw].
      apply (Hsh _ _ Hin).
  Qed.

  Theorem immutable_pack_accepts (m : smap (node * MD)) :
    all_nodes no_err m -> all_nodes allowed_in_immutable m ->
    pack_normalized (fresh MD m) None true = inr (concat_ns (map (entry_of None true) m)).
  Proof.
    intros Hne Hal. apply pack_fresh_ok. intros k v Hin. unfold packable.
    rewrite (Hne _ _ Hin), (Hal _ _ Hin). reflexivity.
  Qed.

  Lemma unpack_entries_ro_no_writekey mu wk1 wk2 es acc :
    unpack_entries false mu wk1 es acc = unpack_entries false mu wk2 es acc.
  Proof.
    revert acc. induction es as [|e r IH]; intro acc; [reflexivity|].
    cbn [Dirnode.unpack_entries].
    change (unpack_entry false mu wk1 e) with (unpack_entry false mu wk2 e).
    destruct (unpack_entry false mu wk2 e) as [x|[[name c]|]]; [reflexivity|apply IH|apply IH].
  Qed.

  Theorem ro_reader_ignores_writekey mu wk1 wk2 data :
    unpack_contents false mu wk1 data = unpack_contents false mu wk2 data.
  Proof.
    unfold Dirnode.unpack_contents. destruct (parse_all _ data); [|reflexivity].
    apply unpack_entries_ro_no_writekey.
  Qed.

  Theorem ro_unpack_map wk wk' (m : smap (node * MD)) :
    caps_coherent classify ->
    sm_sorted m = true -> names_normal m ->
    all_nodes (stableb classify) m -> all_nodes (ro_slot_okb classify) m ->
    exists data,
      pack_normalized (fresh MD m) (Some wk) false = inr data /\
      unpack_contents false true wk' data = inr (with_aux (reread_ro classify) (Some wk) false m) /\
      forall k n md, In (k, (n, md)) m ->
                     n_err (reread_ro classify n) = None /\ n_rw (reread_ro classify n) = None.
  Proof.
    intros Hco Hs Hn Hst Hslot.
    assert (Hro : forall k v, In (k, v) m -> n_err (reread_ro classify (fst v)) = None /\ n_rw (reread_ro classify (fst v)) = None).
    { intros k v Hin. apply reread_ro_readonly; [exact Hco|exact (Hst _ _ Hin)|exact (Hslot _ _ Hin)]. }
    exists (concat_ns (map (entry_of (Some wk) false) m)). split; [apply pack_no_err, stable_no_err, Hst|split].
    - rewrite unpack_packed, unpack_entries_ro. rewrite rebuild_sorted; try assumption; [reflexivity|].
      intros k v Hin. unfold no_err. rewrite (proj1 (Hro _ _ Hin)). reflexivity.
    - intros k n md Hin. apply (Hro _ _ Hin).
  Qed.

  Lemma unpack_entries_immutable_no_rw w wk es acc res :
    unpack_entries w false wk es acc = inr res ->
    (forall k c, In (k, c) acc -> n_rw (c_node MD c) = None) ->
    forall k c, In (k, c) res -> n_rw (c_node MD c) = None.
  Proof.
    revert acc. induction es as [|e r IH]; intros acc H Hacc; cbn [Dirnode.unpack_entries] in H.
    - inversion H; subst. exact Hacc.
    - destruct (unpack_entry w false wk e) as [x|[[name c0]|]] eqn:E; [discriminate| |].
      + eapply IH; [exact H|]. intros k c Hin. apply sm_set_in in Hin. destruct Hin as [[-> ->]|Hin]; [|eapply Hacc; exact Hin].
        unfold Dirnode.unpack_entry in E.
        destruct (parse_k 4 e) as [[[|a [|b [|c1 [|d [|? ?]]]]] rest]|]; try discriminate.
        cbn [negb] in E.
        destruct (true && negb match c1 with [] => true | _ :: _ => false end); [discriminate|].
        match type of E with context [create_from_cap classify true ?rw ?ro] => set (nn := create_from_cap classify true rw ro) in * end.
        destruct (n_err nn); [discriminate|].
        destruct (false || allowed_in_immutable nn); [|discriminate].
        destruct (loads d); [|discriminate]. inversion E; subst. cbn [c_node fst].
        apply cfc_deep_immutable_no_rw.
      + eapply IH; [exact H|exact Hacc].
  Qed.

  Theorem immutable_dir_children_no_rw w wk data children :
    unpack_contents w false wk data = inr children ->
    forall k c, In (k, c) children -> n_rw (c_node MD c) = None.
  Proof.
    unfold Dirnode.unpack_contents. destruct (parse_all _ data) as [es|]; [|discriminate].
    intro H. eapply unpack_entries_immutable_no_rw; [exact H|]. intros ? ? [].
  Qed.

  (* the packed bytes, spelled out: name, read-cap field and metadata in clear, and the write cap
     only as  salt ++ E_key(rwcap) ++ MAC  with  key = H(salt, WRITEKEY of the directory) *)
  Theorem packed_form wk (m : smap (node * MD)) :
    all_nodes no_err m ->
    pack_normalized (fresh MD m) (Some wk) false
    = inr (concat_ns (map (fun kc =>
             netstring (fst kc)
             ++ netstring (stored_ro false (fst (snd kc)))
             ++ netstring (let rw := or_empty (n_rw (fst (snd kc))) in
                           let salt := mutable_rwcap_salt_hash rw in
                           let key := mutable_rwcap_key_hash salt wk in
                           salt ++ enc key rw ++ hmac key (salt ++ enc key rw))
             ++ netstring (dumps (snd (snd kc)))) m)).
  Proof.
    (* the right-hand side is entry_of unfolded; doing it by name keeps the comparison of the two
       sides from evaluating the hashes *)
    intro H. rewrite (pack_no_err m (Some wk) H).
    unfold entry_of, Dirnode.pack_entry, Dirnode.encrypt_rw_uri, stored_ro. reflexivity.
  Qed.

  (* what the packer writes in clear for each child *)
  Definition ro_proj (m : list (bytes * (node * MD))) : list (bytes * bytes * MD) :=
    map (fun kc => (fst kc, stored_ro false (fst (snd kc)), snd (snd kc))) m.

  (* the read-cap holder's reader as a function of those clear fields alone: it receives neither
     the directory's writekey nor any child write cap nor any ciphertext *)
  Definition ro_view_of (p : list (bytes * bytes * MD)) (acc : smap (node * MD)) : smap (node * MD) :=
    fold_left (fun acc e =>
                 let n' := create_from_cap classify false None (nonempty (rstrip_sp (snd (fst e)))) in
                 if no_err n' then sm_set (normalize (fst (fst e))) (n', snd e) acc else acc) p acc.

  Lemma view_set k c (m : smap child) : view MD (sm_set k c m) = sm_set k (c_node MD c, c_md MD c) (view MD m).
  Proof. exact (kvmap_set (fun (_ : bytes) (c : child) => (c_node MD c, c_md MD c)) k c m). Qed.

  Lemma view_rebuild_ro wk l acc :
    view MD (rebuild (reread_ro classify) no_err (Some wk) false l acc) = ro_view_of (ro_proj l) (view MD acc).
  Proof.
    revert acc. induction l as [|[k [n md]] r IH]; intro acc; [reflexivity|].
    cbn [rebuild ro_proj map ro_view_of fold_left fst snd].
    fold (reread_ro classify n). destruct (no_err (reread_ro classify n)).
    - rewrite IH, view_set. reflexivity.
    - apply IH.
  Qed.

  Theorem ro_view_is_function_of_clear_fields wk wk' (m : smap (node * MD)) :
    all_nodes no_err m ->
    exists data children,
      pack_normalized (fresh MD m) (Some wk) false = inr data /\
      unpack_contents false true wk' data = inr children /\
      view MD children = ro_view_of (ro_proj m) [].
  Proof.
    intro H. exists (concat_ns (map (entry_of (Some wk) false) m)).
    eexists. split; [|split].
    - exact (pack_no_err m (Some wk) H).
    - rewrite unpack_packed, unpack_entries_ro. reflexivity.
    - apply view_rebuild_ro.
  Qed.

  (* hence two directories that differ only in their children's write caps and in their own
     writekeys look the same to a read-cap holder *)
  Theorem ro_view_independent_of_write_caps wk1 wk2 wk1' wk2' (m1 m2 : smap (node * MD)) :
    all_nodes no_err m1 -> all_nodes no_err m2 -> ro_proj m1 = ro_proj m2 ->
    exists d1 d2 c1 c2,
      pack_normalized (fresh MD m1) (Some wk1) false = inr d1 /\
      pack_normalized (fresh MD m2) (Some wk2) false = inr d2 /\
      unpack_contents false true wk1' d1 = inr c1 /\
      unpack_contents false true wk2' d2 = inr c2 /\
      view MD c1 = view MD c2.
  Proof.
    intros H1 H2 E.
    destruct (ro_view_is_function_of_clear_fields wk1 wk1' m1 H1) as (d1 & c1 & P1 & U1 & V1).
    destruct (ro_view_is_function_of_clear_fields wk2 wk2' m2 H2) as (d2 & c2 & P2 & U2 & V2).
    exists d1, d2, c1, c2. repeat split; try assumption. rewrite V1, V2, E. reflexivity.
  Qed.
End PackFacts.
