(* Specification of "maximum matching between servers and the shares they hold" and
   the Koenig (easy direction) certificate theorem: a matching together with a vertex
   cover of the same size proves that the matching is maximum.  Fully general:
   any graph (association list), any claimed matching, any claimed cover. *)
From Coq Require Import List NArith ZArith Bool Arith Lia Permutation.
From Verif Require Export Lib.ListFacts.
From Verif Require Import Model.Matching.
Import ListNotations.

Definition edge (svm : servermap) (p s : N) : Prop :=
  exists l, In (p, l) svm /\ In s l.

Definition is_matching (svm : servermap) (M : list (N * N)) : Prop :=
  (forall p s, In (p, s) M -> edge svm p s) /\ NoDup (map fst M) /\ NoDup (map snd M).

Definition max_matching_size (svm : servermap) (n : nat) : Prop :=
  (exists M, is_matching svm M /\ length M = n) /\
  (forall M', is_matching svm M' -> length M' <= n).

Definition same_edges (a b : servermap) : Prop := forall p s, edge a p s <-> edge b p s.

Lemma memN_In : forall x l, memN x l = true <-> In x l.
Proof. exact (existsb_eqb_In N.eqb N.eqb_eq). Qed.

Lemma nodupN_NoDup : forall l, nodupN l = true -> NoDup l.
Proof.
  induction l as [|x r IH]; cbn [nodupN]; intros H.
  - constructor.
  - apply andb_true_iff in H. destruct H as [H1 H2]. constructor.
    + intro Hin. apply memN_In in Hin. rewrite Hin in H1. discriminate.
    + apply IH. exact H2.
Qed.

Lemma NoDup_nodupN : forall l, NoDup l -> nodupN l = true.
Proof.
  induction 1 as [|x r Hn _ IH]; cbn [nodupN]; [reflexivity|].
  apply andb_true_iff. split; [|exact IH].
  destruct (memN x r) eqn:E; [|reflexivity]. apply memN_In in E. contradiction.
Qed.

Lemma has_edge_edge : forall svm p s, has_edge svm p s = true <-> edge svm p s.
Proof.
  intros svm p s. unfold has_edge, edge. rewrite existsb_exists. split.
  - intros [[q l] [Hin H]]. cbn [fst snd] in H. apply andb_true_iff in H. destruct H as [H1 H2].
    apply N.eqb_eq in H1. subst q. apply memN_In in H2. exists l. split; assumption.
  - intros [l [Hin Hs]]. exists (p, l). split; [exact Hin|]. cbn [fst snd].
    apply andb_true_iff. split; [apply N.eqb_refl | apply memN_In; exact Hs].
Qed.

Lemma valid_matching_sound : forall svm M, valid_matching svm M = true -> is_matching svm M.
Proof.
  intros svm M H. unfold valid_matching in H. rewrite !andb_true_iff in H. destruct H as [[H1 H2] H3].
  split; [|split].
  - intros p s Hin. rewrite forallb_forall in H1. specialize (H1 _ Hin). cbn [fst snd] in H1.
    apply has_edge_edge. exact H1.
  - apply nodupN_NoDup. exact H2.
  - apply nodupN_NoDup. exact H3.
Qed.

Lemma valid_matching_complete : forall svm M, is_matching svm M -> valid_matching svm M = true.
Proof.
  intros svm M [H1 [H2 H3]]. unfold valid_matching.
  rewrite (NoDup_nodupN _ H2), (NoDup_nodupN _ H3), !andb_true_r.
  apply forallb_forall. intros [p s] Hin. cbn [fst snd]. apply has_edge_edge. apply H1. exact Hin.
Qed.

Lemma covers_sound : forall svm CL CR, covers svm CL CR = true ->
  forall p s, edge svm p s -> In p CL \/ In s CR.
Proof.
  intros svm CL CR H p s [l [Hin Hs]]. unfold covers in H. rewrite forallb_forall in H.
  specialize (H _ Hin). cbn [fst snd] in H. apply orb_true_iff in H. destruct H as [H|H].
  - left. apply memN_In. exact H.
  - right. rewrite forallb_forall in H. apply memN_In. apply H. exact Hs.
Qed.

(* Koenig, easy direction, over any two vertex types: split M by whether the left end is in
   CL; the left ends of the first part are distinct members of CL, the right ends of the
   second part distinct members of CR. *)
Lemma matching_le_cover : forall (A B : Type) (dec : forall x y : A, {x = y} + {x <> y})
    (M : list (A * B)) (CL : list A) (CR : list B),
  NoDup (map fst M) -> NoDup (map snd M) ->
  (forall p s, In (p, s) M -> In p CL \/ In s CR) ->
  length M <= length CL + length CR.
Proof.
  intros A B dec M CL CR Hf Hs Hc.
  set (g := fun e : A * B => if in_dec dec (fst e) CL then true else false).
  rewrite (filter_split_length g M).
  assert (HA : length (filter g M) <= length CL).
  { rewrite <- (map_length fst). apply NoDup_incl_length; [apply NoDup_map_filter; exact Hf|].
    intros p Hp. apply in_map_iff in Hp. destruct Hp as [[p' s] [<- Hin]].
    apply filter_In in Hin. destruct Hin as [_ Hg]. unfold g in Hg.
    destruct (in_dec dec (fst (p', s)) CL); [assumption | discriminate]. }
  assert (HB : length (filter (fun x => negb (g x)) M) <= length CR).
  { rewrite <- (map_length snd). apply NoDup_incl_length; [apply NoDup_map_filter; exact Hs|].
    intros s Hp. apply in_map_iff in Hp. destruct Hp as [[p s'] [<- Hin]].
    apply filter_In in Hin. destruct Hin as [Hin Hg]. unfold g in Hg. cbn [fst] in Hg.
    destruct (in_dec dec p CL) as [|Hn]; [discriminate|].
    destruct (Hc _ _ Hin) as [H|H]; [contradiction | exact H]. }
  lia.
Qed.

Theorem certificate_sound : forall svm n M CL CR,
  valid_certificate svm n M CL CR = true ->
  is_matching svm M /\ n = Z.of_nat (length M) /\ max_matching_size svm (length M).
Proof.
  intros svm n M CL CR H. unfold valid_certificate in H. rewrite !andb_true_iff in H.
  destruct H as [[[H1 H2] H3] H4].
  apply valid_matching_sound in H1. apply Z.eqb_eq in H3. apply Nat.eqb_eq in H4.
  split; [exact H1|]. split; [exact H3|]. split.
  - exists M. split; [exact H1 | reflexivity].
  - intros M' [E' [F' S']]. rewrite <- H4. apply (matching_le_cover _ _ N.eq_dec); try assumption.
    intros p s Hin. apply (covers_sound _ _ _ H2). apply E'. exact Hin.
Qed.

Lemma is_matching_same_edges : forall a b M, same_edges a b -> is_matching a M -> is_matching b M.
Proof.
  intros a b M E [H1 [H2 H3]]. split; [|split; assumption].
  intros p s Hin. apply E. apply H1. exact Hin.
Qed.

Lemma max_matching_size_unique : forall a b n m,
  same_edges a b -> max_matching_size a n -> max_matching_size b m -> n = m.
Proof.
  intros a b n m E [[Ma [HMa La]] Ua] [[Mb [HMb Lb]] Ub].
  assert (E' : same_edges b a) by (intros p s; symmetry; apply E).
  pose proof (Ub Ma (is_matching_same_edges _ _ _ E HMa)).
  pose proof (Ua Mb (is_matching_same_edges _ _ _ E' HMb)). lia.
Qed.

Lemma max_size_Z : forall svm n (M : list (N * N)), n = Z.of_nat (length M) -> max_matching_size svm (length M) ->
  (0 <= n)%Z /\ max_matching_size svm (Z.to_nat n).
Proof. intros svm n M -> H. rewrite Nat2Z.id. split; [lia | exact H]. Qed.

Lemma max_size_Z_unique : forall a b n m, same_edges a b ->
  (0 <= n)%Z /\ max_matching_size a (Z.to_nat n) ->
  (0 <= m)%Z /\ max_matching_size b (Z.to_nat m) -> n = m.
Proof.
  intros a b n m E [Pn Mn] [Pm Mm]. pose proof (max_matching_size_unique _ _ _ _ E Mn Mm). lia.
Qed.

Lemma soh_certified_sound : forall svm n, soh_certified svm = true -> soh_servermap svm = Some n ->
  exists M, is_matching svm M /\ n = Z.of_nat (length M) /\ max_matching_size svm (length M).
Proof.
  intros svm n Hc Hn. unfold soh_certified in Hc. rewrite Hn in Hc.
  destruct (soh_certificate svm) as [[[M CL] CR]|]; [|discriminate].
  exists M. exact (certificate_sound _ _ _ _ _ Hc).
Qed.

Lemma soh_matching_of_certified : forall svm n,
  soh_certified svm = true -> soh_servermap svm = Some n ->
  exists M, is_matching svm M /\ n = Z.of_nat (length M).
Proof.
  intros svm n Hc Hn. destruct (soh_certified_sound _ _ Hc Hn) as [M [HM [En _]]]. exists M. split; assumption.
Qed.

Lemma soh_maximum_of_certified : forall svm n,
  soh_certified svm = true -> soh_servermap svm = Some n ->
  (0 <= n)%Z /\ max_matching_size svm (Z.to_nat n).
Proof.
  intros svm n Hc Hn. destruct (soh_certified_sound _ _ Hc Hn) as [M [_ [En Hmax]]].
  exact (max_size_Z _ _ _ En Hmax).
Qed.

Lemma soh_order_independent_of_certified : forall a b n m,
  same_edges a b -> soh_certified a = true -> soh_certified b = true ->
  soh_servermap a = Some n -> soh_servermap b = Some m -> n = m.
Proof.
  intros a b n m E Ca Cb Ha Hb.
  exact (max_size_Z_unique a b n m E (soh_maximum_of_certified _ _ Ca Ha) (soh_maximum_of_certified _ _ Cb Hb)).
Qed.

Definition sm_edge (sharemap : list (N * list N)) (p s : N) : Prop :=
  exists l, In (s, l) sharemap /\ In p l.

(* a sharemap is the same relation, listed by share *)
Lemma sm_edge_edge : forall sm p s, sm_edge sm p s <-> edge sm s p.
Proof. reflexivity. Qed.

Lemma edge_nil : forall p s, edge [] p s <-> False.
Proof. intros p s. split; [intros [l [H _]]; exact H | tauto]. Qed.

Lemma edge_cons : forall q l r p s,
  edge ((q, l) :: r) p s <-> (p = q /\ In s l) \/ edge r p s.
Proof.
  intros q l r p s. unfold edge. split.
  - intros [l' [[E|Hin] Hs]].
    + injection E as <- <-. left. split; [reflexivity | exact Hs].
    + right. exists l'. split; assumption.
  - intros [[-> Hs]|[l' [Hin Hs]]].
    + exists l. split; [left; reflexivity | exact Hs].
    + exists l'. split; [right; exact Hin | exact Hs].
Qed.

Lemma add_share_edge : forall svm p s q t,
  edge (add_share p s svm) q t <-> edge svm q t \/ (q = p /\ t = s).
Proof.
  induction svm as [|[q0 l] r IH]; intros p s q t; cbn [add_share].
  - rewrite edge_cons, edge_nil. cbn [In]. intuition congruence.
  - destruct (N.eqb_spec p q0) as [->|_]; [|rewrite !edge_cons, IH; tauto].
    rewrite !edge_cons. destruct (existsb (N.eqb s) l) eqn:Ex.
    + apply (memN_In s l) in Ex. intuition congruence.
    + rewrite in_app_iff. cbn [In]. intuition congruence.
Qed.

Lemma shares_by_server_inner : forall s l acc q t,
  edge (fold_left (fun a p => add_share p s a) l acc) q t <-> edge acc q t \/ (In q l /\ t = s).
Proof.
  intros s. induction l as [|p r IH]; intros acc q t; cbn [fold_left In]; [tauto|].
  rewrite IH, add_share_edge. intuition congruence.
Qed.

Lemma shares_by_server_outer : forall sm acc q t,
  edge (fold_left (fun acc e => fold_left (fun a p => add_share p (fst e) a) (snd e) acc) sm acc) q t
  <-> edge acc q t \/ sm_edge sm q t.
Proof.
  induction sm as [|[s l] r IH]; intros acc q t; cbn [fold_left fst snd]; rewrite !sm_edge_edge.
  - rewrite edge_nil. tauto.
  - rewrite IH, shares_by_server_inner, sm_edge_edge, edge_cons. tauto.
Qed.

Lemma shares_by_server_edges : forall sm p s, edge (shares_by_server sm) p s <-> sm_edge sm p s.
Proof.
  intros sm p s. unfold shares_by_server. rewrite shares_by_server_outer, edge_nil. tauto.
Qed.

(* A servermap presents a sharemap when it has the transposed edge relation;
   this is all the model uses of CPython's iteration order. *)
Definition presents (svm : servermap) (sm : list (N * list N)) : Prop :=
  forall p s, edge svm p s <-> sm_edge sm p s.

Lemma presents_shares_by_server : forall sm, presents (shares_by_server sm) sm.
Proof. intros sm p s. apply shares_by_server_edges. Qed.

Lemma sm_edge_perm : forall a b, Permutation a b -> forall p s, sm_edge a p s <-> sm_edge b p s.
Proof.
  intros a b P p s. unfold sm_edge. split; intros [l [H1 H2]]; exists l; split; try exact H2.
  - eapply Permutation_in; eassumption.
  - eapply Permutation_in; [apply Permutation_sym|]; eassumption.
Qed.

Lemma presents_same_edges : forall a b sa sb,
  presents a sa -> presents b sb -> (forall p s, sm_edge sa p s <-> sm_edge sb p s) -> same_edges a b.
Proof.
  intros a b sa sb Ha Hb E p s. rewrite (Ha p s), (Hb p s). apply E.
Qed.

(* Enumeration of small relations, for the examples in Props/C07.v and Props/C08.v. *)

Fixpoint all_subsets (l : list N) : list (list N) :=
  match l with
  | [] => [[]]
  | x :: r => let s := all_subsets r in s ++ map (cons x) s
  end.

Fixpoint all_servermaps (peers : list N) (shares : list N) : list servermap :=
  match peers with
  | [] => [[]]
  | p :: r =>
      let rest := all_servermaps r shares in
      flat_map (fun shs => match shs with
                           | [] => rest                       (* shares_by_server never yields an empty set *)
                           | _ => map (cons (p, shs)) rest
                           end) (all_subsets shares)
  end.
