(* The Segmentation loop delivers exactly data[offset, offset+size) clipped at
   EOF, for every offset/size, whatever the initial segment-size guess.  *)
From Coq Require Import List NArith ZArith Bool Lia.
Require Import ZifyBool ZifyNat ZifyN.
From Verif Require Import Lib.ListFacts Gen.ImmConsts Model.ImmFile Proofs.ImmFileArith.
Import ListNotations.
Local Open Scope N_scope.

Lemma slice_slice {A} (o1 l1 o2 l2 : nat) (l : list A) :
  (o2 + l2 <= l1)%nat -> slice o2 l2 (slice o1 l1 l) = slice (o1 + o2) l2 l.
Proof.
  intros H. unfold slice. rewrite skipn_firstn_comm, firstn_firstn, skipn_add.
  f_equal. lia.
Qed.

Lemma slice_app {A} (o a b : nat) (l : list A) : slice o a l ++ slice (o + a) b l = slice o (a + b) l.
Proof. unfold slice. rewrite firstn_add, skipn_add. reflexivity. Qed.

Lemma slice_0_all {A} (n : nat) (l : list A) : (length l <= n)%nat -> slice 0 n l = l.
Proof. intros. unfold slice. cbn [skipn]. now apply firstn_all2. Qed.

Lemma slice_nil_len {A} (o : nat) (l : list A) : slice o 0 l = [].
Proof. reflexivity. Qed.

Lemma slice_length {A} (o n : nat) (l : list A) : (o + n <= length l)%nat -> length (slice o n l) = n.
Proof. intros. unfold slice. rewrite firstn_length, skipn_length. lia. Qed.

(* Python's data[o:o+s] is slice o s data: clipping at EOF is what firstn/skipn do *)
Lemma slice_clip {A} (o s : nat) (l : list A) : slice o (Nat.min s (length l - o)) l = slice o s l.
Proof.
  unfold slice. rewrite <- firstn_firstn.
  rewrite (firstn_all2 (n := length l - o)) by (rewrite skipn_length; lia). reflexivity.
Qed.

Lemma apply_writes_app seg a b : apply_writes seg (a ++ b) = apply_writes seg a ++ apply_writes seg b.
Proof. unfold apply_writes. now rewrite map_app, concat_app. Qed.

Lemma apply_writes_cons seg w ws :
  apply_writes seg (w :: ws) = slice (N.to_nat (w_off w)) (N.to_nat (w_len w)) (seg (w_segnum w)) ++ apply_writes seg ws.
Proof. reflexivity. Qed.

Lemma overlap_spec s0 l0 s1 l1 :
  match overlap s0 l0 s1 l1 with
  | Some (o, l) => o = N.max s0 s1 /\ o + l = N.min (s0 + l0) (s1 + l1) /\ 1 <= l
  | None => N.min (s0 + l0) (s1 + l1) <= N.max s0 s1
  end.
Proof. unfold overlap. destruct (N.ltb_spec (N.max s0 s1) (N.min (s0 + l0) (s1 + l1))); lia. Qed.

Definition py_slice (data : list N) (offset : N) (size : option N) : list N :=
  match size with
  | None => skipn (N.to_nat offset) data
  | Some s => slice (N.to_nat offset) (N.to_nat s) data
  end.

(* DownloadNode.read clips the request the way Python clips the slice *)
Lemma read_clip_slice (ct : list N) offset size :
  slice (N.to_nat offset) (N.to_nat (read_clip (N.of_nat (length ct)) offset size)) ct = py_slice ct offset size.
Proof.
  unfold read_clip, py_slice. destruct size as [s|].
  - replace (N.to_nat (N.min s (N.of_nat (length ct) - offset)))
      with (Nat.min (N.to_nat s) (length ct - N.to_nat offset)) by lia.
    apply slice_clip.
  - unfold slice. apply firstn_all2. rewrite skipn_length. lia.
Qed.

Section Read.
  Variable ct : list N.
  Variables segsize guess : N.
  Let fsize := N.of_nat (length ct).
  Let nseg := div_ceil fsize segsize.
  Hypothesis Hsize : 1 <= fsize.
  Hypothesis Hseg : 1 <= segsize.

  Definition seg_end (w : N) : N := seg_start segsize w + seg_len fsize segsize w.

  Lemma seg_len_eq w : seg_len fsize segsize w = if w =? nseg - 1 then tail_of fsize segsize else segsize.
  Proof. reflexivity. Qed.

  Lemma seg_end_spec w : w < nseg -> seg_end w = N.min ((w + 1) * segsize) fsize.
  Proof.
    intros Hw. destruct (tail_of_spec fsize segsize Hsize Hseg) as (Ht & E & _). fold nseg in E.
    unfold seg_end, seg_start. rewrite seg_len_eq.
    destruct (N.eqb_spec w (nseg - 1)) as [->|]; [nia|].
    pose proof (N.mul_le_mono_r (w + 1) (nseg - 1) segsize ltac:(lia)). lia.
  Qed.

  Lemma seg_at_length w : w < nseg -> length (seg_at ct segsize w) = N.to_nat (seg_len fsize segsize w).
  Proof.
    intros Hw. pose proof (seg_end_spec w Hw) as E. unfold seg_end, seg_start in E.
    unfold seg_at, slice. rewrite firstn_length, skipn_length. lia.
  Qed.

  (* segment w holds byte offset *)
  Definition contains (w offset : N) : Prop := w < nseg /\ seg_start segsize w <= offset < seg_end w.

  Lemma contains_dec w offset : contains w offset \/ ~ contains w offset.
  Proof.
    unfold contains.
    destruct (N.ltb_spec w nseg), (N.leb_spec (seg_start segsize w) offset), (N.ltb_spec offset (seg_end w));
      (left; lia) || (right; lia).
  Qed.

  Lemma contains_div offset : offset < fsize -> contains (offset / segsize) offset.
  Proof.
    intros Ho. set (w := offset / segsize).
    assert (Hw : w * segsize <= offset < (w + 1) * segsize).
    { unfold w. pose proof (N.div_mod offset segsize ltac:(lia)). pose proof (N.mod_lt offset segsize ltac:(lia)). lia. }
    pose proof (div_ceil_bounds fsize segsize Hseg) as B. fold nseg in B.
    assert (w < nseg) by nia.
    split; [assumption|]. rewrite seg_end_spec by assumption. unfold seg_start. lia.
  Qed.

  Lemma contains_unique w offset : contains w offset -> w = offset / segsize.
  Proof.
    intros (Hw & Hlo & Hhi). rewrite seg_end_spec in Hhi by assumption. unfold seg_start in Hlo.
    apply N.div_unique with (r := offset - w * segsize); lia.
  Qed.

  Lemma seg_at_slice w offset len : contains w offset -> offset + len <= seg_end w ->
    slice (N.to_nat (offset - seg_start segsize w)) (N.to_nat len) (seg_at ct segsize w)
    = slice (N.to_nat offset) (N.to_nat len) ct.
  Proof.
    intros (Hw & Hlo & Hhi) Hl. rewrite seg_end_spec in Hl by assumption.
    unfold seg_at, seg_start in *. rewrite slice_slice by lia. f_equal. lia.
  Qed.

  (* the bytes of [offset, offset+size) that lie in segment w *)
  Definition piece (w offset size : N) : N := N.min (seg_end w) (offset + size) - offset.

  Lemma piece_spec w offset size : contains w offset -> 1 <= size -> offset + size <= fsize ->
    1 <= piece w offset size <= size /\ offset + piece w offset size <= seg_end w /\
    (piece w offset size < size -> contains (w + 1) (offset + piece w offset size)).
  Proof.
    intros (Hw & Hlo & Hhi) Hs Hb. pose proof (seg_end_spec w Hw) as E. unfold piece.
    split; [lia|]. split; [lia|]. intros Hp.
    pose proof (div_ceil_bounds fsize segsize Hseg) as B. fold nseg in B.
    assert (Hw' : w + 1 < nseg) by nia.
    split; [assumption|]. rewrite (seg_end_spec _ Hw'). unfold seg_start. lia.
  Qed.

  (* iterations, and writes, a read of [offset, offset+size) takes once the segment size is
     known: none if empty, else one for each segment from offset's to the last *)
  Definition budget (offset size : N) : nat :=
    if size =? 0 then 0%nat else N.to_nat (nseg - offset / segsize).

  Lemma budget_le offset size : (budget offset size <= N.to_nat nseg)%nat.
  Proof.
    unfold budget. destruct (size =? 0); [apply Nat.le_0_l|]. rewrite N2Nat.inj_sub. apply Nat.le_sub_l.
  Qed.

  Lemma budget_contains w offset size : contains w offset -> 1 <= size ->
    budget offset size = N.to_nat (nseg - w).
  Proof.
    intros C Hs. rewrite (contains_unique w offset C). unfold budget.
    destruct (N.eqb_spec size 0); [lia|reflexivity].
  Qed.

  Lemma budget_step w offset size : contains w offset -> 1 <= size -> offset + size <= fsize ->
    (S (budget (offset + piece w offset size) (size - piece w offset size)) <= budget offset size)%nat.
  Proof.
    intros C Hs Hb. destruct (piece_spec w offset size C Hs Hb) as (P1 & _ & P3).
    rewrite (budget_contains w offset size C Hs). destruct C as (Hw & _).
    destruct (N.eq_dec (piece w offset size) size) as [->|Hp].
    - rewrite N.sub_diag. cbn [budget N.eqb]. lia.
    - rewrite (budget_contains (w + 1)) by (try apply P3; lia). lia.
  Qed.

  Definition valid_write (w : seg_write) : Prop :=
    w_segnum w < nseg /\ 1 <= w_len w /\ w_off w + w_len w <= seg_len fsize segsize (w_segnum w).

  (* the loop's result r, entered with the writes acc already made, adds exactly [offset, offset+size) *)
  Definition delivers (r : seg_result) (acc : list seg_write) (offset size : N) : Prop :=
    exists ws,
      r = SegDone (rev acc ++ ws) /\
      apply_writes (seg_at ct segsize) ws = slice (N.to_nat offset) (N.to_nat size) ct /\
      (length ws <= budget offset size)%nat /\
      Forall valid_write ws.

  Lemma loop_done fuel known offset acc :
    segmentation_loop fuel fsize segsize guess known offset 0 acc = SegDone (rev acc).
  Proof. destruct fuel; reflexivity. Qed.

  Lemma delivers_nil acc offset : delivers (SegDone (rev acc)) acc offset 0.
  Proof.
    exists []. rewrite app_nil_r. split; [reflexivity|]. split; [reflexivity|].
    split; [apply Nat.le_0_l|constructor].
  Qed.

  Lemma delivers_cons r acc w offset size : contains w offset -> 1 <= size -> offset + size <= fsize ->
    delivers r (mk_write w (offset - seg_start segsize w) (piece w offset size) :: acc)
             (offset + piece w offset size) (size - piece w offset size) ->
    delivers r acc offset size.
  Proof.
    intros C Hs Hb (ws & E1 & E2 & E3 & E4).
    destruct (piece_spec w offset size C Hs Hb) as (P1 & P2 & _).
    exists (mk_write w (offset - seg_start segsize w) (piece w offset size) :: ws). repeat split.
    - rewrite E1. cbn [rev]. now rewrite <- app_assoc.
    - rewrite apply_writes_cons, E2. cbn [w_off w_len w_segnum].
      rewrite (seg_at_slice w offset _ C P2).
      replace (N.to_nat (offset + piece w offset size))
        with (N.to_nat offset + N.to_nat (piece w offset size))%nat by lia.
      rewrite slice_app. f_equal. lia.
    - pose proof (budget_step w offset size C Hs Hb). cbn [length]. lia.
    - constructor; [|assumption]. destruct C as (Hw & Hlo & _). unfold seg_end in P2.
      repeat split; cbn [w_segnum w_len w_off]; [assumption|lia|lia].
  Qed.

  (* the segment an iteration asks for, computed with the segment size ss it believes in *)
  Definition wanted (ss offset : N) : N := if offset =? 0 then 0 else offset / ss.

  Lemma wanted_known offset : offset < fsize -> contains (wanted segsize offset) offset.
  Proof.
    intros Ho. unfold wanted. destruct (N.eqb_spec offset 0) as [->|]; [|now apply contains_div].
    rewrite <- (N.div_0_l segsize) by lia. now apply contains_div.
  Qed.

  (* an iteration that asked for the segment holding offset delivers its piece *)
  Lemma step_hit (known : bool) f offset size acc : 1 <= size -> offset + size <= fsize ->
    let w := wanted (if known then segsize else guess) offset in
    contains w offset ->
    segmentation_loop (S f) fsize segsize guess known offset size acc
    = segmentation_loop f fsize segsize guess true (offset + piece w offset size) (size - piece w offset size)
        (mk_write w (offset - seg_start segsize w) (piece w offset size) :: acc).
  Proof.
    intros Hs Hb w (Hw & Hlo & Hhi).
    cbn [segmentation_loop]. fold (wanted (if known then segsize else guess) offset) nseg. fold w.
    unfold piece, seg_end in *.
    destruct (size =? 0) eqn:Z; [lia|]. destruct (nseg <=? w) eqn:B; [lia|].
    pose proof (overlap_spec (seg_start segsize w) (seg_len fsize segsize w) offset size) as O.
    destruct (overlap _ _ _ _) as [[o0 o1]|]; [|lia].
    replace o0 with offset by lia. rewrite N.eqb_refl.
    replace (N.min o1 _) with (N.min (seg_start segsize w + seg_len fsize segsize w) (offset + size) - offset) by lia.
    reflexivity.
  Qed.

  (* an iteration that asked for another segment changes nothing but `known`:
     only a wrong guess can make that happen *)
  Lemma step_miss f offset size acc : 1 <= size ->
    ~ contains (wanted guess offset) offset ->
    segmentation_loop (S f) fsize segsize guess false offset size acc
    = segmentation_loop f fsize segsize guess true offset size acc.
  Proof.
    intros Hs NC. cbn [segmentation_loop]. fold (wanted guess offset) nseg.
    set (w := wanted guess offset) in *.
    destruct (size =? 0) eqn:Z; [lia|]. destruct (nseg <=? w) eqn:B; [reflexivity|].
    pose proof (overlap_spec (seg_start segsize w) (seg_len fsize segsize w) offset size) as O.
    destruct (overlap _ _ _ _) as [[o0 o1]|]; [|reflexivity].
    destruct (o0 =? offset) eqn:E; [|reflexivity].
    exfalso. apply NC. unfold contains, seg_end. lia.
  Qed.

  (* An unknown segment size may cost one iteration more.  (Truncated subtraction: no bound
     on offset when size = 0.) *)
  Lemma loop_ok : forall fuel (known : bool) offset size acc,
    size <= fsize - offset -> (budget offset size + (if known then 0 else 1) <= fuel)%nat ->
    delivers (segmentation_loop fuel fsize segsize guess known offset size acc) acc offset size.
  Proof.
    induction fuel as [|f IH]; intros known offset size acc Hb Hf;
      (destruct (N.eq_dec size 0) as [->|Hs]; [rewrite loop_done; apply delivers_nil|]).
    - pose proof (budget_step _ offset size (wanted_known offset ltac:(lia)) ltac:(lia) ltac:(lia)). lia.
    - destruct (contains_dec (wanted (if known then segsize else guess) offset) offset) as [C|NC].
      + pose proof (budget_step _ offset size C ltac:(lia) ltac:(lia)).
        destruct (piece_spec _ offset size C ltac:(lia) ltac:(lia)) as (P & _).
        rewrite step_hit by (assumption || lia).
        apply (delivers_cons _ _ _ _ _ C); [lia|lia|]. apply (IH true); lia.
      + destruct known; [exfalso; apply NC, wanted_known; lia|].
        rewrite step_miss by (assumption || lia). apply (IH true); lia.
  Qed.
End Read.

Lemma read_range_exact_ok : forall (ct : list N) (segsize guess offset : N) (size : option N),
  1 <= N.of_nat (length ct) -> 1 <= segsize -> 1 <= guess ->
  exists ws,
    read_plan (N.of_nat (length ct)) segsize guess offset size = SegDone ws /\
    apply_writes (seg_at ct segsize) ws = py_slice ct offset size /\
    (length ws <= N.to_nat (div_ceil (N.of_nat (length ct)) segsize))%nat /\
    Forall (fun w => w_segnum w < div_ceil (N.of_nat (length ct)) segsize /\ 1 <= w_len w /\
                     w_off w + w_len w <= seg_len (N.of_nat (length ct)) segsize (w_segnum w)) ws.
Proof.
  intros ct segsize guess offset size Hs Hg _. unfold read_plan.
  set (sz := read_clip (N.of_nat (length ct)) offset size).
  pose proof (budget_le ct segsize offset sz) as Hbud.
  destruct (loop_ok ct segsize guess Hs Hg (S (S (N.to_nat (div_ceil (N.of_nat (length ct)) segsize)))) false offset sz [])
    as (ws & E1 & E2 & E3 & E4).
  - unfold sz, read_clip. destruct size; lia.
  - lia.
  - exists ws. split; [exact E1|]. split; [rewrite E2; apply read_clip_slice|]. split; [lia|exact E4].
Qed.
