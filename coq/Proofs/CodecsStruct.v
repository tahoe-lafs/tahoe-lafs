(* Lease records and share headers over the regenerated struct formats. *)
From Coq Require Import String.
From Coq Require Import List NArith ZArith Bool Lia.
From Verif Require Import Lib.Hex Lib.Decimal Lib.Bytes Lib.SHA256 Lib.SHA256Facts Lib.HashPrim Gen.Structs Gen.Hashutil Model.LeaseRec.
Import ListNotations.
Local Open Scope N_scope.

Theorem lease_immutable_roundtrip l :
  lease_fits_immutable l = true ->
  exists s, lease_to_immutable l = Some s /\ lease_from_immutable s = Some l /\ N.of_nat (length s) = lease_immutable_size.
Proof.
  destruct l as [o r c e nid]. unfold lease_fits_immutable, lease_fits. cbn [l_owner l_renew l_cancel l_expiration l_nodeid].
  rewrite !andb_true_iff. intros [[[[Ho He] Hr] Hc] Hn]. destruct nid; [discriminate|].
  destruct (struct_unpack_pack lease_IMMUTABLE_FORMAT [VInt o; VBytes r; VBytes c; VInt e]) as (s & Hp & Hu).
  { cbn [vals_fit lease_IMMUTABLE_FORMAT fval_fits]. change (256 ^ N.of_nat 4) with (2 ^ 32).
    rewrite Ho, He, Hr, Hc. reflexivity. }
  exists s. unfold lease_to_immutable, lease_from_immutable. cbn [l_owner l_renew l_cancel l_expiration].
  rewrite Hp, Hu. repeat split. rewrite (struct_pack_length _ _ _ Hp). reflexivity.
Qed.

Theorem lease_immutable_converse s l :
  bytes_ok s = true -> lease_from_immutable s = Some l -> lease_to_immutable l = Some s.
Proof.
  intros Hok. unfold lease_from_immutable, struct_unpack.
  destruct (Nat.eqb (length s) (struct_size lease_IMMUTABLE_FORMAT)) eqn:E; [|discriminate].
  apply Nat.eqb_eq in E. cbn [struct_unpack_aux lease_IMMUTABLE_FORMAT unpack_field field_size].
  intro H. injection H as <-. unfold lease_to_immutable. cbn [l_owner l_renew l_cancel l_expiration].
  exact (struct_pack_unpack_aux lease_IMMUTABLE_FORMAT s Hok E).
Qed.

Theorem lease_mutable_roundtrip l :
  lease_fits_mutable l = true ->
  exists s, lease_to_mutable l = Some s /\ lease_from_mutable s = Some l /\ N.of_nat (length s) = lease_mutable_size.
Proof.
  destruct l as [o r c e nid]. unfold lease_fits_mutable, lease_fits. cbn [l_owner l_renew l_cancel l_expiration l_nodeid].
  rewrite !andb_true_iff. intros [[[[Ho He] Hr] Hc] Hn]. destruct nid as [nid|]; [|discriminate].
  destruct (struct_unpack_pack lease_MUTABLE_FORMAT [VInt o; VInt e; VBytes r; VBytes c; VBytes nid]) as (s & Hp & Hu).
  { cbn [vals_fit lease_MUTABLE_FORMAT fval_fits]. change (256 ^ N.of_nat 4) with (2 ^ 32).
    rewrite Ho, He, Hr, Hc, Hn. reflexivity. }
  exists s. unfold lease_to_mutable, lease_from_mutable. cbn [l_owner l_renew l_cancel l_expiration l_nodeid].
  rewrite Hp, Hu, Hn. repeat split. rewrite (struct_pack_length _ _ _ Hp). reflexivity.
Qed.

Theorem lease_mutable_converse s l :
  bytes_ok s = true -> lease_from_mutable s = Some l -> lease_to_mutable l = Some s.
Proof.
  intros Hok. unfold lease_from_mutable, struct_unpack.
  destruct (Nat.eqb (length s) (struct_size lease_MUTABLE_FORMAT)) eqn:E; [|discriminate].
  apply Nat.eqb_eq in E. cbn [struct_unpack_aux lease_MUTABLE_FORMAT unpack_field field_size].
  destruct (Nat.eqb _ 20); [|discriminate].
  intro H. injection H as <-. unfold lease_to_mutable. cbn [l_owner l_renew l_cancel l_expiration l_nodeid].
  exact (struct_pack_unpack_aux lease_MUTABLE_FORMAT s Hok E).
Qed.

(* a secret of the wrong length does not survive: the "s" fields pad and truncate *)
Theorem lease_short_secret_not_preserved :
  exists l s, lease_to_immutable l = Some s /\ lease_from_immutable s <> Some l.
Proof.
  exists (mk_lease 1 [7] (repeat 0 32) 5 None). eexists. split; [vm_compute; reflexivity|vm_compute; discriminate].
Qed.

Theorem imm_header_roundtrip version max_size :
  mem_N version ischema_versions = true ->
  exists s, imm_header version max_size = Some s /\
            imm_header_parse s = Some (version, N.min (2 ^ 32 - 1) max_size, 0) /\
            N.of_nat (length s) = immutable_data_offset.
Proof.
  intro Hv.
  assert (Hlt : version < 2 ^ 32).
  { cbn [mem_N ischema_versions] in Hv. rewrite !orb_true_iff, !N.eqb_eq in Hv. destruct Hv as [<-|[<-|H]]; [reflexivity|reflexivity|discriminate]. }
  destruct (struct_unpack_pack ischema_header_format (ischema_header_values version max_size)) as (s & Hp & Hu).
  { cbn [vals_fit ischema_header_format ischema_header_values fval_fits]. change (256 ^ N.of_nat 4) with (2 ^ 32).
    apply N.ltb_lt in Hlt. rewrite Hlt. cbn [andb].
    assert (Hm : N.min (2 ^ 32 - 1) max_size <? 2 ^ 32 = true).
    { apply N.ltb_lt, N.le_lt_trans with (2 ^ 32 - 1); [apply N.le_min_l|reflexivity]. }
    rewrite Hm. reflexivity. }
  exists s. unfold imm_header, imm_header_parse. split; [exact Hp|]. split.
  - change immutable_header_read_format with ischema_header_format. rewrite Hu.
    cbn [ischema_header_values]. rewrite Hv. reflexivity.
  - rewrite (struct_pack_length _ _ _ Hp). reflexivity.
Qed.

Theorem imm_header_converse s v u n :
  bytes_ok s = true -> imm_header_parse s = Some (v, u, n) ->
  struct_pack ischema_header_format [VInt v; VInt u; VInt n] = Some s /\ mem_N v ischema_versions = true.
Proof.
  intros Hok. unfold imm_header_parse, struct_unpack.
  destruct (Nat.eqb (length s) (struct_size immutable_header_read_format)) eqn:E; [|discriminate].
  apply Nat.eqb_eq in E. cbn [struct_unpack_aux immutable_header_read_format unpack_field field_size].
  destruct (mem_N _ ischema_versions) eqn:Hm; [|discriminate].
  intro H. injection H as <- <- <-. split; [|exact Hm].
  exact (struct_pack_unpack_aux immutable_header_read_format s Hok E).
Qed.

(* the header written by the current code, read back: saturation is visible only from 2^32 on *)
Corollary imm_header_small version max_size :
  mem_N version ischema_versions = true -> max_size < 2 ^ 32 ->
  exists s, imm_header version max_size = Some s /\ imm_header_parse s = Some (version, max_size, 0).
Proof.
  intros Hv Hm. destruct (imm_header_roundtrip version max_size Hv) as (s & H1 & H2 & _).
  exists s. split; [exact H1|]. rewrite H2. f_equal. f_equal. f_equal. lia.
Qed.

Lemma tagged_hash_length tag val n :
  0 < n <= 32 -> length (tagged_hash tag val (Some n)) = N.to_nat n.
Proof.
  intro Hn. unfold tagged_hash, hasher_digest, truncate. cbn [h_trunc tagged_hasher hasher_update mk_hasher].
  destruct (n =? 0) eqn:E; [apply N.eqb_eq in E; lia|].
  unfold sha256d. rewrite firstn_length, sha256_length. lia.
Qed.

Lemma mut_versions_cases v : mem_N v mschema_versions = true -> v = 1 \/ v = 2.
Proof. cbn [mem_N mschema_versions]. rewrite !orb_true_iff, !N.eqb_eq. intros [<-|[<-|H]]; [right|left|discriminate]; reflexivity. Qed.

(* the magic is 27 readable bytes, "Tahoe mutable container v<N>\n", and 5 more: fixed ones
   for version 1, the first 5 of a tagged hash of the readable part from version 2 on *)
Lemma mut_magic_len v : mem_N v mschema_versions = true -> length (mut_magic v) = 32%nat.
Proof.
  intro H. unfold mut_magic. rewrite app_length.
  destruct (mut_versions_cases v H) as [->| ->]; [reflexivity|].
  change (2 =? 1) with false. cbv iota. rewrite tagged_hash_length by (split; [reflexivity|discriminate]). reflexivity.
Qed.

Lemma prefix_eqb_app p r : prefix_eqb p (p ++ r) = true.
Proof. induction p as [|x p IH]; cbn; [reflexivity|]. rewrite N.eqb_refl. exact IH. Qed.

Lemma prefix_eqb_split : forall p l, prefix_eqb p l = true -> exists r, l = p ++ r.
Proof.
  induction p as [|x p IH]; intros l H.
  - exists l. reflexivity.
  - destruct l as [|y l]; [discriminate|]. cbn [prefix_eqb] in H.
    apply andb_true_iff in H. destruct H as [Hx H]. apply N.eqb_eq in Hx. subst y.
    destruct (IH l H) as [r ->]. exists r. reflexivity.
Qed.

Lemma mut_schema_of_magic v r :
  mem_N v mschema_versions = true -> mut_schema_from_header mschema_versions (mut_magic v ++ r) = Some v.
Proof.
  intro H. change mschema_versions with [2; 1]. cbn [mut_schema_from_header].
  destruct (mut_versions_cases v H) as [->| ->]; [|rewrite prefix_eqb_app; reflexivity].
  (* the two magics differ at the version digit, before any hash is looked at *)
  assert (E : prefix_eqb (mut_magic 2) (mut_magic 1 ++ r) = false) by (lazy; reflexivity).
  rewrite E, prefix_eqb_app. reflexivity.
Qed.

Lemma mut_schema_from_header_inv : forall vs data v,
  mut_schema_from_header vs data = Some v -> mem_N v vs = true /\ exists r, data = mut_magic v ++ r.
Proof.
  induction vs as [|x vs IH]; intros data v H; cbn [mut_schema_from_header] in H; [discriminate|].
  cbn [mem_N]. destruct (prefix_eqb (mut_magic x) data) eqn:E.
  - injection H as <-. rewrite N.eqb_refl. split; [reflexivity|apply prefix_eqb_split, E].
  - destruct (IH data v H) as [H1 H2]. rewrite H1, orb_true_r. split; [reflexivity|exact H2].
Qed.

Lemma mut_schema_from_header_short data :
  (length data < 32)%nat -> mut_schema_from_header mschema_versions data = None.
Proof.
  intro Hlen. destruct (mut_schema_from_header mschema_versions data) as [v|] eqn:E; [|reflexivity].
  apply mut_schema_from_header_inv in E. destruct E as [Hv [r ->]].
  rewrite app_length, (mut_magic_len v Hv) in Hlen. lia.
Qed.

(* the fixed part of a fresh header, field by field; it reads back as what was packed *)
Lemma mut_fixed_header v nid we :
  length (mut_magic v) = 32%nat -> length nid = 20%nat -> length we = 32%nat ->
  let vals := mschema_fixed_header_values (mut_magic v) mschema_EXTRA_LEASE_OFFSET nid we in
  let fx := mut_magic v ++ nid ++ we ++ be_digits 256 8 0 ++ be_digits 256 8 mschema_EXTRA_LEASE_OFFSET ++ [] in
  struct_pack mschema_fixed_header_format vals = Some fx /\ struct_unpack mutable_header_read_format fx = Some vals.
Proof.
  intros Hm Hn Hw vals fx. destruct (struct_unpack_pack mschema_fixed_header_format vals) as (s & Hp & Hu).
  { cbn [vals_fit mschema_fixed_header_format vals mschema_fixed_header_values fval_fits]. rewrite Hm, Hn, Hw. reflexivity. }
  assert (E : s = fx); [|subst s; split; assumption].
  cbn [struct_pack mschema_fixed_header_format vals mschema_fixed_header_values pack_field] in Hp.
  rewrite !pad_to_exact in Hp by assumption. injection Hp as <-. reflexivity.
Qed.

Lemma read_field_at_app pre fld rest off w :
  length pre = N.to_nat off -> length fld = w -> read_field_at off w (pre ++ fld ++ rest) = Bytes.be_value 256 fld.
Proof.
  intros Hp Hf. unfold read_field_at. rewrite skipn_app_exact, firstn_app_exact by assumption. reflexivity.
Qed.

Theorem mut_header_roundtrip v nid we :
  mem_N v mschema_versions = true -> length nid = 20%nat -> length we = 32%nat ->
  exists s, mut_header v nid we = Some s /\
            mut_header_parse (firstn (N.to_nat mutable_HEADER_SIZE) s) =
              Some (mk_mut_hdr v nid we 0 mutable_DATA_OFFSET) /\
            mut_read_data_length s = 0 /\
            mut_read_extra_lease_offset s = mutable_DATA_OFFSET /\
            N.of_nat (length s) = mutable_DATA_OFFSET + 4.
Proof.
  intros Hv Hn Hw. pose proof (mut_magic_len v Hv) as Hm.
  destruct (mut_fixed_header v nid we Hm Hn Hw) as [Hp Hu].
  pose proof (struct_pack_length _ _ _ Hp) as Hfix. change (struct_size _) with 100%nat in Hfix.
  set (A := be_digits 256 8 0) in *. set (B := be_digits 256 8 mschema_EXTRA_LEASE_OFFSET) in *.
  set (rest := repeat 0 (N.to_nat mschema_blank_leases_size) ++ be_digits 256 4 0 ++ []).
  assert (HA : length A = 8%nat) by apply be_digits_length.
  assert (HB : length B = 8%nat) by apply be_digits_length.
  exists ((mut_magic v ++ nid ++ we ++ A ++ B ++ []) ++ rest).
  split.
  { unfold mut_header. rewrite Hp. reflexivity. }
  split.
  { change (N.to_nat mutable_HEADER_SIZE) with 100%nat. rewrite firstn_app_exact by exact Hfix.
    unfold mut_header_parse. rewrite mut_schema_of_magic, Hu by exact Hv. reflexivity. }
  split.
  { replace ((mut_magic v ++ nid ++ we ++ A ++ B ++ []) ++ rest)
      with ((mut_magic v ++ nid ++ we) ++ A ++ B ++ rest) by (rewrite <- !app_assoc; reflexivity).
    apply read_field_at_app; [rewrite !app_length, Hm, Hn, Hw; reflexivity|exact HA]. }
  split.
  { replace ((mut_magic v ++ nid ++ we ++ A ++ B ++ []) ++ rest)
      with ((mut_magic v ++ nid ++ we ++ A) ++ B ++ rest) by (rewrite <- !app_assoc; reflexivity).
    apply read_field_at_app; [rewrite !app_length, Hm, Hn, Hw, HA; reflexivity|exact HB]. }
  rewrite app_length, Hfix. unfold rest. rewrite !app_length, repeat_length, be_digits_length. reflexivity.
Qed.

Theorem mut_header_converse data h :
  bytes_ok data = true -> mut_header_parse data = Some h ->
  struct_pack mutable_header_read_format
    [VBytes (mut_magic (mh_version h)); VBytes (mh_nodeid h); VBytes (mh_write_enabler h);
     VInt (mh_data_length h); VInt (mh_extra_lease_offset h)] = Some data
  /\ mem_N (mh_version h) mschema_versions = true.
Proof.
  intros Hok. unfold mut_header_parse.
  destruct (mut_schema_from_header mschema_versions data) as [v|] eqn:S; [|discriminate].
  apply mut_schema_from_header_inv in S. destruct S as [Hv [r Hr]].
  unfold struct_unpack.
  destruct (Nat.eqb (length data) (struct_size mutable_header_read_format)) eqn:E; [|discriminate].
  apply Nat.eqb_eq in E. cbn [struct_unpack_aux mutable_header_read_format unpack_field field_size].
  intro H. injection H as <-. cbn [mh_version mh_nodeid mh_write_enabler mh_data_length mh_extra_lease_offset].
  split; [|exact Hv].
  assert (Hf : firstn 32 data = mut_magic v) by (rewrite Hr; apply firstn_app_exact, mut_magic_len, Hv).
  rewrite <- Hf. exact (struct_pack_unpack_aux mutable_header_read_format data Hok E).
Qed.
