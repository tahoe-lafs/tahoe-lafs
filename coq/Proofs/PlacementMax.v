(* C07, clause 3: the placement uses as many distinct servers as any assignment that
   respects the read-only constraint could. *)
From Coq Require Import List NArith ZArith Bool Arith Lia.
From Verif Require Import Lib.ListFacts Model.Matching Model.Placement Proofs.Matching Proofs.MatchingLists Proofs.MatchingNetwork
     Proofs.Placement Proofs.PlacementStruct Proofs.PlacementGraph Proofs.PlacementReadonly.
Import ListNotations.

Definition wf_full (peers readonly shares : list N) (p2s : smap) : Prop :=
  NoDup peers /\ NoDup readonly /\ NoDup shares /\ peers <> [] /\
  (forall p, In p peers -> ~ In p readonly) /\
  NoDup (map fst p2s) /\
  (forall p held, In (p, held) p2s ->
     (In p peers \/ In p readonly) /\ NoDup held /\ forall s, In s held -> In s shares).

Lemma wf_full_input : forall peers readonly shares p2s, wf_full peers readonly shares p2s -> wf_input peers readonly p2s.
Proof.
  intros peers readonly shares p2s (_ & _ & _ & _ & Hd & _ & Hk). split; [exact Hd|].
  intros p held Hin. apply (Hk p held Hin).
Qed.

(* the witness: one share per distinct server *)
Lemma witness_is_matching : forall svm res,
  NoDup (map fst res) -> (forall s p, In (s, p) res -> edge svm p s) ->
  is_matching svm (witness_matching res) /\ length (witness_matching res) = length (servers_used res).
Proof.
  intros svm res Hnd Hedge. destruct (servers_used_spec res) as [SU1 SU2].
  set (first_share := fun p => match find (fun e : N * N => N.eqb (snd e) p) res with Some e => fst e | None => 0%N end).
  assert (Hfirst : forall p, In p (servers_used res) -> In (first_share p, p) res).
  { intros p Hp. apply SU2 in Hp. destruct Hp as [s Hs]. unfold first_share.
    destruct (find (fun e : N * N => N.eqb (snd e) p) res) as [[s' p']|] eqn:Ef.
    - apply find_some in Ef. destruct Ef as [Ef1 Ef2]. apply N.eqb_eq in Ef2. cbn [snd] in Ef2. subst p'. exact Ef1.
    - pose proof (find_none _ _ Ef (s, p) Hs) as Hn. cbn [snd] in Hn. rewrite N.eqb_refl in Hn. discriminate. }
  unfold witness_matching. fold first_share. split; [|apply map_length]. split; [|split].
  - intros p s Hin. apply in_map_iff in Hin. destruct Hin as [q [Eq Hq]]. inversion Eq; subst q s. apply Hedge, Hfirst, Hq.
  - rewrite map_map. cbn [fst]. rewrite map_id. exact SU1.
  - rewrite map_map. cbn [snd]. apply NoDup_map_inj; [exact SU1|].
    intros x y Hx Hy Exy. change (first_share x = first_share y) in Exy.
    apply Hfirst in Hx. apply Hfirst in Hy. rewrite Exy in Hx.
    apply (NoDup_fst_unique _ _ _ _ Hnd Hx Hy).
Qed.

(* No assignment uses more servers than there are shares, nor more than the writable servers
   plus what the read-only phase matched (which is maximum among the read-only servers). *)
Lemma matching_upper_bound : forall po peers readonly shares p2s ro pl so g M,
  phase_facts po readonly (ro_shares readonly p2s) (held_by_readonly readonly p2s) ro pl so g ->
  (forall p, In p peers -> ~ In p readonly) ->
  is_matching (allowed peers readonly shares p2s) M ->
  length M <= length shares /\ length M <= length (used_peers_of (pr_mappings ro)) + length peers.
Proof.
  intros po peers readonly shares p2s ro pl so g M F1 Hdisj [HE [HM1 HM2]].
  assert (Hedge : forall p s, In (p, s) M ->
            In s shares /\ ((In p peers /\ ~ In p readonly) \/ (In p readonly /\ holds p2s p s))).
  { intros p s Hin. apply HE, allowed_edge in Hin. destruct Hin as [[Hp Hs]|[Hp [Hs Hh]]]; auto. }
  split.
  - rewrite <- (map_length snd). apply NoDup_incl_length; [exact HM2|].
    intros s Hs. apply in_map_iff in Hs. destruct Hs as [[p s'] [<- Hin]]. apply (Hedge _ _ Hin).
  - set (isro := fun e : N * N => memN (fst e) readonly). rewrite (filter_split_length isro M).
    apply Nat.add_le_mono.
    + apply (phase_maximum F1); [apply NoDup_map_filter, HM1 | apply NoDup_map_filter, HM2|].
      intros p s Hin. apply filter_In in Hin. destruct Hin as [Hin Hr]. apply memN_In in Hr. cbn [fst] in Hr.
      destruct (Hedge p s Hin) as [_ [[_ Hn]|[_ [held [Hl Hs]]]]]; [contradiction|].
      pose proof (held_by_readonly_lookup _ _ _ _ Hr Hl) as Hl'.
      split; [exact Hr|]. split; [|right; exists held; auto].
      apply ro_shares_In. exists p, held. split; [apply lookupN_In, Hl' | exact Hs].
    + rewrite <- (map_length fst). apply NoDup_incl_length; [apply NoDup_map_filter, HM1|].
      intros p Hp. apply in_map_iff in Hp. destruct Hp as [[p' s] [<- Hin]].
      apply filter_In in Hin. destruct Hin as [Hin Hr]. cbn [fst].
      destruct (Hedge p' s Hin) as [_ [[Hp _]|[Hp _]]]; [exact Hp|].
      apply memN_In in Hp. unfold isro in Hr. cbn [fst] in Hr. rewrite Hp in Hr. discriminate.
Qed.

(* The counting at the heart of the theorem.  u1 u2 u3: servers matched by the three phases;
   s1 s2: shares matched by the first two; p3 s3: servers and shares left for the third;
   m: any admissible assignment. *)
Lemma spread_count : forall u1 u2 u3 s1 s2 p3 s3 np nsh m,
  np <= p3 + u2 -> nsh <= s3 + s1 + s2 -> Nat.min p3 s3 <= u3 -> s1 <= u1 -> s2 <= u2 ->
  m <= nsh -> m <= u1 + np -> m <= u1 + u2 + u3.
Proof. lia. Qed.

(* A successful run and its three phases, as share_placement_inv and cm_facts present them. *)
Section Run.
Context {os : orders} {peers readonly shares : list N} {p2s : smap} {res : list (N * N)}.
Context {ro ex nw : phase_result}.
Context {pl1 so1 pl2 so2 pl3 so3 : list N} {g1 g2 g3 : graph}.
Hypothesis Hnp : NoDup peers.
Hypothesis Hns : NoDup shares.
Hypothesis Hdisj : forall p, In p peers -> ~ In p readonly.
Hypothesis Hp2s : forall p held, In (p, held) p2s -> forall s, In s held -> In s shares.
Hypothesis F1 : phase_facts (o_ro os) readonly (ro_shares readonly p2s) (held_by_readonly readonly p2s) ro pl1 so1 g1.
Hypothesis F2 : phase_facts (o_ex os) (peers2 peers ro) (shares2 shares ro) (smap2 p2s ro) ex pl2 so2 g2.
Hypothesis F3 : phase_facts (o_new os) (peers3 peers ro ex) (shares3 shares ro ex) [] nw pl3 so3 g3.
Hypothesis Hkeys : forall s, In s (map fst res) <-> In s (map fst (merged ro ex nw)).
Hypothesis Hsurv : forall s p, In (s, Some p) (merged ro ex nw) -> In (s, p) res.

Let UP1 := used_peers_of (pr_mappings ro).
Let UP2 := used_peers_of (pr_mappings ex).
Let UP3 := used_peers_of (pr_mappings nw).
Let US1 := used_shares_of (pr_mappings ro).
Let US2 := used_shares_of (pr_mappings ex).

Lemma used_ro : forall p, In p UP1 -> In p readonly.
Proof. apply (pf_used_peers F1). Qed.

Lemma used_ex : forall p, In p UP2 -> In p peers.
Proof. intros p Hp. apply (pf_used_peers F2), diffN_In in Hp. apply Hp. Qed.

Lemma used_new : forall p, In p UP3 -> In p peers /\ ~ In p UP2.
Proof. intros p Hp. apply (pf_used_peers F3), diffN3_In in Hp. split; apply Hp. Qed.

(* a share matched in one phase is not handed to a later one *)
Lemma matched_survive : forall s p,
  In (s, Some p) (pr_mappings ro) \/ In (s, Some p) (pr_mappings ex) \/ In (s, Some p) (pr_mappings nw) ->
  In (s, p) res.
Proof.
  intros s p Hin.
  assert (Hnot2 : In (s, Some p) (pr_mappings ro) -> ~ In s (map fst (pr_mappings ex))).
  { intros H Hx. apply (pf_key_In F2), diffN_In in Hx. apply (proj2 Hx), used_shares_spec. eauto. }
  assert (Hnot3 : In (s, Some p) (pr_mappings ro) \/ In (s, Some p) (pr_mappings ex) ->
                  ~ In s (map fst (pr_mappings nw))).
  { intros H Hx. apply (pf_key_In F3), diffN3_In in Hx. destruct Hx as (_ & Hn1 & Hn2).
    destruct H as [H|H]; [apply Hn1 | apply Hn2]; apply used_shares_spec; eauto. }
  apply Hsurv. unfold merged. destruct Hin as [H|[H|H]].
  - apply merge_persist_a; [apply (pf_keys_NoDup F1) | exact H | apply Hnot2, H | apply Hnot3; left; exact H].
  - apply merge_persist_b; [apply (pf_keys_NoDup F2) | exact H | apply Hnot3; right; exact H].
  - apply merge_persist_c; [apply (pf_keys_NoDup F3) | exact H].
Qed.

(* the three phases match pairwise different servers, and all of them are used by the result *)
Lemma spread_lower : length UP1 + length UP2 + length UP3 <= length (servers_used res).
Proof.
  rewrite <- !app_length. apply NoDup_incl_length.
  - repeat apply NoDup_app_intro; try apply used_peers_spec.
    + intros x Hx Hx'. apply (Hdisj x); [apply used_ex, Hx' | apply used_ro, Hx].
    + intros x Hx Hx'. apply in_app_iff in Hx. destruct Hx as [Hx|Hx].
      * apply (Hdisj x); [apply (used_new x Hx') | apply used_ro, Hx].
      * apply (proj2 (used_new x Hx')), Hx.
  - intros p Hp. apply servers_used_spec. rewrite !in_app_iff in Hp.
    destruct Hp as [[Hp|Hp]|Hp]; apply used_peers_spec in Hp; destruct Hp as [s Hs]; exists s; apply matched_survive; auto.
Qed.

(* the last phase sees all servers and shares not matched before *)
Lemma third_phase_peers : length peers <= length (peers3 peers ro ex) + length UP2.
Proof.
  unfold peers3, peers2. rewrite diffN_twice. fold UP1 UP2.
  rewrite (diffN_disjoint peers UP1); [apply diffN_length, Hnp|].
  intros x Hx Hx'. apply (Hdisj x Hx), used_ro, Hx'.
Qed.

Lemma third_phase_shares : length shares <= length (shares3 shares ro ex) + length US1 + length US2.
Proof. unfold shares3, shares2. rewrite diffN_twice. apply diffN_length2, Hns. Qed.

Lemma result_keys : forall s p, In (s, p) res -> In s shares.
Proof.
  intros s p Hin. apply (in_map fst), Hkeys, merge_keys in Hin. destruct Hin as [Hk|[Hk|Hk]].
  - apply (pf_key_In F1), ro_shares_In in Hk. destruct Hk as [q [held [Hq Hs]]].
    apply held_by_readonly_In in Hq. destruct Hq as [_ Hl]. apply lookupN_In in Hl. apply (Hp2s q held Hl), Hs.
  - apply (pf_key_In F2), diffN_In in Hk. apply Hk.
  - apply (pf_key_In F3), diffN3_In in Hk. apply Hk.
Qed.
End Run.

(* what of [wf_full] the optimality clause needs *)
Theorem placement_maximal_gen : forall os peers readonly shares p2s res,
  NoDup peers -> NoDup shares -> peers <> [] -> wf_input peers readonly p2s ->
  (forall p held, In (p, held) p2s -> forall s, In s held -> In s shares) ->
  share_placement os peers readonly shares p2s = Some res ->
  maximal_spec peers readonly shares p2s res.
Proof.
  intros os peers readonly shares p2s res Hnp Hns Hne Hin Hp2s H.
  destruct (readonly_only_existing_full _ _ _ _ _ _ Hin H) as [Hro Hknown]. destruct Hin as [Hdisj _].
  destruct (share_placement_inv _ _ _ _ _ _ Hne H) as (ro & ex & nw & C1 & C2 & C3 & Hres_nd & Hkeys & Hsurv & _).
  destruct (cm_facts _ _ _ _ _ C1) as (pl1 & so1 & g1 & F1).
  destruct (cm_facts _ _ _ _ _ C2) as (pl2 & so2 & g2 & F2).
  destruct (cm_facts _ _ _ _ _ C3) as (pl3 & so3 & g3 & F3).
  (* the result is itself an admissible assignment *)
  destruct (witness_is_matching (allowed peers readonly shares p2s) res Hres_nd) as [Hwit Hwlen].
  { intros s p Hin. apply allowed_edge. pose proof (result_keys Hp2s F1 F2 F3 Hkeys _ _ Hin) as Hsh.
    destruct (Hknown _ _ Hin) as [Hpp|Hpr]; [left; auto | right; auto]. }
  exists (length (servers_used res)). split; [apply distinct_servers_used|]. split.
  - exists (witness_matching res). auto.
  - intros M' HM'. destruct (matching_upper_bound _ _ _ _ _ _ _ _ _ _ F1 Hdisj HM') as [B1 B2].
    eapply Nat.le_trans; [|apply (spread_lower Hdisj F1 F2 F3 Hsurv)].
    exact (spread_count _ _ _ _ _ _ _ _ _ _ (third_phase_peers Hnp Hdisj F1) (third_phase_shares Hns)
             (complete_phase_bound F3 eq_refl) (used_shares_le_peers F1) (used_shares_le_peers F2) B1 B2).
Qed.

Theorem placement_maximal_full : forall os peers readonly shares p2s res,
  wf_full peers readonly shares p2s ->
  share_placement os peers readonly shares p2s = Some res ->
  maximal_spec peers readonly shares p2s res.
Proof.
  intros os peers readonly shares p2s res Hwf. pose proof (wf_full_input _ _ _ _ Hwf) as Hin.
  destruct Hwf as (Hnp & _ & Hns & Hne & _ & _ & Hp2s).
  apply placement_maximal_gen; try assumption. intros p held Hp. apply (Hp2s p held Hp).
Qed.

(* the precondition as a boolean, for the examples and for the harness *)
Definition wf_full_b (peers readonly shares : list N) (p2s : smap) : bool :=
  nodupN peers && nodupN readonly && nodupN shares
  && match peers with [] => false | _ => true end
  && forallb (fun p => negb (memN p readonly)) peers
  && nodupN (map fst p2s)
  && forallb (fun e : N * list N =>
                (memN (fst e) peers || memN (fst e) readonly) && nodupN (snd e)
                && forallb (fun s => memN s shares) (snd e)) p2s.

Lemma wf_full_b_sound : forall peers readonly shares p2s,
  wf_full_b peers readonly shares p2s = true -> wf_full peers readonly shares p2s.
Proof.
  intros peers readonly shares p2s H. unfold wf_full_b in H.
  rewrite !andb_true_iff, !forallb_forall in H. destruct H as [[[[[[H1 H2] H3] H4] H5] H6] H7].
  repeat split; try (apply nodupN_NoDup; assumption).
  - destruct peers; discriminate.
  - intros p Hp Hr. specialize (H5 p Hp). apply memN_In in Hr. rewrite Hr in H5. discriminate.
  - specialize (H7 _ H). cbn [fst] in H7. rewrite !andb_true_iff, orb_true_iff, !memN_In in H7. tauto.
  - specialize (H7 _ H). rewrite !andb_true_iff in H7. apply nodupN_NoDup, H7.
  - intros s Hs. specialize (H7 _ H). cbn [snd] in H7. rewrite !andb_true_iff, forallb_forall in H7.
    apply memN_In, H7, Hs.
Qed.
