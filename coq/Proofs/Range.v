(* C40  Proofs about Model/Range.v: under the strictness precondition the model of
   FileDownloader.parse_range_header / render is the RFC 7233 rule. *)
From Coq Require Import List NArith ZArith Bool String Lia ZifyBool ZifyNat ZifyN.
From Verif Require Import Lib.Hex Lib.Decimal Lib.DecimalFacts Lib.ListFacts Gen.PyUnicode Gen.WebRange Model.Range.
Import ListNotations.
Local Open Scope N_scope.
Local Open Scope bool_scope.

Lemma range_unit_ok : range_unit = bytes_of_string "bytes".
Proof. reflexivity. Qed.

Lemma statuses_ok : unsatisfiable_status = 416 /\ partial_status = 206.
Proof. split; reflexivity. Qed.

Lemma int_agrees_spec p : int_agrees p = true -> py_int p = option_map Z.of_N (pos_value p).
Proof.
  unfold int_agrees. destruct (py_int p) as [z|]; destruct (pos_value p) as [k|]; cbn [option_map]; intro H;
    try discriminate; try reflexivity.
  apply Z.eqb_eq in H. congruence.
Qed.

Definition to_zrange (filesize : Z) (r : range_spec) : Z * Z :=
  match r with
  | FromTo f l => (Z.of_N f, Z.of_N l)
  | From f => (Z.of_N f, filesize - 1)%Z
  | Suffix k => (filesize - Z.of_N k, filesize - 1)%Z
  end.

Lemma element_ok n e : element_strict e = true ->
  parse_range n (py_strip e) = option_map (to_zrange n) (rfc_spec (strip is_ows e)).
Proof.
  unfold element_strict. intro H. apply andb_prop in H. destruct H as [Hs H].
  apply list_N_eqb_eq in Hs. rewrite <- Hs. unfold parse_range, rfc_spec.
  destruct (split_once 45 (py_strip e)) as [[a b]|]; [|reflexivity].
  apply andb_prop in H. destruct H as [Ha Hb]. apply int_agrees_spec in Ha, Hb.
  destruct a as [|a0 a'].
  - rewrite Hb. destruct (pos_value b); reflexivity.
  - rewrite Ha. destruct (pos_value (a0 :: a')) as [f|]; cbn [option_map].
    + destruct b as [|b0 b']; [reflexivity|]. rewrite Hb. destruct (pos_value (b0 :: b')) as [l|]; cbn [option_map]; [|reflexivity].
      replace (Z.of_N l <? Z.of_N f)%Z with (l <? f) by lia. destruct (l <? f); reflexivity.
    + destruct b; reflexivity.
Qed.

Lemma traverse_ok n raw : forallb element_strict raw = true ->
  traverse (fun r => parse_range n (py_strip r)) raw =
  option_map (map (to_zrange n)) (traverse (fun e => rfc_spec (strip is_ows e)) raw).
Proof.
  induction raw as [|e r IH]; cbn [forallb traverse]; [reflexivity|]. intro H. apply andb_prop in H. destruct H as [He Hr].
  rewrite (element_ok n e He), (IH Hr).
  destruct (rfc_spec (strip is_ows e)); cbn [option_map]; [|reflexivity].
  destruct (traverse (fun e0 => rfc_spec (strip is_ows e0)) r); reflexivity.
Qed.

Lemma header_ok n h : range_strict h = true ->
  parse_range_header n h = option_map (map (to_zrange n)) (rfc_ranges h).
Proof.
  unfold range_strict, parse_range_header, rfc_ranges. destruct (split_once 61 h) as [[u set]|]; [|reflexivity].
  rewrite range_unit_ok. destruct (list_N_eqb u (bytes_of_string "bytes")); [|reflexivity].
  intro H. apply andb_prop in H. destruct H as [H H3]. apply andb_prop in H. destruct H as [H1 H2].
  rewrite H2, H3. cbn [andb]. apply traverse_ok. exact H1.
Qed.

(* split_all never yields the empty list, so neither parser returns Some [] *)
Lemma split_all_nonempty sep s : split_all sep s <> [].
Proof.
  induction s as [|c r IH]; cbn; [discriminate|]. destruct (c =? sep); [discriminate|].
  destruct (split_all sep r); [congruence|discriminate].
Qed.

Lemma traverse_nonempty {A B} (f : A -> option B) l ys : l <> [] -> traverse f l = Some ys -> ys <> [].
Proof.
  destruct l as [|x r]; [congruence|]. intros _. cbn. destruct (f x); [|discriminate]. destruct (traverse f r); [|discriminate].
  intro H. inversion H. discriminate.
Qed.

Lemma parse_range_header_nonempty n h : parse_range_header n h <> Some [].
Proof.
  unfold parse_range_header. destruct (split_once 61 h) as [[u set]|]; [|discriminate].
  destruct (list_N_eqb u range_unit); [|discriminate]. intro H.
  apply (traverse_nonempty _ _ _ (split_all_nonempty 44 set) H). reflexivity.
Qed.

Definition spec_valid (r : range_spec) : Prop := match r with FromTo f l => f <= l | _ => True end.

Lemma rfc_spec_valid t r : rfc_spec t = Some r -> spec_valid r.
Proof.
  unfold rfc_spec. destruct (split_once 45 t) as [[a b]|]; [|discriminate].
  destruct a as [|a0 a'].
  - destruct (pos_value b); cbn; [|discriminate]. intro H. inversion H. exact I.
  - destruct b as [|b0 b'].
    + destruct (pos_value (a0 :: a')); cbn; [|discriminate]. intro H. inversion H. exact I.
    + destruct (pos_value (a0 :: a')) as [f|]; [|discriminate]. destruct (pos_value (b0 :: b')) as [l|]; [|discriminate].
      destruct (l <? f) eqn:E; [discriminate|]. intro H. inversion H. cbn. lia.
Qed.

Lemma traverse_forall {A B} (f : A -> option B) (P : B -> Prop) (Hf : forall x y, f x = Some y -> P y) l ys :
  traverse f l = Some ys -> Forall P ys.
Proof.
  revert ys. induction l as [|x r IH]; cbn; intros ys H.
  - inversion H. constructor.
  - destruct (f x) as [y|] eqn:E; [|discriminate]. destruct (traverse f r) as [ys'|]; [|discriminate].
    inversion H. constructor; [exact (Hf _ _ E)|apply IH; reflexivity].
Qed.

Lemma rfc_ranges_valid h rs : rfc_ranges h = Some rs -> Forall spec_valid rs.
Proof.
  unfold rfc_ranges. destruct (split_once 61 h) as [[u set]|]; [|discriminate].
  destruct (_ && _ && _); [|discriminate].
  apply traverse_forall. intros x y. apply rfc_spec_valid.
Qed.

Lemma decZ_of_N k : decZ (Z.of_N k) = dec k.
Proof. unfold decZ. assert (Z.of_N k <? 0 = false)%Z as -> by lia. f_equal. lia. Qed.

Lemma no_range_header_ok : forall m data, render m data None = respond m data Whole /\ render m data (Some []) = respond m data Whole.
Proof. intros m data. unfold render, respond. split; f_equal; lia. Qed.

Lemma render_full m data h :
  parse_range_header (Z.of_nat (List.length data)) h = None -> render m data (Some h) = respond m data Whole.
Proof.
  intro H. rewrite <- (proj1 (no_range_header_ok m data)). unfold render. rewrite H. destruct h; reflexivity.
Qed.

(* the two responses render builds from a range, in the RFC's terms *)
Lemma partial_response m data F L first last :
  first = Z.of_N F -> last = Z.of_N L -> F <= L ->
  mkResponse partial_status
    (Some (bytes_of_string "bytes " ++ decZ first ++ [45] ++ decZ last ++ [47] ++ decZ (Z.of_nat (List.length data))))
    (Z.to_N (last - first + 1)) (wire_body m (slice data first (last - first + 1)))
  = respond m data (Partial F L).
Proof.
  intros -> -> HFL. unfold respond. rewrite !decZ_of_N.
  replace (Z.of_nat (List.length data)) with (Z.of_N (N.of_nat (List.length data))) by lia. rewrite decZ_of_N.
  f_equal; [lia|]. f_equal. unfold slice, bytes_between. f_equal; [lia|f_equal; lia].
Qed.

Lemma unsat_response m data :
  mkResponse unsatisfiable_status (Some (bytes_of_string "bytes */" ++ decZ (Z.of_nat (List.length data))))
             (N.of_nat (List.length unsatisfiable_text)) (wire_body m unsatisfiable_text)
  = respond m data Unsatisfiable.
Proof.
  unfold respond. replace (Z.of_nat (List.length data)) with (Z.of_N (N.of_nat (List.length data))) by lia.
  rewrite decZ_of_N. reflexivity.
Qed.

Lemma render_range m data h r rest : spec_valid r ->
  parse_range_header (Z.of_nat (List.length data)) h = Some (to_zrange (Z.of_nat (List.length data)) r :: rest) ->
  render m data (Some h) = respond m data (rfc_decide (N.of_nat (List.length data)) r).
Proof.
  intros V H. unfold render. destruct h as [|c h']; [discriminate H|]. rewrite H. set (n := List.length data).
  destruct r as [f l|f|k]; cbn [to_zrange rfc_decide spec_valid] in *.
  - destruct (f <? N.of_nat n) eqn:E.
    + assert (Z.of_nat n <=? Z.max 0 (Z.of_N f) = false)%Z as -> by lia. apply partial_response; lia.
    + assert (Z.of_nat n <=? Z.max 0 (Z.of_N f) = true)%Z as -> by lia. apply unsat_response.
  - destruct (f <? N.of_nat n) eqn:E.
    + assert (Z.of_nat n <=? Z.max 0 (Z.of_N f) = false)%Z as -> by lia. apply partial_response; lia.
    + assert (Z.of_nat n <=? Z.max 0 (Z.of_N f) = true)%Z as -> by lia. apply unsat_response.
  - destruct ((k =? 0) || (N.of_nat n =? 0)) eqn:E.
    + assert (Z.of_nat n <=? Z.max 0 (Z.of_nat n - Z.of_N k) = true)%Z as -> by lia. apply unsat_response.
    + assert (Z.of_nat n <=? Z.max 0 (Z.of_nat n - Z.of_N k) = false)%Z as -> by lia. apply partial_response; lia.
Qed.

(* the RFC's response to a header: of several ranges the first is served *)
Definition rfc_response (m : method) (data : list N) (h : list N) : response :=
  match rfc_ranges h with
  | Some (r :: _) => respond m data (rfc_decide (N.of_nat (List.length data)) r)
  | _ => respond m data Whole
  end.

Theorem render_is_rfc m data h : range_strict h = true -> render m data (Some h) = rfc_response m data h.
Proof.
  intro S. unfold rfc_response. pose proof (header_ok (Z.of_nat (List.length data)) h S) as H.
  destruct (rfc_ranges h) as [[|r rs]|] eqn:R; cbn [option_map map] in H.
  - destruct (parse_range_header_nonempty _ _ H).
  - apply (render_range m data h r _ (Forall_inv (rfc_ranges_valid _ _ R)) H).
  - apply render_full. exact H.
Qed.

Lemma decide_partial_in_range size r f l : spec_valid r -> rfc_decide size r = Partial f l -> f <= l /\ l < size.
Proof.
  destruct r as [a b|a|k]; cbn [rfc_decide spec_valid]; intro V.
  1, 2: destruct (a <? size) eqn:E; [|discriminate]; intro H; inversion H; subst; lia.
  - destruct ((k =? 0) || (size =? 0)) eqn:E; [discriminate|]. intro H. inversion H; subst. lia.
Qed.

Lemma bytes_between_exact data f l : f <= l -> l < N.of_nat (List.length data) ->
  N.of_nat (List.length (bytes_between data f l)) = l - f + 1 /\
  forall i, i <= l - f -> nth (N.to_nat i) (bytes_between data f l) 0 = nth (N.to_nat (f + i)) data 0.
Proof.
  intros Hfl Hl. unfold bytes_between. split.
  - rewrite firstn_length, skipn_length. lia.
  - intros i Hi. rewrite nth_firstn_lt by lia. rewrite nth_skipn. f_equal. lia.
Qed.

Lemma partial_is_exact_ok : forall m data h r f l,
  range_strict h = true -> rfc_ranges h = Some [r] -> rfc_decide (N.of_nat (List.length data)) r = Partial f l ->
  render m data (Some h) = respond m data (Partial f l) /\
  f <= l /\ l < N.of_nat (List.length data) /\
  body (render GET data (Some h)) = bytes_between data f l /\
  N.of_nat (List.length (bytes_between data f l)) = content_length (render m data (Some h)) /\
  forall i, i <= l - f -> nth (N.to_nat i) (bytes_between data f l) 0 = nth (N.to_nat (f + i)) data 0.
Proof.
  intros m data h r f l S R D.
  destruct (decide_partial_in_range _ _ _ _ (Forall_inv (rfc_ranges_valid _ _ R)) D) as [Hfl Hl].
  destruct (bytes_between_exact data f l Hfl Hl) as [Hlen Hnth].
  rewrite !(render_is_rfc _ data h S). unfold rfc_response. rewrite R, D.
  cbn [respond body content_length wire_body]. auto 10.
Qed.

Lemma head_same_ok : forall data hdr,
  status (render HEAD data hdr) = status (render GET data hdr) /\
  content_range (render HEAD data hdr) = content_range (render GET data hdr) /\
  content_length (render HEAD data hdr) = content_length (render GET data hdr) /\
  body (render HEAD data hdr) = [].
Proof.
  intros data hdr. unfold render. destruct hdr as [[|c h]|]; cbn [status content_range content_length body wire_body]; auto.
  destruct (parse_range_header _ (c :: h)) as [[|[f l] rest]|]; cbn [status content_range content_length body wire_body internal_error]; auto.
  destruct (_ <=? _)%Z; cbn [status content_range content_length body wire_body]; auto.
Qed.

(* Requests in the RFC's canonical spelling, "bytes=" t with t made of digits and "-" only:
   one element, nothing for either strip to remove. *)
Definition ten_bytes : list N := [0; 1; 2; 3; 4; 5; 6; 7; 8; 9].

Definition digit_or_dash (c : N) : bool := is_digit c || (c =? 45).

Definition canon (t : list N) : Prop := t <> [] /\ forallb digit_or_dash t = true.

Lemma space_not_digit_dash : forallb (fun s => negb (digit_or_dash s)) py_space_codepoints = true.
Proof. vm_compute. reflexivity. Qed.

Lemma digit_or_dash_not_space c : digit_or_dash c = true -> py_isspace c = false.
Proof.
  intro H. apply not_true_is_false. unfold py_isspace. rewrite existsb_exists. intros [s [Hin Hs]].
  apply N.eqb_eq in Hs. subst s.
  pose proof (proj1 (forallb_forall _ _) space_not_digit_dash c Hin) as F. cbv beta in F. rewrite H in F. discriminate.
Qed.

Lemma digit_or_dash_not_sep c : digit_or_dash c = true -> is_ows c = false /\ (c =? 44) = false.
Proof. unfold digit_or_dash, is_digit, is_ows. lia. Qed.

Lemma drop_while_hd_not p l : hd_not p l = true -> drop_while p l = l.
Proof. destruct l as [|c r]; cbn; [reflexivity|]. intro H. apply negb_true_iff in H. rewrite H. reflexivity. Qed.

Lemma strip_canon (p : N -> bool) t : (forall c, digit_or_dash c = true -> p c = false) ->
  forallb digit_or_dash t = true -> strip p t = t /\ hd_not p t = true /\ hd_not p (rev t) = true.
Proof.
  intros Hp H. assert (G : forall l, forallb digit_or_dash l = true -> hd_not p l = true).
  { intros [|c r]; cbn; [reflexivity|]. intro A. apply andb_prop in A. rewrite (Hp c (proj1 A)). reflexivity. }
  assert (Hr : forallb digit_or_dash (rev t) = true).
  { rewrite forallb_forall in *. intros c Hc. apply H, in_rev, Hc. }
  unfold strip, rstrip. rewrite (drop_while_hd_not p t (G t H)), (drop_while_hd_not p (rev t) (G _ Hr)).
  auto using rev_involutive.
Qed.

Lemma split_all_none t : forallb digit_or_dash t = true -> split_all 44 t = [t].
Proof.
  induction t as [|c r IH]; cbn; [reflexivity|]. intro H. apply andb_prop in H. destruct H as [Hc Hr].
  rewrite (proj2 (digit_or_dash_not_sep c Hc)), (IH Hr). reflexivity.
Qed.

Lemma canon_header t : forallb digit_or_dash t = true ->
  let h := bytes_of_string "bytes=" ++ t in
  rfc_ranges h = option_map (fun r => [r]) (rfc_spec t) /\
  (forall n, parse_range_header n h = option_map (fun fl => [fl]) (parse_range n t)) /\
  range_strict h = match split_once 45 t with Some (a, b) => int_agrees a && int_agrees b | None => true end.
Proof.
  intros Hc h.
  destruct (strip_canon py_isspace t digit_or_dash_not_space Hc) as [P _].
  destruct (strip_canon is_ows t (fun c H => proj1 (digit_or_dash_not_sep c H)) Hc) as [O [O1 O2]].
  assert (Hsplit : split_once 61 h = Some (bytes_of_string "bytes", t)) by reflexivity.
  unfold rfc_ranges, parse_range_header, range_strict.
  rewrite Hsplit, range_unit_ok, (proj2 (list_N_eqb_eq _ _) eq_refl), (split_all_none t Hc), O1, O2.
  cbn [traverse forallb andb]. unfold element_strict, py_strip. rewrite P, O, (proj2 (list_N_eqb_eq _ _) eq_refl).
  split; [|split].
  - destruct (rfc_spec t); reflexivity.
  - intro n. destruct (parse_range n t); reflexivity.
  - rewrite !andb_true_r. reflexivity.
Qed.

Lemma digits_are_canon a b : forallb is_digit a = true -> forallb is_digit b = true ->
  forallb digit_or_dash (a ++ 45 :: b) = true.
Proof.
  assert (G : forall ds, forallb is_digit ds = true -> forallb digit_or_dash ds = true).
  { intros ds H. rewrite forallb_forall in *. intros c Hc. unfold digit_or_dash. rewrite (H c Hc). reflexivity. }
  intros Ha Hb. rewrite forallb_app. cbn [forallb]. rewrite (G a Ha), (G b Hb). reflexivity.
Qed.

Lemma split_once_digits a b : forallb is_digit a = true -> split_once 45 (a ++ 45 :: b) = Some (a, b).
Proof.
  induction a as [|c r IH]; cbn; [reflexivity|]. intro H. apply andb_prop in H. destruct H as [Hc Hr].
  assert ((c =? 45) = false) as -> by (unfold is_digit in Hc; lia). rewrite (IH Hr). reflexivity.
Qed.

Lemma classify_digit c : is_digit c = true -> classify c = IDigit (c - 48).
Proof. intro H. unfold classify. assert ((c <? 127) = true) as -> by (unfold is_digit in H; lia). rewrite H. reflexivity. Qed.

Lemma digits_run_digits ds : forall acc cnt, forallb is_digit ds = true ->
  digits_run (map classify ds) acc cnt = (fold_left (fun a d => a * 10 + (d - 48)) ds acc, cnt + N.of_nat (List.length ds), []).
Proof.
  induction ds as [|c r IH]; intros acc cnt H; cbn [map digits_run fold_left List.length].
  - f_equal. f_equal. lia.
  - apply andb_prop in H. destruct H as [Hc Hr]. rewrite (classify_digit c Hc). cbn [digits_run]. rewrite (IH _ _ Hr).
    f_equal. f_equal. lia.
Qed.

Lemma py_int_digits ds : ds <> [] -> forallb is_digit ds = true ->
  py_int ds = if N.of_nat (List.length ds) <=? max_int_digits then Some (Z.of_N (digits_value ds)) else None.
Proof.
  intros Hne Hd. destruct ds as [|c r]; [congruence|]. cbn [forallb] in Hd. apply andb_prop in Hd. destruct Hd as [Hc Hr].
  unfold py_int. cbn [map]. rewrite (classify_digit c Hc). cbn [drop_ispace]. rewrite (digits_run_digits r _ _ Hr). cbn [drop_ispace].
  replace (1 + N.of_nat (List.length r)) with (N.of_nat (List.length (c :: r))) by (cbn [List.length]; lia). reflexivity.
Qed.

Lemma pos_value_digits ds : ds <> [] -> forallb is_digit ds = true -> pos_value ds = Some (digits_value ds).
Proof. intros Hn Hd. unfold pos_value. destruct ds; [congruence|]. rewrite Hd. reflexivity. Qed.

Lemma int_agrees_digits ds : forallb is_digit ds = true -> N.of_nat (List.length ds) <= max_int_digits -> int_agrees ds = true.
Proof.
  intros Hd Hl. destruct ds as [|c r]; [reflexivity|]. unfold int_agrees.
  rewrite py_int_digits, pos_value_digits by (assumption || discriminate). apply N.leb_le in Hl. rewrite Hl. apply Z.eqb_refl.
Qed.

Lemma canonical_strict a b :
  forallb is_digit a = true -> forallb is_digit b = true ->
  N.of_nat (List.length a) <= max_int_digits -> N.of_nat (List.length b) <= max_int_digits ->
  range_strict (bytes_of_string "bytes=" ++ a ++ 45 :: b) = true.
Proof.
  intros Ha Hb La Lb. destruct (canon_header _ (digits_are_canon a b Ha Hb)) as [_ [_ ->]].
  rewrite (split_once_digits a b Ha), (int_agrees_digits a Ha La), (int_agrees_digits b Hb Lb). reflexivity.
Qed.

Lemma canonical_served m data a b r :
  forallb is_digit a = true -> forallb is_digit b = true ->
  N.of_nat (List.length a) <= max_int_digits -> N.of_nat (List.length b) <= max_int_digits ->
  rfc_spec (a ++ 45 :: b) = Some r ->
  render m data (Some (bytes_of_string "bytes=" ++ a ++ 45 :: b)) = respond m data (rfc_decide (N.of_nat (List.length data)) r).
Proof.
  intros Ha Hb La Lb R. rewrite (render_is_rfc m data _ (canonical_strict a b Ha Hb La Lb)). unfold rfc_response.
  rewrite (proj1 (canon_header _ (digits_are_canon a b Ha Hb))), R. reflexivity.
Qed.

Lemma rfc_spec_from a : a <> [] -> forallb is_digit a = true -> rfc_spec (a ++ [45]) = option_map From (pos_value a).
Proof. intros Hne Ha. unfold rfc_spec. rewrite (split_once_digits a [] Ha). destruct a; [congruence|reflexivity]. Qed.

Lemma undec_acc_value : forall l acc, forallb is_digit l = true ->
  undec_acc l acc = Some (fold_left (fun a d => a * 10 + (d - 48)) l acc).
Proof.
  induction l as [|x r IH]; cbn; intros acc A; [reflexivity|]. apply andb_prop in A. destruct A as [A1 A2]. rewrite A1. apply IH. exact A2.
Qed.

Lemma pos_value_dec k : pos_value (dec k) = Some k.
Proof.
  rewrite pos_value_digits by (apply dec_nonempty || apply dec_all_digits). f_equal.
  pose proof (undec_dec k) as U. rewrite undec_nonempty in U by apply dec_nonempty.
  rewrite undec_acc_value in U by apply dec_all_digits. unfold digits_value. congruence.
Qed.

Lemma dec_length_bound k : N.size k <= 4000 -> N.of_nat (List.length (dec k)) <= max_int_digits.
Proof.
  intro H. unfold dec, max_int_digits.
  assert (G : forall f n acc, (List.length (dec_aux f n acc) <= f + List.length acc)%nat).
  { induction f as [|f IH]; intros n acc; cbn [dec_aux]; [lia|]. destruct (n <? 10); [cbn [List.length]; lia|].
    specialize (IH (n / 10) ((48 + n mod 10) :: acc)). cbn [List.length] in IH. lia. }
  specialize (G (S (N.to_nat (N.size k))) k []). cbn [List.length] in G. lia.
Qed.

Lemma rfc_spec_dec f l :
  (f <= l -> rfc_spec (dec f ++ 45 :: dec l) = Some (FromTo f l)) /\
  rfc_spec (dec f ++ [45]) = Some (From f) /\ rfc_spec (45 :: dec l) = Some (Suffix l).
Proof.
  pose proof (dec_nonempty f) as Nf. pose proof (dec_nonempty l) as Nl. split; [intro Hfl|split].
  - unfold rfc_spec. rewrite (split_once_digits _ _ (dec_all_digits f)), !pos_value_dec.
    assert ((l <? f) = false) as -> by lia. destruct (dec f); [congruence|]. destruct (dec l); [congruence|reflexivity].
  - rewrite (rfc_spec_from _ Nf (dec_all_digits f)), pos_value_dec. reflexivity.
  - unfold rfc_spec. cbn [split_once N.eqb Pos.eqb]. rewrite pos_value_dec. reflexivity.
Qed.

Lemma canonical_requests_ok :
  forall m data f l, N.size f <= 4000 -> N.size l <= 4000 ->
    let n := N.of_nat (List.length data) in
    (f <= l -> render m data (Some (bytes_of_string "bytes=" ++ dec f ++ [45] ++ dec l)) = respond m data (rfc_decide n (FromTo f l))) /\
    render m data (Some (bytes_of_string "bytes=" ++ dec f ++ [45])) = respond m data (rfc_decide n (From f)) /\
    render m data (Some (bytes_of_string "bytes=" ++ [45] ++ dec l)) = respond m data (rfc_decide n (Suffix l)).
Proof.
  intros m data f l Sf Sl n.
  pose proof (dec_all_digits f) as Df. pose proof (dec_all_digits l) as Dl.
  pose proof (dec_length_bound f Sf) as Lf. pose proof (dec_length_bound l Sl) as Ll.
  assert (L0 : N.of_nat (List.length (@nil N)) <= max_int_digits) by discriminate.
  destruct (rfc_spec_dec f l) as [R1 [R2 R3]].
  split; [intro Hfl|split].
  - exact (canonical_served m data (dec f) (dec l) _ Df Dl Lf Ll (R1 Hfl)).
  - exact (canonical_served m data (dec f) [] _ Df eq_refl Lf L0 R2).
  - exact (canonical_served m data [] (dec l) _ eq_refl Dl L0 Ll R3).
Qed.

(* Without the precondition the statement is false.  A first-byte-pos of more than 4300 digits
   is in the RFC's grammar, but int() refuses it and the header is ignored. *)

Lemma long_number_ignored m data a : forallb is_digit a = true -> max_int_digits < N.of_nat (List.length a) ->
  let h := bytes_of_string "bytes=" ++ a ++ [45] in
  rfc_ranges h = Some [From (digits_value a)] /\ render m data (Some h) = respond m data Whole.
Proof.
  intros Ha La h. subst h. assert (Hne : a <> []) by (intros ->; discriminate La).
  destruct (canon_header _ (digits_are_canon a [] Ha eq_refl)) as [R [P _]]. split.
  - rewrite R, (rfc_spec_from a Hne Ha), (pos_value_digits a Hne Ha). reflexivity.
  - apply render_full. rewrite P. unfold parse_range. rewrite (split_once_digits a [] Ha), (py_int_digits a Hne Ha).
    apply N.leb_gt in La. rewrite La. destruct a; [congruence|reflexivity].
Qed.

Lemma digits_zeros n : forallb is_digit (repeat 48 n) = true /\ digits_value (repeat 48 n) = 0.
Proof. unfold digits_value. induction n as [|n IH]; [split; reflexivity|exact IH]. Qed.

Lemma long_zeros_ignored m data n : max_int_digits < N.of_nat n ->
  let h := bytes_of_string "bytes=" ++ repeat 48 n ++ [45] in
  rfc_ranges h = Some [From 0] /\ status (render m data (Some h)) = 200.
Proof.
  intros Hn h. subst h. destruct (digits_zeros n) as [Hd Hv].
  destruct (long_number_ignored m data (repeat 48 n) Hd) as [R H]; [rewrite repeat_length; exact Hn|].
  rewrite Hv in R. rewrite H. split; [exact R|reflexivity].
Qed.
