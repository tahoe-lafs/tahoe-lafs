(* Base lemmas for Model/Dirnode.v: the byte-string order, sorted maps,
   netstring parsing of packed output, lengths of the hash outputs used by the
   write-cap field. *)
From Coq Require Import List NArith ZArith Bool Lia.
From Verif Require Import Lib.ListFacts Lib.Hex Lib.Decimal Lib.DecimalFacts Lib.Netstring Lib.NetstringFacts Lib.SHA256 Lib.SHA256Facts Lib.HashPrim Gen.Hashutil Model.Dirnode.
Import ListNotations.
Local Open Scope N_scope.

Lemma bcmp_refl a : bcmp a a = Eq.
Proof. induction a as [|x a IH]; cbn; [reflexivity|]. rewrite N.compare_refl. exact IH. Qed.

Lemma bcmp_eq a b : bcmp a b = Eq -> a = b.
Proof.
  revert b; induction a as [|x a IH]; destruct b as [|y b]; cbn; intro H; try discriminate; [reflexivity|].
  destruct (N.compare x y) eqn:E; try discriminate.
  apply N.compare_eq in E. subst. f_equal. apply IH. exact H.
Qed.

Lemma bcmp_eq_iff a b : bcmp a b = Eq <-> a = b.
Proof. split; [apply bcmp_eq|intros ->; apply bcmp_refl]. Qed.

Lemma bcmp_antisym a b : bcmp b a = CompOpp (bcmp a b).
Proof.
  revert b; induction a as [|x a IH]; destruct b as [|y b]; cbn; try reflexivity.
  rewrite (N.compare_antisym x y). destruct (N.compare x y); cbn; try reflexivity. apply IH.
Qed.

Lemma bcmp_lt_gt a b : bcmp a b = Lt -> bcmp b a = Gt.
Proof. intro H. rewrite bcmp_antisym, H. reflexivity. Qed.

Lemma bcmp_gt_lt a b : bcmp a b = Gt -> bcmp b a = Lt.
Proof. intro H. rewrite bcmp_antisym, H. reflexivity. Qed.

Lemma bcmp_lt_trans a b c : bcmp a b = Lt -> bcmp b c = Lt -> bcmp a c = Lt.
Proof.
  revert b c; induction a as [|x a IH]; destruct b as [|y b]; destruct c as [|z c]; cbn; intros H1 H2; try discriminate; try reflexivity.
  destruct (N.compare x y) eqn:E1; try discriminate.
  - apply N.compare_eq in E1. subst y.
    destruct (N.compare x z) eqn:E2; try discriminate; try reflexivity.
    eapply IH; eassumption.
  - destruct (N.compare y z) eqn:E2; try discriminate.
    + apply N.compare_eq in E2. subst z. rewrite E1. reflexivity.
    + assert (E3 : (x ?= z) = Lt) by (rewrite N.compare_lt_iff in *; lia).
      rewrite E3. reflexivity.
Qed.

Lemma beqb_eq a b : beqb a b = true <-> a = b.
Proof.
  unfold beqb. split.
  - destruct (bcmp a b) eqn:E; try discriminate. intros _. apply bcmp_eq. exact E.
  - intros ->. rewrite bcmp_refl. reflexivity.
Qed.

Lemma beqb_refl a : beqb a a = true.
Proof. apply beqb_eq. reflexivity. Qed.

Lemma beqb_neq a b : a <> b -> beqb a b = false.
Proof. intro H. destruct (beqb a b) eqn:E; [|reflexivity]. apply beqb_eq in E. contradiction. Qed.

Lemma beqb_false a b : beqb a b = false -> a <> b.
Proof. intros H ->. rewrite beqb_refl in H. discriminate. Qed.

Lemma beqb_sym a b : beqb a b = beqb b a.
Proof.
  destruct (beqb a b) eqn:E.
  - apply beqb_eq in E. subst. symmetry. apply beqb_refl.
  - symmetry. apply beqb_neq. intro H. subst. rewrite beqb_refl in E. discriminate.
Qed.

Lemma bytes_eq_dec (a b : bytes) : {a = b} + {a <> b}.
Proof. exact (list_eq_dec N.eq_dec a b). Qed.

Lemma beqb_of_lt a b : bcmp a b = Lt -> beqb a b = false.
Proof. unfold beqb. intros ->. reflexivity. Qed.

Lemma beqb_of_gt a b : bcmp a b = Gt -> beqb a b = false.
Proof. unfold beqb. intros ->. reflexivity. Qed.

Lemma obeqb_eq a b : obeqb a b = true <-> a = b.
Proof.
  destruct a, b; cbn; split; intro H; try discriminate; try reflexivity.
  - apply beqb_eq in H. subst. reflexivity.
  - inversion H. apply beqb_refl.
Qed.

Lemma node_eqb_eq a b : node_eqb a b = true <-> a = b.
Proof.
  split.
  - unfold node_eqb. intro H. rewrite !andb_true_iff in H.
    destruct H as [[[[Hk Hw] Hr] Hm] He].
    destruct a as [k1 w1 r1 m1 e1], b as [k2 w2 r2 m2 e2]; cbn in *.
    apply obeqb_eq in Hw. apply obeqb_eq in Hr. apply Bool.eqb_prop in Hm.
    assert (k1 = k2) by (destruct k1, k2; cbn in Hk; congruence).
    assert (e1 = e2).
    { destruct e1 as [x|], e2 as [y|]; try discriminate; try reflexivity.
      destruct x, y; cbn in He; congruence. }
    subst. reflexivity.
  - intros ->. unfold node_eqb.
    assert (Hk : nkind_eqb (n_kind b) (n_kind b) = true) by (destruct (n_kind b); reflexivity).
    rewrite Hk, (proj2 (obeqb_eq _ _) eq_refl), (proj2 (obeqb_eq _ _) eq_refl), Bool.eqb_reflx.
    destruct (n_err b) as [[]|]; reflexivity.
Qed.

Section SMapFacts.
  Context {V : Type}.
  Implicit Types m : smap V.

  Lemma sm_get_set_same k v m : sm_get k (sm_set k v m) = Some v.
  Proof.
    induction m as [|[k1 v1] r IH]; cbn.
    - rewrite beqb_refl. reflexivity.
    - destruct (bcmp k k1) eqn:E; cbn.
      + rewrite beqb_refl. reflexivity.
      + rewrite beqb_refl. reflexivity.
      + rewrite (beqb_of_gt _ _ E). exact IH.
  Qed.

  Lemma sm_get_set_other k k' v m : k <> k' -> sm_get k' (sm_set k v m) = sm_get k' m.
  Proof.
    intro Hne. assert (Hb : beqb k' k = false) by (apply beqb_neq; congruence).
    induction m as [|[k1 v1] r IH]; cbn.
    - rewrite Hb. reflexivity.
    - destruct (bcmp k k1) eqn:E; cbn.
      + apply bcmp_eq in E. subst k1. rewrite Hb. reflexivity.
      + rewrite Hb. reflexivity.
      + destruct (beqb k' k1); [reflexivity|]. exact IH.
  Qed.

  Definition above (k : bytes) m : Prop := forall k' v, In (k', v) m -> bcmp k k' = Lt.

  Lemma sorted_cons_inv k v m : sm_sorted ((k, v) :: m) = true -> sm_sorted m = true /\ above k m.
  Proof.
    revert k v. induction m as [|[k1 v1] r IH]; intros k v H.
    - split; [reflexivity|]. intros ? ? [].
    - cbn [sm_sorted] in H. destruct (bcmp k k1) eqn:E; try discriminate.
      split; [exact H|].
      intros k' v' [Hin|Hin].
      + inversion Hin; subst. exact E.
      + destruct (IH k1 v1 H) as [_ Hab]. eapply bcmp_lt_trans; [exact E|]. eapply Hab. exact Hin.
  Qed.

  Lemma sorted_cons k v m : sm_sorted m = true -> above k m -> sm_sorted ((k, v) :: m) = true.
  Proof.
    intros Hs Hab. destruct m as [|[k1 v1] r]; [reflexivity|].
    cbn [sm_sorted]. rewrite (Hab k1 v1 (or_introl eq_refl)). exact Hs.
  Qed.

  Lemma sm_get_above k m : above k m -> sm_get k m = None.
  Proof.
    induction m as [|[k1 v1] r IH]; intro H; [reflexivity|]. cbn.
    rewrite (beqb_of_lt _ _ (H k1 v1 (or_introl eq_refl))). apply IH.
    intros k' v' Hin. eapply H. right. exact Hin.
  Qed.

  Lemma sm_set_above k k0 v m : above k0 m -> bcmp k0 k = Lt -> above k0 (sm_set k v m).
  Proof.
    induction m as [|[k1 v1] r IH]; intros Hab Hlt; cbn.
    - intros k' v' [Hin|[]]. inversion Hin; subst. exact Hlt.
    - destruct (bcmp k k1) eqn:E.
      + intros k' v' [Hin|Hin]; [inversion Hin; subst; exact Hlt|]. eapply Hab. right. exact Hin.
      + intros k' v' [Hin|Hin]; [inversion Hin; subst; exact Hlt|]. eapply Hab. exact Hin.
      + intros k' v' [Hin|Hin].
        * eapply Hab. left. exact Hin.
        * eapply IH; [|exact Hlt|exact Hin]. intros ? ? ?. eapply Hab. right. eassumption.
  Qed.

  Lemma sm_set_sorted k v m : sm_sorted m = true -> sm_sorted (sm_set k v m) = true.
  Proof.
    induction m as [|[k1 v1] r IH]; intro Hs; [reflexivity|].
    destruct (sorted_cons_inv _ _ _ Hs) as [Hr Hab].
    cbn [sm_set]. destruct (bcmp k k1) eqn:E.
    - apply bcmp_eq in E. subst k1. apply sorted_cons; assumption.
    - cbn [sm_sorted]. rewrite E. exact Hs.
    - apply sorted_cons; [apply IH; exact Hr|].
      apply sm_set_above; [exact Hab|]. apply bcmp_gt_lt. exact E.
  Qed.

  Lemma sm_del_above k k0 m : above k0 m -> above k0 (sm_del k m).
  Proof.
    induction m as [|[k1 v1] r IH]; intro Hab; cbn; [exact Hab|].
    destruct (beqb k k1).
    - intros ? ? ?. eapply Hab. right. eassumption.
    - intros k' v' [Hin|Hin]; [eapply Hab; left; exact Hin|].
      eapply IH; [|exact Hin]. intros ? ? ?. eapply Hab. right. eassumption.
  Qed.

  Lemma sm_del_sorted k m : sm_sorted m = true -> sm_sorted (sm_del k m) = true.
  Proof.
    induction m as [|[k1 v1] r IH]; intro Hs; [reflexivity|].
    destruct (sorted_cons_inv _ _ _ Hs) as [Hr Hab]. cbn.
    destruct (beqb k k1); [exact Hr|].
    apply sorted_cons; [apply IH; exact Hr|]. apply sm_del_above. exact Hab.
  Qed.

  Lemma sm_get_del_same k m : sm_sorted m = true -> sm_get k (sm_del k m) = None.
  Proof.
    induction m as [|[k1 v1] r IH]; intro Hs; [reflexivity|].
    destruct (sorted_cons_inv _ _ _ Hs) as [Hr Hab]. cbn.
    destruct (beqb k k1) eqn:E.
    - apply beqb_eq in E. subst k1. apply sm_get_above. exact Hab.
    - cbn. rewrite E. apply IH. exact Hr.
  Qed.

  Lemma sm_get_del_other k k' m : k <> k' -> sm_get k' (sm_del k m) = sm_get k' m.
  Proof.
    intro Hne. induction m as [|[k1 v1] r IH]; [reflexivity|]. cbn.
    destruct (beqb k k1) eqn:E.
    - apply beqb_eq in E. subst k1. rewrite (beqb_neq k' k) by congruence. reflexivity.
    - cbn. destruct (beqb k' k1); [reflexivity|exact IH].
  Qed.

  Lemma sm_set_snoc k v m :
    (forall k' v', In (k', v') m -> bcmp k' k = Lt) -> sm_set k v m = m ++ [(k, v)].
  Proof.
    induction m as [|[k1 v1] r IH]; intro H; [reflexivity|]. cbn.
    rewrite (bcmp_lt_gt _ _ (H k1 v1 (or_introl eq_refl))). f_equal. apply IH.
    intros ? ? ?. eapply H. right. eassumption.
  Qed.

  Lemma sorted_app_below (a : smap V) k v (r : smap V) :
    sm_sorted (a ++ (k, v) :: r) = true -> forall k' v', In (k', v') a -> bcmp k' k = Lt.
  Proof.
    induction a as [|[k1 v1] a IH]; intros Hs k' v' Hin; [destruct Hin|].
    cbn [app] in Hs. destruct (sorted_cons_inv _ _ _ Hs) as [Hr Hab].
    destruct Hin as [Hin|Hin].
    - inversion Hin; subst. eapply Hab. apply in_or_app. right. left. reflexivity.
    - eapply IH; eassumption.
  Qed.

  Lemma fold_set_sorted (l acc : smap V) :
    sm_sorted (acc ++ l) = true ->
    fold_left (fun m kv => sm_set (fst kv) (snd kv) m) l acc = acc ++ l.
  Proof.
    revert acc. induction l as [|[k v] r IH]; intros acc Hs; cbn [fold_left].
    - rewrite app_nil_r. reflexivity.
    - cbn [fst snd]. rewrite sm_set_snoc by (eapply sorted_app_below; exact Hs).
      rewrite IH; rewrite <- app_assoc; cbn [app]; [reflexivity|exact Hs].
  Qed.

  Lemma sm_of_list_sorted (m : smap V) : sm_sorted m = true -> sm_of_list m = m.
  Proof. intro H. unfold sm_of_list. rewrite fold_set_sorted; [reflexivity|exact H]. Qed.

  Lemma fold_set_is_sorted (l : list (bytes * V)) acc :
    sm_sorted acc = true -> sm_sorted (fold_left (fun m kv => sm_set (fst kv) (snd kv) m) l acc) = true.
  Proof.
    revert acc. induction l as [|kv r IH]; intros acc H; cbn [fold_left]; [exact H|].
    apply IH. apply sm_set_sorted. exact H.
  Qed.

  Lemma sm_of_list_is_sorted (l : list (bytes * V)) : sm_sorted (sm_of_list l) = true.
  Proof. apply fold_set_is_sorted. reflexivity. Qed.

  (* the dict semantics of repeated assignment: the last binding of a key wins *)
  Fixpoint last_binding (k : bytes) (l : list (bytes * V)) : option V :=
    match l with
    | [] => None
    | (k', v) :: r => match last_binding k r with
                      | Some v' => Some v'
                      | None => if beqb k k' then Some v else None
                      end
    end.

  Lemma fold_set_get k (l : list (bytes * V)) acc :
    sm_get k (fold_left (fun m kv => sm_set (fst kv) (snd kv) m) l acc)
    = match last_binding k l with Some v => Some v | None => sm_get k acc end.
  Proof.
    revert acc. induction l as [|[k1 v1] r IH]; intro acc; cbn [fold_left last_binding]; [reflexivity|].
    rewrite IH. cbn [fst snd]. destruct (last_binding k r); [reflexivity|].
    destruct (beqb k k1) eqn:E.
    - apply beqb_eq in E. subst k1. apply sm_get_set_same.
    - apply sm_get_set_other. apply beqb_false in E. congruence.
  Qed.

  Lemma sm_of_list_get k (l : list (bytes * V)) : sm_get k (sm_of_list l) = last_binding k l.
  Proof. unfold sm_of_list. rewrite fold_set_get. destruct (last_binding k l); reflexivity. Qed.

  Lemma sm_get_in k v m : sm_get k m = Some v -> In (k, v) m.
  Proof.
    induction m as [|[k1 v1] r IH]; cbn; [discriminate|].
    destruct (beqb k k1) eqn:E.
    - apply beqb_eq in E. subst. intro H. inversion H. left. reflexivity.
    - intro H. right. apply IH. exact H.
  Qed.

  Lemma sm_in_get k v m : sm_sorted m = true -> In (k, v) m -> sm_get k m = Some v.
  Proof.
    induction m as [|[k1 v1] r IH]; intros Hs Hin; [destruct Hin|].
    destruct (sorted_cons_inv _ _ _ Hs) as [Hr Hab]. cbn.
    destruct Hin as [Hin|Hin].
    - inversion Hin; subst. rewrite beqb_refl. reflexivity.
    - rewrite beqb_sym, (beqb_of_lt _ _ (Hab _ _ Hin)). apply IH; assumption.
  Qed.

  Lemma sm_set_in k v k' v' m : In (k', v') (sm_set k v m) -> (k' = k /\ v' = v) \/ In (k', v') m.
  Proof.
    induction m as [|[k1 v1] r IH]; cbn.
    - intros [H|[]]. inversion H. left. split; reflexivity.
    - destruct (bcmp k k1) eqn:E.
      + intros [H|H]; [inversion H; left; split; reflexivity|right; right; exact H].
      + intros [H|H]; [inversion H; left; split; reflexivity|right; exact H].
      + intros [H|H]; [right; left; exact H|]. destruct (IH H) as [?|?]; [left; assumption|right; right; assumption].
  Qed.

  Lemma sm_del_in k k' v' m : In (k', v') (sm_del k m) -> In (k', v') m.
  Proof.
    induction m as [|[k1 v1] r IH]; cbn; [tauto|].
    destruct (beqb k k1); [intro; right; assumption|].
    intros [H|H]; [left; exact H|right; apply IH; exact H].
  Qed.
End SMapFacts.

Section SMapMap.
  Context {A B : Type}.
  Variable f : bytes -> A -> B.
  Definition kvmap (m : smap A) : smap B := map (fun kv => (fst kv, f (fst kv) (snd kv))) m.

  Lemma kvmap_get k m : sm_get k (kvmap m) = option_map (f k) (sm_get k m).
  Proof.
    induction m as [|[k1 v1] r IH]; cbn; [reflexivity|].
    destruct (beqb k k1) eqn:E; [|exact IH]. apply beqb_eq in E. subst. reflexivity.
  Qed.

  Lemma kvmap_set k v m : kvmap (sm_set k v m) = sm_set k (f k v) (kvmap m).
  Proof.
    induction m as [|[k1 v1] r IH]; cbn; [reflexivity|].
    destruct (bcmp k k1); cbn; try reflexivity. f_equal. exact IH.
  Qed.

  Lemma kvmap_del k m : kvmap (sm_del k m) = sm_del k (kvmap m).
  Proof.
    induction m as [|[k1 v1] r IH]; cbn; [reflexivity|].
    destruct (beqb k k1); cbn; [reflexivity|]. f_equal. exact IH.
  Qed.

  Lemma kvmap_sorted m : sm_sorted (kvmap m) = sm_sorted m.
  Proof.
    induction m as [|[k1 v1] r IH]; [reflexivity|].
    destruct r as [|[k2 v2] r']; [reflexivity|].
    cbn [kvmap map fst snd sm_sorted] in *. destruct (bcmp k1 k2); try reflexivity. exact IH.
  Qed.

  Lemma kvmap_fold (l : list (bytes * A)) acc :
    kvmap (fold_left (fun m kv => sm_set (fst kv) (snd kv) m) l acc)
    = fold_left (fun m kv => sm_set (fst kv) (snd kv) m) (map (fun kv => (fst kv, f (fst kv) (snd kv))) l) (kvmap acc).
  Proof.
    revert acc. induction l as [|[k v] r IH]; intro acc; cbn [fold_left map]; [reflexivity|].
    rewrite IH. cbn [fst snd]. rewrite kvmap_set. reflexivity.
  Qed.

  Lemma kvmap_of_list (l : list (bytes * A)) :
    kvmap (sm_of_list l) = sm_of_list (map (fun kv => (fst kv, f (fst kv) (snd kv))) l).
  Proof. unfold sm_of_list. rewrite kvmap_fold. reflexivity. Qed.
End SMapMap.

Lemma kvmap_kvmap {A B C} (f : bytes -> A -> B) (g : bytes -> B -> C) m :
  kvmap g (kvmap f m) = kvmap (fun k v => g k (f k v)) m.
Proof. unfold kvmap. rewrite map_map. reflexivity. Qed.

Lemma kvmap_id {A} (f : bytes -> A -> A) (m : smap A) :
  (forall k v, In (k, v) m -> f k v = v) -> kvmap f m = m.
Proof.
  induction m as [|[k v] r IH]; intro H; [reflexivity|]. cbn.
  rewrite (H k v (or_introl eq_refl)). f_equal. apply IH. intros ? ? ?. apply H. right. assumption.
Qed.

Lemma kvmap_ext {A B} (f g : bytes -> A -> B) (m : smap A) :
  (forall k v, In (k, v) m -> f k v = g k v) -> kvmap f m = kvmap g m.
Proof.
  induction m as [|[k v] r IH]; intro H; [reflexivity|]. cbn.
  rewrite (H k v (or_introl eq_refl)). f_equal. apply IH. intros ? ? ?. apply H. right. assumption.
Qed.

Lemma sm_of_list_in {V} (l : list (bytes * V)) k v : In (k, v) (sm_of_list l) -> In (k, v) l.
Proof.
  unfold sm_of_list.
  assert (G : forall acc, In (k, v) (fold_left (fun m kv => sm_set (fst kv) (snd kv) m) l acc) -> In (k, v) l \/ In (k, v) acc).
  { induction l as [|[k1 v1] r IH]; intros acc H; cbn [fold_left] in H; [right; exact H|].
    destruct (IH _ H) as [?|Hin]; [left; right; assumption|].
    cbn [fst snd] in Hin. destruct (sm_set_in _ _ _ _ _ Hin) as [[-> ->]|?]; [left; left; reflexivity|right; assumption]. }
  intro H. destruct (G [] H) as [?|[]]. assumption.
Qed.

Lemma split_colon_app l r :
  (forall b, In b l -> b <> 58) -> split_colon (l ++ 58 :: r) = Some (l, r).
Proof.
  induction l as [|b l IH]; intro H; cbn.
  - reflexivity.
  - destruct (b =? 58) eqn:E.
    + apply N.eqb_eq in E. exfalso. apply (H b); [left; reflexivity|exact E].
    + rewrite IH; [reflexivity|]. intros ? ?. apply H. right. assumption.
Qed.

Lemma parse_ns_netstring s r : parse_ns (netstring s ++ r) = Some (s, r).
Proof.
  unfold parse_ns, netstring. rewrite <- !app_assoc. cbn [app].
  rewrite split_colon_app.
  2:{ intros b Hb E. subst b. revert Hb. apply dec_no_byte. reflexivity. }
  rewrite undec_dec.
  replace (blen (s ++ 44 :: r) <? blen s) with false.
  2:{ symmetry. apply N.ltb_ge. rewrite blen_app. lia. }
  unfold blen. rewrite Nat2N.id.
  rewrite skipn_app, skipn_all, Nat.sub_diag. cbn [skipn app].
  rewrite firstn_app, firstn_all, Nat.sub_diag. cbn [firstn]. rewrite app_nil_r. reflexivity.
Qed.

Lemma parse_ns_netstring_nil s : parse_ns (netstring s) = Some (s, []).
Proof. rewrite <- (app_nil_r (netstring s)). apply parse_ns_netstring. Qed.

Lemma parse_k4 a b c d r :
  parse_k 4 (netstring a ++ netstring b ++ netstring c ++ netstring d ++ r) = Some ([a; b; c; d], r).
Proof. cbn [parse_k]. rewrite !parse_ns_netstring. reflexivity. Qed.

Lemma netstring_length_pos s : (1 <= List.length (netstring s))%nat.
Proof. pose proof (netstring_nonempty s). destruct (netstring s); [congruence|cbn; lia]. Qed.

Definition concat_ns (es : list bytes) : bytes := concat (map netstring es).

Lemma parse_all_concat es fuel :
  (List.length es <= fuel)%nat -> parse_all fuel (concat_ns es) = Some es.
Proof.
  revert fuel. induction es as [|e es IH]; intros fuel H.
  - destruct fuel; reflexivity.
  - destruct fuel as [|f]; [cbn in H; lia|].
    unfold concat_ns. cbn [map concat].
    destruct (netstring e ++ concat (map netstring es)) as [|x y] eqn:E.
    { exfalso. apply app_eq_nil in E. destruct E as [E _]. revert E. apply netstring_nonempty. }
    cbn [parse_all]. rewrite <- E, parse_ns_netstring. fold (concat_ns es). rewrite IH; [reflexivity|]. cbn in H. lia.
Qed.

Lemma concat_ns_length es : (List.length es <= List.length (concat_ns es))%nat.
Proof.
  induction es as [|e es IH]; [cbn; lia|].
  unfold concat_ns in *. cbn [map concat]. rewrite app_length. cbn [List.length].
  pose proof (netstring_length_pos e). lia.
Qed.

Lemma parse_all_packed es : parse_all (S (List.length (concat_ns es))) (concat_ns es) = Some es.
Proof. apply parse_all_concat. pose proof (concat_ns_length es). lia. Qed.

Lemma hmac_length k d : List.length (hmac k d) = 32%nat.
Proof. unfold hmac. apply sha256_length. Qed.

Lemma salt_length rw : List.length (mutable_rwcap_salt_hash rw) = 16%nat.
Proof.
  unfold mutable_rwcap_salt_hash, tagged_hash, hasher_digest, truncate.
  cbn [h_trunc tagged_hasher mk_hasher hasher_update IVLEN].
  change (IVLEN =? 0) with false. change (N.to_nat IVLEN) with 16%nat. cbv iota.
  rewrite firstn_length. unfold sha256d. rewrite sha256_length. reflexivity.
Qed.
