(* Space accounting invariants of Model/Space.v over all histories, and the C28 facts. *)
From Coq Require Import List NArith ZArith Bool Lia.
From Coq Require Import ZifyBool ZifyNat ZifyN.
From Verif Require Import Lib.ListFacts Model.ImmStore Model.Space Proofs.ImmStoreLib Proofs.ImmStore.
Import ListNotations.
Local Open Scope N_scope.

Lemma seqN_length : forall n s, length (seqN s n) = n.
Proof. induction n as [|n IH]; intros s; simpl; auto. Qed.

Lemma covered_count_le : forall size l, covered_count size l <= size.
Proof.
  intros size l. unfold covered_count.
  pose proof (filter_length_le (covered l) (seqN 0 (N.to_nat size))) as H. rewrite seqN_length in H. lia.
Qed.

Lemma covered_count_nil : forall size, covered_count size [] = 0.
Proof.
  intros size. unfold covered_count.
  assert (H : forall l : list N, filter (covered []) l = []) by (induction l; simpl; auto).
  rewrite H. reflexivity.
Qed.

Lemma covered_count_mono : forall size l l', (forall p, covered l p = true -> covered l' p = true) ->
  covered_count size l <= covered_count size l'.
Proof.
  intros size l l' H. unfold covered_count.
  pose proof (filter_length_mono (covered l) (covered l') (seqN 0 (N.to_nat size)) (fun p _ => H p)). lia.
Qed.

Lemma covered_count_rm_set : forall size l a b, a < b -> covered_count size l <= covered_count size (rm_set a b l).
Proof.
  intros size l a b Hab. apply covered_count_mono. intros p Hp. rewrite covered_rm_set by assumption.
  rewrite Hp. apply orb_true_r.
Qed.

Lemma mul_div_le_any : forall fr x, fr * (x / fr) <= x.
Proof.
  intros fr x. destruct (N.eq_dec fr 0) as [->|H].
  - rewrite N.mul_0_l. lia.
  - apply N.mul_div_le. assumption.
Qed.

Lemma sum_slots_le : forall f g l, (forall v, f v <= g v) -> sum_slots f l <= sum_slots g l.
Proof.
  intros f g l H. induction l as [|[k v] r IH]; cbn [sum_slots]; [lia|]. specialize (H v). lia.
Qed.

Lemma outstanding_le_allocated : forall s, outstanding s <= allocated_size s.
Proof.
  intros s. apply sum_slots_le. intros v. destruct v as [|w|wid d]; cbn [slot_outstanding slot_alloc]; lia.
Qed.

Lemma alloc_loop_readonly : forall si size c now shs slots next rem acc,
  alloc_loop true si size c now shs slots next rem acc = (slots, next, acc).
Proof.
  intros si size c now. induction shs as [|sh rest IH]; intros; cbn [alloc_loop]; auto.
  destruct (lookup (si, sh) slots); apply IH.
Qed.

(* allocate_buckets accepts the shares [acc]: each adds [size] to what is reserved and outstanding,
   nothing to what is used, and all of them fit, beside the uploads in progress, into the available
   space the call was told about.  In the loop, remaining_space is that space less what is reserved. *)
Lemma allocate_accounts : forall ro s si shs size c av,
  exists acc, let s' := fst (allocate ro s si shs size c av) in
    snd (allocate ro s si shs size c av) = RAlloc (get_buckets s si) acc
    /\ used s' = used s
    /\ outstanding s' = outstanding s + N.of_nat (length acc) * size
    /\ allocated_size s' = allocated_size s + N.of_nat (length acc) * size
    /\ forall a, av = Some a -> acc = [] \/ N.of_nat (length acc) * size + allocated_size s <= a.
Proof.
  intros ro s si shs size c av.
  pose (P := fun (slots : list (key * slot)) (_ : N) (rem : option Z) (acc : list N) =>
               let n := N.of_nat (length acc) in
               rem = option_map (fun a => (Z.of_N a - Z.of_N (allocated_size s) - Z.of_N (n * size))%Z) av
               /\ sum_slots slot_used slots = used s
               /\ sum_slots slot_outstanding slots = outstanding s + n * size
               /\ sum_slots slot_alloc slots = allocated_size s + n * size
               /\ forall a, av = Some a -> acc = [] \/ n * size + allocated_size s <= a).
  destruct (allocate_inv ro s si size c P) with (shs := shs) (av := av) as (slots' & next' & rem' & acc' & -> & _ & H).
  - intros sh sl nx rm ac (-> & U & O & A & _) L _ F. unfold P. rewrite app_length. cbn [length].
    rewrite !sum_set_slot_absent by auto.
    cbn [slot_used slot_outstanding slot_alloc new_writer w_size w_ranges]. rewrite covered_count_nil, U, O, A.
    split; [destruct av; cbn [option_map]; f_equal; lia|]. repeat split; try lia.
    intros a ->. right. cbn [option_map fits] in F. lia.
  - split; [destruct av; cbn [option_map length]; f_equal; lia|]. cbn [length].
    unfold used, outstanding, allocated_size. repeat split; auto; lia.
  - exists acc'. split; [reflexivity|exact H].
Qed.

Definition space_ok (cfg : config) (dk : disk) (s : store) : Prop :=
  (Z.of_N (outstanding s) <= Z.max 0 (Z.of_N (dk_capacity dk) - Z.of_N (used s) - Z.of_N (cf_reserved cfg)))%Z.

Lemma srun_from_inv (cfg : config) (dk : disk) (P : store -> list event -> Prop) :
  (forall s tr o, P s tr -> P (fst (sstep cfg dk s o)) (tr ++ [(close_env cfg dk s o, snd (sstep cfg dk s o))])) ->
  forall ops s tr0, P s tr0 -> P (fst (srun_from cfg dk s ops)) (tr0 ++ snd (srun_from cfg dk s ops)).
Proof.
  intros Hstep. induction ops as [|o ops IH]; intros s tr0 H0; cbn [srun_from].
  - cbn [fst snd]. rewrite app_nil_r. assumption.
  - specialize (Hstep s tr0 o H0). destruct (sstep cfg dk s o) as [s' r]. cbn [fst snd] in Hstep.
    specialize (IH s' (tr0 ++ [(close_env cfg dk s o, r)]) Hstep).
    destruct (srun_from cfg dk s' ops) as [s'' tr]. cbn [fst snd] in *.
    rewrite <- app_assoc in IH. exact IH.
Qed.

(* What a slot may still write plus what it has consumed never grows when the slot is replaced
   by [v], and no more of it has moved to the consumed side than the slot had outstanding. *)
Lemma space_ok_set_slot : forall cfg dk s k v,
  slot_outstanding v + N.max (slot_used (get s k)) (slot_used v) <= slot_outstanding (get s k) + slot_used (get s k) ->
  space_ok cfg dk s -> space_ok cfg dk (with_slots s (set_slot k v (st_slots s))).
Proof.
  intros cfg dk s k v Hv Hs.
  pose proof (sum_set_slot slot_used (st_slots s) k v eq_refl) as U.
  pose proof (sum_set_slot slot_outstanding (st_slots s) k v eq_refl) as O.
  fold (get s k) in U, O. unfold space_ok, outstanding, used in *. cbn [with_slots st_slots]. lia.
Qed.

Lemma space_ok_abort_where : forall cfg dk s p now,
  space_ok cfg dk s -> space_ok cfg dk (mkStore (abort_where p (st_slots s)) (st_next s) now).
Proof.
  intros cfg dk s p now Hs. unfold space_ok, outstanding, used in *. cbn [st_slots].
  pose proof (sum_abort_where_le slot_used p (st_slots s) eq_refl).
  pose proof (sum_abort_where_le slot_outstanding p (st_slots s) eq_refl). lia.
Qed.

Lemma available_bound : forall cfg dk s a,
  get_available_space cfg dk s = Some a ->
  (Z.of_N a <= Z.max 0 (Z.of_N (dk_capacity dk) - Z.of_N (used s) - Z.of_N (cf_reserved cfg)))%Z.
Proof.
  intros cfg dk s a H. unfold get_available_space in H.
  destruct (cf_readonly cfg); [|destruct (dk_mode dk)]; inversion H; try lia.
  unfold disk_stats_avail, bavail, free.
  pose proof (mul_div_le_any (dk_frsize dk) (dk_capacity dk - used s)). lia.
Qed.

Lemma available_some : forall cfg dk s,
  dk_mode dk <> StatMissing -> exists a, get_available_space cfg dk s = Some a.
Proof.
  intros cfg dk s Hm. unfold get_available_space. destruct (cf_readonly cfg); [eauto|].
  destruct (dk_mode dk); cbn [fileutil_available_space]; eauto. contradiction.
Qed.

Lemma allocate_space : forall cfg dk s si shs size c,
  dk_mode dk <> StatMissing -> space_ok cfg dk s ->
  space_ok cfg dk (fst (allocate (cf_readonly cfg) s si shs size c (get_available_space cfg dk s))).
Proof.
  intros cfg dk s si shs size c Hm Hs.
  destruct (available_some cfg dk s Hm) as [a Ha].
  destruct (allocate_accounts (cf_readonly cfg) s si shs size c (get_available_space cfg dk s))
    as (acc & _ & U & O & _ & F).
  pose proof (available_bound cfg dk s a Ha) as B.
  pose proof (outstanding_le_allocated s) as OA.
  unfold space_ok in *. rewrite U, O. destruct (F a Ha) as [->|F']; cbn [length]; lia.
Qed.

Lemma step_space : forall cfg dk s tr o,
  dk_mode dk <> StatMissing -> inv s tr -> space_ok cfg dk s -> space_ok cfg dk (fst (sstep cfg dk s o)).
Proof.
  intros cfg dk s tr o Hm Hi Hs. unfold sstep. destruct o; cbn [close_env step fst]; try exact Hs.
  - apply allocate_space; assumption.
  - destruct (write_specP s k wid off d) as [|w r Hg _ _|w f Hg _ Hne Hfit _]; cbn [fst]; [exact Hs| |];
      (apply space_ok_set_slot; [rewrite Hg|exact Hs]); cbn [slot_used slot_outstanding touch w_size w_ranges]; [lia|].
    pose proof (covered_count_rm_set (w_size w) (w_ranges w) off (off + blen d)).
    pose proof (covered_count_le (w_size w) (rm_set off (off + blen d) (w_ranges w))).
    pose proof (covered_count_le (w_size w) (w_ranges w)). lia.
  - destruct (close_cases s k wid) as [->|(w & Hg & _ & ->)]; cbn [fst]; [exact Hs|].
    apply space_ok_set_slot; [rewrite Hg|exact Hs]. cbn [slot_used slot_outstanding].
    (* the closed share occupies its whole allocated size *)
    pose proof (inv_slot _ _ Hi k) as Sk. rewrite Hg in Sk. destruct Sk as (_ & _ & _ & L & _).
    pose proof (covered_count_le (w_size w) (w_ranges w)). lia.
  - destruct (abort_cases s k wid) as [->|(w & Hg & _ & ->)]; cbn [fst]; [exact Hs|].
    apply space_ok_set_slot; [rewrite Hg|exact Hs]. cbn [slot_used slot_outstanding].
    pose proof (covered_count_le (w_size w) (w_ranges w)). lia.
  - apply space_ok_abort_where, Hs.
  - apply space_ok_abort_where, Hs.
Qed.

(* Also where statvfs fails (StatFails): the available space then counts as 0. *)
Theorem srun_space : forall cfg dk ops, dk_mode dk <> StatMissing ->
  inv (fst (srun cfg dk ops)) (snd (srun cfg dk ops)) /\ space_ok cfg dk (fst (srun cfg dk ops)).
Proof.
  intros cfg dk ops Hm. unfold srun.
  apply (srun_from_inv cfg dk (fun s tr => inv s tr /\ space_ok cfg dk s)) with (tr0 := []).
  - intros s tr o [Hi Hs]. split.
    + unfold sstep. apply step_inv. assumption.
    + eapply step_space; eauto.
  - split; [apply inv_init|]. unfold space_ok, outstanding, used, init. cbn [st_slots sum_slots]. lia.
Qed.

Theorem alloc_call_fits : forall cfg dk s si shs size c x al acc,
  snd (sstep cfg dk s (OAlloc si shs size c x)) = RAlloc al acc -> acc <> [] ->
  dk_mode dk <> StatMissing ->
  exists avail, get_available_space cfg dk s = Some avail
    /\ N.of_nat (length acc) * size + allocated_size s <= avail
    /\ (Z.of_N avail <= Z.max 0 (Z.of_N (dk_capacity dk) - Z.of_N (used s) - Z.of_N (cf_reserved cfg)))%Z.
Proof.
  intros cfg dk s si shs size c x al acc H Hne Hm. unfold sstep in H. cbn [close_env step] in H.
  destruct (available_some cfg dk s Hm) as [a Ha]. exists a.
  split; [exact Ha|]. split; [|exact (available_bound cfg dk s a Ha)].
  destruct (allocate_accounts (cf_readonly cfg) s si shs size c (get_available_space cfg dk s))
    as (acc' & E & _ & _ & _ & F).
  rewrite E in H. injection H as _ <-. destruct (F a Ha) as [->|F']; [contradiction|exact F'].
Qed.

(* with no upload in progress, every handle is stale *)
Lemma readonly_stays_empty : forall s o, st_slots s = [] -> st_slots (fst (step true s o)) = [].
Proof.
  intros s o Hs. assert (Hg : forall k, get s k = Absent) by (intros k; unfold get; rewrite Hs; reflexivity).
  destruct o; cbn [step fst]; try exact Hs.
  - unfold allocate. rewrite alloc_loop_readonly. exact Hs.
  - unfold write. rewrite Hg. exact Hs.
  - unfold close. rewrite Hg. exact Hs.
  - unfold abort. rewrite Hg. exact Hs.
  - unfold advance. cbn [st_slots]. rewrite Hs. reflexivity.
  - unfold disconnect. cbn [with_slots st_slots]. rewrite Hs. reflexivity.
Qed.

Theorem readonly_accepts_none_ok : forall cfg dk ops,
  cf_readonly cfg = true ->
  (forall si shs size c av al acc, In (OAlloc si shs size c av, RAlloc al acc) (snd (srun cfg dk ops)) -> acc = [])
  /\ st_slots (fst (srun cfg dk ops)) = []
  /\ allocated_size (fst (srun cfg dk ops)) = 0.
Proof.
  intros cfg dk ops Hro.
  pose (P := fun (s : store) (tr : list event) =>
               st_slots s = []
               /\ forall si shs size c av al acc, In (OAlloc si shs size c av, RAlloc al acc) tr -> acc = []).
  assert (H : P (fst (srun cfg dk ops)) (snd (srun cfg dk ops))).
  { unfold srun. apply (srun_from_inv cfg dk P) with (tr0 := []).
    - intros s tr o [Hs Ht]. unfold sstep. rewrite Hro. split; [apply readonly_stays_empty, Hs|].
      intros si shs size c av al acc [Hin|[= Ho Hr]]%in_snoc; [exact (Ht _ _ _ _ _ _ _ Hin)|].
      destruct o; try discriminate Ho. cbn [close_env step] in Hr. unfold allocate in Hr.
      rewrite alloc_loop_readonly in Hr. injection Hr as _ ->. reflexivity.
    - split; [reflexivity|]. intros ? ? ? ? ? ? ? []. }
  destruct H as [H1 H2]. split; [exact H2|]. split; [exact H1|].
  unfold allocated_size. rewrite H1. reflexivity.
Qed.

Theorem release_on_close_abort_ok : forall cfg dk s k w,
  get s k = Incoming w ->
  allocated_size (fst (sstep cfg dk s (OClose k (w_id w)))) + w_size w = allocated_size s
  /\ allocated_size (fst (sstep cfg dk s (OAbort k (w_id w)))) + w_size w = allocated_size s
  /\ (forall dt, w_deadline w <= st_now s + dt -> allocated_size (fst (sstep cfg dk s (OAdvance dt))) + w_size w <= allocated_size s)
  /\ allocated_size (fst (sstep cfg dk s (ODisconnect (w_canary w)))) + w_size w <= allocated_size s.
Proof.
  intros cfg dk s k w Hg. unfold sstep. cbn [close_env step]. split; [|split; [|split]].
  - rewrite (close_live _ _ _ Hg). apply allocated_size_release; [exact Hg|reflexivity].
  - rewrite (abort_live _ _ _ Hg). apply allocated_size_release; [exact Hg|reflexivity].
  - intros dt Hd. apply (sum_abort_where_releases slot_alloc _ (st_slots s) k w eq_refl Hg). apply N.leb_le, Hd.
  - apply (sum_abort_where_releases slot_alloc _ (st_slots s) k w eq_refl Hg). apply N.eqb_refl.
Qed.

Theorem reservation_held_ok : forall cfg dk s o,
  (match o with OClose _ _ | OAbort _ _ | OAdvance _ | ODisconnect _ => False | _ => True end) ->
  allocated_size s <= allocated_size (fst (sstep cfg dk s o)).
Proof.
  intros cfg dk s o Ho. unfold sstep. destruct o; try contradiction; cbn [close_env step fst]; try apply N.le_refl.
  - destruct (allocate_accounts (cf_readonly cfg) s si shs size canary (get_available_space cfg dk s))
      as (acc & _ & _ & _ & A & _).
    rewrite A. lia.
  - destruct (write_specP s k wid off d) as [|w r Hg _ _|w f Hg _ _ _ _]; cbn [fst]; [apply N.le_refl| |];
      (rewrite allocated_size_same; [apply N.le_refl|rewrite Hg; reflexivity]).
Qed.
