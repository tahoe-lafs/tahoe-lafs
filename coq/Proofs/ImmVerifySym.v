(* The symbolic hash instance (Model/ImmVerify.v: hs, ub) satisfies every hypothesis of the
   C02/C45 theorems, and small concrete files for the examples. *)
From Coq Require Import List ZArith NArith Bool.
From Verif Require Import Gen.ImmConsts Model.HashTree Model.ImmFile Model.ImmVerify Model.ImmCheck
  Proofs.ImmVerify.
Import ListNotations.
Local Open Scope Z_scope.

Lemma ln_eqb_spec : forall a b, ln_eqb a b = true <-> a = b.
Proof.
  induction a as [|x a IH]; destruct b as [|y b]; cbn [ln_eqb]; try (split; [discriminate|intros Hc; discriminate]).
  - split; reflexivity.
  - rewrite andb_true_iff, N.eqb_eq, IH. split; [intros [-> ->]; reflexivity|intros Hc; inversion Hc; auto].
Qed.

Lemma hs_eqb_spec : forall a b, hs_eqb a b = true <-> a = b.
Proof.
  induction a as [d|d|c1 IHc s1 IHs n1|z|a1 IH1 a2 IH2|i|n]; destruct b as [d'|d'|c2 s2 n2|z'|b1 b2|i'|n'];
    cbn [hs_eqb]; try (split; [discriminate|intros Hc; discriminate]).
  - rewrite ln_eqb_spec. split; [intros ->; reflexivity|intros Hc; inversion Hc; reflexivity].
  - rewrite ln_eqb_spec. split; [intros ->; reflexivity|intros Hc; inversion Hc; reflexivity].
  - rewrite !andb_true_iff, IHc, IHs, ln_eqb_spec. split; [intros [[-> ->] ->]; reflexivity|intros Hc; inversion Hc; auto].
  - rewrite Z.eqb_eq. split; [intros ->; reflexivity|intros Hc; inversion Hc; reflexivity].
  - rewrite andb_true_iff, IH1, IH2. split; [intros [-> ->]; reflexivity|intros Hc; inversion Hc; auto].
  - rewrite Z.eqb_eq. split; [intros ->; reflexivity|intros Hc; inversion Hc; reflexivity].
  - rewrite Z.eqb_eq. split; [intros ->; reflexivity|intros Hc; inversion Hc; reflexivity].
Qed.

Lemma optn_inj : forall a b r1 r2, optn a ++ r1 = optn b ++ r2 -> a = b /\ r1 = r2.
Proof. intros [a|] [b|] r1 r2 Hc; cbn in Hc; inversion Hc; auto. Qed.

Lemma opt3_inj : forall a b r1 r2, opt3 a ++ r1 = opt3 b ++ r2 -> a = b /\ r1 = r2.
Proof. intros [[[a1 a2] a3]|] [[[b1 b2] b3]|] r1 r2 Hc; cbn in Hc; inversion Hc; auto. Qed.

Lemma ueb_nums_inj : forall u1 u2 : ueb hs,
  ueb_nums u1 = ueb_nums u2 -> u_crypttext_root u1 = u_crypttext_root u2 -> u_share_root u1 = u_share_root u2 -> u1 = u2.
Proof.
  intros [ss1 c1 s1 ok1 cp1 tp1 ns1 sz1 k1 n1 hl1] [ss2 c2 s2 ok2 cp2 tp2 ns2 sz2 k2 n2 hl2] Hn Hc Hs.
  cbn in Hc, Hs. subst c2 s2. unfold ueb_nums in Hn. cbn [u_segment_size u_codec_ok u_codec_params u_tail_codec_params
    u_num_segments u_size u_needed_shares u_total_shares u_crypttext_hash_len app] in Hn.
  inversion Hn as [[E1 E2 E3]]. clear Hn.
  apply opt3_inj in E3. destruct E3 as [-> E3]. apply opt3_inj in E3. destruct E3 as [-> E3].
  apply optn_inj in E3. destruct E3 as [-> E3]. apply optn_inj in E3. destruct E3 as [-> E3].
  apply optn_inj in E3. destruct E3 as [-> E3]. apply optn_inj in E3. destruct E3 as [-> E3].
  rewrite <- (app_nil_r (optn hl1)), <- (app_nil_r (optn hl2)) in E3. apply optn_inj in E3. destruct E3 as [-> _].
  assert (ok1 = ok2) as -> by (destruct ok1, ok2; try reflexivity; discriminate).
  reflexivity.
Qed.

Lemma sym_ueb_hash_inj : forall a b, sym_ueb_hash a = sym_ueb_hash b -> a = b.
Proof.
  intros [u1|z1] [u2|z2] Hh; cbn [sym_ueb_hash] in Hh; try discriminate.
  - injection Hh as E1 E2 E3 E4 E5. f_equal. apply ueb_nums_inj; try assumption.
    unfold ueb_nums. cbn [app]. congruence.
  - inversion Hh. reflexivity.
Qed.

Lemma sym_hypotheses :
  (forall a b, hs_eqb a b = true <-> a = b) /\
  (forall h, sym_truthy h = true) /\
  (forall a b c d, HPair a b = HPair c d -> a = c /\ b = d) /\
  (forall a b, HBlock a = HBlock b -> a = b) /\
  (forall a b, HSeg a = HSeg b -> a = b) /\
  (forall a b, sym_ueb_hash a = sym_ueb_hash b -> a = b) /\
  (forall u, sym_parse_ueb (UbOk u) = Some u).
Proof.
  split; [exact hs_eqb_spec|]. split; [reflexivity|].
  split; [intros a b c d Hc; inversion Hc; auto|].
  split; [intros a b Hc; inversion Hc; reflexivity|].
  split; [intros a b Hc; inversion Hc; reflexivity|].
  split; [exact sym_ueb_hash_inj|reflexivity].
Qed.

(* a 2-of-3-like file of 5 bytes in 3 segments (the blocks are arbitrary distinct data: the
   validation never looks inside them) and a one-segment file *)
Definition f3 : efile :=
  mkEf 2 3 5 2 [[1;2];[3;4];[5]]%N
       [[[1];[2];[9]]; [[3];[4];[8]]; [[5];[0];[7]]]%N.
Definition f1 : efile := mkEf 2 2 2 2 [[1;2]]%N [[[1];[2]]]%N.

Lemma f3_wf : ef_wf f3.
Proof. constructor; vm_compute; try reflexivity; discriminate. Qed.
Lemma f1_wf : ef_wf f1.
Proof. constructor; vm_compute; try reflexivity; discriminate. Qed.

Definition no_ord : nat -> list Z := fun _ => [].
Definition no_ord2 : nat -> nat -> list Z := fun _ _ => [].
Definition off0 : offsets := mk_off 36 100 200 304 400 434.

Definition f3_cap := sym_g_cap [] f3.
Definition f3_share (i : Z) := sym_g_share f3 1 (mk_off 36 39 263 487 711 813) i.
Definition f1_cap := sym_g_cap [] f1.
Definition f1_share (i : Z) := sym_g_share f1 1 off0 i.
