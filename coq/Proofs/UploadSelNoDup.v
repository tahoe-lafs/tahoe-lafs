(* C06: with servers that allocate only what they were asked for, no two trackers ever hold a bucket for
   the same share number, so the assertion in CHKUploader.set_shareholders cannot fail (the defect repaired in
   /repo 111e37b: _allocation_for skips a share another tracker already holds). *)
From Coq Require Import List NArith ZArith Bool.
From Verif Require Import Lib.ListFacts Model.Matching Proofs.Matching Model.UploadSel Proofs.UploadSelBase Proofs.UploadSelSelector Proofs.UploadSelEncoder Proofs.UploadSel.
Import ListNotations.
Local Open Scope N_scope.

Lemma dm_get_add_same : forall k v m, dm_get k (dm_add k v m) = set_add v (dm_get k m).
Proof.
  intros k v m. induction m as [|[q l] r IH]; cbn [dm_add dm_get].
  - rewrite N.eqb_refl. reflexivity.
  - destruct (N.eqb k q) eqn:E; cbn [dm_get]; rewrite E; [reflexivity|exact IH].
Qed.

Lemma dm_get_add_other : forall k k' v m, k' <> k -> dm_get k' (dm_add k v m) = dm_get k' m.
Proof.
  intros k k' v m Hne. apply N.eqb_neq in Hne. induction m as [|[q l] r IH]; cbn [dm_add dm_get]; [rewrite Hne; reflexivity|].
  destruct (N.eqb_spec k q) as [->|_]; cbn [dm_get]; [rewrite Hne; reflexivity|]. destruct (N.eqb k' q); [reflexivity|exact IH].
Qed.

Lemma In_dm_get_add_all : forall k vs m k' x,
  In x (dm_get k' (dm_add_all k vs m)) <-> In x (dm_get k' m) \/ (k' = k /\ In x vs).
Proof.
  intros k vs. unfold dm_add_all. induction vs as [|v vs IH]; intros m k' x; cbn [fold_left In]; [tauto|].
  rewrite IH. destruct (N.eq_dec k' k) as [->|Hne].
  - rewrite dm_get_add_same, In_set_add. intuition.
  - rewrite (dm_get_add_other _ _ _ _ Hne). tauto.
Qed.

Lemma NoDup_set_add : forall x l, NoDup l -> NoDup (set_add x l).
Proof.
  intros x l H. unfold set_add. destruct (memN x l) eqn:E; [exact H|].
  apply NoDup_snoc; [exact H|]. rewrite <- memN_In, E. discriminate.
Qed.

Lemma dm_add_all_nodup : forall p alloc bk, (forall q, NoDup (dm_get q bk)) -> forall q, NoDup (dm_get q (dm_add_all p alloc bk)).
Proof.
  intros p alloc bk H. unfold dm_add_all. apply (fold_left_preserves (fun m => forall q, NoDup (dm_get q m))); [|exact H].
  intros m a Hbk q.
  destruct (N.eq_dec q p) as [->|Hne]; [rewrite dm_get_add_same; apply NoDup_set_add|rewrite dm_get_add_other by exact Hne]; apply Hbk.
Qed.

Lemma NoDup_flat_map : forall (A B : Type) (f : A -> list B) (l : list A),
  NoDup l -> (forall a, NoDup (f a)) ->
  (forall a a' b, In a l -> In a' l -> In b (f a) -> In b (f a') -> a = a') -> NoDup (flat_map f l).
Proof.
  intros A B f l. induction l as [|a r IH]; intros Hl Hf Hd; cbn [flat_map]; [constructor|].
  apply NoDup_cons_iff in Hl. destruct Hl as [Ha Hr]. apply NoDup_app_intro; [apply Hf| |].
  - apply IH; [exact Hr|exact Hf|]. intros p q s Hp Hq. apply Hd; right; assumption.
  - intros s Hs Hin. apply in_flat_map in Hin. destruct Hin as [q [Hq Hsq]].
    rewrite (Hd a q s) in Ha by (cbn [In]; auto). exact (Ha Hq).
Qed.

Definition holds (st : sel) (p s : N) : Prop := In s (dm_get p (s_buckets st)).

(* holds of every run *)
Definition bk_wf (st : sel) : Prop :=
  (forall p s, holds st p s -> In p (s_use st)) /\ NoDup (s_use st) /\ (forall p, NoDup (dm_get p (s_buckets st))).

(* needs honest servers *)
Definition bk_inv (st : sel) : Prop := (forall p q s, holds st p s -> holds st q s -> p = q) /\ bk_wf st.

Lemma map_snd_sel_buckets : forall st, map snd (sel_buckets st) = flat_map (fun p => dm_get p (s_buckets st)) (s_use st).
Proof.
  intros st. unfold sel_buckets. induction (s_use st) as [|p r IH]; cbn [flat_map map]; [reflexivity|].
  rewrite map_app, IH, map_map. cbn [snd]. rewrite map_id. reflexivity.
Qed.

Lemma bk_inv_no_dup_share : forall st, bk_inv st -> has_dup_share st = false.
Proof.
  intros st (U & M & V & S). unfold has_dup_share. rewrite NoDup_nodupN; [reflexivity|].
  rewrite map_snd_sel_buckets. apply NoDup_flat_map; [exact V|exact S|].
  intros p q s _ _ Hp Hq. exact (U p q s Hp Hq).
Qed.

Lemma bk_inv_ext : forall st st', s_use st' = s_use st -> s_buckets st' = s_buckets st -> bk_inv st -> bk_inv st'.
Proof. intros st st' Eu Eb H. unfold bk_inv, bk_wf, holds in *. rewrite Eu, Eb. exact H. Qed.

Lemma bk_inv_init : forall c, bk_inv (sel_init c).
Proof. intros c. unfold bk_inv, bk_wf, holds. cbn. repeat apply conj; try constructor; intros; contradiction. Qed.

Lemma alloc_answer_wf : forall p ask r st, bk_wf st -> bk_wf (alloc_answer p ask r st).
Proof.
  intros p ask r st (M & V & S).
  destruct (alloc_answer_fields p ask r st) as [_ [Eb Eu]]. unfold bk_wf, holds. rewrite Eb, Eu. repeat apply conj.
  - intros q s H. apply In_dm_get_add_all in H. destruct H as [H|[-> H]].
    + apply M in H. destruct (is_nil (allocs r)); [exact H|apply In_set_add; auto].
    + destruct (allocs r) as [|a l]; [destruct H|]. apply In_set_add. auto.
  - destruct (is_nil (allocs r)); [exact V|apply NoDup_set_add; exact V].
  - apply dm_add_all_nodup. exact S.
Qed.

Lemma alloc_answer_holds : forall p ask r st q s,
  subsetb (allocs r) ask = true -> holds (alloc_answer p ask r st) q s -> holds st q s \/ (q = p /\ In s ask).
Proof.
  intros p ask r st q s Hr. unfold holds. rewrite (proj1 (proj2 (alloc_answer_fields p ask r st))), In_dm_get_add_all.
  intros [H|[-> H]]; [auto|right]. split; [reflexivity|]. apply memN_In. exact (proj1 (forallb_forall _ _) Hr s H).
Qed.

Lemma allocation_for_ext : forall a b plan p, s_use a = s_use b -> s_buckets a = s_buckets b -> allocation_for a plan p = allocation_for b plan p.
Proof. intros a b plan p Eu Eb. unfold allocation_for, held_elsewhere. rewrite Eu, Eb. reflexivity. Qed.

Lemma allocation_for_spec : forall st plan p s,
  In s (allocation_for st plan p) -> In (s, Some p) plan /\ held_elsewhere st p s = false.
Proof.
  intros st plan p s. unfold allocation_for.
  enough (G : forall acc, In s (fold_left (fun acc e => match snd e with
                          | Some q => if N.eqb p q && negb (held_elsewhere st p (fst e)) then set_add (fst e) acc else acc
                          | None => acc end) plan acc) -> In s acc \/ (In (s, Some p) plan /\ held_elsewhere st p s = false))
    by (intros H; destruct (G [] H) as [[]|H']; exact H').
  induction plan as [|[sh o] plan IH]; intros acc H; cbn [fold_left fst snd In] in *; [auto|].
  destruct (IH _ H) as [H'|[H1 H2]]; [|tauto].
  destruct o as [q|]; [|auto].
  destruct (N.eqb_spec p q) as [<-|_]; [|auto]. destruct (held_elsewhere st p sh) eqn:E; cbn [andb negb] in H'; [auto|].
  apply In_set_add in H'. destruct H' as [->|H']; auto.
Qed.

Lemma held_elsewhere_false : forall st p s q, held_elsewhere st p s = false -> In q (s_use st) -> holds st q s -> q = p.
Proof.
  intros st p s q H Hq Hs. destruct (N.eqb_spec q p) as [E|Hne]; [exact E|]. exfalso.
  enough (T : held_elsewhere st p s = true) by congruence.
  apply existsb_exists. exists q. split; [exact Hq|]. apply andb_true_iff. split; [apply negb_true_iff, N.eqb_neq; exact Hne|].
  apply memN_In. exact Hs.
Qed.

(* what is held now is what was held plus shares _allocation_for would ask for: still one holder per share *)
Lemma allocation_keeps_one_holder : forall st plan (h : N -> N -> Prop),
  NoDup (map fst plan) -> bk_inv st ->
  (forall q s, h q s -> holds st q s \/ In s (allocation_for st plan q)) ->
  forall p q s, h p s -> h q s -> p = q.
Proof.
  intros st plan h Hplan (U & M & _) J p q s Hp Hq.
  destruct (J _ _ Hp) as [Op|Np]; destruct (J _ _ Hq) as [Oq|Nq]; try apply allocation_for_spec in Np; try apply allocation_for_spec in Nq.
  - exact (U p q s Op Oq).
  - exact (held_elsewhere_false st q s p (proj2 Nq) (M p s Op) Op).
  - symmetry. exact (held_elsewhere_false st p s q (proj2 Np) (M q s Oq) Oq).
  - pose proof (NoDup_fst_unique _ _ _ _ Hplan (proj1 Np) (proj1 Nq)). congruence.
Qed.

(* every query of a round asks for _allocation_for as computed at the start of the round (st0): sending queries
   changes neither use_trackers nor the buckets *)
Lemma send_queries_sent : forall plan ts st sent st' sent' st0,
  send_queries plan ts st sent = (st', sent') -> s_use st = s_use st0 -> s_buckets st = s_buckets st0 ->
  (forall e, In e sent -> snd e = allocation_for st0 plan (fst e)) ->
  forall e, In e sent' -> snd e = allocation_for st0 plan (fst e).
Proof.
  intros plan ts. induction ts as [|p ts IH]; intros st sent st' sent' st0 E Eu Eb Hs; cbn [send_queries] in E.
  - injection E as <- <-. exact Hs.
  - rewrite (allocation_for_ext st st0 plan p Eu Eb) in E.
    match type of E with context [if ?b then _ else _] => destruct b end;
      (eapply IH; [exact E|exact Eu|exact Eb|]); [|exact Hs].
    intros e He. apply in_app_or in He. destruct He as [He|[<-|[]]]; [apply Hs; exact He|reflexivity].
Qed.

Lemma lookup_ask_In : forall p sent a, lookup_ask p sent = Some a -> In (p, a) sent.
Proof.
  intros p sent a. induction sent as [|[q b] r IH]; cbn [lookup_ask]; [discriminate|].
  destruct (N.eqb_spec p q) as [->|_]; [intros [= ->]; left; reflexivity|right; auto].
Qed.

Lemma handle_allocs_honest : forall resps pending st st' pending',
  allocs_honest resps pending = true -> handle_allocs resps pending st = (st', pending') -> bk_wf st ->
  bk_wf st' /\ forall q s, holds st' q s -> holds st q s \/ exists ask, In (q, ask) pending /\ In s ask.
Proof.
  induction resps as [|[p r] rest IH]; intros pending st st' pending' Hh E W; cbn [handle_allocs] in E; cbn [allocs_honest] in Hh.
  - injection E as <- <-. auto.
  - destruct (lookup_ask p pending) as [ask|] eqn:L; [|eapply IH; eassumption].
    apply andb_true_iff in Hh. destruct Hh as [Hr Hh]. apply lookup_ask_In in L.
    assert (Hr' : subsetb (allocs r) ask = true) by (destruct r; exact Hr).
    destruct (IH _ _ _ _ Hh E (alloc_answer_wf p ask r st W)) as [W' J]. split; [exact W'|]. intros q s H.
    destruct (J q s H) as [H'|(a & Ha & Hs)].
    + destruct (alloc_answer_holds _ _ _ _ _ _ Hr' H') as [H''|[-> H'']]; eauto.
    + apply filter_In in Ha. right. exists a. tauto.
Qed.

Lemma do_round_bk_inv : forall c r st st' sent,
  NoDup (map fst (r_plan r)) -> round_honest c r st = true -> bk_inv st -> do_round c r st = Some (st', sent) -> bk_inv st'.
Proof.
  intros c r st st' sent Hp Hh Hi E. destruct (do_round_Some _ _ _ _ _ E) as (st1 & E1 & E2).
  unfold round_honest in Hh. rewrite E1 in Hh.
  destruct (send_queries_keeps _ _ _ _ _ _ E1) as [_ [Eb Eu]].
  destruct (handle_allocs_honest _ _ _ _ _ Hh E2 (proj2 (bk_inv_ext _ _ Eu Eb Hi))) as [W J].
  split; [|exact W]. apply (allocation_keeps_one_holder st (r_plan r) _ Hp Hi). intros q s H.
  destruct (J q s H) as [H'|(ask & Ha & Hs)]; [left; unfold holds in *; rewrite <- Eb; exact H'|right].
  pose proof (send_queries_sent _ _ _ _ _ _ st E1 eq_refl eq_refl (fun e (F : In e []) => match F with end) _ Ha) as Hq.
  cbn [fst snd] in Hq. rewrite <- Hq. exact Hs.
Qed.

Lemma sel_loop_bk_inv : forall c rounds last st qs st' qs',
  (forall r, In r rounds -> NoDup (map fst (r_plan r))) -> loop_honest c rounds last st = true ->
  bk_inv st -> sel_loop c rounds last st qs = Some (st', qs') -> bk_inv st'.
Proof.
  intros c rounds. induction rounds as [|r rest IH]; intros last st qs st' qs' Hp Hh Hi E; cbn [sel_loop] in E; [discriminate|].
  cbn [loop_honest] in Hh. apply andb_true_iff in Hh. destruct Hh as [Hr Hh].
  destruct (do_round c r st) as [[st1 sent]|] eqn:E1; [|discriminate].
  assert (H1 : bk_inv st1) by (eapply do_round_bk_inv; [apply Hp; left; reflexivity|exact Hr|exact Hi|exact E1]).
  destruct (happiness st1) as [eff|]; [|discriminate].
  destruct (match last with Some l => Z.eqb eff l | None => false end); [injection E as <- _; exact H1|].
  destruct (N.eqb (s_bad st) (s_bad st1)); [injection E as <- _; exact H1|].
  destruct (Z.ltb eff (c_happy c) && negb (is_nil (s_wtrackers st1))); [|injection E as <- _; exact H1].
  eapply IH; [|exact Hh|exact H1|exact E]. intros r' Hin. apply Hp. right; exact Hin.
Qed.

Lemma honest_never_asserts_shape : forall c x r, run_shape c x r ->
  plans_functional x -> honest_run c x -> r_verdict r <> VAssert.
Proof.
  intros c x r [| |st qs eff (st1 & P1 & SL) HP L D| |] Hp Hh; cbn [mk_result r_verdict]; try discriminate.
  exfalso. unfold honest_run in Hh. rewrite P1 in Hh. cbn [fst] in Hh.
  destruct (phase1_keeps _ _ _ _ _ _ P1) as [Eu Eb]. pose proof (bk_inv_ext _ _ Eu Eb (bk_inv_init c)) as B1.
  rewrite (bk_inv_no_dup_share st (sel_loop_bk_inv c (x_rounds x) None st1 [] st qs Hp Hh B1 SL)) in D. discriminate.
Qed.

(* the boolean the driver evaluates on recorded traces implies the two hypotheses *)
Lemma honest_runb_sound : forall c x, honest_runb c x = true -> plans_functional x /\ honest_run c x.
Proof.
  intros c x H. unfold honest_runb in H. apply andb_true_iff in H. destruct H as [H1 H2]. split; [|exact H2].
  intros r Hr. rewrite forallb_forall in H1. apply nodupN_NoDup. apply H1. exact Hr.
Qed.
