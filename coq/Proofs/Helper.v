(* C44: proofs about Model/Helper.v *)
From Coq Require Import List NArith Arith Bool Lia.
From Verif Require Import Model.Helper.
Import ListNotations.

Definition is_prefix (a b : bytes) : Prop := exists t, b = a ++ t.

Definition positive (cs : list nat) : Prop := Forall (fun c => 0 < c) cs.

Lemma slice_of_prefix : forall file t len, slice (file ++ t) (length file) len = firstn len t.
Proof.
  intros. unfold slice. rewrite skipn_app. rewrite skipn_all. rewrite Nat.sub_diag. reflexivity.
Qed.

Lemma prefix_refl : forall a, is_prefix a a.
Proof. intros a. exists []. rewrite app_nil_r. reflexivity. Qed.

(* a read at the end of the incoming file, by a reader that is not ahead of it, is served with the next bytes *)
Lemma read_at_offset : forall file t r len,
    rd_offset r <= length file ->
    remote_read_encrypted (file ++ t) r (length file) len
    = Some (firstn len t, mk_reader (length file + length (firstn len t)) (rd_sent r + length (firstn len t))
                                    (S (rd_calls r))).
Proof.
  intros file t r len RO. unfold remote_read_encrypted. rewrite slice_of_prefix.
  destruct (length file <? rd_offset r) eqn:C; [apply Nat.ltb_lt in C; lia|reflexivity].
Qed.

Lemma fetch_step_prefix : forall (file t : bytes) chunk,
    fetch_step (length (file ++ t)) (length file) chunk
    = if Nat.min (length t) chunk =? 0 then FDone else FRead (length file) (Nat.min (length t) chunk).
Proof.
  intros file t chunk. unfold fetch_step. rewrite app_length.
  replace (length file + length t - length file) with (length t) by lia.
  destruct (length file + length t <? length file) eqn:C; [apply Nat.ltb_lt in C; lia|reflexivity].
Qed.

(* the loop from a prefix, whatever the chunking and wherever it is cut: no read is refused; when the loop
   says "done" the file IS the ciphertext; when the schedule runs out first, every round was served, each
   added at least one byte, and the file is still a proper prefix *)
Lemma fetch_loop_spec : forall cs ct r file res r',
    positive cs -> is_prefix file ct -> rd_offset r <= length file ->
    fetch_loop cs ct r file = (res, r') ->
    res = Complete ct
    \/ exists f, res = Interrupted f /\ is_prefix file f /\ is_prefix f ct
                 /\ length file + length cs <= length f < length ct /\ rd_calls r' = rd_calls r + length cs.
Proof.
  induction cs as [|c cs IH]; intros ct r file res r' P [t ->] RO H; cbn [fetch_loop] in H;
    rewrite fetch_step_prefix in H.
  - destruct t as [|x t]; cbn in H; inversion H; subst res r'.
    + left. rewrite app_nil_r. reflexivity.
    + right. exists file. split; [reflexivity|]. split; [apply prefix_refl|]. split; [exists (x :: t); reflexivity|].
      rewrite app_length. cbn. lia.
  - inversion P as [|c' cs' PC PCS]; subst c' cs'.
    destruct (Nat.min (length t) c =? 0) eqn:Z.
    + apply Nat.eqb_eq in Z. destruct t; [|cbn [length] in Z; lia].
      inversion H. left. rewrite app_nil_r. reflexivity.
    + apply Nat.eqb_neq in Z. rewrite (read_at_offset file t r _ RO) in H.
      set (d := firstn (Nat.min (length t) c) t) in H.
      assert (LD : length d = Nat.min (length t) c) by (unfold d; rewrite firstn_length; lia).
      apply IH in H; [|exact PCS| |cbn; rewrite app_length; lia].
      2:{ exists (skipn (Nat.min (length t) c) t). rewrite <- app_assoc. unfold d. rewrite firstn_skipn. reflexivity. }
      destruct H as [->|(f & -> & [u PF] & PF' & L & K)]; [left; reflexivity|].
      right. exists f. split; [reflexivity|]. split; [exists (d ++ u); rewrite app_assoc; exact PF|].
      split; [exact PF'|]. rewrite app_length in L. cbn in K |- *. lia.
Qed.

Lemma fetch_loop_completes : forall cs ct r file,
    positive cs -> is_prefix file ct -> rd_offset r <= length file ->
    length ct - length file <= length cs ->
    exists r', fetch_loop cs ct r file = (Complete ct, r').
Proof.
  intros cs ct r file P PR RO N. destruct (fetch_loop cs ct r file) as [res r'] eqn:H. exists r'.
  destruct (fetch_loop_spec cs ct r file res r' P PR RO H) as [->|(f & _ & _ & _ & L & _)]; [reflexivity|lia].
Qed.

Lemma nil_prefix : forall ct, is_prefix [] ct.
Proof. intros ct. exists ct. reflexivity. Qed.

Lemma interrupted_leaves_prefix_ok : forall cs ct incoming f r,
    positive cs -> is_prefix incoming ct ->
    fetch_loop cs ct fresh_reader incoming = (Interrupted f, r) -> is_prefix f ct.
Proof.
  intros cs ct incoming f r P PR H.
  destruct (fetch_loop_spec cs ct fresh_reader incoming _ r P PR (Nat.le_0_l _) H) as [E|(f' & E & _ & PF & _)];
    inversion E; subst f'. exact PF.
Qed.

Lemma resume_from_prefix_ok : forall cs ct incoming,
    positive cs -> is_prefix incoming ct -> length ct - length incoming <= length cs ->
    fst (fetch_loop cs ct fresh_reader incoming) = Complete ct.
Proof.
  intros cs ct incoming P PR N.
  destruct (fetch_loop_completes cs ct fresh_reader incoming P PR (Nat.le_0_l _) N) as [r' E]. rewrite E. reflexivity.
Qed.

Lemma resumed_equals_uninterrupted : forall ct cs1 cs2 cs f1 r1,
    positive cs1 -> positive cs2 -> positive cs ->
    fetch_loop cs1 ct fresh_reader [] = (Interrupted f1, r1) ->
    length ct - length f1 <= length cs2 -> length ct <= length cs ->
    fst (fetch_loop cs2 ct fresh_reader f1) = Complete ct
    /\ fst (fetch_loop cs ct fresh_reader []) = Complete ct.
Proof.
  intros ct cs1 cs2 cs f1 r1 P1 P2 P H N2 N. split.
  - apply resume_from_prefix_ok; try assumption.
    eapply interrupted_leaves_prefix_ok; [exact P1|apply nil_prefix|exact H].
  - apply resume_from_prefix_ok; try assumption; [apply nil_prefix|cbn; lia].
Qed.

(* the first request of a session starts at the size of the incoming file; `rest` is a session from have + len *)
Lemma requests_start_at_have : forall fuel size have chunk off len rest,
    fetch_requests fuel size have chunk = (off, len) :: rest -> off = have /\ 0 < len /\ have + len <= size.
Proof.
  intros fuel size have chunk off len rest H. destruct fuel; cbn in H; [discriminate|].
  unfold fetch_step in H. destruct (size <? have) eqn:C; [discriminate|]. apply Nat.ltb_ge in C.
  destruct (Nat.min (size - have) chunk =? 0) eqn:Z; [discriminate|]. apply Nat.eqb_neq in Z.
  inversion H; subst. repeat split; lia.
Qed.

Section Upload.
  Variable encode : bytes -> params -> list bytes.
  Variable ueb_hash : bytes -> params -> bytes.

  Lemma build_cap_own : forall key ct p fetched,
      build_cap key (length ct) p (snd (helper_encode encode ueb_hash ct p fetched))
      = Some (snd (direct_upload encode ueb_hash key ct p)).
  Proof.
    intros. unfold build_cap, helper_encode, direct_upload. cbn. rewrite !Nat.eqb_refl. reflexivity.
  Qed.

  Lemma helper_equals_direct : forall key ct p cs incoming,
      positive cs -> is_prefix incoming ct -> length ct - length incoming <= length cs ->
      exists reads,
        assisted_session encode ueb_hash key ct p cs incoming
        = (Complete ct, Some (direct_upload encode ueb_hash key ct p), reads).
  Proof.
    intros key ct p cs incoming P PR N. unfold assisted_session.
    destruct (fetch_loop_completes cs ct fresh_reader incoming P PR (Nat.le_0_l _) N) as [r' E]. rewrite E.
    exists (rd_calls r'). cbn [helper_encode].
    pose proof (build_cap_own key ct p (rd_sent r')) as B. cbn [helper_encode snd] in B. rewrite B.
    reflexivity.
  Qed.

  Lemma already_present : forall key ct p cs incoming found u,
      u_n u <= length (nodup Nat.eq_dec found) ->
      upload_chk false found (Some u) = AlreadyPresent (mk_hur (u_hash u) (u_k u) (u_n u) (u_segsize u) (u_size u) 0 0)
      /\ snd (client_upload encode ueb_hash key ct p cs incoming false found (Some u)) = 0
      /\ (u_hash u = ueb_hash ct p -> u_k u = p_k p -> u_n u = p_n p -> u_segsize u = p_segsize p -> u_size u = length ct ->
          fst (client_upload encode ueb_hash key ct p cs incoming false found (Some u))
          = Some (snd (direct_upload encode ueb_hash key ct p))).
  Proof.
    intros key ct p cs incoming found u H.
    assert (E : upload_chk false found (Some u) = AlreadyPresent (mk_hur (u_hash u) (u_k u) (u_n u) (u_segsize u) (u_size u) 0 0)).
    { unfold upload_chk, chk_check. destruct (length (nodup Nat.eq_dec found) <? u_n u) eqn:C; [apply Nat.ltb_lt in C; lia|reflexivity]. }
    split; [exact E|]. unfold client_upload. rewrite E. split; [reflexivity|].
    intros H1 H2 H3 H4 H5. cbn [fst]. unfold build_cap, direct_upload. cbn.
    rewrite H1, H2, H3, H4, H5, !Nat.eqb_refl. reflexivity.
  Qed.

  Lemma not_all_shares : forall found u active,
      length (nodup Nat.eq_dec found) < u_n u -> upload_chk active found (Some u) = NeedUpload.
  Proof.
    intros found u active H. unfold upload_chk, chk_check. destruct active; [reflexivity|].
    destruct (length (nodup Nat.eq_dec found) <? u_n u) eqn:C; [reflexivity|apply Nat.ltb_ge in C; lia].
  Qed.

  Lemma no_ueb : forall found active, upload_chk active found None = NeedUpload.
  Proof. intros. unfold upload_chk, chk_check. destruct active; reflexivity. Qed.
End Upload.
