(* Proofs for C11 over Model/ServerMap.v *)
From Coq Require Import List NArith Bool Lia Sorted.
From Verif Require Import Model.ServerMap.
Import ListNotations.
Local Open Scope N_scope.

Lemma version_eqb_eq a b : version_eqb a b = true <-> a = b.
Proof.
  unfold version_eqb. rewrite !andb_true_iff, !N.eqb_eq. destruct a, b; cbn. split.
  - intros [[-> ->] ->]. reflexivity.
  - intros [= -> -> ->]. auto.
Qed.

Lemma version_eq_dec (a b : version) : {a = b} + {a <> b}.
Proof. decide equality; apply N.eq_dec. Qed.

(* mem_N, dedup_N here, mem_ver, dedup_ver, and mem_N, dedup_N of Model/Publish.v are the same two
   functions up to the equality test: their properties, from the defining equations *)
Section Dedup.
  Context {A : Type} (eqb : A -> A -> bool) (mem : A -> list A -> bool) (dedup : list A -> list A).
  Hypothesis eqb_eq : forall a b, eqb a b = true <-> a = b.
  Hypothesis mem_nil : forall x, mem x [] = false.
  Hypothesis mem_cons : forall x y r, mem x (y :: r) = eqb x y || mem x r.
  Hypothesis dedup_nil : dedup [] = [].
  Hypothesis dedup_cons : forall x r, dedup (x :: r) = if mem x r then dedup r else x :: dedup r.

  Lemma mem_In x l : mem x l = true <-> In x l.
  Proof.
    induction l as [|y r IH]; [rewrite mem_nil; split; [discriminate|contradiction]|].
    rewrite mem_cons, orb_true_iff, IH, eqb_eq. cbn. split; intros [H|H]; auto.
  Qed.

  Lemma dedup_In x l : In x (dedup l) <-> In x l.
  Proof.
    induction l as [|y r IH]; [rewrite dedup_nil; tauto|]. rewrite dedup_cons.
    destruct (mem y r) eqn:E; cbn; rewrite IH; [|tauto].
    apply mem_In in E. split; [auto|]. intros [<-|H]; assumption.
  Qed.

  Lemma dedup_NoDup l : NoDup (dedup l).
  Proof.
    induction l as [|y r IH]; [rewrite dedup_nil; constructor|]. rewrite dedup_cons.
    destruct (mem y r) eqn:E; [exact IH|]. constructor; [|exact IH].
    rewrite dedup_In, <- mem_In, E. discriminate.
  Qed.
End Dedup.

Lemma mem_ver_In v l : mem_ver v l = true <-> In v l.
Proof. apply (mem_In version_eqb mem_ver version_eqb_eq); reflexivity. Qed.

Lemma mem_N_In x l : mem_N x l = true <-> In x l.
Proof. apply (mem_In N.eqb mem_N N.eqb_eq); reflexivity. Qed.

Lemma dedup_ver_In v l : In v (dedup_ver l) <-> In v l.
Proof. apply (dedup_In version_eqb mem_ver dedup_ver version_eqb_eq); reflexivity. Qed.

Lemma dedup_N_In x l : In x (dedup_N l) <-> In x l.
Proof. apply (dedup_In N.eqb mem_N dedup_N N.eqb_eq); reflexivity. Qed.

Lemma dedup_N_NoDup l : NoDup (dedup_N l).
Proof. apply (dedup_NoDup N.eqb mem_N dedup_N N.eqb_eq); reflexivity. Qed.

Lemma shnums_of_In m v n : In n (shnums_of m v) <-> exists s, In s m /\ ver s = v /\ shnum s = n.
Proof.
  unfold shnums_of. rewrite dedup_N_In, in_map_iff.
  split; intros [s H]; exists s; rewrite filter_In, version_eqb_eq in *; tauto.
Qed.

Lemma count_shares_ge l m v :
  NoDup l -> incl l (shnums_of m v) -> N.of_nat (length l) <= count_shares m v.
Proof. intros Hnd Hin. pose proof (NoDup_incl_length Hnd Hin). unfold count_shares. lia. Qed.

(* count_shares m v depends only on the shares of v *)
Lemma count_shares_mono m m' v :
  (forall s, In s m' -> ver s = v -> In s m) -> count_shares m' v <= count_shares m v.
Proof.
  intro H. apply count_shares_ge; [apply dedup_N_NoDup|].
  intros n [s [Hs [Hv Hn]]]%shnums_of_In. apply shnums_of_In. exists s. auto.
Qed.

Lemma count_shares_incl m m' v : incl m' m -> count_shares m' v <= count_shares m v.
Proof. intro H. apply count_shares_mono. intros s Hs _. apply H, Hs. Qed.

Lemma count_pos_occurs m v : 0 < count_shares m v -> exists s, In s m /\ ver s = v.
Proof.
  unfold count_shares. destruct (shnums_of m v) as [|n r] eqn:E; [cbn; lia|]. intros _.
  destruct (proj1 (shnums_of_In m v n)) as [s Hs]; [rewrite E; left; reflexivity|].
  exists s. tauto.
Qed.

Lemma versions_In m v : In v (versions m) <-> exists s, In s m /\ ver s = v.
Proof.
  unfold versions. rewrite dedup_ver_In, in_map_iff. split; intros [s [A B]]; exists s; auto.
Qed.

Lemma recoverable_In m v :
  In v (recoverable_versions m) <-> (exists s, In s m /\ ver s = v) /\ vk v <= count_shares m v.
Proof.
  unfold recoverable_versions, is_recoverable. rewrite filter_In, versions_In, N.leb_le. tauto.
Qed.

Lemma unrecoverable_In m v :
  In v (unrecoverable_versions m) <-> (exists s, In s m /\ ver s = v) /\ count_shares m v < vk v.
Proof.
  unfold unrecoverable_versions, is_recoverable. rewrite filter_In, versions_In, negb_true_iff, N.leb_gt. tauto.
Qed.

(* k >= 1 distinct share numbers of v make it recoverable: some share then carries v *)
Lemma recoverable_intro m v : 1 <= vk v -> vk v <= count_shares m v -> In v (recoverable_versions m).
Proof. intros Hk Hc. apply recoverable_In. split; [apply count_pos_occurs; lia|exact Hc]. Qed.

Lemma recoverable_mono m m' : incl m' m -> incl (recoverable_versions m') (recoverable_versions m).
Proof.
  intros H v [[s [Hs Hv]] Hk]%recoverable_In. apply recoverable_In. split; [exists s; auto|].
  apply (N.le_trans _ _ _ Hk), count_shares_incl, H.
Qed.

Lemma recoverable_versions_incl m : incl (recoverable_versions m) (versions m).
Proof. apply incl_filter. Qed.

Lemma version_leb_spec a b :
  version_leb a b = true <-> (seq a < seq b \/ (seq a = seq b /\ vtag a <= vtag b)).
Proof.
  unfold version_leb, version_ltb.
  rewrite !orb_true_iff, !andb_true_iff, !N.ltb_lt, !N.eqb_eq. lia.
Qed.

Lemma version_leb_seq a b : version_leb a b = true -> seq a <= seq b.
Proof. rewrite version_leb_spec. lia. Qed.

Lemma version_leb_refl v : version_leb v v = true.
Proof. apply version_leb_spec. lia. Qed.

Lemma version_ltb_leb a b : version_ltb a b = true -> version_leb a b = true.
Proof. unfold version_leb. intros ->. reflexivity. Qed.

Lemma version_ltb_false_leb a b : version_ltb a b = false -> version_leb b a = true.
Proof.
  unfold version_ltb. rewrite orb_false_iff, andb_false_iff, !N.ltb_ge, N.eqb_neq.
  intro H. apply version_leb_spec. lia.
Qed.

Lemma version_leb_trans a b c : version_leb a b = true -> version_leb b c = true -> version_leb a c = true.
Proof. rewrite !version_leb_spec. lia. Qed.

Lemma max_version_none l : max_version l = None <-> l = [].
Proof.
  destruct l as [|x r]; cbn; [tauto|]. split; [|discriminate].
  destruct (max_version r) as [w|]; [destruct (version_ltb w x)|]; discriminate.
Qed.

Lemma max_version_spec l v :
  max_version l = Some v -> In v l /\ forall w, In w l -> version_leb w v = true.
Proof.
  revert v; induction l as [|x r IH]; intros v H; cbn in H; [discriminate|].
  destruct (max_version r) as [w|] eqn:E.
  - destruct (IH w eq_refl) as [Hin Hmax].
    destruct (version_ltb w x) eqn:L; injection H as <-.
    + split; [left; reflexivity|]. intros u [<-|Hu]; [apply version_leb_refl|].
      eapply version_leb_trans; [apply Hmax, Hu|apply version_ltb_leb, L].
    + split; [right; exact Hin|]. intros u [<-|Hu]; [apply version_ltb_false_leb, L|apply Hmax, Hu].
  - apply max_version_none in E. subst r. injection H as <-.
    split; [left; reflexivity|]. intros u [<-|[]]. apply version_leb_refl.
Qed.

Lemma best_of_recoverable m v :
  In v (recoverable_versions m) ->
  exists b, best_recoverable_version m = Some b /\ In b (recoverable_versions m) /\ version_leb v b = true.
Proof.
  intro Hv. destruct (best_recoverable_version m) as [b|] eqn:B.
  - exists b. destruct (max_version_spec _ _ B). auto.
  - apply max_version_none in B. rewrite B in Hv. destruct Hv.
Qed.

Lemma max_N_ge l x : In x l -> x <= max_N l.
Proof. induction l as [|y r IH]; cbn; [contradiction|]. intros [H|H]; [subst|specialize (IH H)]; lia. Qed.

Lemma max_N_le l b : (forall x, In x l -> x <= b) -> max_N l <= b.
Proof.
  induction l as [|y r IH]; cbn; intro H; [lia|].
  apply N.max_lub; [|apply IH]; auto.
Qed.

Lemma max_version_seq l v : max_version l = Some v -> seq v = max_N (map seq l).
Proof.
  intros [Hin Hmax]%max_version_spec. apply N.le_antisymm.
  - apply max_N_ge, in_map, Hin.
  - apply max_N_le. intros x [w [<- Hw]]%in_map_iff. apply version_leb_seq, Hmax, Hw.
Qed.

Lemma new_seqnum_gt_all_seen_ok m s : In s m -> seq (ver s) < new_seqnum m.
Proof.
  intro H. assert (Hv : In (ver s) (versions m)) by (apply versions_In; eauto).
  apply (in_map seq), max_N_ge in Hv. unfold new_seqnum, highest_seqnum. lia.
Qed.

(* one writer: every survey sees at least one share of the previous publish *)
Inductive observed_chain : list servermap -> Prop :=
| oc_nil : observed_chain []
| oc_one m : observed_chain [m]
| oc_cons m1 m2 r :
    (exists s, In s m2 /\ seq (ver s) = new_seqnum m1) ->
    observed_chain (m2 :: r) -> observed_chain (m1 :: m2 :: r).

Lemma one_writer_strictly_increasing_ok surveys :
  observed_chain surveys -> StronglySorted N.lt (map new_seqnum surveys).
Proof.
  intro H. apply Sorted_StronglySorted; [exact N.lt_trans|].
  induction H as [|m|m1 m2 r [s [Hin Hs]] Hc IH]; cbn.
  - constructor.
  - repeat constructor.
  - constructor; [exact IH|]. constructor. rewrite <- Hs. apply new_seqnum_gt_all_seen_ok, Hin.
Qed.

Lemma highest_recoverable_seq_best m :
  highest_recoverable_seq m = option_map seq (best_recoverable_version m).
Proof.
  unfold highest_recoverable_seq, best_recoverable_version.
  destruct (recoverable_versions m) as [|x r]; [reflexivity|].
  destruct (max_version (x :: r)) as [b|] eqn:M.
  - cbn [option_map]. rewrite (max_version_seq _ _ M). reflexivity.
  - apply max_version_none in M. discriminate.
Qed.

Lemma unrecoverable_newer_In m v :
  In v (unrecoverable_newer_versions m) <->
  In v (unrecoverable_versions m) /\ forall b, best_recoverable_version m = Some b -> seq b < seq v.
Proof.
  unfold unrecoverable_newer_versions. rewrite filter_In, highest_recoverable_seq_best.
  apply and_iff_compat_l. destruct (best_recoverable_version m) as [b|]; cbn.
  - rewrite N.ltb_lt. split; [intros H _ [= <-]; exact H|auto].
  - split; [discriminate|reflexivity].
Qed.

Lemma mode_read_keeps_querying_ok u m :
  running u = true -> must_query u = false -> (outstanding u || extra u = true) ->
  (exists v, In v (unrecoverable_newer_versions m)) ->
  check_for_done MODE_READ u m = More.
Proof.
  intros R Q O [v [Hin Hnew]%unrecoverable_newer_In].
  unfold check_for_done. rewrite R, Q, <- negb_orb, O. cbn [negb].
  destruct (completed u <? to_query u); [reflexivity|].
  destruct (max_version (recoverable_versions m)) as [hr|] eqn:B; [|reflexivity].
  rewrite (proj2 (existsb_exists _ _)); [reflexivity|].
  exists v. split; [exact Hin|apply N.ltb_lt, Hnew, B].
Qed.

Lemma mode_read_done_only_if_ok u m :
  check_for_done MODE_READ u m = Done ->
  (outstanding u = false /\ extra u = false) \/
  (to_query u <= completed u /\
   exists hr, best_recoverable_version m = Some hr /\
              forall v, In v (unrecoverable_versions m) -> seq v <= seq hr).
Proof.
  unfold check_for_done. destruct (running u); [|discriminate]. destruct (must_query u); [discriminate|].
  rewrite <- negb_orb. destruct (outstanding u || extra u) eqn:O; cbn [negb].
  2: { intros _. left. apply orb_false_elim, O. }
  destruct (completed u <? to_query u) eqn:C; [discriminate|].
  destruct (max_version (recoverable_versions m)) as [hr|] eqn:B; [|discriminate].
  destruct (existsb _ _) eqn:X; [discriminate|]. intros _. right.
  split; [apply N.ltb_ge, C|]. exists hr. split; [exact B|].
  intros v Hv. apply N.le_ngt. intro L. apply not_true_iff_false in X. apply X, existsb_exists.
  exists v. split; [exact Hv|apply N.ltb_lt, L].
Qed.

Lemma newest_recoverable_is_best m v :
  In v (recoverable_versions m) ->
  (forall w, In w (versions m) -> w <> v -> seq w < seq v) ->
  best_recoverable_version m = Some v.
Proof.
  intros Hv Hnew. destruct (best_of_recoverable m v Hv) as [b [-> [Hb Hle]]]. f_equal.
  destruct (version_eq_dec b v) as [E|Hne]; [exact E|].
  apply recoverable_versions_incl in Hb. apply version_leb_seq in Hle.
  specialize (Hnew b Hb Hne). lia.
Qed.

Lemma publish_then_read_ok m_survey m_read v :
  seq v = new_seqnum m_survey ->
  In v (recoverable_versions m_read) ->
  (forall w, In w (versions m_read) -> w <> v -> In w (versions m_survey)) ->
  best_recoverable_version m_read = Some v.
Proof.
  intros Hs Hv Hold. apply newest_recoverable_is_best; [exact Hv|].
  intros w Hw Hne. destruct (proj1 (versions_In _ _) (Hold w Hw Hne)) as [s [Hin <-]].
  rewrite Hs. apply new_seqnum_gt_all_seen_ok, Hin.
Qed.
