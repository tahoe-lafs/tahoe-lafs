(* base62: a2b (b2a os) = os, no assertion failure, fuel; converse under b62_canonical; refutation. *)
From Coq Require Import String.
From Coq Require Import List NArith ZArith Bool Lia ZifyBool ZifyNat ZifyN.
From Verif Require Import Lib.Hex Lib.Bytes Model.Base32 Model.Base62 Gen.CodecConsts Proofs.CodecsBase32.
Import ListNotations.
Local Open Scope N_scope.

Lemma b62_index_of_char v : v < 62 -> index_of (b62_char v) base62_chars 0 = Some v.
Proof. apply (letter_index_of base62_chars 62). vm_compute. reflexivity. Qed.

Lemma b62_c2v_chars ds : digits_below 62 ds = true ->
  map b62_c2v (map b62_char ds) = ds /\ b62_in_alphabet (map b62_char ds) = true.
Proof.
  unfold digits_below, b62_in_alphabet. rewrite forallb_forall. intro H.
  assert (Hd : forall d, In d ds -> index_of (b62_char d) base62_chars 0 = Some d).
  { intros d Hd. apply b62_index_of_char. specialize (H d Hd). lia. }
  split.
  - rewrite map_map. rewrite <- (map_id ds) at 2. apply map_ext_in. intros d Hin.
    unfold b62_c2v. rewrite (Hd d Hin). reflexivity.
  - rewrite forallb_forall. intros ch Hch. apply in_map_iff in Hch.
    destruct Hch as (d & <- & Hin). rewrite (Hd d Hin). reflexivity.
Qed.

Lemma b62_chars_c2v cs : b62_in_alphabet cs = true ->
  digits_below 62 (map b62_c2v cs) = true /\ map b62_char (map b62_c2v cs) = cs.
Proof.
  induction cs as [|c cs IH]; [split; reflexivity|].
  cbn [b62_in_alphabet forallb]. intro H. apply andb_true_iff in H. destruct H as [Hc Hcs].
  destruct (IH Hcs) as [IH1 IH2]. cbn [map digits_below forallb]. unfold b62_c2v at 1 3.
  destruct (index_of c base62_chars 0) as [v|] eqn:E; [|discriminate].
  destruct (index_of_letter _ c v E) as [Hch Hlt]. change (N.of_nat (length base62_chars)) with 62 in Hlt. split.
  - apply andb_true_iff. split; [apply N.ltb_lt; assumption|exact IH1].
  - unfold b62_char at 1. rewrite Hch. f_equal. exact IH2.
Qed.

(* how many digits b62_loop emits: the divisions by 62 that bring numvalues down to 0 *)
Fixpoint b62_count (f : nat) (nv : N) : nat :=
  match f with
  | O => 0%nat
  | S f' => if nv =? 0 then 0%nat else S (b62_count f' (nv / 62))
  end.

Lemma b62_loop_count : forall f v nv acc,
  nv < 2 ^ N.of_nat f -> b62_loop (S f) v nv acc = Some (be_digits 62 (b62_count f nv) v ++ acc).
Proof.
  induction f as [|f IH]; intros v nv acc H.
  - change (2 ^ N.of_nat 0) with 1 in H. assert (nv = 0) by lia. subst. reflexivity.
  - cbn [b62_loop b62_count]. destruct (nv =? 0) eqn:E; [reflexivity|].
    change (b62_loop (S f) (v / 62) (nv / 62) (v mod 62 :: acc) =
            Some (be_digits 62 (S (b62_count f (nv / 62))) v ++ acc)).
    rewrite IH.
    + cbn [be_digits]. rewrite <- app_assoc. reflexivity.
    + rewrite pow_of_nat_S in H. lia.
Qed.

Lemma b62_count_bounds : forall f nv,
  nv < 2 ^ N.of_nat f ->
  nv < 62 ^ N.of_nat (b62_count f nv) /\
  (nv <> 0 -> exists c', b62_count f nv = S c' /\ 62 ^ N.of_nat c' <= nv).
Proof.
  induction f as [|f IH]; intros nv H.
  - change (2 ^ N.of_nat 0) with 1 in H. assert (nv = 0) by lia. subst. cbn. split; [lia|congruence].
  - cbn [b62_count]. destruct (nv =? 0) eqn:E.
    + apply N.eqb_eq in E. subst. cbn. split; [lia|congruence].
    + apply N.eqb_neq in E. rewrite pow_of_nat_S in H.
      destruct (IH (nv / 62)) as [Hu Hl]; [lia|].
      rewrite pow_of_nat_S. split; [lia|].
      intros _. exists (b62_count f (nv / 62)). split; [reflexivity|].
      destruct (N.eq_dec (nv / 62) 0) as [Hz|Hnz].
      * rewrite Hz. destruct f; cbn; lia.
      * destruct (Hl Hnz) as (c' & Ec & Hc). rewrite Ec, pow_of_nat_S. lia.
Qed.

Lemma size_fuel nv : nv < 2 ^ N.of_nat (N.to_nat (N.size nv)).
Proof.
  rewrite N2Nat.id. destruct nv; [cbn; lia|]. apply N.size_gt.
Qed.

Lemma pow256 k : 256 ^ k = 2 ^ (8 * k).
Proof. rewrite N.pow_mul_r. reflexivity. Qed.

Lemma log_floor_loop_spec n k : 256 ^ k <= n -> n < 256 ^ (k + 1) ->
  forall (j : nat) fuel i, i + N.of_nat j = k + 1 -> (j < fuel)%nat ->
  log_floor_loop fuel (256 ^ i) i n 256 = Some k.
Proof.
  intros Hlo Hhi. induction j as [|j IH]; intros fuel i Hi Hf.
  - destruct fuel as [|fuel]; [lia|]. cbn [log_floor_loop].
    assert (i = k + 1) by lia. subst i.
    assert (E : 256 ^ (k + 1) <=? n = false) by (apply N.leb_gt; assumption).
    rewrite E. f_equal. lia.
  - destruct fuel as [|fuel]; [lia|]. cbn [log_floor_loop].
    assert (Hle : 256 ^ i <= n).
    { apply N.le_trans with (256 ^ k); [|assumption]. apply N.pow_le_mono_r; lia. }
    apply N.leb_le in Hle. rewrite Hle.
    replace (256 ^ i * 256) with (256 ^ (i + 1)) by (rewrite N.pow_add_r; reflexivity).
    apply IH; lia.
Qed.

Lemma log_floor_256_spec n k : 256 ^ k <= n -> n < 256 ^ (k + 1) -> log_floor_256 n = Some k.
Proof.
  intros Hlo Hhi. unfold log_floor_256.
  change 1 with (256 ^ 0) at 1.
  apply (log_floor_loop_spec n k Hlo Hhi (N.to_nat (k + 1))); [lia|].
  assert (Hn : 0 < n). { pose proof (N.pow_nonzero 256 k). lia. }
  assert (Hk : 8 * k <= N.log2 n). { apply N.log2_le_pow2; [assumption|]. rewrite <- pow256. assumption. }
  lia.
Qed.

Lemma log_floor_256_total n : 1 <= n -> exists k, log_floor_256 n = Some k /\ 256 ^ k <= n < 256 ^ (k + 1).
Proof.
  intro H. set (k := N.log2 n / 8).
  destruct (N.log2_spec n) as [Hlo Hhi]; [lia|].
  assert (H1 : 256 ^ k <= n).
  { rewrite pow256. apply N.le_trans with (2 ^ N.log2 n); [|assumption]. apply N.pow_le_mono_r; unfold k; lia. }
  assert (H2 : n < 256 ^ (k + 1)).
  { rewrite pow256. apply N.lt_le_trans with (2 ^ N.succ (N.log2 n)); [assumption|]. apply N.pow_le_mono_r; unfold k; lia. }
  exists k. split; [apply log_floor_256_spec; assumption|split; assumption].
Qed.

Theorem b62_a2b_total cs : exists x, b62_a2b cs = Some x.
Proof.
  unfold b62_a2b, b62_num_octets.
  destruct (log_floor_256_total (62 ^ N.of_nat (length cs))) as (k & -> & _).
  - pose proof (N.pow_nonzero 62 (N.of_nat (length cs))). lia.
  - eexists. reflexivity.
Qed.

(* a2b (b2a os) = os; in particular b2a's assert holds and its fuel suffices *)
Section Encode.
Variable os : list N.
Hypothesis os_ok : bytes_ok os = true.

Let n := length os.
Let v := be_value 256 os.
Let nv := 256 ^ N.of_nat n.
Let c := b62_count (N.to_nat (N.size nv)) nv.
Let digits := be_digits 62 c v.

Lemma enc_count : v < nv /\ v < 62 ^ N.of_nat c /\ b62_num_octets (N.of_nat c) = Some (N.of_nat n).
Proof.
  assert (Hv : v < nv) by (apply be_value_bound; exact os_ok).
  assert (Hnv : nv <> 0) by (apply N.pow_nonzero; lia).
  destruct (b62_count_bounds _ _ (size_fuel nv)) as [Hup Hlow]. fold c in Hup, Hlow.
  destruct (Hlow Hnv) as (c' & Ec & Hc').
  split; [exact Hv|]. split; [lia|].
  unfold b62_num_octets. apply log_floor_256_spec.
  - fold nv. lia.
  - rewrite Ec, pow_of_nat_S. replace (N.of_nat n + 1) with (N.of_nat (S n)) by lia.
    rewrite pow_of_nat_S. fold nv. lia.
Qed.

Lemma enc_b2a : b62_b2a os = Some (map b62_char digits).
Proof.
  destruct enc_count as (_ & _ & Hk).
  unfold b62_b2a. fold n nv v. rewrite b62_loop_count by apply size_fuel. fold c. rewrite app_nil_r. fold digits.
  unfold digits at 1. rewrite map_length, be_digits_length, Hk, N.eqb_refl. reflexivity.
Qed.

Lemma enc_digits : map b62_c2v (map b62_char digits) = digits /\ b62_in_alphabet (map b62_char digits) = true.
Proof. apply b62_c2v_chars, be_digits_below. lia. Qed.

Theorem b62_roundtrip : exists cs, b62_b2a os = Some cs /\ b62_a2b cs = Some os.
Proof.
  destruct enc_count as (_ & Hup & Hk). destruct enc_digits as [Hd _].
  exists (map b62_char digits). split; [exact enc_b2a|].
  unfold b62_a2b. rewrite Hd. unfold digits at 1. rewrite map_length, be_digits_length, Hk.
  unfold digits. rewrite be_digits_small by (lia || exact Hup).
  rewrite Nat2N.id. unfold v, n. rewrite be_digits_value by exact os_ok. reflexivity.
Qed.

Theorem b62_b2a_canonical cs : b62_b2a os = Some cs -> b62_canonical cs = true.
Proof.
  rewrite enc_b2a. intro H. injection H as <-.
  destruct enc_count as (Hv & Hup & Hk). destruct enc_digits as [Hd Ha].
  unfold b62_canonical. rewrite Ha, Hd. unfold digits at 1 3. rewrite !map_length, !be_digits_length, Hk.
  fold nv. rewrite b62_loop_count by apply size_fuel. fold c.
  rewrite app_nil_r, be_digits_length, Nat.eqb_refl, andb_true_r. cbn [andb].
  apply N.ltb_lt. unfold digits. rewrite be_digits_small by (lia || exact Hup). exact Hv.
Qed.
End Encode.

Theorem b62_converse_canonical cs x :
  b62_a2b cs = Some x -> b62_canonical cs = true -> b62_b2a x = Some cs.
Proof.
  unfold b62_a2b, b62_canonical.
  destruct (b62_num_octets (N.of_nat (length cs))) as [k|] eqn:Hk; [|discriminate].
  intro Hx. injection Hx as <-.
  rewrite !andb_true_iff. intros [Halpha [Hval Hlen]].
  apply N.ltb_lt in Hval.
  set (nv := 256 ^ k) in *.
  pose proof (size_fuel nv) as Hfuel.
  rewrite b62_loop_count in Hlen by exact Hfuel. rewrite app_nil_r, be_digits_length in Hlen.
  apply Nat.eqb_eq in Hlen.
  set (vals := map b62_c2v cs) in *. set (value := be_value 62 vals) in *.
  destruct (b62_chars_c2v cs Halpha) as [Hbelow Hchars]. fold vals in Hbelow, Hchars.
  unfold b62_b2a. rewrite be_digits_length, N2Nat.id. fold nv.
  rewrite be_digits_small by (try lia; rewrite N2Nat.id; exact Hval).
  rewrite b62_loop_count by exact Hfuel. rewrite app_nil_r, Hlen.
  replace (length cs) with (length vals) by (unfold vals; apply map_length).
  unfold value. rewrite be_digits_value by exact Hbelow.
  rewrite Hchars, Hk, N.eqb_refl. reflexivity.
Qed.

(* the unconditional converse is false, in three ways *)
Definition b62_witness_out_of_alphabet : list (list N) := [bytes_of_string "!!"%string; [0; 5]; bytes_of_string "a-b"%string].
Definition b62_witness_overflow : list (list N) := map bytes_of_string ["zz"; "zzz"; "4C"]%string.
Definition b62_witness_length : list (list N) := [[]; bytes_of_string "0000"%string; bytes_of_string "00000000"%string].

Definition b62_accepts_noncanonical (cs : list N) : bool :=
  match b62_a2b cs with
  | Some x => negb (opt_list_N_eqb (b62_b2a x) (Some cs)) && negb (b62_canonical cs)
  | None => false
  end.

Theorem b62_witnesses_accepted :
  forallb b62_accepts_noncanonical (b62_witness_out_of_alphabet ++ b62_witness_overflow ++ b62_witness_length) = true.
Proof. vm_compute. reflexivity. Qed.

Theorem b62_converse_refuted : exists cs x, b62_a2b cs = Some x /\ b62_b2a x <> Some cs.
Proof.
  exists (bytes_of_string "zz"%string), [3]. split; [vm_compute; reflexivity|vm_compute; discriminate].
Qed.
