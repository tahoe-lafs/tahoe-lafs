(* C06: the encoder.  Invariant of Encoder.servermap / landlords / the abort log under _remove_shareholder,
   for every sequence of write and close answers. *)
From Coq Require Import List NArith ZArith Bool.
From Verif Require Import Lib.ListFacts Model.Matching Proofs.Matching Model.UploadSel Proofs.UploadSelBase.
Import ListNotations.
Local Open Scope N_scope.

Lemma ll_get_In : forall sh l p, ll_get sh l = Some p -> In (sh, p) l.
Proof.
  intros sh l p. induction l as [|[s q] r IH]; cbn [ll_get]; [discriminate|].
  destruct (N.eqb_spec sh s) as [->|_]; [intros [= ->]; left; reflexivity|right; auto].
Qed.

Lemma ll_get_None : forall sh l, ll_get sh l = None -> ~ In sh (map fst l).
Proof.
  intros sh l. induction l as [|[s q] r IH]; cbn [ll_get map fst In]; [tauto|].
  destruct (N.eqb_spec sh s); [discriminate|]. intros H [E|H']; [congruence|exact (IH H H')].
Qed.

Lemma In_ll_remove : forall sh l s p, In (s, p) (ll_remove sh l) <-> In (s, p) l /\ s <> sh.
Proof.
  intros sh l s p. unfold ll_remove. rewrite filter_In. cbn [fst].
  destruct (N.eqb_spec sh s); cbn [negb]; intuition congruence.
Qed.

Lemma dm_add_keys : forall k v m x, In x (map fst (dm_add k v m)) <-> k = x \/ In x (map fst m).
Proof.
  intros k v m x. induction m as [|[q l] r IH]; cbn [dm_add map fst In]; [tauto|].
  destruct (N.eqb_spec k q) as [->|_]; cbn [map fst In]; tauto.
Qed.

Lemma dm_add_nodup : forall k v m, NoDup (map fst m) -> NoDup (map fst (dm_add k v m)).
Proof.
  intros k v m. induction m as [|[q l] r IH]; cbn [dm_add map fst]; [repeat constructor; intros []|].
  rewrite NoDup_cons_iff. intros [Hn Hr]. destruct (N.eqb_spec k q) as [->|Hne]; cbn [map fst]; constructor; auto.
  rewrite dm_add_keys. intros [E|H]; auto.
Qed.

Lemma add_edges_nodup : forall (X : Type) (key : X -> N) vals (l : list X) m,
  NoDup (map fst m) -> NoDup (map fst (add_edges key vals l m)).
Proof.
  intros X key vals l m H. unfold add_edges. apply fold_left_preserves; [|exact H].
  intros acc e Ha. apply fold_left_preserves; [|exact Ha]. intros a s. apply dm_add_nodup.
Qed.

Lemma transpose_nodup : forall m, NoDup (map fst (transpose m)).
Proof. intros m. apply (add_edges_nodup _ fst snd). constructor. Qed.

Lemma merged_nodup : forall st, NoDup (map fst (merged st)).
Proof. intros st. apply (add_edges_nodup _ (fun q => q) (fun q => dm_get q (s_buckets st))), transpose_nodup. Qed.

Lemma dm_remove_keys : forall k v m x, In x (map fst (dm_remove k v m)) -> In x (map fst m).
Proof.
  intros k v m x. induction m as [|[q l] r IH]; cbn [dm_remove map fst In]; [tauto|].
  destruct (N.eqb k q); [destruct (is_nil (set_remove v l))|]; cbn [map fst In]; tauto.
Qed.

Lemma dm_remove_nodup : forall k v m, NoDup (map fst m) -> NoDup (map fst (dm_remove k v m)).
Proof.
  intros k v m. induction m as [|[q l] r IH]; cbn [dm_remove map fst]; [constructor|].
  rewrite NoDup_cons_iff. intros [Hn Hr].
  destruct (N.eqb k q); [destruct (is_nil (set_remove v l)); [exact Hr|]|]; cbn [map fst]; constructor; auto.
  intros H. apply Hn. eapply dm_remove_keys; exact H.
Qed.

Lemma dm_in_key : forall m k v, dm_in m k v -> In k (map fst m).
Proof. intros m k v [l [H _]]. exact (in_map fst _ _ H). Qed.

Lemma dm_in_remove_strong : forall k v m k' v',
  NoDup (map fst m) -> dm_in (dm_remove k v m) k' v' -> dm_in m k' v' /\ ~ (k' = k /\ v' = v).
Proof.
  intros k v m k' v'. induction m as [|[q l] r IH]; cbn [dm_remove map fst]; [intros _ H; destruct (dm_in_nil _ _ H)|].
  rewrite NoDup_cons_iff. intros [Hn Hr].
  assert (Hq : dm_in r k' v' -> k' <> q) by (intros H ->; exact (Hn (dm_in_key _ _ _ H))).
  destruct (N.eqb_spec k q) as [->|Hne]; [destruct (is_nil (set_remove v l))|]; rewrite !dm_in_cons; [| |].
  - intros H. specialize (Hq H). tauto.
  - rewrite In_set_remove. intros [H|H]; [|specialize (Hq H)]; tauto.
  - intros [H|H]; [|specialize (IH Hr H)]; intuition congruence.
Qed.

Definition extends_by {A : Type} (P : A -> Prop) (l l' : list A) : Prop :=
  (forall x, In x l -> In x l') /\ (forall x, In x l' -> In x l \/ P x).

Lemma extends_by_refl : forall (A : Type) (P : A -> Prop) l, extends_by P l l.
Proof. intros A P l. split; auto. Qed.

Lemma extends_by_trans : forall (A : Type) (P : A -> Prop) l1 l2 l3,
  extends_by P l1 l2 -> extends_by P l2 l3 -> extends_by P l1 l3.
Proof. intros A P l1 l2 l3 [A1 A2] [B1 B2]. split; [auto|]. intros x H. destruct (B2 x H); auto. Qed.

Lemma extends_by_app : forall (A : Type) (P : A -> Prop) l m, (forall x, In x m -> P x) -> extends_by P l (l ++ m).
Proof. intros A P l m H. split; intros x; rewrite in_app_iff; intuition. Qed.

Definition is_abort (x : bucket * bop) : Prop := snd x = OpAbort.

(* the removal proper: the writer leaves the dict and the servermap and is aborted *)
Definition drop_landlord (sh : N) (e : enc) : enc :=
  match ll_get sh (e_landlords e) with
  | Some p => {| e_landlords := ll_remove sh (e_landlords e); e_servermap := dm_remove sh p (e_servermap e);
                 e_log := e_log e ++ [((p, sh), OpAbort)]; e_raised := e_raised e |}
  | None => e
  end.

(* UploadUnhappinessError: the first one runs err() *)
Definition raise (e : enc) : enc :=
  {| e_landlords := e_landlords e; e_servermap := e_servermap e;
     e_log := if e_raised e then e_log e else e_log e ++ err_aborts (e_landlords e); e_raised := true |}.

Lemma remove_shareholder_eq : forall happy sh e,
  remove_shareholder happy sh e =
  match servers_of_happiness (e_servermap (drop_landlord sh e)) with
  | None => None
  | Some h => if Z.ltb h happy then Some (raise (drop_landlord sh e)) else Some (drop_landlord sh e)
  end.
Proof. reflexivity. Qed.

Lemma In_drop_landlord : forall sh e s p,
  In (s, p) (e_landlords (drop_landlord sh e)) <-> In (s, p) (e_landlords e) /\ s <> sh.
Proof.
  intros sh e s p. unfold drop_landlord. destruct (ll_get sh (e_landlords e)) eqn:G; cbn [e_landlords]; [apply In_ll_remove|].
  split; [|tauto]. intros H. split; [exact H|]. intros ->. exact (ll_get_None _ _ G (in_map fst _ _ H)).
Qed.

Lemma drop_landlord_log : forall sh e, extends_by is_abort (e_log e) (e_log (drop_landlord sh e)).
Proof.
  intros sh e. unfold drop_landlord. destruct (ll_get sh (e_landlords e)); [|apply extends_by_refl].
  apply extends_by_app. intros x [<-|[]]. reflexivity.
Qed.

Lemma raise_log : forall e, extends_by is_abort (e_log e) (e_log (raise e)).
Proof.
  intros e. cbn [raise e_log]. destruct (e_raised e); [apply extends_by_refl|].
  apply extends_by_app. intros x H. apply in_map_iff in H. destruct H as [y [<- _]]. reflexivity.
Qed.

Section EncoderInvariant.
  Variable happy : Z.
  Variable E : dmap.               (* already_serverids: share -> servers *)
  Variable B : list bucket.        (* the buckets handed to the encoder *)

  (* holds after every step: the servermap has only known edges, every bucket is still a landlord or was aborted,
     and the landlords are aborted exactly when the error has been raised *)
  Record enc_wf (e : enc) : Prop := {
    wf_edges : forall s p, dm_in (e_servermap e) s p -> dm_in E s p \/ In (s, p) (e_landlords e);
    wf_map_keys : NoDup (map fst (e_servermap e));
    wf_landlords : forall s p, In (s, p) (e_landlords e) -> In (p, s) B;
    wf_shares : NoDup (map fst (e_landlords e));
    wf_fate : forall p s, In (p, s) B -> In (s, p) (e_landlords e) \/ In ((p, s), OpAbort) (e_log e);
    wf_aborted : forall s p, In (s, p) (e_landlords e) -> (In ((p, s), OpAbort) (e_log e) <-> e_raised e = true)
  }.

  (* holds between answers: while no error is raised the servermap is happy enough *)
  Record enc_inv (e : enc) : Prop := {
    inv_wf : enc_wf e;
    inv_happy : e_raised e = false -> exists h, servers_of_happiness (e_servermap e) = Some h /\ (happy <= h)%Z
  }.

  Lemma drop_landlord_wf : forall sh e, enc_wf e -> enc_wf (drop_landlord sh e).
  Proof.
    intros sh e W. pose proof W as [I1 I2 I3 I4 I5 I6].
    unfold drop_landlord. destruct (ll_get sh (e_landlords e)) as [p|] eqn:G; [|exact W].
    apply ll_get_In in G.
    assert (U : forall q, In (sh, q) (e_landlords e) -> q = p) by (intros q H; exact (NoDup_fst_unique _ _ _ _ I4 H G)).
    constructor; cbn [e_landlords e_servermap e_log e_raised].
    - intros s q H. destruct (dm_in_remove_strong _ _ _ _ _ I2 H) as [H1 H2].
      destruct (I1 _ _ H1) as [H3|H3]; [left; exact H3|right]. apply In_ll_remove. split; [exact H3|].
      intros ->. apply H2. split; [reflexivity|exact (U _ H3)].
    - apply dm_remove_nodup. exact I2.
    - intros s q H. apply In_ll_remove in H. apply I3. tauto.
    - apply NoDup_map_filter. exact I4.
    - intros q s H. rewrite In_ll_remove, in_app_iff. destruct (I5 _ _ H) as [H1|H1]; [|tauto].
      destruct (N.eq_dec s sh) as [->|Hne]; [|tauto]. right; right; left. rewrite (U _ H1). reflexivity.
    - intros s q H. apply In_ll_remove in H. destruct H as [H Hne]. rewrite <- (I6 _ _ H), in_app_iff. cbn [In].
      intuition congruence.
  Qed.

  Lemma raise_wf : forall e, enc_wf e -> enc_wf (raise e).
  Proof.
    intros e [I1 I2 I3 I4 I5 I6]. pose proof (raise_log e) as [L _].
    constructor; cbn [raise e_landlords e_servermap e_raised]; auto.
    - intros p s H. destruct (I5 _ _ H); auto.
    - intros s p H. split; [reflexivity|intros _]. cbn [raise e_log]. destruct (e_raised e) eqn:R; [apply I6; auto|].
      apply in_or_app. right. apply in_map_iff. exists (s, p). auto.
  Qed.

  Lemma remove_shareholder_facts : forall sh e e',
    remove_shareholder happy sh e = Some e' -> enc_inv e ->
    enc_inv e' /\ extends_by is_abort (e_log e) (e_log e') /\
    (forall s p, In (s, p) (e_landlords e') <-> In (s, p) (e_landlords e) /\ s <> sh).
  Proof.
    intros sh e e' R [W _]. rewrite remove_shareholder_eq in R. apply (drop_landlord_wf sh) in W.
    destruct (servers_of_happiness (e_servermap (drop_landlord sh e))) as [h|] eqn:S; [|discriminate].
    destruct (Z.ltb_spec h happy); injection R as <-.
    - split; [split; [apply raise_wf; exact W|discriminate]|]. split; [|apply In_drop_landlord].
      eapply extends_by_trans; [apply drop_landlord_log|apply raise_log].
    - split; [split; [exact W|intros _; exists h; auto]|]. split; [apply drop_landlord_log|apply In_drop_landlord].
  Qed.
End EncoderInvariant.
Arguments wf_edges {E B e}.
Arguments wf_fate {E B e}.
Arguments wf_aborted {E B e}.
Arguments inv_wf {happy E B e}.
Arguments inv_happy {happy E B e}.

Fixpoint lookup_w (sh : N) (resps : list (N * wresp)) : option wresp :=
  match resps with
  | [] => None
  | (s, r) :: rest => if N.eqb sh s then Some r else lookup_w sh rest
  end.

(* write_answers and close_answers are one loop, over answers of which some are failures; lookup_w and lookup_c are
   its [lookup] *)
Section Answers.
  Context {R : Type}.
  Variable bad : R -> bool.

  Fixpoint lookup (sh : N) (resps : list (N * R)) : option R :=
    match resps with
    | [] => None
    | (s, r) :: rest => if N.eqb sh s then Some r else lookup sh rest
    end.

  Definition failed (sh : N) (resps : list (N * R)) : Prop := exists r, lookup sh resps = Some r /\ bad r = true.

  Lemma failed_nil : forall s, ~ failed s [].
  Proof. intros s [r [H _]]. discriminate. Qed.

  Lemma failed_cons_eq : forall s r rest, failed s ((s, r) :: rest) <-> bad r = true.
  Proof.
    intros s r rest. unfold failed. cbn [lookup]. rewrite N.eqb_refl. split; [intros [r' [[= ->] H]]; exact H|eauto].
  Qed.

  Lemma lookup_cons_neq : forall s sh r rest, s <> sh -> lookup s ((sh, r) :: rest) = lookup s rest.
  Proof. intros s sh r rest H. cbn [lookup]. destruct (N.eqb_spec s sh); [contradiction|reflexivity]. Qed.

  Lemma failed_cons_neq : forall s sh r rest, s <> sh -> (failed s ((sh, r) :: rest) <-> failed s rest).
  Proof. intros s sh r rest H. unfold failed. rewrite (lookup_cons_neq _ _ _ _ H). reflexivity. Qed.

  Variable happy : Z.

  Fixpoint answers (resps : list (N * R)) (pending : list N) (e : enc) : option (enc * list N) :=
    match resps with
    | [] => Some (e, pending)
    | (sh, r) :: rest =>
        if memN sh pending then
          if bad r then
            match remove_shareholder happy sh e with
            | None => None
            | Some e' => answers rest (set_remove sh pending) e'
            end
          else answers rest (set_remove sh pending) e
        else answers rest pending e
    end.

  Variable E : dmap.
  Variable B : list bucket.

  (* the landlords that remain are those without a failing answer; the requests still pending those without any *)
  Definition handled (resps : list (N * R)) (pending : list N) (e e' : enc) (pending' : list N) : Prop :=
    enc_inv happy E B e' /\ extends_by is_abort (e_log e) (e_log e') /\
    (forall s p, In (s, p) (e_landlords e') <-> In (s, p) (e_landlords e) /\ ~ (In s pending /\ failed s resps)) /\
    (forall s, In s pending' <-> In s pending /\ lookup s resps = None).

  (* the first answer is for sh: it takes sh off the pending requests and, if it is a failure for a pending request,
     off the landlords *)
  Lemma handled_cons : forall sh r rest pending pending1 e e1 e' pending',
    handled rest pending1 e1 e' pending' ->
    extends_by is_abort (e_log e) (e_log e1) ->
    (forall s, In s pending1 <-> In s pending /\ s <> sh) ->
    (forall s p, In (s, p) (e_landlords e1) <-> In (s, p) (e_landlords e) /\ ~ (s = sh /\ In sh pending /\ bad r = true)) ->
    handled ((sh, r) :: rest) pending e e' pending'.
  Proof.
    intros sh r rest pending pending1 e e1 e' pending' (I' & Lg & K & P) L1 P1 K1.
    split; [exact I'|]. split; [eapply extends_by_trans; eassumption|]. split.
    - intros s p. rewrite K, K1, P1.
      destruct (N.eq_dec s sh) as [->|Hne]; [rewrite failed_cons_eq|rewrite (failed_cons_neq _ _ r rest Hne)]; tauto.
    - intros s. rewrite P, P1. destruct (N.eq_dec s sh) as [->|Hne].
      + cbn [lookup]. rewrite N.eqb_refl. intuition discriminate.
      + rewrite (lookup_cons_neq _ _ r rest Hne). tauto.
  Qed.

  Lemma answers_facts : forall resps pending e e' pending',
    answers resps pending e = Some (e', pending') -> enc_inv happy E B e -> handled resps pending e e' pending'.
  Proof.
    induction resps as [|[sh r] rest IH]; intros pending e e' pending' W I; cbn [answers] in W.
    - injection W as <- <-. split; [exact I|]. split; [apply extends_by_refl|].
      split; [intros s p; pose proof (failed_nil s)|intros s; cbn [lookup]]; tauto.
    - destruct (memN sh pending) eqn:M; [destruct (bad r) eqn:Br; [destruct (remove_shareholder happy sh e) as [e1|] eqn:Rm; [|discriminate]|]|].
      + destruct (remove_shareholder_facts happy E B _ _ _ Rm I) as (I1 & L1 & K1). apply memN_In in M.
        eapply handled_cons; [exact (IH _ _ _ _ W I1)|exact L1|intros s; apply In_set_remove|].
        intros s p. rewrite K1. intuition congruence.
      + eapply handled_cons; [exact (IH _ _ _ _ W I)|apply extends_by_refl|intros s; apply In_set_remove|].
        intros s p. rewrite Br. intuition discriminate.
      + assert (Hsh : ~ In sh pending) by (rewrite <- memN_In, M; discriminate).
        eapply handled_cons; [exact (IH _ _ _ _ W I)|apply extends_by_refl| |]; intros s; intuition congruence.
  Qed.
End Answers.

Definition wbad (r : wresp) : bool := match r with WOk => false | WErr => true end.
Definition cbad (r : cresp) : bool := match r with COk => false | _ => true end.

Lemma write_answers_eq : forall happy resps pending e,
  write_answers happy resps pending e = answers wbad happy resps pending e.
Proof.
  intros happy resps. induction resps as [|[sh r] rest IH]; intros pending e; cbn [write_answers answers]; [reflexivity|].
  destruct (memN sh pending); [|apply IH]. destruct r; cbn [wbad]; [apply IH|].
  destruct (remove_shareholder happy sh e); [apply IH|reflexivity].
Qed.

Lemma close_answers_eq : forall happy resps pending e,
  close_answers happy resps pending e = answers cbad happy resps pending e.
Proof.
  intros happy resps. induction resps as [|[sh r] rest IH]; intros pending e; cbn [close_answers answers]; [reflexivity|].
  destruct (memN sh pending); [|apply IH].
  destruct r; cbn [cbad]; [apply IH| |]; (destruct (remove_shareholder happy sh e); [apply IH|reflexivity]).
Qed.

Lemma failed_wbad : forall s resps, failed wbad s resps <-> lookup_w s resps = Some WErr.
Proof.
  intros s resps. split; [|intros H; exists WErr; auto]. intros [[|] [H Hb]]; [discriminate|exact H].
Qed.

Lemma not_failed_cbad : forall s resps, lookup_c s resps <> None -> (~ failed cbad s resps <-> lookup_c s resps = Some COk).
Proof.
  intros s resps Hn. unfold failed. change (lookup s resps) with (lookup_c s resps).
  destruct (lookup_c s resps) as [[| |x]|]; [| | |contradiction]; split; try discriminate; try reflexivity.
  - intros _ [r [[= <-] H]]. discriminate.
  - intros H. destruct H. eauto.
  - intros H. destruct H. eauto.
Qed.

Lemma In_log_sends : forall l op x,
  In x (log_sends l op) <-> exists s p o, In (s, p) l /\ op s = Some o /\ x = ((p, s), o).
Proof.
  intros l op x. unfold log_sends. rewrite in_flat_map. split.
  - intros [[s p] [Hl H]]. cbn [fst snd] in H. destruct (op s) as [o|] eqn:Eo; [|destruct H]. destruct H as [<-|[]]. eauto 6.
  - intros (s & p & o & Hl & Ho & ->). exists (s, p). cbn [fst snd]. rewrite Ho. split; [exact Hl|left; reflexivity].
Qed.

Lemma close_op_not_abort : forall resps s, close_op resps s <> Some OpAbort.
Proof. intros resps s. unfold close_op. destruct (lookup_c s resps) as [[| |x]|]; discriminate. Qed.

Definition ends_in (r : step_result) (P : enc -> Prop) : Prop :=
  match r with
  | Hang => True
  | Continue e => P e /\ e_raised e = false
  | Stop e => P e /\ e_raised e = true
  end.

Lemma ends_in_impl : forall r (P Q : enc -> Prop), (forall e, P e -> Q e) -> ends_in r P -> ends_in r Q.
Proof. intros [e|e|] P Q H; cbn [ends_in]; [| |auto]; intros [H1 H2]; auto. Qed.

Lemma extends_by_sends : forall (A : Type) (P Q : A -> Prop) l m l',
  (forall x, In x m -> Q x) -> extends_by P (l ++ m) l' -> extends_by (fun x => P x \/ Q x) l l'.
Proof.
  intros A P Q l m l' H [H1 H2]. split; [intros x Hx; apply H1, in_or_app; auto|].
  intros x Hx. destruct (H2 x Hx) as [H3|H3]; [|auto]. apply in_app_or in H3. destruct H3; auto.
Qed.

Section Rounds.
  Variable happy : Z.
  Variable E : dmap.
  Variable B : list bucket.

  Lemma with_log_inv : forall e sends,
    (forall x, In x sends -> ~ is_abort x) -> enc_inv happy E B e -> enc_inv happy E B (with_log (e_log e ++ sends) e).
  Proof.
    intros e sends Hs [[I1 I2 I3 I4 I5 I6] I7]. split; [|exact I7].
    constructor; cbn [with_log e_landlords e_servermap e_log e_raised]; auto.
    - intros p s H. rewrite in_app_iff. destruct (I5 _ _ H); auto.
    - intros s p H. rewrite <- (I6 _ _ H), in_app_iff. split; [intros [Ha|Ha]; [exact Ha|destruct (Hs _ Ha eq_refl)]|auto].
  Qed.

  (* one round: the requests go out, then the answers are handled; write_round and close_round are instances *)
  Definition enc_round {R : Type} (bad : R -> bool) (sends : log) (resps : list (N * R)) (e : enc) : step_result :=
    match answers bad happy resps (map fst (e_landlords e)) (with_log (e_log e ++ sends) e) with
    | None => Hang
    | Some (e', pending) => if negb (is_nil pending) then Hang else if e_raised e' then Stop e' else Continue e'
    end.

  Lemma round_facts : forall (R : Type) (bad : R -> bool) op resps e,
    (forall s, op s <> Some OpAbort) -> enc_inv happy E B e ->
    ends_in (enc_round bad (log_sends (e_landlords e) op) resps e) (fun e' =>
      enc_inv happy E B e' /\ extends_by is_abort (e_log e ++ log_sends (e_landlords e) op) (e_log e') /\
      (forall s p, In (s, p) (e_landlords e') <-> In (s, p) (e_landlords e) /\ ~ failed bad s resps) /\
      (forall s p, In (s, p) (e_landlords e) -> lookup s resps <> None)).
  Proof.
    intros R bad op resps e Hop I. unfold enc_round. set (sends := log_sends _ _).
    assert (Hs : forall x, In x sends -> ~ is_abort x).
    { intros x H A. apply In_log_sends in H. destruct H as (s & p & o & _ & Ho & ->). apply (Hop s). rewrite Ho, <- A. reflexivity. }
    apply (with_log_inv e sends Hs) in I.
    destruct (answers bad happy resps _ _) as [[e' pending]|] eqn:W; [|exact Logic.I].
    destruct (answers_facts bad happy E B _ _ _ _ _ W I) as (I' & L & K & P). cbn [with_log e_landlords e_log] in *.
    destruct (is_nil pending) eqn:NP; cbn [negb]; [|exact Logic.I]. apply is_nil_true in NP. subst pending.
    assert (Q : forall s p, In (s, p) (e_landlords e) -> In s (map fst (e_landlords e))) by (intros s p H; exact (in_map fst _ _ H)).
    assert (F : forall s p, In (s, p) (e_landlords e') <-> In (s, p) (e_landlords e) /\ ~ failed bad s resps).
    { intros s p. rewrite K. specialize (Q s p). tauto. }
    assert (A : forall s p, In (s, p) (e_landlords e) -> lookup s resps <> None).
    { intros s p H Hn. apply (P s). split; [exact (Q s p H)|exact Hn]. }
    destruct (e_raised e') eqn:Re; cbn [ends_in]; auto 6.
  Qed.

  Definition is_write (x : bucket * bop) : Prop := snd x = OpWrite.

  Lemma write_round_eq : forall resps e,
    write_round happy resps e = enc_round wbad (log_sends (e_landlords e) (fun _ => Some OpWrite)) resps e.
  Proof. intros resps e. unfold write_round, enc_round. rewrite write_answers_eq. reflexivity. Qed.

  Lemma close_round_eq : forall resps e,
    close_round happy resps e = enc_round cbad (log_sends (e_landlords e) (close_op resps)) resps e.
  Proof. intros resps e. unfold close_round, enc_round. rewrite close_answers_eq. reflexivity. Qed.

  Lemma write_round_facts : forall r e,
    enc_inv happy E B e ->
    ends_in (write_round happy r e) (fun e' =>
      enc_inv happy E B e' /\ extends_by (fun x => is_abort x \/ is_write x) (e_log e) (e_log e') /\
      (forall s p, In (s, p) (e_landlords e') <-> In (s, p) (e_landlords e) /\ lookup_w s r <> Some WErr)).
  Proof.
    intros r e I. rewrite write_round_eq. assert (Hop : forall s : N, Some OpWrite <> Some OpAbort) by discriminate.
    eapply ends_in_impl; [|exact (round_facts _ wbad _ r e Hop I)]. cbv beta. intros e' (I' & L & K & _).
    split; [exact I'|]. split; [|intros s p; rewrite K, failed_wbad; reflexivity].
    refine (extends_by_sends _ _ _ _ _ _ _ L). intros x H. apply In_log_sends in H.
    destruct H as (s & p & o & _ & [= <-] & ->). reflexivity.
  Qed.

  Lemma write_rounds_facts : forall rounds e,
    enc_inv happy E B e -> e_raised e = false ->
    ends_in (write_rounds happy rounds e) (fun e' =>
      enc_inv happy E B e' /\ extends_by (fun x => is_abort x \/ is_write x) (e_log e) (e_log e') /\
      (e_raised e' = false -> forall s p,
         In (s, p) (e_landlords e') <-> In (s, p) (e_landlords e) /\ forall wr, In wr rounds -> lookup_w s wr <> Some WErr)).
  Proof.
    induction rounds as [|r rest IH]; intros e I Re; cbn [write_rounds ends_in].
    - split; [|exact Re]. split; [exact I|]. split; [apply extends_by_refl|]. intros _ s p. cbn [In]. tauto.
    - pose proof (write_round_facts r e I) as RF.
      destruct (write_round happy r e) as [e1|e1|]; [| |exact Logic.I]; destruct RF as [(I1 & L1 & K1) R1].
      + eapply ends_in_impl; [|exact (IH e1 I1 R1)]. cbv beta. intros e2 (I2 & L2 & K2).
        split; [exact I2|]. split; [eapply extends_by_trans; eassumption|]. intros R2 s p.
        rewrite (K2 R2), K1. cbn [In]. split.
        * intros [[H F] A]. split; [exact H|]. intros wr [<-|Hw]; auto.
        * intros [H A]. auto.
      + cbn [ends_in]. split; [|exact R1]. split; [exact I1|]. split; [exact L1|]. congruence.
  Qed.

  Lemma close_round_facts : forall closes e,
    enc_inv happy E B e ->
    ends_in (close_round happy closes e) (fun e' =>
      enc_inv happy E B e' /\ extends_by (fun x => is_abort x \/ In x (log_sends (e_landlords e) (close_op closes))) (e_log e) (e_log e') /\
      (forall s p, In (s, p) (e_landlords e') <-> In (s, p) (e_landlords e) /\ lookup_c s closes = Some COk) /\
      (forall s p, In (s, p) (e_landlords e') -> In ((p, s), OpClose true) (e_log e'))).
  Proof.
    intros closes e I. rewrite close_round_eq. set (sends := log_sends _ _).
    eapply ends_in_impl; [|exact (round_facts _ cbad _ closes e (close_op_not_abort closes) I)]. cbv beta. intros e' (I' & L & K & A).
    assert (C : forall s p, In (s, p) (e_landlords e) -> (~ failed cbad s closes <-> lookup_c s closes = Some COk))
      by (intros s p H; apply not_failed_cbad; exact (A s p H)).
    split; [exact I'|]. split; [exact (extends_by_sends _ _ _ _ _ _ (fun x H => H) L)|]. split; intros s p.
    - rewrite K. split; intros [H F]; (split; [exact H|]); apply (C s p H); exact F.
    - intros H. apply K in H. destruct H as [H F]. apply (C s p H) in F.
      apply L, in_or_app. right. apply In_log_sends. exists s, p, (OpClose true). unfold close_op. rewrite F. auto.
  Qed.
End Rounds.
