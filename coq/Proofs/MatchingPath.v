(* Paths: what walk_back returns, and what augment does to the flow matrix. *)
From Coq Require Import List NArith ZArith Bool Arith Lia.
From Verif Require Import Model.Matching Proofs.MatchingLists.
Import ListNotations.

(* [chain l a b]: l is a list of edges forming a walk from a to b *)
Fixpoint chain (l : list (nat * nat)) (a b : nat) : Prop :=
  match l with
  | [] => a = b
  | (u, v) :: r => u = a /\ chain r v b
  end.

Lemma chain_app : forall l1 l2 a b c, chain l1 a b -> chain l2 b c -> chain (l1 ++ l2) a c.
Proof.
  induction l1 as [|[u v] r IH]; intros l2 a b c H1 H2; cbn [chain app] in *.
  - subst. exact H2.
  - destruct H1 as [E H1]. split; [exact E | eapply IH; eassumption].
Qed.

Lemma chain_first : forall l a b, chain l a b -> a <> b -> exists v, In (a, v) l.
Proof.
  intros l a b H Hne. destruct l as [|[u v] r]; cbn [chain] in H; [contradiction|].
  destruct H as [E _]. subst u. exists v. left. reflexivity.
Qed.

Definition levelled (d : nat -> nat) (l : list (nat * nat)) : Prop :=
  forall u v, In (u, v) l -> d v = S (d u).

Section Levelled.
Variable d : nat -> nat.

(* along a levelled walk the sources of the edges lie on consecutive levels *)
Lemma chain_levels : forall l a b, chain l a b -> levelled d l ->
  map (fun e => d (fst e)) l = seq (d a) (length l) /\ d b = d a + length l.
Proof.
  induction l as [|[u v] r IH]; intros a b Hc Hl; cbn [chain] in Hc.
  - subst. split; [reflexivity | cbn [length]; lia].
  - destruct Hc as [-> Hc].
    destruct (IH _ _ Hc (fun x y Hxy => Hl x y (or_intror Hxy))) as [H1 H2].
    rewrite (Hl a v (or_introl eq_refl)) in H1, H2. cbn [map length seq fst]. rewrite H1. split; [reflexivity | lia].
Qed.

Lemma chain_level_bounds : forall l a b, chain l a b -> levelled d l ->
  forall u v, In (u, v) l -> d a <= d u < d a + length l.
Proof.
  intros l a b Hc Hl u v H. destruct (chain_levels _ _ _ Hc Hl) as [Hm _].
  apply (in_map (fun e => d (fst e))) in H. rewrite Hm in H. apply in_seq in H. exact H.
Qed.

Lemma chain_level_inj : forall l a b, chain l a b -> levelled d l ->
  forall e e', In e l -> In e' l -> d (fst e) = d (fst e') -> e = e'.
Proof.
  intros l a b Hc Hl. destruct (chain_levels _ _ _ Hc Hl) as [Hm _].
  intros e e'. apply (NoDup_map_In_inj (fun e => d (fst e))). rewrite Hm. apply seq_NoDup.
Qed.

Lemma chain_source_unique : forall l a b, chain l a b -> levelled d l ->
  forall x y y', In (x, y) l -> In (x, y') l -> y = y'.
Proof.
  intros l a b Hc Hl x y y' H1 H2. pose proof (chain_level_inj _ _ _ Hc Hl _ _ H1 H2 eq_refl). congruence.
Qed.

Lemma chain_target_unique : forall l a b, chain l a b -> levelled d l ->
  forall x x' y, In (x, y) l -> In (x', y) l -> x = x'.
Proof.
  intros l a b Hc Hl x x' y H1 H2. assert (E : (x, y) = (x', y)); [|congruence].
  apply (chain_level_inj _ _ _ Hc Hl _ _ H1 H2). cbn [fst]. pose proof (Hl _ _ H1). pose proof (Hl _ _ H2). lia.
Qed.

Lemma chain_in_out : forall l a b, chain l a b ->
  forall u x, In (u, x) l -> x <> b -> exists y, In (x, y) l.
Proof.
  induction l as [|[p q] r IH]; intros a b Hc u x H Hx; [destruct H|].
  cbn [chain] in Hc. destruct Hc as [E Hc]. subst p. destruct H as [H|H].
  - inversion H; subst. destruct (chain_first _ _ _ Hc Hx) as [y Hy]. exists y. right. exact Hy.
  - destruct (IH _ _ Hc _ _ H Hx) as [y Hy]. exists y. right. exact Hy.
Qed.

Lemma chain_out_in : forall l a b, chain l a b ->
  forall x y, In (x, y) l -> x <> a -> exists u, In (u, x) l.
Proof.
  induction l as [|[p q] r IH]; intros a b Hc x y H Hx; [destruct H|].
  cbn [chain] in Hc. destruct Hc as [E Hc]. subst p. destruct H as [H|H].
  - inversion H; subst. contradiction.
  - destruct (Nat.eq_dec x q) as [->|Hne].
    + exists a. left. reflexivity.
    + destruct (IH _ _ Hc _ _ H Hne) as [u Hu]. exists u. right. exact Hu.
Qed.

Lemma chain_no_into_start : forall l a b, chain l a b -> levelled d l -> forall u, ~ In (u, a) l.
Proof.
  intros l a b Hc Hl u H. pose proof (chain_level_bounds _ _ _ Hc Hl _ _ H). pose proof (Hl _ _ H). lia.
Qed.

Lemma chain_no_from_end : forall l a b, chain l a b -> levelled d l -> forall y, ~ In (b, y) l.
Proof.
  intros l a b Hc Hl y H. pose proof (chain_level_bounds _ _ _ Hc Hl _ _ H).
  destruct (chain_levels _ _ _ Hc Hl) as [_ Hb]. lia.
Qed.

Lemma levelled_NoDup : forall l a b, chain l a b -> levelled d l -> NoDup l.
Proof.
  intros l a b Hc Hl. destruct (chain_levels _ _ _ Hc Hl) as [Hm _].
  apply (NoDup_map_inv (fun e => d (fst e))). rewrite Hm. apply seq_NoDup.
Qed.

Lemma levelled_no_swap : forall l, levelled d l -> forall u v, In (u, v) l -> ~ In (v, u) l.
Proof.
  intros l Hl u v H1 H2. pose proof (Hl _ _ H1). pose proof (Hl _ _ H2). lia.
Qed.

Lemma levelled_no_loop : forall l, levelled d l -> forall u v, In (u, v) l -> u <> v.
Proof. intros l Hl u v H E. subst. pose proof (Hl _ _ H). lia. Qed.

End Levelled.

Lemma walk_back_spec : forall fuel tree n acc path,
  walk_back fuel tree n acc = Some path ->
  exists pre, path = pre ++ acc /\ chain pre 0 n /\
              forall u v, In (u, v) pre -> nth v tree None = Some u.
Proof.
  induction fuel as [|fuel IH]; intros tree n acc path H; destruct n as [|k]; cbn [walk_back] in H;
    try discriminate.
  1, 2: injection H as <-; exists []; split; [reflexivity|]; split; [reflexivity | intros u v []].
  destruct (nth (S k) tree None) as [p|] eqn:Ep; [|discriminate].
  destruct (IH _ _ _ _ H) as [pre [E [Hc Hp]]].
  exists (pre ++ [(p, S k)]). split; [rewrite <- app_assoc; exact E|]. split.
  - eapply chain_app; [exact Hc|]. cbn [chain]. split; reflexivity.
  - intros u v Hin. apply in_app_iff in Hin. destruct Hin as [Hin|[Hin|[]]].
    + apply Hp. exact Hin.
    + inversion Hin; subst. exact Ep.
Qed.

Definition edge_eq_dec : forall e1 e2 : nat * nat, {e1 = e2} + {e1 <> e2}.
Proof. decide equality; apply Nat.eq_dec. Defined.

Lemma shape_augment : forall dim path f delta, shape dim f -> shape dim (augment f delta path).
Proof.
  intros dim. induction path as [|[u v] r IH]; intros f delta Hs; cbn [augment]; [exact Hs|].
  apply IH. apply shape_mset. apply shape_mset. exact Hs.
Qed.

(* every traversal of (a, b) adds delta to entry (a, b), every traversal of (b, a) takes delta off *)
Lemma augment_spec : forall dim delta path f,
  shape dim f ->
  (forall u v, In (u, v) path -> u < dim /\ v < dim /\ u <> v) ->
  forall a b,
    mget (augment f delta path) a b =
    (mget f a b + delta * Z.of_nat (count_occ edge_eq_dec path (a, b))
                - delta * Z.of_nat (count_occ edge_eq_dec path (b, a)))%Z.
Proof.
  intros dim delta. induction path as [|[u v] r IH]; intros f Hs Hd a b; cbn [augment count_occ]; [lia|].
  destruct (Hd u v (or_introl eq_refl)) as [Hu [Hv Huv]].
  rewrite IH; [| apply shape_mset, shape_mset, Hs | intros p q H; apply Hd; right; exact H].
  rewrite (mget_mset_other dim f u v _ v u) by (assumption || lia).
  rewrite !(mget_mset dim) by (try apply shape_mset; assumption).
  (* whether (a, b) is the edge (u, v), its reverse, or neither *)
  destruct (edge_eq_dec (u, v) (a, b)) as [[= <- <-]|N1].
  - destruct (edge_eq_dec (u, v) (v, u)) as [|_]; [congruence|].
    rewrite !Nat.eqb_refl, (proj2 (Nat.eqb_neq u v) Huv), Nat2Z.inj_succ. cbn [andb]. lia.
  - destruct (edge_eq_dec (u, v) (b, a)) as [[= <- <-]|N2].
    + rewrite !Nat.eqb_refl, (proj2 (Nat.eqb_neq v u)), Nat2Z.inj_succ by congruence. cbn [andb]. lia.
    + destruct (Nat.eqb_spec a u), (Nat.eqb_spec b v), (Nat.eqb_spec a v), (Nat.eqb_spec b u); cbn [andb];
        congruence || lia.
Qed.

Lemma path_delta_one : forall cf path,
  path <> [] -> (forall u v, In (u, v) path -> mget cf u v = 1%Z) -> path_delta cf path = Some 1%Z.
Proof.
  intros cf path Hne H. destruct path as [|[u v] r]; [contradiction|]. cbn [path_delta].
  rewrite (H u v (or_introl eq_refl)).
  assert (Hr : forall e, In e r -> mget cf (fst e) (snd e) = 1%Z).
  { intros [p q] Hin. apply H. right. exact Hin. }
  clear H Hne. f_equal. induction r as [|e r IH]; cbn [fold_left]; [reflexivity|].
  rewrite (Hr e (or_introl eq_refl)). change (Z.min 1 1) with 1%Z.
  apply IH. intros e' He'. apply Hr. right. exact He'.
Qed.
