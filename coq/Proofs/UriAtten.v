(* C16: attenuation (get_readonly / get_verify_cap), flags, alleged prefixes,
   UnknownNode constructor rules; NodeMaker: the node cache is transparent, a freshly
   created node respects its context; the typed entry points of uri.py. *)
From Coq Require Import String List NArith ZArith PeanoNat Bool Lia.
From Verif Require Import Lib.Hex Lib.Bytes Lib.Decimal Gen.Hashutil Gen.Uri Model.UriBase32 Model.Uri Model.UriNodes
  Proofs.UriBase32 Proofs.UriParse.
Import ListNotations.
Local Open Scope N_scope.

Local Opaque ssk_readkey_hash ssk_storage_index_hash storage_index_hash.

Lemma chain_file f :
  storage_index_f (get_readonly_f f) = storage_index_f f
  /\ integrity_f (get_readonly_f f) = integrity_f f
  /\ get_verify_f (get_readonly_f f) = get_verify_f f
  /\ (forall v, get_verify_f f = Some v -> storage_index_f v = storage_index_f f /\ integrity_f v = integrity_f f).
Proof.
  destruct f; cbn [get_readonly_f get_verify_f]; repeat split; intros; try reflexivity;
    match goal with H : Some _ = Some _ |- _ => injection H as <-; reflexivity | H : None = Some _ |- _ => discriminate end.
Qed.

Theorem chain_same_si_fingerprint_ok c :
  (forall r, get_readonly c = Some r ->
     storage_index r = storage_index c /\ integrity r = integrity c /\ get_verify_cap r = get_verify_cap c)
  /\ (forall v, get_verify_cap c = Some v -> storage_index v = storage_index c /\ integrity v = integrity c).
Proof.
  destruct c as [f|f|s e]; cbn [get_readonly get_verify_cap]; split; intros x H; try discriminate;
    destruct (chain_file f) as (A & B & C & D); unfold storage_index, integrity.
  1,3: injection H as <-; cbn [inner get_verify_cap]; rewrite A, B, C; auto.
  all: destruct (get_verify_f f) as [v|]; [|discriminate]; injection H as <-; exact (D v eq_refl).
Qed.

Theorem readonly_has_no_writekey_ok c r : get_readonly c = Some r -> writekey_of r = None.
Proof.
  destruct c as [f|f|s e]; cbn [get_readonly]; intro H; try discriminate; injection H as <-;
    destruct f; reflexivity.
Qed.

Theorem verify_has_no_readkey_ok c v : get_verify_cap c = Some v -> readkey_of v = None /\ writekey_of v = None.
Proof.
  destruct c as [f|f|s e]; cbn [get_verify_cap]; intro H; try discriminate;
    destruct f; cbn in H; try discriminate; injection H as <-; split; reflexivity.
Qed.

Theorem flags_sound_ok c :
  (is_readonly c = Some false <-> writekey_of c <> None)
  /\ (is_mutable c = Some false -> writekey_of c = None)
  /\ (forall r, get_readonly c = Some r -> is_readonly r = Some true /\ is_mutable r = is_mutable c)
  /\ (forall v, get_verify_cap c = Some v -> is_readonly v = Some true /\ is_mutable v = Some false)
  /\ (is_readonly c = Some true -> get_readonly c = Some c).
Proof.
  destruct c as [f|f|s e]; cbn [is_readonly is_mutable inner option_map writekey_of get_readonly get_verify_cap].
  1,2: repeat split; intros; destruct f; cbn in *; try congruence; try discriminate;
    repeat match goal with
           | H : Some _ = Some _ |- _ => injection H as <-
           | H : _ <> _ |- _ => solve [exfalso; apply H; reflexivity]
           end; try reflexivity; try discriminate.
  repeat split; intros; try discriminate. exfalso. apply H. reflexivity.
Qed.

Lemma kind_of_get_readonly f : kind_of (get_readonly_f f) = ro_kind (kind_of f).
Proof. destruct f; reflexivity. Qed.

Lemma kind_of_get_verify f : option_map kind_of (get_verify_f f) = verify_kind (kind_of f).
Proof. destruct f; reflexivity. Qed.

Lemma ro_not_imm s : starts_with imm_prefix (ro_prefix ++ s) = false.
Proof. reflexivity. Qed.

Lemma strip_alleged_ro di s : exists cbm, strip_alleged di (ro_prefix ++ s) = (cbm, false, s).
Proof.
  unfold strip_alleged. rewrite (starts_with_false_strip _ _ (ro_not_imm s)), strip_prefix_app.
  eexists. reflexivity.
Qed.

Lemma strip_alleged_imm di s : strip_alleged di (imm_prefix ++ s) = (false, false, s).
Proof. unfold strip_alleged. rewrite strip_prefix_app. reflexivity. Qed.

Lemma strip_alleged_deep u : exists s, strip_alleged true u = (false, false, s).
Proof.
  unfold strip_alleged. destruct (strip_prefix imm_prefix u); [eexists; reflexivity|].
  destruct (strip_prefix ro_prefix u); eexists; reflexivity.
Qed.

(* a writeable result needs can_be_writeable, a mutable one can_be_mutable (or
   can_be_writeable, which strip_alleged never sets without the other) *)
Lemma from_string_respects_context di u c cbm cbw s : strip_alleged di u = (cbm, cbw, s) ->
  from_string di u = Ok c ->
  (is_readonly c = Some false -> cbw = true) /\ (is_mutable c = Some true -> cbm = true \/ cbw = true).
Proof.
  intros Ea H. destruct (known c) eqn:K; [|destruct c; try discriminate K; split; discriminate].
  destruct (from_string_known di u c cbm cbw s Ea H K) as (dir & f & g & ext & -> & Hin & G & _).
  unfold is_readonly, is_mutable. rewrite inner_mk_cap. cbn [option_map]. unfold is_readonly_f, is_mutable_f.
  destruct (dispatch_guards dir (kind_of f) g Hin) as [W M].
  split; intro R; injection R as R.
  - rewrite (W R) in G. exact G.
  - destruct (M R) as [-> | ->]; [right|left]; exact G.
Qed.

Lemma never_upgrades_when di u c cbm s : strip_alleged di u = (cbm, false, s) -> from_string di u = Ok c ->
  is_readonly c <> Some false /\ (cbm = false -> is_mutable c <> Some true).
Proof.
  intros Ea H. destruct (from_string_respects_context _ _ _ _ _ _ Ea H) as [W M]. split.
  - intro R. discriminate (W R).
  - intros -> R. destruct (M R); discriminate.
Qed.

Lemma ro_never_writeable di s c : from_string di (ro_prefix ++ s) = Ok c -> is_readonly c <> Some false.
Proof. intro H. destruct (strip_alleged_ro di s) as [cbm E]. exact (proj1 (never_upgrades_when _ _ _ _ _ E H)). Qed.

Lemma imm_never_upgrades di s c : from_string di (imm_prefix ++ s) = Ok c ->
  is_readonly c <> Some false /\ is_mutable c <> Some true.
Proof.
  intro H. destruct (never_upgrades_when _ _ _ _ _ (strip_alleged_imm di s) H) as [W M]. exact (conj W (M eq_refl)).
Qed.

Lemma deep_never_upgrades s c : from_string true s = Ok c -> is_readonly c <> Some false /\ is_mutable c <> Some true.
Proof.
  intro H. destruct (strip_alleged_deep s) as [s' E].
  destruct (never_upgrades_when _ _ _ _ _ E H) as [W M]. exact (conj W (M eq_refl)).
Qed.

(* `strength` orders the allegations: 2 = imm., 1 = ro., 0 = none *)
Lemma strength_cases r :
  (strength r = 2%nat /\ starts_with imm_prefix r = true)
  \/ (strength r = 1%nat /\ starts_with imm_prefix r = false /\ starts_with ro_prefix r = true)
  \/ (strength r = 0%nat /\ starts_with imm_prefix r = false /\ starts_with ro_prefix r = false).
Proof.
  unfold strength. destruct (starts_with imm_prefix r); [left; auto|].
  destruct (starts_with ro_prefix r); [right; left; auto|right; right; auto].
Qed.

Lemma strength_imm t : strength (imm_prefix ++ t) = 2%nat.
Proof. unfold strength. rewrite starts_with_app. reflexivity. Qed.

Lemma strength_ro t : strength (ro_prefix ++ t) = 1%nat.
Proof. unfold strength. rewrite ro_not_imm, starts_with_app. reflexivity. Qed.

Lemma strength_two r : strength r = 2%nat -> starts_with imm_prefix r = true.
Proof. destruct (strength_cases r) as [[_ I]|[(-> & _)|(-> & _)]]; [intros _; exact I|discriminate..]. Qed.

Lemma strength_pos r : (1 <= strength r)%nat -> starts_with ro_prefix r = true \/ starts_with imm_prefix r = true.
Proof. destruct (strength_cases r) as [[_ I]|[(_ & _ & R)|(-> & _)]]; [auto..|lia]. Qed.

Theorem strength_never_upgrades di r c : from_string di r = Ok c ->
  ((1 <= strength r)%nat -> is_readonly c <> Some false) /\ (strength r = 2%nat -> is_mutable c <> Some true).
Proof.
  intro H. destruct (strength_cases r) as [[_ I]|[(E & _ & R)|(E & _)]].
  - destruct (starts_with_true _ _ I) as [t ->]. destruct (imm_never_upgrades di t c H). split; auto.
  - destruct (starts_with_true _ _ R) as [t ->]. rewrite E. split; [intros _; exact (ro_never_writeable di t c H)|discriminate].
  - rewrite E. split; [lia|discriminate].
Qed.

Lemma phase3_props rw ro di :
  let n := unknown_phase3 rw ro di in
  un_error n = ENone
  /\ (di = true -> un_rw n = None)
  /\ (un_rw n = rw \/ un_rw n = None)
  /\ (un_ro n = None -> ro = None).
Proof.
  unfold unknown_phase3. destruct di; cbn [un_error un_rw un_ro]; repeat split; auto; try discriminate;
    destruct ro as [x|]; auto.
  - destruct (starts_with imm_prefix x); [|destruct (strip_prefix ro_prefix x)]; discriminate.
  - destruct (starts_with ro_prefix x || starts_with imm_prefix x); discriminate.
Qed.

(* the last block of UnknownNode.__init__ only ever strengthens the allegation of the read cap *)
Lemma phase3_strength rw x di r' : un_ro (unknown_phase3 rw (Some x) di) = Some r' ->
  (strength x <= strength r')%nat /\ (1 <= strength r')%nat /\ (di = true -> strength r' = 2%nat).
Proof.
  unfold unknown_phase3.
  destruct (strength_cases x) as [[E I]|[(E & I & R)|(E & I & R)]]; rewrite E; destruct di; cbn [un_ro]; rewrite I, ?R; cbn [orb].
  (* imm.: kept as it is *)
  1,2: rewrite ?orb_true_r; intro H; injection H as <-; rewrite E; repeat split; auto.
  (* ro.: becomes imm. in an immutable directory *)
  - destruct (starts_with_strip _ _ R) as (t & -> & _). intro H.
    assert (r' = imm_prefix ++ t) as -> by congruence. rewrite strength_imm. repeat split; auto.
  - intro H. injection H as <-. rewrite E. repeat split; auto. discriminate.
  (* none: gains imm. or ro. *)
  - rewrite (starts_with_false_strip _ _ R). intro H.
    assert (r' = imm_prefix ++ x) as -> by congruence. rewrite strength_imm. repeat split; auto.
  - intro H. assert (r' = ro_prefix ++ x) as -> by congruence. rewrite strength_ro. repeat split; auto. discriminate.
Qed.

Lemma phase1_props rw ro di rw' ro' : unknown_phase1 rw ro di = inr (rw', ro') ->
  (di = true -> rw' = None)
  /\ (rw' <> None -> rw' = rw /\ ro' = ro /\ ro <> None)
  /\ (ro' = None -> rw' = None).
Proof.
  unfold unknown_phase1. destruct rw as [w|].
  - destruct di.
    + destruct (starts_with imm_prefix w && is_none ro) eqn:E.
      * apply andb_true_iff in E. destruct E as [E1 E2]. destruct ro; [discriminate E2|].
        rewrite E1, orb_true_r. cbn [negb]. intro H. injection H as <- <-.
        repeat split; try congruence; intros; exfalso; auto.
      * destruct (is_none ro); discriminate.
    + destruct ro as [r|].
      * destruct (starts_with imm_prefix r); [discriminate|]. intro H. injection H as <- <-.
        repeat split; try discriminate; congruence.
      * destruct (negb (starts_with ro_prefix w || starts_with imm_prefix w)); [discriminate|].
        intro H. injection H as <- <-. repeat split; try congruence; intros; exfalso; auto.
  - intro H. injection H as <- <-. repeat split; try congruence; intros; exfalso; auto.
Qed.

Lemma phase1_ro_slot rw x di rw' ro' : unknown_phase1 rw (Some x) di = inr (rw', ro') -> ro' = Some x.
Proof.
  unfold unknown_phase1. destruct rw as [w|]; [|intro H; injection H as <- <-; reflexivity].
  destruct di.
  - cbn [is_none]. rewrite andb_false_r. discriminate.
  - destruct (starts_with imm_prefix x); [discriminate|]. intro H. injection H as <- <-. reflexivity.
Qed.

Lemma phase1_error rw ro di e : unknown_phase1 rw ro di = inl e -> e <> ENone.
Proof.
  unfold unknown_phase1. intros H ->. destruct rw as [w|]; [|discriminate].
  destruct di; [destruct (starts_with imm_prefix w && is_none ro); [|destruct (is_none ro); discriminate]|];
    (destruct ro as [r|]; [destruct (starts_with imm_prefix r); discriminate
                          |destruct (negb (starts_with ro_prefix w || starts_with imm_prefix w)); discriminate]).
Qed.

(* UnknownNode.__init__ ends in one of two ways: an opaque node recording an
   error, or the node the last block makes of what the first block let through *)
Lemma unknown_node_cases rw ro di n : unknown_node rw ro di = UOk n ->
  (un_error n <> ENone /\ un_rw n = None /\ un_ro n = None)
  \/ (exists rw' ro', unknown_phase1 (or_none rw) (or_none ro) di = inr (rw', ro') /\ n = unknown_phase3 rw' ro' di).
Proof.
  unfold unknown_node. destruct (unknown_phase1 (or_none rw) (or_none ro) di) as [e|[rw' ro']] eqn:E1; intro H.
  - left. injection H as <-. repeat split. exact (phase1_error _ _ _ _ E1).
  - assert (R : UOk (unknown_phase3 rw' ro' di) = UOk n -> n = unknown_phase3 rw' ro' di) by (intro E; injection E as <-; reflexivity).
    assert (L : forall e, e <> ENone -> opaque e = UOk n -> un_error n <> ENone /\ un_rw n = None /\ un_ro n = None)
      by (intros e Ne E; injection E as <-; repeat split; exact Ne).
    destruct ro' as [r|]; [|right; eauto].
    destruct (from_string di r) as [c| |]; try discriminate H.
    destruct c as [f|f|s e]; [right; eauto|right; eauto|].
    destruct e; [right; eauto|left; refine (L _ _ H); discriminate..].
Qed.

Theorem unknown_node_rules_ok rw ro di n : unknown_node rw ro di = UOk n ->
  (* deep-immutable context: never a write cap *)
  (di = true -> un_rw n = None)
  (* an error makes the node opaque *)
  /\ (un_error n <> ENone -> un_rw n = None /\ un_ro n = None)
  (* the read slot always carries an alleged prefix, imm. in an immutable context *)
  /\ (forall r, un_ro n = Some r -> starts_with ro_prefix r = true \/ starts_with imm_prefix r = true)
  /\ (di = true -> forall r, un_ro n = Some r -> starts_with imm_prefix r = true)
  (* a write cap is kept only as given, and only together with a separate read cap *)
  /\ (forall w, un_rw n = Some w -> or_none rw = Some w /\ or_none ro <> None /\ un_ro n <> None).
Proof.
  intro H. destruct (unknown_node_cases _ _ _ _ H) as [(_ & -> & ->)|(rw' & ro' & E1 & ->)].
  - split; [reflexivity|]. split; [split; reflexivity|]. split; [discriminate|]. split; discriminate.
  - destruct (phase3_props rw' ro' di) as (A & B & F & G).
    destruct (phase1_props _ _ _ _ _ E1) as (P & Q & R).
    assert (S : forall r, un_ro (unknown_phase3 rw' ro' di) = Some r -> (1 <= strength r)%nat /\ (di = true -> strength r = 2%nat)).
    { intros r Hr. destruct ro' as [x|]; [apply (phase3_strength rw' x di r Hr)|]. destruct di; discriminate Hr. }
    split; [exact B|]. split; [intro X; exfalso; apply X; exact A|].
    split; [intros r Hr; apply strength_pos, S, Hr|]. split; [intros D r Hr; apply strength_two, S; assumption|].
    intros w Hw. destruct F as [F|F]; rewrite F in Hw; [|discriminate]. assert (rw' <> None) as N by congruence.
    destruct (Q N) as (Q1 & Q2 & Q3). split; [congruence|]. split; [exact Q3|].
    intro Z. apply G in Z. congruence.
Qed.

(* a read cap given to UnknownNode and accepted without error keeps or gains allegation *)
Lemma unknown_node_strength rw ro di n x r' :
  unknown_node rw ro di = UOk n -> un_error n = ENone -> or_none ro = Some x -> un_ro n = Some r' ->
  (strength x <= strength r')%nat /\ (1 <= strength r')%nat /\ (di = true -> strength r' = 2%nat).
Proof.
  intros H He Ex. destruct (unknown_node_cases _ _ _ _ H) as [(E & _)|(rw' & ro' & P1 & ->)]; [contradiction|].
  rewrite Ex in P1. apply phase1_ro_slot in P1. subst ro'. apply phase3_strength.
Qed.

Lemma memokey_inj di s di' s' : memokey di s = memokey di' s' -> di = di' /\ s = s'.
Proof.
  unfold memokey. destruct di, di'; vm_compute; intro H; injection H as H; try discriminate; auto.
Qed.

Lemma cache_lookup_in k cache c : cache_lookup k cache = Some c -> In (k, c) cache.
Proof.
  induction cache as [|[k' c'] r IH]; cbn [cache_lookup]; intro H; [discriminate|].
  destruct (list_N_eqb k k') eqn:E.
  - apply list_N_eqb_eq in E. injection H as ->. subst. left. reflexivity.
  - right. apply IH. exact H.
Qed.

Theorem node_cache_transparent_ok cache rw ro di :
  cache_ok cache ->
  fst (create_from_cap cache rw ro di) = create_fresh rw ro di /\ cache_ok (snd (create_from_cap cache rw ro di)).
Proof.
  intro I. unfold create_from_cap, create_fresh. destruct (bigcap rw ro) as [s|]; [|split; [reflexivity|exact I]].
  destruct (cache_lookup (memokey di s) cache) as [c|] eqn:L.
  - cbn [fst snd]. split; [|exact I]. apply cache_lookup_in in L.
    unfold cache_ok in I. rewrite Forall_forall in I. destruct (I _ L) as (di' & s' & Hk & Hf & Hb). cbn [fst snd] in *.
    apply memokey_inj in Hk. destruct Hk as [-> ->]. rewrite Hf, Hb. reflexivity.
  - cbn [fst snd]. split; [reflexivity|].
    destruct (from_string di s) as [c| |] eqn:F; try exact I.
    destruct (builds_node c) eqn:Bn; [|exact I].
    destruct (is_mutable c) as [[|]|]; try exact I.
    constructor; [|exact I]. exists di, s. cbn [fst snd]. auto.
Qed.

(* a node is built around the cap from_string returned for the bigcap *)
Lemma create_fresh_node rw ro di c : create_fresh rw ro di = MNode c ->
  exists b, bigcap rw ro = Some b /\ from_string di b = Ok c.
Proof.
  unfold create_fresh. destruct (bigcap rw ro) as [b|]; [|discriminate].
  destruct (from_string di b) as [c'| |] eqn:F; try discriminate. destruct (builds_node c'); [|discriminate].
  intro H. injection H as ->. exists b. split; [reflexivity|exact F].
Qed.

(* otherwise the two caps go to UnknownNode, in the caller's context unless both are empty *)
Lemma create_fresh_unknown rw ro di u : create_fresh rw ro di = MUnknown u ->
  unknown_node rw ro di = u \/ (bigcap rw ro = None /\ unknown_node None None false = u).
Proof.
  unfold create_fresh. destruct (bigcap rw ro) as [b|]; [|intro H; injection H as <-; right; split; reflexivity].
  destruct (from_string di b) as [c| |]; try discriminate. destruct (builds_node c); [discriminate|].
  intro H. injection H as <-. left. reflexivity.
Qed.

Theorem create_fresh_respects_context_ok rw ro s c :
  (create_fresh rw ro true = MNode c -> is_mutable c <> Some true /\ is_readonly c <> Some false)
  /\ (bigcap rw ro = Some (ro_prefix ++ s) -> forall di, create_fresh rw ro di = MNode c -> is_readonly c <> Some false)
  /\ (bigcap rw ro = Some (imm_prefix ++ s) -> forall di, create_fresh rw ro di = MNode c -> is_mutable c <> Some true /\ is_readonly c <> Some false).
Proof.
  split; [|split].
  - intro H. destruct (create_fresh_node _ _ _ _ H) as (b & _ & F). apply and_comm, (deep_never_upgrades b c F).
  - intros E di H. destruct (create_fresh_node _ _ _ _ H) as (b & Eb & F). rewrite E in Eb. injection Eb as <-.
    exact (ro_never_writeable di s c F).
  - intros E di H. destruct (create_fresh_node _ _ _ _ H) as (b & Eb & F). rewrite E in Eb. injection Eb as <-.
    apply and_comm, (imm_never_upgrades di s c F).
Qed.

Theorem typed_entry_points_agree_ok i di u c :
  typed_from_string i di u = Ok c -> from_string di u = Ok c /\ provides i c = true.
Proof.
  unfold typed_from_string. destruct (from_string di u) as [c'| |]; try discriminate.
  destruct (provides i c') eqn:P; [|discriminate]. intro H. injection H as <-. split; [reflexivity|exact P].
Qed.

Theorem typed_entry_points_never_upgrade_ok i di s c :
  (typed_from_string i di (ro_prefix ++ s) = Ok c -> is_readonly c <> Some false)
  /\ (typed_from_string i di (imm_prefix ++ s) = Ok c -> is_readonly c <> Some false /\ is_mutable c <> Some true)
  /\ (typed_from_string i true s = Ok c -> is_readonly c <> Some false /\ is_mutable c <> Some true).
Proof.
  split; [|split]; intro H; apply typed_entry_points_agree_ok in H; destruct H as [H _].
  - exact (ro_never_writeable di s c H).
  - exact (imm_never_upgrades di s c H).
  - exact (deep_never_upgrades s c H).
Qed.

(* The read key of the write key used in the examples of Props/C16.v: the digest
   is evaluated here, once for all of them. *)
Lemma sample_readkey : ssk_readkey_hash (repeat 1 16) = unhex "6d4c7ed53a22b395219d29a61e1898ee".
Proof. vm_compute. reflexivity. Qed.
