(* C29: one immutable upload (allocate, writes, close) under a crash at any
   point: the share is absent after the restart, or it is the incoming file as
   it was when close() renamed it -- and that file holds what the uploader wrote. *)
From Coq Require Import List Arith NArith Bool Lia.
From Verif Require Import Lib.Hex Lib.ListFacts Lib.FileSys Model.Crash
  Proofs.CrashBytes Proofs.CrashImm Proofs.CrashMut Proofs.Crash.
Import ListNotations.
Local Open Scope N_scope.

Lemma run_fops_app a b f : run_fops (a ++ b) f = run_fops b (run_fops a f).
Proof. unfold run_fops. apply fold_left_app. Qed.

(* a crash before the last call is a crash of the calls before it *)
Lemma crash_prefixes_snoc (ops : list pop) x pre :
  In pre (crash_prefixes (ops ++ [x])) -> In pre (crash_prefixes ops) \/ pre = ops ++ [x].
Proof.
  rewrite !crash_prefixes_spec, app_length. intros [k [Hk ->]]. cbn [length] in Hk.
  destruct (Nat.le_gt_cases k (length ops)) as [Hle|Hgt].
  - left. exists k. split; [exact Hle|]. rewrite firstn_app.
    replace (k - length ops)%nat with 0%nat by lia. rewrite firstn_O. apply app_nil_r.
  - right. apply firstn_all2. rewrite app_length. cbn [length]. lia.
Qed.

(* A file written under the name I and then renamed to F: after any crash F is
   absent or holds the complete file. *)
Lemma publish_absent_or_complete I F fops s pre :
  I <> F -> s F = None ->
  In pre (crash_prefixes (Create I :: map (lift I) fops ++ [Rename I F])) ->
  run_p pre s F = None \/ run_p pre s F = Some (run_fops fops []).
Proof.
  intros HIF Habs Hpre. set (A := Create I :: map (lift I) fops).
  apply (crash_prefixes_snoc A) in Hpre. destruct Hpre as [Hpre| ->].
  - left. rewrite <- Habs.
    apply (crash_outside _ _ path_eqb_eq (eq I) A _ _ _ Hpre); [|exact HIF].
    constructor; [repeat constructor|apply within_lift; reflexivity].
  - right. rewrite run_p_app.
    assert (HI : run_p A s I = Some (run_fops fops [])).
    { unfold A, run_p. rewrite run_cons. apply run_p_lift_same, upd_same, path_eqb_eq. }
    unfold run_p at 1. cbn [run fold_left apply_op]. fold (run_p A s). rewrite HI.
    apply upd_same. exact path_eqb_eq.
Qed.

(* the writes and the close of the call list above are those of the server operations *)
Lemma upload_write_ops_eq si sh size writes : forall s,
  sops_ops (map (fun w => ImmWrite si sh size (fst w) (snd w)) writes ++ [ImmClose si sh]) s
  = map (lift (Incoming si sh)) (upload_write_fops size writes)
    ++ [Rename (Incoming si sh) (Final si sh)].
Proof.
  induction writes as [|[off d] writes IH]; intro s; [reflexivity|].
  cbn [map app sops_ops upload_write_fops flat_map fst snd]. rewrite IH.
  unfold plain_ops. cbn [ops_of]. destruct (off + flen d <=? size); reflexivity.
Qed.

(* allocate_buckets for one share that exists nowhere yet *)
Lemma allocate_new_ops si sh size rec s :
  s (Final si sh) = None -> s (Incoming si sh) = None ->
  plain_ops (ImmAllocate si [] [sh] size rec true) s = imm_create_ops (Incoming si sh) size rec.
Proof.
  intros HF HI. unfold plain_ops. cbn [ops_of existing filter all_existing forallb map app seq_steps].
  unfold alloc_step at 1. unfold exists_at. rewrite HF, HI. cbn [orb].
  rewrite app_nil_r. apply map_fst_unflagged.
Qed.

Lemma upload_ops_split si sh size rec writes :
  upload_ops si sh size rec writes
  = imm_create_ops (Incoming si sh) size rec
    ++ map (lift (Incoming si sh)) (upload_write_fops size writes)
    ++ [Rename (Incoming si sh) (Final si sh)].
Proof. unfold upload_ops, imm_create_ops. rewrite map_app, <- app_assoc. reflexivity. Qed.

Lemma upload_ops_are_the_server_operations si sh size rec writes s :
  s (Final si sh) = None -> s (Incoming si sh) = None ->
  sops_ops (upload_sops si sh size rec writes) s = upload_ops si sh size rec writes.
Proof.
  intros HF HI. unfold upload_sops. cbn [sops_ops].
  rewrite upload_write_ops_eq, (allocate_new_ops _ _ _ _ _ HF HI). symmetry. apply upload_ops_split.
Qed.

Lemma imm_header_length size : length (imm_header size) = 12%nat.
Proof. unfold imm_header. rewrite !app_length, !enc_length. reflexivity. Qed.

Definition closed_header (size : N) : list N := write_at (imm_header size) 8 (enc 4 1).

Lemma closed_header_length size : length (closed_header size) = 12%nat.
Proof.
  unfold closed_header. rewrite write_at_length_inside; [apply imm_header_length|].
  rewrite imm_header_length, enc_length. reflexivity.
Qed.

Lemma created_file size rec :
  rec <> [] ->
  run_fops (imm_create_fops size rec) [] = closed_header size ++ zeros size ++ rec.
Proof.
  intro Hrec. unfold imm_create_fops, run_fops. cbn [fold_left apply_fop].
  assert (E1 : write_at [] 0 (imm_header size) = imm_header size).
  { change 0 with (flen []). rewrite write_at_end. reflexivity. }
  rewrite E1.
  assert (E2 : write_at (imm_header size) (size + 12) rec = imm_header size ++ zeros size ++ rec).
  { destruct rec as [|b rec]; [congruence|]. rewrite write_at_cons.
    rewrite firstn_all2 by (rewrite imm_header_length; lia).
    rewrite skipn_all2 by (rewrite imm_header_length; lia).
    unfold flen. rewrite imm_header_length, app_nil_r.
    replace (size + 12 - N.of_nat 12) with size by lia. reflexivity. }
  rewrite E2. unfold closed_header. apply write_at_app_left.
  rewrite imm_header_length, enc_length. reflexivity.
Qed.

Lemma written_file size rec writes : forall h d,
  length h = 12%nat -> length d = N.to_nat size ->
  run_fops (upload_write_fops size writes) (h ++ d ++ rec)
  = h ++ fold_left (fun d w => if fst w + flen (snd w) <=? size
                               then write_at d (fst w) (snd w) else d) writes d ++ rec.
Proof.
  induction writes as [|[off bs] writes IH]; intros h d Hh Hd; [reflexivity|].
  cbn [upload_write_fops flat_map fst snd fold_left].
  destruct (off + flen bs <=? size) eqn:E.
  - apply N.leb_le in E. rewrite run_fops_app. unfold run_fops at 2. cbn [fold_left apply_fop].
    assert (Hin : (N.to_nat off + length bs <= length d)%nat) by (unfold flen in E; lia).
    replace (12 + off) with (N.of_nat (length h) + off) by (rewrite Hh; reflexivity).
    rewrite write_at_app_mid by exact Hin.
    apply IH; [exact Hh|]. rewrite write_at_length_inside by exact Hin. exact Hd.
  - cbn [app]. apply IH; assumption.
Qed.

Lemma sub_mid h d r :
  sub (N.of_nat (length h)) (N.of_nat (length d)) (h ++ d ++ r) = d.
Proof.
  apply nth_error_ext. intro i. rewrite nth_error_sub, !Nat2N.id, !nth_error_app'.
  ltb_cases; try lia.
  - f_equal. lia.
  - symmetry. apply nth_error_None. lia.
Qed.

(* how a share file with one lease record is read back *)
Lemma one_lease_view h d rec :
  length h = 12%nat -> length rec = 72%nat ->
  imm_version_ok (h ++ d ++ rec) = true -> imm_count (h ++ d ++ rec) = 1 ->
  view_of (Some (h ++ d ++ rec)) = VImm d [rec].
Proof.
  intros Hh Hrec Hver Hcnt. set (f := h ++ d ++ rec) in *.
  assert (Hf : flen f = 12 + flen d + 72).
  { unfold f, flen. rewrite !app_length, Hh, Hrec. lia. }
  assert (Hlo : imm_lease_offset f = 12 + flen d) by (unfold imm_lease_offset; rewrite Hf, Hcnt; lia).
  assert (Hwf : imm_wf f = true).
  { unfold imm_wf. rewrite Hf, Hcnt, Hver, !andb_true_iff, !N.leb_le. repeat split; lia. }
  unfold view_of. rewrite (version_not_magic f Hver), Hwf. f_equal.
  - unfold imm_data. rewrite Hlo. replace (12 + flen d - 12) with (N.of_nat (length d)) by (unfold flen; lia).
    replace 12 with (N.of_nat (length h)) by (rewrite Hh; reflexivity). apply sub_mid.
  - unfold imm_leases. rewrite Hlo.
    replace (N.to_nat (12 + flen d)) with (length h + length d)%nat by (unfold flen; lia).
    unfold f. rewrite app_assoc, skipn_app_exact, Hrec by apply app_length.
    apply (chunks_short 71); [|rewrite Hrec; reflexivity]. intros ->. discriminate Hrec.
Qed.

Lemma closed_header_version size t : sub 0 4 (closed_header size ++ t) = enc 4 2.
Proof.
  rewrite sub_app_left by (rewrite closed_header_length; simpl; lia).
  unfold closed_header. rewrite sub_write_at_before.
  - unfold imm_header. rewrite sub_app_left by (rewrite enc_length; simpl; lia). reflexivity.
  - simpl; lia.
  - rewrite imm_header_length. simpl; lia.
Qed.

Lemma closed_header_count size t : sub 8 4 (closed_header size ++ t) = enc 4 1.
Proof.
  rewrite sub_app_left by (rewrite closed_header_length; simpl; lia).
  unfold closed_header. change 4 with (flen (enc 4 1)). apply sub_write_at_same.
Qed.

Lemma closed_file_view size rec d :
  length rec = 72%nat -> view_of (Some (closed_header size ++ d ++ rec)) = VImm d [rec].
Proof.
  intro Hrec. apply one_lease_view; [apply closed_header_length|exact Hrec| |].
  - unfold imm_version_ok, imm_version. rewrite closed_header_version. reflexivity.
  - unfold imm_count. rewrite closed_header_count. reflexivity.
Qed.

(* the file close() renames is a well-formed share holding exactly what the
   uploader wrote (unwritten ranges read as zeros) and the upload's lease *)
Lemma file_at_close_complete_proof size rec writes :
  length rec = 72%nat ->
  view_of (Some (file_at_close size rec writes)) = VImm (written_data size writes) [rec].
Proof.
  intro Hrec. unfold file_at_close. rewrite run_fops_app.
  rewrite created_file by (intros ->; discriminate Hrec).
  rewrite written_file; [|apply closed_header_length|apply zeros_length].
  apply closed_file_view, Hrec.
Qed.

Lemma covered_spec size ranges :
  covered size ranges = true <->
  forall i, i < size -> exists r, In r ranges /\ fst r <= i /\ i < fst r + snd r.
Proof.
  unfold covered. rewrite forallb_forall. split.
  - intros H i Hi. specialize (H i).
    assert (Hin : In i (map N.of_nat (seq 0 (N.to_nat size)))).
    { apply in_map_iff. exists (N.to_nat i). split; [apply N2Nat.id|]. apply in_seq. lia. }
    apply H in Hin. apply existsb_exists in Hin. destruct Hin as [r [Hr Hb]].
    unfold in_range in Hb. apply andb_true_iff in Hb. destruct Hb as [H1 H2].
    apply N.leb_le in H1. apply N.ltb_lt in H2. exists r. auto.
  - intros H i Hi. apply in_map_iff in Hi. destruct Hi as [j [<- Hj]]. apply in_seq in Hj.
    destruct (H (N.of_nat j)) as [r [Hr [H1 H2]]]; [lia|].
    apply existsb_exists. exists r. split; [exact Hr|].
    unfold in_range. apply andb_true_iff. split; [apply N.leb_le|apply N.ltb_lt]; assumption.
Qed.

Lemma write_ranges_cons_ok size w r :
  (fst w + flen (snd w) <=? size) = true ->
  write_ranges size (w :: r) = write_ranges size r ++ [(fst w, flen (snd w))].
Proof. intro H. unfold write_ranges. cbn [flat_map]. rewrite H. cbn [app]. reflexivity. Qed.

Lemma write_ranges_cons_bad size w r :
  (fst w + flen (snd w) <=? size) = false -> write_ranges size (w :: r) = write_ranges size r.
Proof. intro H. unfold write_ranges. cbn [flat_map]. rewrite H. reflexivity. Qed.

Lemma http_write_ops_shape si sh size writes : forall prev,
  (exists m, http_write_ops si sh size prev writes
             = map (lift (Incoming si sh)) (upload_write_fops size (firstn m writes))
               ++ [Rename (Incoming si sh) (Final si sh)]
             /\ covered size (write_ranges size (firstn m writes) ++ prev) = true)
  \/ http_write_ops si sh size prev writes
     = map (lift (Incoming si sh)) (upload_write_fops size writes).
Proof.
  induction writes as [|w r IH]; intro prev; [right; reflexivity|].
  cbn [http_write_ops]. destruct (fst w + flen (snd w) <=? size) eqn:E.
  - destruct (covered size ((fst w, flen (snd w)) :: prev)) eqn:C.
    + left. exists 1%nat. cbn [firstn upload_write_fops flat_map]. rewrite E. cbn [app map lift].
      split; [reflexivity|]. rewrite write_ranges_cons_ok by exact E. exact C.
    + destruct (IH ((fst w, flen (snd w)) :: prev)) as [[m [H1 H2]]|H].
      * left. exists (S m). cbn [firstn upload_write_fops flat_map]. rewrite E. cbn [app map lift].
        split; [rewrite H1; reflexivity|].
        rewrite write_ranges_cons_ok by exact E. rewrite <- app_assoc. exact H2.
      * right. cbn [upload_write_fops flat_map]. rewrite E. cbn [app map lift]. rewrite H. reflexivity.
  - destruct (IH prev) as [[m [H1 H2]]|H].
    + left. exists (S m). cbn [firstn upload_write_fops flat_map]. rewrite E. cbn [app].
      split; [exact H1|]. rewrite write_ranges_cons_bad by exact E. exact H2.
    + right. cbn [upload_write_fops flat_map]. rewrite E. cbn [app]. exact H.
Qed.

(* over HTTP a share becomes visible only through the write that completes it:
   after any crash + restart it is absent, or it holds the data of writes whose
   ranges cover every byte of the share *)
Lemma http_upload_absent_or_byte_complete_proof si sh size rec writes s pre :
  s (Final si sh) = None -> length rec = 72%nat ->
  In pre (crash_prefixes (http_upload_ops si sh size rec writes)) ->
  let s' := recover (run_p pre s) in
  s' (Final si sh) = None \/
  exists m, covered size (write_ranges size (firstn m writes)) = true /\
            s' (Final si sh) = Some (file_at_close size rec (firstn m writes)) /\
            view_of (s' (Final si sh)) = VImm (written_data size (firstn m writes)) [rec].
Proof.
  intros Habs Hrec Hpre s'. unfold http_upload_ops in Hpre.
  unfold s'. change (recover ?x (Final si sh)) with (x (Final si sh)).
  destruct (http_write_ops_shape si sh size writes []) as [[m [H1 H2]]|H].
  - rewrite app_nil_r in H2. rewrite H1, <- upload_ops_split in Hpre.
    destruct (publish_absent_or_complete (Incoming si sh) (Final si sh) _ s pre
                ltac:(discriminate) Habs Hpre) as [A|A].
    + left. exact A.
    + right. exists m. split; [exact H2|]. split; [exact A|]. rewrite A.
      apply file_at_close_complete_proof. exact Hrec.
  - left. rewrite <- Habs.
    apply (crash_outside _ _ path_eqb_eq (eq (Incoming si sh)) _ _ _ _ Hpre); [|discriminate].
    apply Forall_app. split; [apply within_create; reflexivity|].
    rewrite H. apply within_lift. reflexivity.
Qed.

Lemma http_sops_ops si sh size writes : forall prev s,
  sops_ops (http_sops si sh size prev writes) s = http_write_ops si sh size prev writes.
Proof.
  induction writes as [|w r IH]; intros prev s; [reflexivity|].
  cbn [http_sops sops_ops http_write_ops]. unfold plain_ops at 1. cbn [ops_of].
  destruct (fst w + flen (snd w) <=? size).
  - destruct (covered size ((fst w, flen (snd w)) :: prev)).
    + reflexivity.
    + cbn [map fst app]. f_equal. apply IH.
  - cbn [map app]. apply IH.
Qed.

Lemma http_upload_ops_are_the_server_operations si sh size rec writes s :
  s (Final si sh) = None -> s (Incoming si sh) = None ->
  sops_ops (ImmAllocate si [] [sh] size rec true :: http_sops si sh size [] writes) s
  = http_upload_ops si sh size rec writes.
Proof.
  intros HF HI. cbn [sops_ops]. rewrite http_sops_ops, (allocate_new_ops _ _ _ _ _ HF HI).
  reflexivity.
Qed.
