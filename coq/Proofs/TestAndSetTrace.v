(* C12, trace level: once a cell has been overwritten by another writer after writer j's
   survey, it never again holds the value j saw -- so an applied write of j always lands on
   a cell that was NOT touched by anybody else since j's survey.  Uses that version ids are
   fresh: a publish surveys once (hypothesis `single_survey`), writer j writes new_version j,
   nobody writes the old id 0. *)
From Coq Require Import List NArith Bool Lia Arith.
From Verif Require Import Model.TestAndSet Proofs.TestAndSet.
Import ListNotations.
Local Open Scope N_scope.

Definition applied (s : sys) (e : ev) : bool :=
  match e with
  | Survey _ => false
  | Write j i =>
      match nth_error (ws s) j with
      | Some w =>
          match snapshot w, nth_error (cells s) i with
          | Some snap, Some cur =>
              match nth_error snap i with Some seen => cur =? seen | None => false end
          | _, _ => false
          end
      | None => false
      end
  end.

(* ghost: dirty g j = the cells to which ANOTHER writer's write was applied since j's survey *)
Record gstate := { gs : sys; dirty : nat -> list nat }.

Definition gstep (g : gstate) (e : ev) : gstate :=
  match e with
  | Survey j => {| gs := step (gs g) e; dirty := fun x => if Nat.eqb x j then [] else dirty g x |}
  | Write j i =>
      if applied (gs g) e
      then {| gs := step (gs g) e; dirty := fun x => if Nat.eqb x j then dirty g x else i :: dirty g x |}
      else {| gs := step (gs g) e; dirty := dirty g |}
  end.

Definition ginit (ncells nwriters : nat) : gstate := {| gs := init ncells nwriters; dirty := fun _ => [] |}.
Definition grun (ncells nwriters : nat) (evs : list ev) : gstate := fold_left gstep evs (ginit ncells nwriters).

Lemma gstep_gs g e : gs (gstep g e) = step (gs g) e.
Proof. destruct e; cbn [gstep gs]; [reflexivity|]. destruct (applied (gs g) (Write j i)); reflexivity. Qed.

Lemma gfold_gs evs : forall g, gs (fold_left gstep evs g) = fold_left step evs (gs g).
Proof. induction evs as [|e r IH]; intro g; [reflexivity|]. cbn [fold_left]. rewrite IH, gstep_gs. reflexivity. Qed.

Lemma grun_gs ncells n evs : gs (grun ncells n evs) = run ncells n evs.
Proof. apply gfold_gs. Qed.

(* a publish surveys once: Survey j is issued only while j has no snapshot *)
Definition survey_ok (s : sys) (e : ev) : Prop :=
  match e with
  | Survey j => forall w, nth_error (ws s) j = Some w -> snapshot w = None
  | Write _ _ => True
  end.

Fixpoint single_survey_from (s : sys) (evs : list ev) : Prop :=
  match evs with
  | [] => True
  | e :: r => survey_ok s e /\ single_survey_from (step s e) r
  end.

Definition single_survey (ncells n : nat) (evs : list ev) : Prop := single_survey_from (init ncells n) evs.

Lemma single_survey_from_app a : forall s b,
  single_survey_from s (a ++ b) -> single_survey_from s a /\ single_survey_from (fold_left step a s) b.
Proof.
  induction a as [|e r IH]; intros s b H; cbn [app fold_left single_survey_from] in *; [auto|].
  destruct H as [H1 H2]. destruct (IH _ _ H2) as [A B]. auto.
Qed.

(* what every step of a publish that surveys once preserves holds along the whole trace *)
Lemma single_survey_fold (P : gstate -> Prop) :
  (forall g e, P g -> survey_ok (gs g) e -> P (gstep g e)) ->
  forall evs g, P g -> single_survey_from (gs g) evs -> P (fold_left gstep evs g).
Proof.
  intro Hstep. induction evs as [|e r IH]; intros g HP Hss; [exact HP|].
  cbn [fold_left]. destruct Hss as [Hok Hrest]. apply IH; [exact (Hstep g e HP Hok)|].
  rewrite gstep_gs. exact Hrest.
Qed.

Lemma new_version_inj a b : new_version a = new_version b -> a = b.
Proof. unfold new_version. lia. Qed.
Lemma new_version_nz a : new_version a <> 0.
Proof. unfold new_version. lia. Qed.

(* what the invariant looks at in a writer: its snapshot and its acknowledged writes *)
Definition snap_of (s : sys) (x : nat) : option (list vid) :=
  match nth_error (ws s) x with Some w => snapshot w | None => None end.
Definition acks (s : sys) (x : nat) : list nat :=
  match nth_error (ws s) x with Some w => acked w | None => [] end.

(* a first survey gives the writer the cells as its snapshot and changes nothing else *)
Lemma survey_view s j :
  survey_ok s (Survey j) ->
  cells (step s (Survey j)) = cells s /\
  (forall x, acks (step s (Survey j)) x = acks s x) /\
  (forall x, snap_of (step s (Survey j)) x = snap_of s x \/
             x = j /\ snap_of s x = None /\ snap_of (step s (Survey j)) x = Some (cells s)).
Proof.
  intro Hok. unfold snap_of, acks. destruct (nth_error (ws s) j) as [w|] eqn:Hw.
  - rewrite (step_survey s j w Hw).
    repeat split; intro x; rewrite (nth_error_upd _ _ _ _ _ x Hw);
      destruct (Nat.eqb_spec x j) as [->|_]; rewrite ?Hw; cbn [snapshot]; rewrite ?(Hok w Hw); auto.
  - replace (step s (Survey j)) with s by (cbn; rewrite Hw; reflexivity). auto.
Qed.

(* an applied write: the cell held what the writer's snapshot shows; it now holds the writer's
   version and is acknowledged *)
Lemma applied_view s j i :
  applied s (Write j i) = true ->
  exists snap v, snap_of s j = Some snap /\ nth_error (cells s) i = Some v /\ nth_error snap i = Some v /\
    cells (step s (Write j i)) = set_nth i (new_version j) (cells s) /\
    (forall x, snap_of (step s (Write j i)) x = snap_of s x) /\
    (forall x, acks (step s (Write j i)) x = if Nat.eqb x j then i :: acks s x else acks s x).
Proof.
  unfold applied, snap_of, acks. destruct (nth_error (ws s) j) as [w|] eqn:Hw; [|discriminate].
  destruct (snapshot w) as [snap|] eqn:Hs; [|discriminate].
  destruct (nth_error (cells s) i) as [cur|] eqn:Hc; [|discriminate].
  destruct (nth_error snap i) as [seen|] eqn:Hn; [|discriminate].
  intros ->%N.eqb_eq. exists snap, seen. rewrite (step_write s j i w snap seen seen Hw Hs Hc Hn), N.eqb_refl.
  repeat split; auto; intro x; rewrite (nth_error_upd _ _ _ _ _ x Hw);
    destruct (Nat.eqb_spec x j) as [->|_]; rewrite ?Hw; auto.
Qed.

(* a write that is not applied leaves the cells alone and at most raises the writer's flag *)
Lemma unapplied_view s j i :
  applied s (Write j i) = false ->
  cells (step s (Write j i)) = cells s /\
  (forall x, snap_of (step s (Write j i)) x = snap_of s x) /\
  (forall x, acks (step s (Write j i)) x = acks s x).
Proof.
  unfold applied, snap_of, acks. cbn [step]. destruct (nth_error (ws s) j) as [w|] eqn:Hw; [|auto].
  destruct (snapshot w) as [snap|] eqn:Hs; [|auto].
  destruct (nth_error (cells s) i) as [cur|]; [|auto].
  destruct (nth_error snap i) as [seen|]; [|auto].
  intros ->. fold (upd s (cells s) j {| snapshot := Some snap; w_surprised := true; acked := acked w |}).
  repeat split; intro x; rewrite (nth_error_upd _ _ _ _ _ x Hw);
    destruct (Nat.eqb_spec x j) as [->|_]; rewrite ?Hw; auto.
Qed.

Record Inv (g : gstate) : Prop := {
  (* a writer's version sits only in cells that writer has an acknowledged write to *)
  inv_cells : forall i j, nth_error (cells (gs g)) i = Some (new_version j) -> In i (acks (gs g) j);
  inv_fresh : forall j, snap_of (gs g) j = None -> acks (gs g) j = [];
  (* ... and the same holds of what a snapshot shows *)
  inv_snap : forall j snap i j2,
      snap_of (gs g) j = Some snap -> nth_error snap i = Some (new_version j2) -> In i (acks (gs g) j2);
  (* a cell the writer itself or, since its survey, another writer has written to never again
     holds what the writer's snapshot shows *)
  inv_stale : forall j snap i v,
      snap_of (gs g) j = Some snap -> In i (acks (gs g) j) \/ In i (dirty g j) ->
      nth_error (cells (gs g)) i = Some v -> nth_error snap i <> Some v;
  (* a snapshot has one entry per cell *)
  inv_len : forall j snap, snap_of (gs g) j = Some snap -> length snap = length (cells (gs g))
}.

Lemma inv_init ncells n : Inv (ginit ncells n).
Proof.
  assert (Hs : forall x, snap_of (init ncells n) x = None).
  { intro x. unfold snap_of. destruct (nth_error _ x) as [w|] eqn:E; [|reflexivity].
    apply nth_error_In, repeat_spec in E. subst w. reflexivity. }
  split; cbn [ginit gs dirty]; intros *; rewrite ?Hs; try discriminate.
  - intros Hi. apply nth_error_In, repeat_spec in Hi. destruct (new_version_nz j). auto.
  - intros _. unfold acks. destruct (nth_error _ j) as [w|] eqn:E; [|reflexivity].
    apply nth_error_In, repeat_spec in E. subst w. reflexivity.
Qed.

Lemma inv_survey g j : Inv g -> survey_ok (gs g) (Survey j) -> Inv (gstep g (Survey j)).
Proof.
  intros [C F S T L] Hok. destruct (survey_view (gs g) j Hok) as (Ec & Ea & Es).
  cbn [gstep]. split; cbn [gs dirty]; rewrite ?Ec; intros x.
  - intros j2. rewrite Ea. apply C.
  - rewrite Ea. destruct (Es x) as [->|(_ & _ & ->)]; [apply F|discriminate].
  - intros snap i j2. rewrite Ea. destruct (Es x) as [->|(_ & _ & ->)]; [apply S|]. intros [= <-]. apply C.
  - intros snap i v. rewrite Ea. destruct (Es x) as [->|(-> & E & _)].
    + intros Hs [Hin|Hin]; [exact (T x snap i v Hs (or_introl Hin))|].
      destruct (Nat.eqb x j); [destruct Hin|exact (T x snap i v Hs (or_intror Hin))].
    + (* the surveying writer: nothing acknowledged, nothing dirty *)
      rewrite (F j E), Nat.eqb_refl. intros _ [[]|[]].
  - intros snap. destruct (Es x) as [->|(_ & _ & ->)]; [apply L|intros [= <-]; reflexivity].
Qed.

Lemma inv_write g j i : Inv g -> Inv (gstep g (Write j i)).
Proof.
  intros [C F S T L]. cbn [gstep]. destruct (applied (gs g) (Write j i)) eqn:Ha.
  - destruct (applied_view _ _ _ Ha) as (snap & v & Hs & Hc & Hn & Ec & Es & Ea).
    (* the cell holds what j saw: j has not written to it, so no snapshot shows j's version there *)
    assert (Hna : ~ In i (acks (gs g) j)) by (intro Hin; exact (T j snap i v Hs (or_introl Hin) Hc Hn)).
    split; cbn [gs dirty]; rewrite ?Ec; intros x.
    + intros j2 [[-> E]|[_ Hx]]%nth_error_set_nth_inv; rewrite Ea.
      * apply new_version_inj in E. subst j2. rewrite Nat.eqb_refl. left. reflexivity.
      * destruct (Nat.eqb j2 j); [right|]; exact (C x j2 Hx).
    + rewrite Es, Ea. intro Hx. destruct (Nat.eqb_spec x j) as [->|_]; [congruence|exact (F x Hx)].
    + intros snapx i0 j2. rewrite Es, Ea. intros Hsx Hn0.
      destruct (Nat.eqb j2 j); [right|]; exact (S x snapx i0 j2 Hsx Hn0).
    + intros snapx i0 v0. rewrite Es, Ea. intros Hsx Hin [[-> ->]|[Hne Hc0]]%nth_error_set_nth_inv.
      * intro E. exact (Hna (S x snapx i j Hsx E)).
      * (* another cell: it was written to before this step *)
        apply (T x snapx i0 v0 Hsx); [|exact Hc0].
        destruct (Nat.eqb x j); destruct Hin as [Hin|Hin]; auto; destruct Hin; auto; congruence.
    + intros snapx. rewrite Es, set_nth_length. apply L.
  - destruct (unapplied_view _ _ _ Ha) as (Ec & Es & Ea).
    split; cbn [gs dirty]; rewrite ?Ec; intros *; rewrite ?Es, ?Ea; [apply C|apply F|apply S|apply T|apply L].
Qed.

Lemma inv_step g e : Inv g -> survey_ok (gs g) e -> Inv (gstep g e).
Proof. intros HI Hok. destruct e as [j|j i]; [exact (inv_survey g j HI Hok)|exact (inv_write g j i HI)]. Qed.

Lemma inv_run ncells n evs : single_survey ncells n evs -> Inv (grun ncells n evs).
Proof. exact (single_survey_fold Inv inv_step evs _ (inv_init ncells n)). Qed.

Lemma applied_untouched g j i : Inv g -> applied (gs g) (Write j i) = true -> ~ In i (dirty g j).
Proof.
  intros HI (snap & v & Hs & Hc & Hn & _)%applied_view Hin.
  exact (inv_stale g HI j snap i v Hs (or_intror Hin) Hc Hn).
Qed.

Lemma touched_cell_write_refused_ok ncells n evs j i :
  single_survey ncells n evs ->
  In i (dirty (grun ncells n evs) j) ->
  applied (gs (grun ncells n evs)) (Write j i) = false /\
  cells (step (run ncells n evs) (Write j i)) = cells (run ncells n evs).
Proof.
  intros Hss Hin.
  assert (Ha : applied (gs (grun ncells n evs)) (Write j i) = false).
  { apply not_true_is_false. intro E. exact (applied_untouched _ j i (inv_run _ _ _ Hss) E Hin). }
  split; [exact Ha|]. rewrite grun_gs in Ha. apply unapplied_view, Ha.
Qed.
