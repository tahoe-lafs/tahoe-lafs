(* C29: concrete witnesses.  (1) The refutation witness of
   "lease-only operations never change share data": the crash point between the
   two writes of the immutable ShareFile.add_lease (replayed on the
   implementation by harness/props/c29.py on every run).  (2) What a crash does
   to the mutable share that is being written / lease-written (excluded by the
   property, stated for the record). *)
From Coq Require Import String.
From Coq Require Import List Arith NArith Bool Lia.
From Verif Require Import Lib.Hex Lib.FileSys Model.Crash
  Proofs.CrashBytes Proofs.CrashImm Proofs.CrashMut Proofs.Crash.
Import ListNotations.
Local Open Scope N_scope.

Lemma wit_state_final si sh :
  wit_state (Final si sh) = if (si =? 0) && (sh =? 0) then wit_state (Final 0 0) else None.
Proof.
  destruct ((si =? 0) && (sh =? 0)) eqn:E.
  - apply andb_true_iff in E. destruct E as [E1 E2]. apply N.eqb_eq in E1, E2. subst. reflexivity.
  - unfold wit_state, run_sops, wit_hist. cbn [fold_left].
    unfold plain_ops. cbn [ops_of].
    vm_compute. vm_compute in E. rewrite E. reflexivity.
Qed.

Lemma wit_inv : Inv wit_state.
Proof.
  intros si sh f H. rewrite wit_state_final in H.
  destruct ((si =? 0) && (sh =? 0)); [|discriminate].
  vm_compute in H. apply some_inj in H. subst f. vm_compute. reflexivity.
Qed.

(* StorageServer.add_lease on the witness share, crash after the first of its
   two writes (the new record is in place, the count is not yet bumped): the
   share data read back after recovery is not the data before *)
Lemma wit_refutes :
  lease_only wit_op = true /\ recs_ok wit_op /\ Inv wit_state /\
  in_window (firstn 1 (ops_of wit_op wit_state)) = true /\
  data_of (recover (run_p (map fst (firstn 1 (ops_of wit_op wit_state))) wit_state) (Final 0 0))
  <> data_of (wit_state (Final 0 0)).
Proof.
  split; [reflexivity|]. split; [split; reflexivity|]. split; [exact wit_inv|].
  split; [vm_compute; reflexivity|]. vm_compute. discriminate.
Qed.

(* container growth with two extra leases: after the first and the second of
   the six calls the two extra leases are gone, after the third they are back;
   the data is intact until the new data length is written (fifth call): the
   view then differs from the one before the operation and from the final one,
   the new bytes not being written yet *)
Lemma mutable_growth_window_proof :
  map (fun k => lease_count (mut_view_after mw_grow k)) (seq 0 7)
  = [Some 6; Some 4; Some 4; Some 6; Some 6; Some 6; Some 6]%nat /\
  (forall k, (k <= 4)%nat -> data_of (Some (match mw_state (Final 2 0) with Some f => f | None => [] end))
                           = match mut_view_after mw_grow k with VMut d _ => Some d | _ => None end) /\
  mut_view_after mw_grow 5 <> mut_view_after mw_grow 0 /\
  mut_view_after mw_grow 5 <> mut_view_after mw_grow 6.
Proof.
  (* every part is closed once the bounded k is instantiated: stated as one
     conjunction, the history behind mw_state is evaluated once *)
  cut ((fun P : nat -> Prop => P 0 /\ P 1 /\ P 2 /\ P 3 /\ P 4)%nat
         (fun k => data_of (Some (match mw_state (Final 2 0) with Some f => f | None => [] end))
                   = match mut_view_after mw_grow k with VMut d _ => Some d | _ => None end)
       /\ map (fun k => lease_count (mut_view_after mw_grow k)) (seq 0 7)
          = [Some 6; Some 4; Some 4; Some 6; Some 6; Some 6; Some 6]%nat
       /\ mut_view_after mw_grow 5 <> mut_view_after mw_grow 0
       /\ mut_view_after mw_grow 5 <> mut_view_after mw_grow 6).
  - intros [[D0 [D1 [D2 [D3 D4]]]] [C N]]. split; [exact C|]. split; [|exact N].
    intros k Hk. do 5 (destruct k as [|k]; [assumption|]). lia.
  - vm_compute. repeat split; discriminate.
Qed.

(* a lease that needs a new extra slot: between the count write and the record
   write the lease list of that share cannot be read (struct.error in
   _read_lease_record); the share data is unaffected *)
Lemma mutable_add_lease_window_proof :
  map (fun k => lease_count (mut_view_after mw_add7 k)) (seq 0 3) = [Some 6; None; Some 7]%nat /\
  forall k, data_of (recover (run_p (firstn k (plain_ops mw_add7 mw_state)) mw_state) (Final 2 0))
            = data_of (mw_state (Final 2 0)).
Proof.
  (* the operation has two calls: every k from 3 on gives the full list *)
  cut (map (fun k => lease_count (mut_view_after mw_add7 k)) (seq 0 3) = [Some 6; None; Some 7]%nat
       /\ (fun P : nat -> Prop => P 0 /\ P 1 /\ P 2 /\ forall k, P (S (S (S k))))%nat
            (fun k => data_of (recover (run_p (firstn k (plain_ops mw_add7 mw_state)) mw_state) (Final 2 0))
                      = data_of (mw_state (Final 2 0)))).
  - intros [C [D0 [D1 [D2 D3]]]]. split; [exact C|].
    intros [|[|[|k]]]; [exact D0|exact D1|exact D2|apply D3].
  - vm_compute. repeat split; intros; reflexivity.
Qed.
