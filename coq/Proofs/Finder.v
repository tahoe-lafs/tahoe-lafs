(* C46: ShareFinder.loop (immutable/downloader/finder.py), model in Model/Fetcher.v.
   The invariant `finv`: a hungry, running finder with no loop() queued and nothing in flight
   has answered the last hungry() call, and every request in flight has its overdue timer
   armed or is already overdue -- so a response, an error or the timer queues the next loop(). *)
From Coq Require Import List NArith Bool Arith Lia.
From Verif Require Import Lib.ListFacts Lib.Sched Model.Fetcher.
Import ListNotations.

Definition is_answer (o : dout) : bool := match o with DSend _ => false | _ => true end.

(* ghost flag: the last hungry() call has been answered *)
Definition dgstep (g : dstate * bool) (e : dev) : (dstate * bool) * list dout :=
  let (s', o) := dstep (fst g) e in
  ((s', match e with DHungry => false | _ => snd g || existsb is_answer o end), o).

Fixpoint dgrun (g : dstate * bool) (evs : list dev) : (dstate * bool) * list dout :=
  match evs with
  | [] => (g, [])
  | e :: r => let (g1, o1) := dgstep g e in let (g2, o2) := dgrun g1 r in (g2, o1 ++ o2)
  end.

Definition covered (pending timers overdue : list N) : Prop :=
  forall x, In x pending -> In x timers \/ In x overdue.

Definition finv (g : dstate * bool) : Prop :=
  let s := fst g in
  (d_running s = true -> d_hungry s = true -> d_loops s = 0 -> d_pending s = [] -> snd g = true) /\
  (d_running s = true -> covered (d_pending s) (d_timers s) (d_overdue s)).

Lemma mem_In x l : mem x l = true <-> In x l.
Proof. exact (existsb_eqb_In N.eqb N.eqb_eq x l). Qed.

Lemma del_In x y l : In y (del x l) <-> In y l /\ y <> x.
Proof.
  unfold del. rewrite filter_In. split; intros [A B]; (split; [exact A|]).
  - intros E. subst. rewrite N.eqb_refl in B. discriminate.
  - apply negb_true_iff. now apply N.eqb_neq.
Qed.

(* adding x unless it is there, as DOverdue does to d_overdue *)
Lemma add_absent_In x y l : In y (if mem x l then l else l ++ [x]) <-> In y l \/ y = x.
Proof.
  destruct (mem x l) eqn:M; [|apply in_snoc]. apply mem_In in M.
  split; [now left|intros [H| ->]; assumption].
Qed.

Lemma covered_sent x p t o : covered p t o -> covered (p ++ [x]) (t ++ [x]) o.
Proof. intros H y. rewrite !in_snoc. specialize (H y). tauto. Qed.

Lemma covered_retired x p t o : covered p t o -> covered (del x p) (del x t) (del x o).
Proof. intros H y. rewrite !del_In. specialize (H y). tauto. Qed.

Lemma covered_fired x p t o : covered p t o -> covered p (del x t) (if mem x o then o else o ++ [x]).
Proof. intros H y. rewrite del_In, add_absent_In. specialize (H y). destruct (N.eq_dec y x); tauto. Qed.

Lemma finv_init servers m : finv (dinit servers m, true).
Proof. unfold finv, dinit. cbn. split; [auto|intros _ x []]. Qed.

Definition set_dloops (s : dstate) (n : nat) : dstate :=
  mk_d (d_servers s) (d_pending s) (d_overdue s) (d_timers s) (d_hungry s) (d_running s) n (d_max s).

(* One queued loop(): it does nothing (stopped, not hungry, enough requests in flight, or
   waiting for the last answers), asks the next server, or reports exhaustion. *)
Inductive loop_outcome (s : dstate) (n : nat) : dstate * list dout -> Prop :=
| lo_idle :
    (1 <= d_max s -> d_running s = true -> d_hungry s = true -> d_pending s <> []) ->
    loop_outcome s n (set_dloops s n, [])
| lo_send srv rest :
    d_servers s = srv :: rest ->
    loop_outcome s n (mk_d rest (d_pending s ++ [srv]) (d_overdue s) (d_timers s ++ [srv]) (d_hungry s) (d_running s)
                           (S n) (d_max s), [DSend srv])
| lo_exhausted :
    d_running s = true -> d_hungry s = true -> d_servers s = [] -> d_pending s = [] ->
    loop_outcome s n (set_dloops s n, [DNoMoreShares]).

Lemma dstep_loop s n : d_loops s = S n -> loop_outcome s n (dstep s DLoop).
Proof.
  intros L. cbn [dstep]. rewrite L. cbn [d_running d_hungry d_max d_pending d_overdue d_servers d_timers d_loops].
  fold (set_dloops s n).
  destruct (negb (d_running s)) eqn:R; [apply lo_idle; intros _ R'; rewrite R' in R; discriminate|].
  destruct (negb (d_hungry s)) eqn:H; [apply lo_idle; intros _ _ H'; rewrite H' in H; discriminate|].
  apply negb_false_iff in R, H.
  destruct (d_max s <=? _) eqn:Mx.
  { apply lo_idle. intros Hm _ _ P. rewrite P in Mx. apply Nat.leb_le in Mx. cbn in Mx. lia. }
  destruct (d_servers s) as [|srv rest] eqn:Sv; [|now apply lo_send].
  destruct (d_pending s) eqn:P; [now apply lo_exhausted|apply lo_idle; congruence].
Qed.

Lemma dstep_max s e : d_max (fst (dstep s e)) = d_max s.
Proof.
  destruct e as [| |srv shnums|srv|srv|]; try reflexivity.
  - destruct (d_loops s) as [|n] eqn:L; [cbn [dstep]; now rewrite L|]. now destruct (dstep_loop s n L).
  - cbn [dstep]. destruct (mem srv (d_pending s)); [destruct shnums|]; reflexivity.
  - cbn [dstep]. destruct (mem srv (d_pending s)); reflexivity.
  - cbn [dstep]. destruct (mem srv (d_timers s)); reflexivity.
Qed.

Lemma dgstep_finv g e : 1 <= d_max (fst g) -> finv g -> finv (fst (dgstep g e)).
Proof.
  intros Hm F. destruct g as [s ans]. unfold dgstep. cbn [fst snd] in *.
  (* an event that is ignored changes nothing *)
  assert (Ign : finv (s, ans || existsb is_answer [])) by (cbn [existsb]; now rewrite orb_false_r).
  destruct F as (A & B). unfold finv. cbn [fst snd] in A, B.
  destruct e as [| |srv shnums|srv|srv|].
  - split; [discriminate|exact B].
  - destruct (d_loops s) as [|n] eqn:L; [cbn [dstep]; rewrite L; exact Ign|].
    destruct (dstep_loop s n L) as [Idle|srv rest Sv|R H Sv P]; cbn [fst snd set_dloops d_running d_hungry d_loops d_pending d_timers d_overdue].
    + split; [|exact B]. intros R H _ P. destruct (Idle Hm R H P).
    + split; [discriminate|]. intros R. now apply covered_sent, B.
    + split; [intros; apply orb_true_r|]. rewrite P. intros _ x [].
  - cbn [dstep]. destruct (mem srv (d_pending s)); cbn [negb]; [|exact Ign].
    destruct shnums; (split; [discriminate|]); intros R; now apply covered_retired, B.
  - cbn [dstep]. destruct (mem srv (d_pending s)); cbn [negb]; [|exact Ign].
    split; [discriminate|]. intros R; now apply covered_retired, B.
  - cbn [dstep]. destruct (mem srv (d_timers s)); cbn [negb]; [|exact Ign].
    split; [discriminate|]. intros R. now apply covered_fired, B.
  - split; discriminate.
Qed.

Lemma dgstep_max g e : d_max (fst (fst (dgstep g e))) = d_max (fst g).
Proof. unfold dgstep. pose proof (dstep_max (fst g) e) as X. now destruct (dstep (fst g) e). Qed.

Lemma dgrun_run g evs : dgrun g evs = run dgstep g evs.
Proof. reflexivity. Qed.

Lemma dgrun_finv evs g : 1 <= d_max (fst g) -> finv g -> finv (fst (dgrun g evs)).
Proof.
  intros Hm H. rewrite dgrun_run.
  refine (proj2 (invariant_run _ _ _ dgstep (fun _ _ => True) (fun x => 1 <= d_max (fst x) /\ finv x)
                               _ evs g (conj Hm H) _)).
  - intros x e [Mx Fx] _. split; [now rewrite dgstep_max|now apply dgstep_finv].
  - now apply accepted_all.
Qed.

Lemma dstep_no_more s e : In DNoMoreShares (snd (dstep s e)) -> d_servers s = [] /\ d_pending s = [] /\ d_hungry s = true /\ d_running s = true.
Proof.
  destruct e as [| |srv shnums|srv|srv|]; try (intros []).
  - destruct (d_loops s) as [|n] eqn:L; [cbn [dstep]; rewrite L; intros []|].
    destruct (dstep_loop s n L); [intros []|intros [E|[]]; discriminate|auto].
  - cbn [dstep]. destruct (mem srv (d_pending s)); cbn [negb]; [|intros []]. destruct shnums; cbn [snd]; [intros []|intros [H|[]]; discriminate].
  - cbn [dstep]. destruct (mem srv (d_pending s)); cbn [negb]; intros [].
  - cbn [dstep]. destruct (mem srv (d_timers s)); cbn [negb]; intros [].
Qed.

Lemma finv_not_idle g :
  finv g ->
  let s := fst g in
  d_running s = true -> d_hungry s = true -> d_loops s = 0 ->
  (d_pending s <> [] /\ forall x, In x (d_pending s) -> In x (d_timers s) \/ In x (d_overdue s)) \/
  (d_pending s = [] /\ snd g = true).
Proof.
  intros (A & B) s R H L. fold s in A, B.
  destruct (d_pending s) eqn:P; [right; split; [reflexivity|now apply A]|left; split; [discriminate|now apply B]].
Qed.
