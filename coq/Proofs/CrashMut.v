(* Mutable container (MutableShareFile): every prefix of a lease operation
   leaves the magic, the data length, the extra-lease offset and the data
   region of a well-formed container untouched. *)
From Coq Require Import List Arith NArith Bool Lia.
From Verif Require Import Lib.Hex Lib.ListFacts Lib.FileSys Model.Crash Proofs.CrashBytes Proofs.CrashImm.
Import ListNotations.
Local Open Scope N_scope.

Lemma mut_wf_facts f :
  mut_wf f = true -> 468 + mut_dl f <= mut_elo f /\ mut_elo f + 4 <= flen f.
Proof. unfold mut_wf. rewrite andb_true_iff, !N.leb_le. tauto. Qed.

(* g agrees with f on everything a reader of the share data looks at *)
Definition mut_same (f g : file) : Prop :=
  sub 0 32 g = sub 0 32 f /\ sub 84 8 g = sub 84 8 f /\ sub 92 8 g = sub 92 8 f /\
  (length f <= length g)%nat /\ sub 468 (mut_dl f) g = sub 468 (mut_dl f) f.

Lemma mut_same_refl f : mut_same f f.
Proof. unfold mut_same. repeat split; auto. Qed.

(* a write into the four header lease slots, or at/after the extra-lease block *)
Definition safe (f : file) (o : fop) : Prop :=
  match o with
  | FWrite off bs => (100 <= off /\ off + flen bs <= 468) \/ mut_elo f <= off
  | FTrunc _ => False
  end.

Lemma mut_same_step f g off bs :
  mut_wf f = true -> mut_same f g -> safe f (FWrite off bs) ->
  mut_same f (write_at g off bs).
Proof.
  intros Hwf [H0 [H84 [H92 [Hlen Hd]]]] Hs.
  destruct (mut_wf_facts f Hwf) as [Hfit Hcnt].
  assert (Hg : (472 <= length g)%nat) by (unfold flen in *; lia).
  unfold mut_same. simpl in Hs. repeat split.
  - rewrite sub_write_at_before; [exact H0| |]; unfold flen in *; lia.
  - rewrite sub_write_at_before; [exact H84| |]; unfold flen in *; lia.
  - rewrite sub_write_at_before; [exact H92| |]; unfold flen in *; lia.
  - pose proof (write_at_length_ge g off bs). lia.
  - destruct Hs as [[Ha Hb]|Hb].
    + (* header lease slots: after the header fields, before the data *)
      rewrite sub_write_at_after; [exact Hd|]; unfold flen in *; lia.
    + (* at or after the extra-lease block: after everything *)
      rewrite sub_write_at_before; [exact Hd| |]; unfold flen in *; lia.
Qed.

Lemma mut_same_run f ops : mut_wf f = true -> Forall (safe f) ops ->
  forall g, mut_same f g -> mut_same f (run_fops ops g).
Proof.
  intros Hwf H. induction H as [|o ops Ho _ IH]; intros g Hg; [exact Hg|].
  unfold run_fops. cbn [fold_left]. apply IH.
  destruct o as [off bs|n]; [|destruct Ho]. cbn [apply_fop].
  apply mut_same_step; assumption.
Qed.

Lemma mut_same_view f g :
  mut_magic_ok f = true -> mut_wf f = true -> mut_same f g ->
  mut_magic_ok g = true /\ mut_wf g = true /\ mut_data g = mut_data f.
Proof.
  intros Hm Hwf [H0 [H84 [H92 [Hlen Hd]]]].
  destruct (mut_wf_facts f Hwf) as [Hfit Hcnt].
  assert (Edl : mut_dl g = mut_dl f) by (unfold mut_dl; rewrite H84; reflexivity).
  assert (Eelo : mut_elo g = mut_elo f) by (unfold mut_elo; rewrite H92; reflexivity).
  repeat split.
  - unfold mut_magic_ok in *. rewrite H0. exact Hm.
  - unfold mut_wf. rewrite Edl, Eelo, andb_true_iff, !N.leb_le. unfold flen in *. lia.
  - unfold mut_data, mut_read. rewrite Edl, N.add_0_r, N.sub_0_r.
    destruct (mut_dl f <? 0 + mut_dl f); destruct (_ =? 0); try reflexivity; exact Hd.
Qed.

Lemma chunks_In fuel k l x : In x (chunks fuel k l) -> (length x <= k)%nat.
Proof.
  intro H. apply In_nth_error in H. destruct H as [j Hj].
  apply chunks_nth in Hj. tauto.
Qed.

Lemma mut_slots_len f sl r :
  mut_slots f = Some sl -> In r sl -> (length r <= 92)%nat.
Proof.
  unfold mut_slots. destruct (mut_num_extra f) as [n|]; [|discriminate].
  destruct (_ && _); [|discriminate].
  intros H Hr. apply some_inj in H. subst sl. apply in_app_or in Hr.
  destruct Hr as [Hr|Hr]; eapply chunks_In; exact Hr.
Qed.

Lemma find_index_In {A} (pr : A -> bool) l i0 i x :
  find_index pr l i0 = Some (i, x) -> In x l.
Proof.
  intro H. apply find_index_spec in H. destruct H as [j [_ Hn]].
  eapply nth_error_In. exact Hn.
Qed.

Lemma slot_write_safe f i rec :
  (length rec <= 92)%nat -> safe f (FWrite (mut_slot_offset f i) rec).
Proof.
  intro H. simpl. unfold mut_slot_offset. destruct (i <? 4) eqn:E.
  - apply N.ltb_lt in E. left. unfold flen. lia.
  - right. lia.
Qed.

Lemma write_lease_safe f nslots i rec :
  (length rec <= 92)%nat -> Forall (safe f) (mut_write_lease_fops f nslots i rec).
Proof.
  intro H. unfold mut_write_lease_fops. destruct (i <? nslots).
  - constructor; [apply slot_write_safe; exact H|constructor].
  - constructor; [simpl; right; lia|].
    constructor; [apply slot_write_safe; exact H|constructor].
Qed.

(* rewriting a record found among the slots *)
Lemma renewed_write_safe f sl (pr : list N -> bool) nslots i r e :
  mut_slots f = Some sl -> find_index pr sl 0 = Some (i, r) ->
  Forall (safe f) (mut_write_lease_fops f nslots i (mut_renewed r e)).
Proof.
  intros Es Ef. apply write_lease_safe.
  pose proof (mut_slots_len f sl r Es (find_index_In _ _ _ _ _ Ef)) as Hr.
  unfold mut_renewed. rewrite !app_length, firstn_length, skipn_length, enc_length. lia.
Qed.

Lemma mut_add_or_renew_safe f rec o :
  length rec = 92%nat -> mut_add_or_renew_fops f rec = Some o -> Forall (safe f) o.
Proof.
  intros Hrec H. unfold mut_add_or_renew_fops in H.
  destruct (mut_slots f) as [sl|] eqn:Es; [|discriminate].
  destruct (find_index (mut_live_match _) sl 0) as [[i r]|] eqn:E1.
  - apply some_inj in H. subst o. destruct (_ <? _); [|constructor].
    exact (renewed_write_safe f sl _ _ i r _ Es E1).
  - destruct (find_index (fun r : list N => mut_rec_owner r =? 0) sl 0) as [[i r]|] eqn:E2;
      apply some_inj in H; subst o;
      apply write_lease_safe; lia.
Qed.

Lemma mut_renew_safe f hs e o :
  mut_renew_fops f hs e = Some o -> Forall (safe f) o.
Proof.
  intro H. unfold mut_renew_fops in H.
  destruct (mut_slots f) as [sl|] eqn:Es; [|discriminate].
  destruct (find_index (mut_live_match _) sl 0) as [[i r]|] eqn:E1; [|discriminate].
  apply some_inj in H. subst o. destruct (_ <? _); [|constructor].
  exact (renewed_write_safe f sl _ _ i r _ Es E1).
Qed.

Lemma mut_safe_prefix f o k :
  mut_wf f = true -> Forall (safe f) o -> mut_same f (run_fops (firstn k o) f).
Proof.
  intros Hwf Hs. apply mut_same_run; [exact Hwf|apply Forall_firstn, Hs|apply mut_same_refl].
Qed.
