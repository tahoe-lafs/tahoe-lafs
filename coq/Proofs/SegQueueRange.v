(* C04: every reader's delivered bytes are a prefix of its own slice of the file, in
   every reachable state of the composed system (any interleaving of segment
   completions, failures, and other readers' reads / pauses / stops); a read that
   finishes has delivered exactly file[offset : offset+size] clipped at EOF. *)
From Coq Require Import List NArith Bool Arith Lia.
From Verif Require Import Lib.ListFacts Model.SegQueue Proofs.SegQueueBase.
Import ListNotations.

Lemma slice_slice {A} (o1 l1 o2 l2 : nat) (l : list A) :
  slice o2 l2 (slice o1 l1 l) = slice (o1 + o2) (Nat.min l2 (l1 - o2)) l.
Proof. unfold slice. now rewrite skipn_firstn_comm, firstn_firstn, skipn_add. Qed.

Lemma slice_app {A} (o a b : nat) (l : list A) : slice o a l ++ slice (o + a) b l = slice o (a + b) l.
Proof.
  unfold slice. rewrite <- (skipn_add o a l). generalize (skipn o l) as m. intros m.
  rewrite <- (firstn_skipn a (firstn (a + b) m)) at 1.
  rewrite firstn_firstn, Nat.min_l by lia. f_equal.
  rewrite skipn_firstn_comm. f_equal. lia.
Qed.

Lemma slice_length {A} (o n : nat) (l : list A) : length (slice o n l) = Nat.min n (length l - o).
Proof. unfold slice. now rewrite firstn_length, skipn_length. Qed.

Lemma slice_length_le {A} (o n : nat) (l : list A) : length (slice o n l) <= n.
Proof. rewrite slice_length. lia. Qed.

Lemma slice_nil {A} (o : nat) (l : list A) : slice o 0 l = [].
Proof. reflexivity. Qed.

Lemma overlap_at (s0 l0 s1 l1 o1 : N) :
  overlap s0 l0 s1 l1 = Some (s1, o1) -> (s0 <= s1 /\ 1 <= o1 /\ o1 <= l1 /\ s1 + o1 <= s0 + l0)%N.
Proof.
  unfold overlap. destruct (N.ltb_spec (N.max s0 s1) (N.min (s0 + l0) (s1 + l1))); [|discriminate].
  intros [= ? ?]. lia.
Qed.

(* Python data[offset:offset+size] / data[offset:] *)
Definition py_slice (data : list N) (offset : N) (size : option N) : list N := literal_read data offset size.

Lemma clip_is_python_slice (ct : list N) (offset : N) (size : option N) :
  slice (N.to_nat offset) (N.to_nat (read_clip (N.of_nat (length ct)) offset size)) ct = py_slice ct offset size.
Proof.
  unfold py_slice, literal_read, read_clip, slice. destruct size as [s|].
  - replace (N.to_nat (N.min s (N.of_nat (length ct) - offset))) with (Nat.min (N.to_nat s) (length ct - N.to_nat offset)) by lia.
    rewrite <- firstn_firstn. rewrite (firstn_all2 (n := length ct - N.to_nat offset)); [reflexivity|].
    rewrite skipn_length. lia.
  - apply firstn_all2. rewrite skipn_length. lia.
Qed.

Section Range.
  Variable clear_on_failure : bool.
  Variable ct : list N.
  Variables segsize guess : N.

  Notation mfn := (maybe_fetch_next segsize guess).
  Notation fired := (reader_fired ct segsize guess).
  Notation step := (sstep clear_on_failure ct segsize guess).
  Notation run := (srun clear_on_failure ct segsize guess).

  Definition rd_ok (r : reader) : Prop :=
    concat (rd_written r) = slice (N.to_nat (rd_off0 r)) (N.to_nat (rd_offset r - rd_off0 r)) ct /\
    (rd_off0 r <= rd_offset r)%N /\
    (rd_offset r + rd_size r = rd_off0 r + rd_size0 r)%N /\
    (rd_result r = Some RDone -> rd_size r = 0%N).

  (* the (offset, clipped size) the read() started with *)
  Definition origin (r : reader) : N * N := (rd_off0 r, rd_size0 r).

  (* r is a consistent record of the read that started as o *)
  Definition rd_tracks (r : reader) (o : N * N) : Prop := rd_ok r /\ origin r = o.

  (* reader i is a consistent record of the i-th read() made: no step changes an origin,
     SRead appends one *)
  Definition tracks (s : sys) (os : list (N * N)) : Prop :=
    Forall rd_ok (s_readers s) /\ map origin (s_readers s) = os.

  Definition new_origin (e : sev) : list (N * N) :=
    match e with SRead off sz => [(off, read_clip (fsize ct) off sz)] | _ => [] end.

  Lemma rd_tracks_set_active r a o : rd_tracks r o -> rd_tracks (rd_set_active r a) o.
  Proof. unfold rd_tracks, rd_ok, origin. cbn. tauto. Qed.
  Lemma rd_tracks_set_flags r h a o : rd_tracks r o -> rd_tracks (rd_set_flags r h a) o.
  Proof. unfold rd_tracks, rd_ok, origin. cbn. tauto. Qed.
  Lemma rd_tracks_set_mfn r n o : rd_tracks r o -> rd_tracks (rd_set_mfn r n) o.
  Proof. unfold rd_tracks, rd_ok, origin. cbn. tauto. Qed.
  Lemma rd_tracks_finish r res o : rd_tracks r o -> (res = RDone -> rd_size r = 0%N) -> rd_tracks (rd_finish r res) o.
  Proof. unfold rd_tracks, rd_ok, origin. cbn. intros ((A & B & C & D) & E) H. repeat split; auto. intros [= ->]. auto. Qed.

  Lemma rd_tracks_new off c h a res : (res = Some RDone -> c = 0%N) -> rd_tracks (mk_reader off c h a None [] res 0 off c) (off, c).
  Proof. intros H. unfold rd_tracks, rd_ok, origin. cbn. rewrite N.sub_diag. repeat split; auto; lia. Qed.

  (* what _got_segment writes are the file's bytes at the reader's offset, at least one
     and no more than wanted *)
  Lemma got_data_spec r res data :
    got_data ct segsize r res data ->
    data = slice (N.to_nat (rd_offset r)) (length data) ct /\ 1 <= length data <= N.to_nat (rd_size r).
  Proof.
    intros (segnum & o1 & _ & Ho & ->). apply overlap_at in Ho.
    pose proof (slice_length_le (N.to_nat (segnum * segsize)) (N.to_nat segsize) ct) as Hseg. fold (seg_data ct segsize segnum) in Hseg.
    assert (Hlen : length (slice (N.to_nat (rd_offset r - segnum * segsize)) (N.to_nat o1) (seg_data ct segsize segnum)) = N.to_nat o1)
      by (rewrite slice_length; lia).
    rewrite Hlen. split; [|lia]. unfold seg_data at 1. rewrite slice_slice. f_equal; lia.
  Qed.

  Lemma rd_tracks_write r res data o : rd_tracks r o -> got_data ct segsize r res data -> rd_tracks (rd_write r data) o.
  Proof.
    intros ((A & B & C & D) & E) G. destruct (got_data_spec r res data G) as (Hdata & Hlen).
    split; [|exact E]. unfold rd_ok. cbn [rd_write rd_written rd_off0 rd_offset rd_size rd_size0 rd_result]. repeat split; try lia.
    - rewrite concat_app. cbn [concat]. rewrite app_nil_r, A, Hdata at 1.
      replace (N.to_nat (rd_offset r)) with (N.to_nat (rd_off0 r) + N.to_nat (rd_offset r - rd_off0 r)) by lia.
      rewrite slice_app. f_equal. lia.
    - intros R. specialize (D R). lia.
  Qed.

  Lemma tracks_same s s' os : s_readers s' = s_readers s -> tracks s os -> tracks s' os.
  Proof. unfold tracks. now intros ->. Qed.

  Lemma tracks_set s os i r0 r :
    tracks s os -> nth_error (s_readers s) i = Some r0 -> (forall o, rd_tracks r0 o -> rd_tracks r o) ->
    tracks (set_reader s i r) os.
  Proof.
    intros [F O] H Hr. destruct (Hr _ (conj (Forall_nth_error _ _ _ _ F H) eq_refl)) as [Ok E].
    split; cbn [set_reader s_readers]; [now apply Forall_set_nth|].
    rewrite <- O. apply map_set_nth_same. congruence.
  Qed.

  Lemma tracks_snoc s os r o :
    tracks s os -> rd_tracks r o ->
    tracks (mk_sys (s_reqs s) (s_active s) (s_next_fid s) (s_next_rid s) (s_inactive s) (s_deliveries s) (s_known s) (s_readers s ++ [r]))
           (os ++ [o]).
  Proof.
    intros [F O] [Ok E]. split; cbn [s_readers].
    - apply Forall_app. auto.
    - rewrite map_app, O. cbn [map]. now rewrite E.
  Qed.

  Lemma mfn_tracks s os i r0 r :
    tracks s os -> nth_error (s_readers s) i = Some r0 -> (forall o, rd_tracks r0 o -> rd_tracks r o) ->
    tracks (fst (mfn s i r)) os.
  Proof.
    intros T H Hr. destruct (mfn_cases segsize guess s i r) as [_|_ _ _ Z|w _ _ _ _]; cbn [fst].
    - exact (tracks_set s os i r0 r T H Hr).
    - apply (tracks_set s os i r0 _ T H). intros o Ho. apply rd_tracks_finish; auto.
    - destruct (get_segment_fields s w) as (_ & _ & _ & _ & _ & Rd & _). cbn zeta in Rd.
      apply (tracks_set _ os i r0); [exact (tracks_same _ _ _ Rd T)|now rewrite Rd|].
      intros o Ho. apply rd_tracks_set_active. auto.
  Qed.

  Lemma fired_tracks s os i r k res react :
    tracks s os -> nth_error (s_readers s) i = Some r -> tracks (fst (fired s i r k res react)) os.
  Proof.
    intros T H. destruct (fired_cases ct segsize guess s i r k res react) as [data G|data G|data G|x Hx|_ _].
    - apply (mfn_tracks s os i r _ T H). intros o Ho. exact (rd_tracks_write r res data o Ho G).
    - apply (tracks_set s os i r _ T H). intros o Ho. apply rd_tracks_set_flags. exact (rd_tracks_write r res data o Ho G).
    - apply (tracks_set s os i r _ T H). intros o Ho. apply rd_tracks_finish; [exact (rd_tracks_write r res data o Ho G)|discriminate].
    - apply (tracks_set s os i r _ T H). intros o Ho. apply rd_tracks_finish; [now apply rd_tracks_set_active|]. intros ->. contradiction.
    - apply (mfn_tracks s os i r _ T H). intros o. apply rd_tracks_set_active.
  Qed.

  Lemma step_tracks s os e : tracks s os -> tracks (fst (step s e)) (os ++ new_origin e).
  Proof.
    intros T. destruct e as [off sz|i|i|i|i| |e|ok e|react]; cbn [sstep new_origin]; rewrite ?app_nil_r.
    - destruct (N.eqb_spec (read_clip (fsize ct) off sz) 0) as [Z|NZ]; cbn [fst].
      + apply (tracks_snoc s os _ _ T). rewrite Z. now apply rd_tracks_new.
      + set (r := mk_reader _ _ _ _ _ _ _ _ _ _). apply (mfn_tracks _ _ (length (s_readers s)) r r); [|cbn [s_readers]; now rewrite nth_error_app2, Nat.sub_diag by lia|auto].
        apply (tracks_snoc s os _ _ T). apply rd_tracks_new. discriminate.
    - destruct (nth_error _ i) as [r|] eqn:E; [|exact T]. destruct (rd_result r); [exact T|].
      apply (tracks_set s os i r _ T E). intros o. apply rd_tracks_set_flags.
    - destruct (nth_error _ i) as [r|] eqn:E; [|exact T]. destruct (rd_result r); [exact T|].
      apply (tracks_set s os i r _ T E). intros o Ho. now apply rd_tracks_set_mfn, rd_tracks_set_flags.
    - destruct (nth_error _ i) as [r|] eqn:E; [|exact T]. destruct (rd_result r); [exact T|].
      assert (St : forall o, rd_tracks r o -> rd_tracks (rd_finish (rd_set_active r None) RStopped) o).
      { intros o Ho. apply rd_tracks_finish; [now apply rd_tracks_set_active|discriminate]. }
      destruct (rd_active r) as [[[sg rid] k]|]; [|exact (tracks_set s os i r _ T E St)].
      destruct (cancel_fields s rid) as (_ & _ & _ & Rd & _). destruct (cancel s rid) as [s1 o]. cbn [fst] in *.
      apply (tracks_set s1 os i r); [exact (tracks_same _ _ _ Rd T)|now rewrite Rd|exact St].
    - destruct (nth_error _ i) as [r|] eqn:E; [|exact T]. destruct (rd_mfn r); [exact T|].
      apply (mfn_tracks s os i r _ T E). intros o. apply rd_tracks_set_mfn.
    - exact T.
    - destruct (s_active s) as [[fid seg]|]; [|exact T]. apply (tracks_same s _ os); [exact (finish_readers _ seg _)|exact T].
    - destruct (s_active s) as [[fid seg]|]; [|exact T].
      destruct ok; [|destruct clear_on_failure]; (apply (tracks_same s _ os); [exact (finish_readers _ seg _)|exact T]).
    - pose proof (deliver_cases clear_on_failure ct segsize guess s react) as C. cbn [sstep] in C.
      destruct C as [| | |rid res rest i r sg k _ _ Nth _]; try exact T.
      exact (fired_tracks (pop s _ rest) os i r k res react T Nth).
  Qed.

  Lemma run_tracks : forall evs s os, tracks s os -> tracks (fst (run s evs)) (os ++ flat_map new_origin evs).
  Proof.
    induction evs as [|e r IH]; intros s os T; [cbn; now rewrite app_nil_r|].
    rewrite run_cons_fst. cbn [flat_map]. rewrite app_assoc. apply IH, step_tracks, T.
  Qed.

  Lemma reach_tracks evs : tracks (fst (run sinit evs)) (flat_map new_origin evs).
  Proof. apply (run_tracks evs sinit []). split; [constructor|reflexivity]. Qed.

  (* a reader's bytes so far, and all of them once it is done, in terms of its origin *)
  Lemma rd_ok_prefix r :
    rd_ok r ->
    let whole := slice (N.to_nat (rd_off0 r)) (N.to_nat (rd_size0 r)) ct in
    (exists n, concat (rd_written r) = firstn n whole) /\ (rd_result r = Some RDone -> concat (rd_written r) = whole).
  Proof.
    intros (A & B & C & D). cbn zeta. rewrite A. split.
    - exists (N.to_nat (rd_offset r - rd_off0 r)). unfold slice. rewrite firstn_firstn. f_equal. lia.
    - intros Dn. specialize (D Dn). f_equal. lia.
  Qed.

  (* the i-th read() ever made is reader i: it keeps its origin and its bytes are in order *)
  Lemma read_delivers evs i o :
    nth_error (flat_map new_origin evs) i = Some o ->
    exists r, nth_error (s_readers (fst (run sinit evs))) i = Some r /\ origin r = o /\ rd_ok r.
  Proof.
    destruct (reach_tracks evs) as [F <-]. rewrite nth_error_map. intros H.
    destruct (nth_error _ i) as [r|] eqn:Nth; [|discriminate]. injection H as H.
    exists r. split; [reflexivity|]. split; [exact H|exact (Forall_nth_error _ _ _ _ F Nth)].
  Qed.

  Lemma run_readers_length evs : length (s_readers (fst (run sinit evs))) = length (flat_map new_origin evs).
  Proof. destruct (reach_tracks evs) as [_ <-]. now rewrite map_length. Qed.
End Range.
