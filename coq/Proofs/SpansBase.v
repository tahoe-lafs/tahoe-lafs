(* C37: common definitions for the proofs about Model/Spans.v:
   denotation of a span list as a set of N, the representation invariant,
   facts about overlap/adjacent, and about list.sort() (psort). *)
From Coq Require Import List NArith Bool Lia ZifyBool ZifyNat ZifyN Permutation.
From Verif Require Import Model.Spans.
Import ListNotations.
Local Open Scope N_scope.

Definition in_iv (s n x : N) : bool := (s <=? x) && (x <? s + n).

Definition mem (x : N) (l : list span) : bool :=
  existsb (fun sp => in_iv (fst sp) (snd sp) x) l.

Lemma mem_nil x : mem x [] = false.
Proof. reflexivity. Qed.

Lemma mem_cons x sp l : mem x (sp :: l) = in_iv (fst sp) (snd sp) x || mem x l.
Proof. reflexivity. Qed.

Lemma mem_app x l1 l2 : mem x (l1 ++ l2) = mem x l1 || mem x l2.
Proof. unfold mem. apply existsb_app. Qed.

(* every start is >= e, lengths are positive, and each start is strictly greater
   than the previous end: sorted, disjoint and NOT adjacent *)
Fixpoint wf_from (e : N) (l : spans) : Prop :=
  match l with
  | [] => True
  | sp :: r => e <= fst sp /\ 0 < snd sp /\ wf_from (fst sp + snd sp + 1) r
  end.

Definition wf (l : spans) : Prop := wf_from 0 l.

Lemma wf_from_weaken e e' l : e' <= e -> wf_from e l -> wf_from e' l.
Proof. destruct l as [|sp r]; cbn [wf_from]; [trivial|]. intros H (H1 & H2 & H3). repeat split; [lia|assumption|assumption]. Qed.

Lemma wf_from_wf e l : wf_from e l -> wf l.
Proof. apply wf_from_weaken. lia. Qed.

Lemma wf_from_head e e' sp r : wf_from e (sp :: r) -> e' <= fst sp -> wf_from e' (sp :: r).
Proof. cbn [wf_from]. intros (H1 & H2 & H3) H. auto. Qed.

Lemma wf_from_app_r e p q : wf_from e (p ++ q) -> wf_from e q.
Proof.
  revert e; induction p as [|y p IH]; intros e H; [exact H|].
  destruct H as (H1 & _ & H3). apply IH, (wf_from_weaken (fst y + snd y + 1)); [lia|exact H3].
Qed.

Lemma mem_below e l x : wf_from e l -> x < e -> mem x l = false.
Proof.
  revert e; induction l as [|sp r IH]; intros e H Hx; [reflexivity|].
  cbn [wf_from] in H. destruct H as (H1 & H2 & H3).
  rewrite mem_cons. rewrite (IH _ H3) by lia. unfold in_iv. lia.
Qed.

Lemma wf_from_In e l sp : wf_from e l -> In sp l -> e <= fst sp /\ 0 < snd sp.
Proof.
  revert e; induction l as [|y r IH]; intros e H Hin; [contradiction|].
  cbn [wf_from] in H. destruct H as (H1 & H2 & H3).
  destruct Hin as [<-|Hin]; [auto|]. destruct (IH _ H3 Hin). split; lia.
Qed.

Definition touches (s n : N) (sp : span) : bool :=
  is_some (overlap (fst sp) (snd sp) s n) || adjacent (fst sp) (snd sp) s n.

Lemma touches_spec s n sp : 0 < snd sp -> 0 < n ->
  touches s n sp = ((fst sp <=? s + n) && (s <=? fst sp + snd sp)).
Proof.
  destruct sp as [a b]. cbn [fst snd]. intros Hb Hn. unfold touches, overlap, adjacent. cbn [fst snd].
  destruct (N.max a s <? N.min (a + b) (s + n)) eqn:E1; cbn [is_some];
    destruct ((a <? s) && (a + b =? s)) eqn:E2; destruct ((s <? a) && (s + n =? a)) eqn:E3; lia.
Qed.

Lemma overlap_spec a b s n :
  overlap a b s n =
  if (N.max a s <? N.min (a + b) (s + n))
  then Some (N.max a s, N.min (a + b) (s + n) - N.max a s) else None.
Proof. reflexivity. Qed.

Lemma overlap_some s0 l0 s1 l1 os ol : overlap s0 l0 s1 l1 = Some (os, ol) ->
  os = N.max s0 s1 /\ os + ol = N.min (s0 + l0) (s1 + l1) /\ 0 < ol.
Proof.
  rewrite overlap_spec. destruct (N.ltb_spec (N.max s0 s1) (N.min (s0 + l0) (s1 + l1))); [|discriminate].
  intro E. injection E as <- <-. lia.
Qed.

Lemma overlap_none s0 l0 s1 l1 : overlap s0 l0 s1 l1 = None ->
  N.min (s0 + l0) (s1 + l1) <= N.max s0 s1.
Proof.
  rewrite overlap_spec. destruct (N.ltb_spec (N.max s0 s1) (N.min (s0 + l0) (s1 + l1))); [discriminate|trivial].
Qed.

Lemma pleb_total x y : pleb x y = true \/ pleb y x = true.
Proof. unfold pleb. destruct x, y; cbn [fst snd]. lia. Qed.

Lemma pleb_trans x y z : pleb x y = true -> pleb y z = true -> pleb x z = true.
Proof. unfold pleb. destruct x, y, z; cbn [fst snd]. lia. Qed.

Lemma pleb_antisym x y : pleb x y = true -> pleb y x = true -> x = y.
Proof.
  unfold pleb. destruct x as [a b], y as [c d]; cbn [fst snd]. intros H1 H2.
  assert (a = c) by lia. assert (b = d) by lia. subst. reflexivity.
Qed.

Lemma pinsert_comm x y l : pinsert x (pinsert y l) = pinsert y (pinsert x l).
Proof.
  induction l as [|h t IH]; cbn [pinsert].
  - destruct (pleb x y) eqn:Exy, (pleb y x) eqn:Eyx; try reflexivity.
    + rewrite (pleb_antisym _ _ Exy Eyx). reflexivity.
    + destruct (pleb_total x y); congruence.
  - destruct (pleb y h) eqn:Eyh, (pleb x h) eqn:Exh; cbn [pinsert];
      rewrite ?Eyh, ?Exh.
    + destruct (pleb x y) eqn:Exy, (pleb y x) eqn:Eyx; rewrite ?Eyh, ?Exh; try reflexivity.
      * rewrite (pleb_antisym _ _ Exy Eyx). reflexivity.
      * destruct (pleb_total x y); congruence.
    + destruct (pleb x y) eqn:Exy; [|reflexivity].
      rewrite (pleb_trans _ _ _ Exy Eyh) in Exh. discriminate.
    + destruct (pleb y x) eqn:Eyx; [|reflexivity].
      rewrite (pleb_trans _ _ _ Eyx Exh) in Eyh. discriminate.
    + rewrite IH. reflexivity.
Qed.

Lemma psort_perm l l' : Permutation l l' -> psort l = psort l'.
Proof.
  induction 1; cbn [psort].
  - reflexivity.
  - rewrite IHPermutation. reflexivity.
  - apply pinsert_comm.
  - congruence.
Qed.

Lemma pinsert_before x e r : wf_from e r -> fst x < e -> pinsert x r = x :: r.
Proof.
  destruct r as [|y r]; [reflexivity|]. cbn [wf_from pinsert]. intros (H1 & _) H.
  assert (E : pleb x y = true) by (unfold pleb; lia). rewrite E. reflexivity.
Qed.

Lemma psort_wf_id e l : wf_from e l -> psort l = l.
Proof.
  revert e; induction l as [|sp r IH]; intros e H; [reflexivity|].
  cbn [wf_from] in H. destruct H as (H1 & H2 & H3). cbn [psort].
  rewrite (IH _ H3). apply (pinsert_before _ _ _ H3). lia.
Qed.

Lemma psort_perm_wf e l l' : Permutation l l' -> wf_from e l' -> psort l = l'.
Proof. intros P H. rewrite (psort_perm _ _ P). apply (psort_wf_id _ _ H). Qed.

Lemma spans_eqb_refl l : spans_eqb l l = true.
Proof. induction l as [|[a b] r IH]; cbn [spans_eqb]; [reflexivity|]. rewrite !N.eqb_refl, IH. reflexivity. Qed.

Lemma check_gaps_wf e l p : wf_from e l ->
  match p with None => True | Some pe => pe < e end -> check_gaps p l = true.
Proof.
  revert e p; induction l as [|[a b] r IH]; intros e p H Hp; [reflexivity|].
  cbn [wf_from fst snd] in H. destruct H as (H1 & H2 & H3). cbn [check_gaps].
  rewrite (IH (a + b + 1) (Some (a + b)) H3) by lia.
  destruct p as [pe|]; [|reflexivity]. rewrite andb_true_r. lia.
Qed.

Lemma spans_check_wf l : wf l -> spans_check l = true.
Proof.
  intro H. unfold spans_check. rewrite (psort_wf_id _ _ H), spans_eqb_refl.
  apply (check_gaps_wf 0 l None H). exact I.
Qed.

(* once a call has raised, the rest of a history is not run *)
Lemma fold_bind_None {A B} (f : B -> A -> option A) l :
  fold_left (fun a x => bind a (f x)) l None = None.
Proof. induction l as [|x l IH]; [reflexivity|exact IH]. Qed.

Lemma spans_len_cons sp l : spans_len (sp :: l) = snd sp + spans_len l.
Proof. reflexivity. Qed.

Lemma spans_len_pos_nonempty l : wf l -> l <> [] -> 0 < spans_len l.
Proof.
  destruct l as [|sp r]; [congruence|]. intros H _. cbn [wf wf_from] in H. unfold wf in H. cbn [wf_from] in H.
  rewrite spans_len_cons. lia.
Qed.
