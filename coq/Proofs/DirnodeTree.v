(* C18: read-only authority is transitive along paths over a grid. *)
From Coq Require Import List NArith ZArith Bool Lia.
From Verif Require Import Lib.Hex Lib.Netstring Lib.HashPrim Gen.Hashutil
     Model.Dirnode Proofs.DirnodeBase Proofs.DirnodeCaps Proofs.DirnodePack.
Import ListNotations.
Local Open Scope N_scope.

Section TreeFacts.
  Variable classify : bytes -> capclass.
  Variable normalize : bytes -> bytes.
  Variable MD : Type.
  Variable dumps : MD -> bytes.
  Variable loads : bytes -> option MD.
  Variable enc dec : bytes -> bytes -> bytes.
  Hypothesis normalize_idem : forall x, normalize (normalize x) = normalize x.
  Hypothesis loads_dumps : forall m, loads (dumps m) = Some m.
  Hypothesis dec_enc : forall k d, dec k (enc k d) = d.
  Variable contents : bytes -> option bytes.
  Variable writekey_of : bytes -> bytes.

  Local Notation pack_normalized := (pack_normalized MD dumps enc).
  Local Notation unpack_contents := (unpack_contents classify normalize MD loads dec).
  Local Notation list_dir := (list_dir classify normalize MD loads dec contents writekey_of).
  Local Notation walk := (walk classify normalize MD loads dec contents writekey_of).

  (* Every mutable directory on the grid holds what the packer wrote for a
     directory whose children are reproducible nodes outside the excluded class.
     Immutable directories may hold anything. *)
  Definition grid_ok : Prop :=
    forall n r data, is_dir n = true -> n_mut n = true -> n_ro n = Some r -> contents r = Some data ->
      exists wk (m : smap (node * MD)),
        sm_sorted m = true /\ names_normal normalize MD m /\
        all_nodes MD (stableb classify) m /\ all_nodes MD (ro_slot_okb classify) m /\
        pack_normalized (fresh MD m) (Some wk) false = inr data.

  Lemma in_with_aux g wk di (m : smap (node * MD)) k c :
    In (k, c) (with_aux MD dumps enc g wk di m) -> exists n md, In (k, (n, md)) m /\ c_node MD c = g n.
  Proof.
    unfold with_aux, kvmap. rewrite in_map_iff. intros ([k0 [n md]] & E & Hin). cbn [fst snd] in E.
    inversion E; subst. exists n, md. split; [exact Hin|reflexivity].
  Qed.

  (* one step: every child listed through a read-only directory node is read-only *)
  Theorem ro_dir_children_readonly (n : node) children :
    caps_coherent classify -> grid_ok ->
    has_rw n = false ->
    list_dir n = Some (inr children) ->
    forall k c, In (k, c) children -> has_rw (c_node MD c) = false.
  Proof.
    intros Hco Hgrid Hro Hl k c Hin.
    unfold Dirnode.list_dir in Hl.
    destruct (is_dir n) eqn:Ed; [|discriminate].
    destruct (n_ro n) as [r|] eqn:Er; [|discriminate].
    destruct (contents r) as [data|] eqn:Ec; [|discriminate].
    inversion Hl as [Hu]. clear Hl. rewrite Hro in Hu.
    unfold has_rw.
    destruct (n_mut n) eqn:Em.
    - destruct (Hgrid n r data Ed Em Er Ec) as (wk & m & Hs & Hn & Hst & Hslot & Hp).
      destruct (ro_unpack_map classify normalize MD dumps loads enc dec loads_dumps
                              wk (match n_rw n with Some w => writekey_of w | None => [] end) m Hco Hs Hn Hst Hslot)
        as (data' & Hp' & Hu' & Hall).
      rewrite Hp in Hp'. inversion Hp'; subst data'.
      rewrite Hu' in Hu. inversion Hu; subst children.
      destruct (in_with_aux _ _ _ _ _ _ Hin) as (n0 & md & Hin0 & ->).
      rewrite (proj2 (Hall _ _ _ Hin0)). reflexivity.
    - rewrite (immutable_dir_children_no_rw classify normalize MD loads dec _ _ _ _ Hu _ _ Hin). reflexivity.
  Qed.

  Theorem walk_readonly :
    caps_coherent classify -> grid_ok ->
    forall path n n', has_rw n = false -> walk n path = Some n' -> has_rw n' = false.
  Proof.
    intros Hco Hgrid. induction path as [|namex rest IH]; intros n n' Hro Hw; cbn [Dirnode.walk] in Hw.
    - inversion Hw; subst. exact Hro.
    - destruct (list_dir n) as [[e|children]|] eqn:El; try discriminate.
      destruct (sm_get (normalize namex) children) as [c|] eqn:Eg; [|discriminate].
      eapply IH; [|exact Hw].
      eapply ro_dir_children_readonly; try eassumption.
      apply sm_get_in. exact Eg.
  Qed.
End TreeFacts.
