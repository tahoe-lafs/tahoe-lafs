(* C39: the invariant holds in every reachable configuration; the lemmas behind
   the theorems of Props/C39.v. *)
From Coq Require Import List NArith Bool Lia.
From Verif Require Import Lib.ListFacts Model.Overwrite Proofs.OverwriteLists Proofs.Overwrite.
Import ListNotations.
Local Open Scope N_scope.

Section Run.
Variable g : N -> N.
Variable O : list N.
Variable d0 : N.

(* a configuration: [Core] against the ghost reference, download_size never above d0, and
   the stream position is [downloaded] for as long as the download is wanted *)
Record CInv (c : cfg) : Prop := mkCInv {
  ci_core : Core O (st c) (ref c);
  ci_d0 : dsize (st c) <= d0;
  ci_pos : closed (st c) = false -> dl (st c) < dsize (st c) -> pos c = dl (st c)
}.

Lemma init_inv : d0 <= len O -> CInv (init_cfg O d0).
Proof.
  intro Hd0. constructor; simpl; [|lia|intros; reflexivity].
  constructor; simpl.
  - rewrite len_take. lia.
  - lia.
  - rewrite len_nil. lia.
  - constructor.
  - constructor.
  - split; [|split].
    + intros i _ [H | H]; [lia | destruct (inow_nil _ H)].
    + intros; lia.
    + intros i Hi _. rewrite get_take. destruct (N.ltb_spec i d0); [reflexivity | lia].
  - discriminate.
Qed.

Definition guard_finish (c : cfg) (o : op) : Prop :=
  match o with Finish => d0 <= pos c | _ => True end.

Lemma chunk_data c n k :
  k < len (take n (drop (pos c) O)) -> get (take n (drop (pos c) O)) k = get O (pos c + k).
Proof.
  intro H. rewrite len_take in H. rewrite get_take, get_drop.
  destruct (N.ltb_spec k n); [reflexivity | lia].
Qed.

Lemma finish_cov c :
  CInv c -> d0 <= pos c -> closed (st c) = false -> forall i, i < dsize (st c) -> covered (st c) i.
Proof.
  intros [HC Hd Hp] Hg Hcl i Hi. left.
  destruct (N.lt_ge_cases (dl (st c)) (dsize (st c))) as [Hlt | Hge]; [|lia].
  specialize (Hp Hcl Hlt). lia.
Qed.

Lemma close_core s ref : Core O s ref -> Core O (close s) ref.
Proof.
  intro HC. unfold close. apply dd_core.
  - destruct HC as [H1 H2 H2' H3 H4 H5 H6]. constructor; simpl; auto. intros _ Hx. discriminate.
  - simpl. intro Hx. discriminate.
Qed.

Lemma close_closed s : closed (close s) = true.
Proof. unfold close. destruct (dd_proj (set_closed s true)) as (_ & _ & _ & _ & _ & E & _). rewrite E. reflexivity. Qed.

Lemma fread_ref s ref off n :
  Core O s ref -> off + n <= cur s ->
  (forall i, off <= i < off + n -> i < dsize s -> covered s i) ->
  fread (f s) off n = fread ref off n.
Proof.
  intros [H1 H2 H2' H3 H4 (I1 & I2 & I3) H6] Hle Hc. unfold fread. apply take_drop_ext.
  intros j Hj. destruct (N.lt_ge_cases (off + j) (dsize s)).
  - apply I1; [lia|]. apply Hc; lia.
  - apply I2; lia.
Qed.

Lemma clip_read (ref : list N) off length c :
  c = len ref -> off < c ->
  RData (fread ref off (if c <? off + length then c - off else length)) = ref_read ref off length.
Proof.
  intros Hc Ho. unfold ref_read, fread. destruct (N.leb_spec (len ref) off); [lia|]. f_equal.
  destruct (N.ltb_spec c (off + length)); [|reflexivity].
  rewrite !take_all; [reflexivity | rewrite len_drop; lia | rewrite len_drop; lia].
Qed.

(* read(): an answer given at once is the reference's; otherwise the request,
   clipped to the file, waits for a milestone at or after its last wanted byte *)
Lemma read_spec s ref id off length :
  Core O s ref ->
  match read s id off length with
  | Now res => res = ref_read ref off length \/ (res = RFail /\ closed s = true)
  | Wait s' => exists n r,
      s' = mkSt (f s) (cur s) (dsize s) (dl s) (ows s) (ms_insert (n, r) (ms s)) (fired s) (done s) (closed s) /\
      closed s = false /\ rid r = id /\ roff r + rlen r <= cur s /\ N.min (roff r + rlen r) (dsize s) <= n /\
      RData (fread ref (roff r) (rlen r)) = ref_read ref off length
  end.
Proof.
  intro HC. unfold read. destruct (closed s) eqn:Hcl; [auto|].
  destruct (N.leb_spec (cur s) off) as [Heof | Hoff].
  { left. unfold ref_read. rewrite <- (c_cur _ _ _ HC). destruct (N.leb_spec (cur s) off); [reflexivity | lia]. }
  set (length' := if cur s <? off + length then cur s - off else length).
  assert (off + length' <= cur s) as Hlen
    by (unfold length'; destruct (N.ltb_spec (cur s) (off + length)); lia).
  pose proof (clip_read ref off length (cur s) (c_cur _ _ _ HC) Hoff) as Hclip. fold length' in Hclip.
  assert ((forall i, off <= i < off + length' -> i < dsize s -> covered s i) ->
          do_read s (mkRd id off length') = ref_read ref off length) as Hsync.
  { intro Hcv. unfold do_read. rewrite Hcl. simpl.
    destruct (N.ltb_spec (cur s) (off + length')); [lia|].
    rewrite <- Hclip. f_equal. apply fread_ref; assumption. }
  destruct (done s) eqn:Hdone.
  { left. apply Hsync. intros i _ Hi. apply (c_D _ _ _ HC); assumption. }
  destruct (N.leb_spec (N.min (off + length') (dsize s)) (dl s)) as [Hnow | Hlater].
  { left. apply Hsync. intros i Hi1 Hi2. left. lia. }
  exists (N.min (off + length') (dsize s)), (mkRd id off length'). simpl. auto 10 using N.le_refl.
Qed.

Lemma step_inv c o c' :
  CInv c -> guard_finish c o -> step g O c o = Some c' -> CInv c'.
Proof.
  intros HI Hg Hs. pose proof HI as [HC Hd Hp].
  assert (forall fi ms, Core O (mkSt (f (st c)) (cur (st c)) (dsize (st c)) (dl (st c)) (ows (st c)) ms fi
                                (done (st c)) (closed (st c))) (ref c)) as Hq
    by (intros; destruct HC; constructor; auto).
  destruct o; simpl in Hs.
  - destruct (write g (st c) (take n (drop (pos c) O))) as [s'|] eqn:Hw; [|discriminate].
    inversion Hs; subst c'. clear Hs.
    destruct (write_ok g O (ref c) (st c) _ s' (pos c) HC Hp (chunk_data c n) Hw) as ([HC' HL] & P).
    constructor; simpl; [exact HC' | rewrite (l_ds _ _ HL); exact Hd | exact P].
  - destruct (closed (st c)) eqn:Hcl; inversion Hs; subst c'; [exact HI|].
    destruct (overwrite_ok g O (ref c) (st c) off data HC) as (P1 & P2 & P3 & _ & _ & P7 & _).
    constructor; simpl; [exact P1 | lia |]. rewrite P2, P3. intros _ Hx. apply Hp; auto.
  - destruct (closed (st c)) eqn:Hcl; inversion Hs; subst c'; [exact HI|].
    destruct (setsize_ok g O (ref c) (st c) size HC) as (P1 & P2 & P3 & P4 & _).
    constructor; simpl; [exact P1 | lia |]. rewrite P2. intros _ H2. apply Hp; [reflexivity | lia].
  - pose proof (read_spec (st c) (ref c) (nid c) off length HC) as Hrd.
    destruct (read (st c) (nid c) off length); inversion Hs; subst c'; [constructor; auto|].
    destruct Hrd as (n & r & -> & _). constructor; simpl; auto.
  - inversion Hs; subst c'. constructor; simpl; auto.
  - destruct (fired (st c)); inversion Hs; subst c'; [exact HI|]. constructor; simpl; auto.
  - inversion Hs; subst c'. clear Hs. simpl in Hg.
    destruct (dd_proj (st c)) as (E1 & E2 & E3 & E4 & E5 & E6 & E7).
    constructor; simpl.
    + apply dd_core; [exact HC|]. apply finish_cov; assumption.
    + rewrite E3. exact Hd.
    + rewrite E6, E4, E3. exact Hp.
  - destruct (closed (st c)) eqn:Hcl; inversion Hs; subst c'; [exact HI|].
    constructor; simpl.
    + apply close_core. exact HC.
    + unfold close. destruct (dd_proj (set_closed (st c) true)) as (_ & _ & E3 & _). rewrite E3. exact Hd.
    + rewrite close_closed. discriminate.
Qed.

Lemma step_total c o : exists c', step g O c o = Some c'.
Proof.
  destruct o; simpl; eauto.
  - destruct (write_total g (st c) (take n (drop (pos c) O))) as [s' Hs']. rewrite Hs'. eauto.
  - destruct (closed (st c)); eauto.
  - destruct (closed (st c)); eauto.
  - destruct (read (st c) (nid c) off length); eauto.
  - destruct (fired (st c)); eauto.
  - destruct (closed (st c)); eauto.
Qed.

Lemma run_from_total : forall l c, exists c', run_from g O c l = Some c'.
Proof.
  induction l as [|o l IH]; intro c; simpl; [eauto|].
  destruct (step_total c o) as [c1 H1]. rewrite H1. apply IH.
Qed.

Lemma guard_finish_ok c o : (match o with Finish => d0 <=? pos c | _ => true end) = true -> guard_finish c o.
Proof. destruct o; simpl; auto. apply N.leb_le. Qed.

Lemma finish_ok_inv : forall l c c',
  CInv c -> finish_ok_from g O d0 c l = true -> run_from g O c l = Some c' -> CInv c'.
Proof.
  induction l as [|o l IH]; intros c c' HI Hf Hr; simpl in *.
  - inversion Hr; subst. exact HI.
  - apply andb_prop in Hf. destruct Hf as [Hf1 Hf2].
    destruct (step g O c o) as [c1|] eqn:Hs; [|discriminate].
    apply (IH c1 c'); auto. apply (step_inv c o c1); auto using guard_finish_ok.
Qed.

(* reads: for every outstanding read, what the reference holds in its range is the answer
   recorded in [exps]; every delivered result is the recorded one, or a failure after close *)
Record RC (c : cfg) : Prop := mkRC {
  rc_R : RInv (st c);
  rc_X : closed (st c) = false -> forall r, outst (st c) r ->
         In (rid r, RData (fread (ref c) (roff r) (rlen r))) (exps c);
  rc_out : forall id res, In (id, res) (outs c) ->
           In (id, res) (exps c) \/ (res = RFail /\ closed (st c) = true)
}.

Definition guard_contract (c : cfg) (o : op) : Prop :=
  match o with
  | Overwrite _ _ | SetSize _ => quiescent (st c) = true \/ closed (st c) = true
  | _ => True
  end.

Lemma quiescent_nil s : quiescent s = true -> ms s = [] /\ fired s = [].
Proof. unfold quiescent. destruct (ms s); destruct (fired s); intro; try discriminate; auto. Qed.

Lemma in_ms_insert x l y : In y (ms_insert x l) <-> y = x \/ In y l.
Proof.
  induction l as [|z r IH]; simpl.
  - intuition.
  - destruct (fst x <? fst z); simpl; rewrite ?IH; intuition.
Qed.

(* a step that keeps the reference: reads that are newly outstanding, and results
   that are newly delivered, have to be accounted for *)
Lemma rc_keep c c' :
  RC c -> ref c' = ref c -> RInv (st c') ->
  (closed (st c) = true -> closed (st c') = true) ->
  (forall x, In x (exps c) -> In x (exps c')) ->
  (closed (st c') = false -> forall r, outst (st c') r ->
     outst (st c) r \/ In (rid r, RData (fread (ref c) (roff r) (rlen r))) (exps c')) ->
  (forall id res, In (id, res) (outs c') ->
     In (id, res) (outs c) \/ In (id, res) (exps c') \/ (res = RFail /\ closed (st c') = true)) ->
  RC c'.
Proof.
  intros [HR HX HO] Href HR' Hcl Hexp Hout Houts. constructor.
  - exact HR'.
  - intros Hc r Hr. rewrite Href. destruct (Hout Hc r Hr) as [H | H]; [|exact H].
    apply Hexp, HX; [|exact H].
    destruct (closed (st c)); [rewrite (Hcl eq_refl) in Hc; discriminate | reflexivity].
  - intros id res Hin. destruct (Houts id res Hin) as [H | H]; [|exact H].
    destruct (HO id res H) as [H1 | [H1 H2]]; [left; apply Hexp, H1 | right; auto].
Qed.

(* a client mutation under the contract: the successor has no read outstanding, delivers
   nothing and expects nothing new *)
Lemma rc_quiet c c' :
  RC c -> ms (st c') = [] -> fired (st c') = [] -> closed (st c') = closed (st c) ->
  outs c' = outs c -> exps c' = exps c -> RC c'.
Proof.
  intros [_ _ HO] E1 E2 E3 E4 E5. constructor.
  - intros _. rewrite E1, E2. split; [intros n r [] | intros r []].
  - intros _ r [H | [n H]]; [rewrite E2 in H | rewrite E1 in H]; destruct H.
  - rewrite E3, E4, E5. exact HO.
Qed.

(* the download side moves on: nothing is delivered, nothing new is expected *)
Lemma rc_later c s' p : RC c -> later (st c) s' -> RC (mkCfg s' p (ref c) (nid c) (outs c) (exps c)).
Proof.
  intros HRC HL. apply (rc_keep c); simpl; auto.
  - apply (l_R _ _ HL), HRC.
  - rewrite (l_closed _ _ HL). auto.
  - intros _ r Hr. left. apply (l_outst _ _ HL), Hr.
Qed.

(* a reactor turn: the callbacks of [del] run, [fi] stays released *)
Lemma rc_deliver c fi del :
  Core O (st c) (ref c) -> RC c -> incl fi (fired (st c)) -> incl del (fired (st c)) ->
  let s := st c in
  RC (mkCfg (mkSt (f s) (cur s) (dsize s) (dl s) (ows s) (ms s) fi (done s) (closed s)) (pos c) (ref c) (nid c)
            (outs c ++ map (fun r => (rid r, do_read s r)) del) (exps c)).
Proof.
  intros HC HRC Hfi Hdel. pose proof HRC as [HR HX _]. apply (rc_keep c); simpl; auto.
  - intro Hx. destruct (HR Hx) as [HM HF]. split; [exact HM|]. intros r Hr. apply HF, Hfi, Hr.
  - intros _ r [Hr | Hr]; left; [left; apply Hfi, Hr | right; exact Hr].
  - intros id res Hin. apply in_app_or in Hin. destruct Hin as [Hin | Hin]; [auto|]. right.
    apply in_map_iff in Hin. destruct Hin as (r & Er & Hr). inversion Er; subst. apply Hdel in Hr.
    (* the callback of a released read returns what was expected of it *)
    unfold do_read. destruct (closed (st c)) eqn:Hcl; [right; auto | left].
    destruct (HR Hcl) as [_ HF]. destruct (HF r Hr) as [Ha Hb].
    destruct (N.ltb_spec (cur (st c)) (roff r + rlen r)); [lia|].
    rewrite (fread_ref (st c) (ref c) (roff r) (rlen r) HC Ha Hb).
    apply HX; [reflexivity | left; exact Hr].
Qed.

Lemma step_rc c o c' :
  CInv c -> RC c -> guard_finish c o -> guard_contract c o -> step g O c o = Some c' -> RC c'.
Proof.
  intros HI HRC Hg Hk Hs. pose proof HI as [HC Hd Hp]. pose proof HRC as [HR HX HO].
  destruct o; simpl in Hs.
  - destruct (write g (st c) (take n (drop (pos c) O))) as [s'|] eqn:Hw; [|discriminate].
    inversion Hs; subst c'. clear Hs.
    destruct (write_ok g O (ref c) (st c) _ s' (pos c) HC Hp (chunk_data c n) Hw) as ([_ HL] & _).
    exact (rc_later c s' _ HRC HL).
  - destruct (closed (st c)) eqn:Hcl; inversion Hs; subst c'; [exact HRC|].
    destruct Hk as [Hq | Hq]; [|congruence]. apply quiescent_nil in Hq.
    destruct (overwrite_ok g O (ref c) (st c) off data HC) as (_ & _ & _ & P4 & P5 & P7 & _).
    apply (rc_quiet c); simpl; auto; [rewrite P4 | rewrite P5]; apply Hq.
  - destruct (closed (st c)) eqn:Hcl; inversion Hs; subst c'; [exact HRC|].
    destruct Hk as [Hq | Hq]; [|congruence]. apply quiescent_nil in Hq.
    destruct (setsize_ok g O (ref c) (st c) size HC) as (_ & _ & P3 & _ & P7).
    apply (rc_quiet c); simpl; auto; apply P7; apply Hq.
  - pose proof (read_spec (st c) (ref c) (nid c) off length HC) as Hrd.
    destruct (read (st c) (nid c) off length) as [res | s']; inversion Hs; subst c'; clear Hs;
      apply (rc_keep c); simpl; auto using in_or_app.
    + intros id r Hin. apply in_app_or in Hin. destruct Hin as [Hin | [Hin | []]]; [auto|].
      inversion Hin; subst. right. destruct Hrd as [-> | Hrd]; [left; apply in_or_app; simpl; auto | auto].
    + destruct Hrd as (n & r & -> & Hcl & _ & Hlen & Hn & _). intros _. destruct (HR Hcl) as [HM HF].
      split; [|exact HF]. intros n' r' Hin. apply in_ms_insert in Hin.
      destruct Hin as [Hin | Hin]; [inversion Hin; subst; auto | apply HM, Hin].
    + destruct Hrd as (n & r & -> & _). auto.
    + destruct Hrd as (n & r & -> & _ & Hid & _ & _ & Hrr). simpl.
      intros _ r' [Hr | [n' Hr]]; [left; left; exact Hr|]. apply in_ms_insert in Hr.
      destruct Hr as [Hr | Hr]; [|left; right; eauto].
      inversion Hr; subst. right. apply in_or_app. right. rewrite Hrr, Hid. left. reflexivity.
  - inversion Hs; subst c'. apply (rc_deliver c [] (fired (st c))); auto using incl_refl. intros r [].
  - destruct (fired (st c)) as [|r0 rest] eqn:Hfired; inversion Hs; subst c'; [exact HRC|].
    apply (rc_deliver c rest [r0]); auto; rewrite Hfired; [apply incl_tl, incl_refl | intros r [<- | []]; left; reflexivity].
  - inversion Hs; subst c'. exact (rc_later c _ _ HRC (dd_later (st c) (finish_cov c HI Hg))).
  - destruct (closed (st c)) eqn:Hcl; inversion Hs; subst c'; [exact HRC|].
    apply (rc_keep c); simpl; auto using close_closed.
    + intro Hx. rewrite close_closed in Hx. discriminate.
    + rewrite close_closed. discriminate.
Qed.

Lemma init_rc : RC (init_cfg O d0).
Proof.
  constructor; simpl.
  - unfold RInv. simpl. intros _. split; [intros n r [] | intros r []].
  - intros _ r [[] | [n []]].
  - intros id res [].
Qed.

Lemma contract_inv : forall l c c',
  CInv c -> RC c -> finish_ok_from g O d0 c l = true -> contract_ok_from g O c l = true ->
  run_from g O c l = Some c' -> RC c'.
Proof.
  induction l as [|o l IH]; intros c c' HI HR Hf Hk Hr; simpl in *.
  - inversion Hr; subst. exact HR.
  - apply andb_prop in Hf. destruct Hf as [Hf1 Hf2].
    apply andb_prop in Hk. destruct Hk as [Hk1 Hk2].
    destruct (step g O c o) as [c1|] eqn:Hs; [|discriminate].
    apply guard_finish_ok in Hf1.
    assert (guard_contract c o) as G2.
    { unfold guard_contract. destruct o; auto; apply orb_prop in Hk1; exact Hk1. }
    apply (IH c1 c'); auto.
    + apply (step_inv c o c1); auto.
    + apply (step_rc c o c1); auto.
Qed.

Lemma download_side_step c o c' :
  CInv c -> guard_finish c o -> download_side o = true -> step g O c o = Some c' ->
  ref c' = ref c /\ cur (st c') = cur (st c) /\ closed (st c') = closed (st c) /\
  (forall i, covered (st c) i -> covered (st c') i).
Proof.
  intros HI Hg Hds Hs. pose proof HI as [HC Hd Hp].
  destruct o; simpl in Hds; try discriminate; simpl in Hs.
  - destruct (write g (st c) (take n (drop (pos c) O))) as [s'|] eqn:Hw; [|discriminate].
    inversion Hs; subst c'. clear Hs.
    destruct (write_ok g O (ref c) (st c) _ s' (pos c) HC Hp (chunk_data c n) Hw) as ([_ []] & _).
    simpl. auto.
  - pose proof (read_spec (st c) (ref c) (nid c) off length HC) as Hrd.
    destruct (read (st c) (nid c) off length); inversion Hs; subst; simpl; [auto|].
    destruct Hrd as (n & r & -> & _). auto.
  - inversion Hs; subst. simpl. auto.
  - destruct (fired (st c)); inversion Hs; subst; simpl; auto.
  - inversion Hs; subst. destruct (dd_later (st c) (finish_cov c HI Hg)). simpl. auto.
Qed.

Lemma download_side_run : forall l c c',
  CInv c -> forallb download_side l = true -> finish_ok_from g O d0 c l = true ->
  run_from g O c l = Some c' ->
  CInv c' /\ ref c' = ref c /\ cur (st c') = cur (st c) /\ closed (st c') = closed (st c) /\
  (forall i, covered (st c) i -> covered (st c') i).
Proof.
  induction l as [|o l IH]; intros c c' HI Hds Hf Hr; simpl in *.
  - inversion Hr; subst. auto.
  - apply andb_prop in Hds. destruct Hds as [Hd1 Hd2].
    apply andb_prop in Hf. destruct Hf as [Hf1 Hf2]. apply guard_finish_ok in Hf1.
    destruct (step g O c o) as [c1|] eqn:Hs; [|discriminate].
    destruct (download_side_step c o c1 HI Hf1 Hd1 Hs) as (A1 & A2 & A3 & A4).
    destruct (IH c1 c' (step_inv c o c1 HI Hf1 Hs) Hd2 Hf2 Hr) as (B0 & B1 & B2 & B3 & B4).
    split; [exact B0|]. split; [congruence|]. split; [congruence|]. split; [congruence|]. auto.
Qed.

Lemma run_from_app : forall l1 l2 c,
  run_from g O c (l1 ++ l2) =
  match run_from g O c l1 with Some c1 => run_from g O c1 l2 | None => None end.
Proof.
  induction l1 as [|o l1 IH]; intros l2 c; simpl; [reflexivity|].
  destruct (step g O c o); [apply IH | reflexivity].
Qed.

Lemma finish_ok_from_app : forall l1 l2 c,
  finish_ok_from g O d0 c (l1 ++ l2) = true ->
  finish_ok_from g O d0 c l1 = true /\
  forall c1, run_from g O c l1 = Some c1 -> finish_ok_from g O d0 c1 l2 = true.
Proof.
  induction l1 as [|o l1 IH]; intros l2 c H; simpl in *.
  - split; [reflexivity|]. intros c1 E. inversion E; subst. exact H.
  - apply andb_prop in H. destruct H as [H1 H2].
    destruct (step g O c o) as [c1|]; [|discriminate].
    destruct (IH l2 c1 H2) as [A B]. rewrite H1, A. auto.
Qed.

(* from any configuration that satisfies the invariant *)
Lemma overwrite_survives c0 : CInv c0 ->
  forall pre off data later cp c,
  finish_ok_from g O d0 c0 (pre ++ Overwrite off data :: later) = true ->
  forallb download_side later = true ->
  run_from g O c0 pre = Some cp -> closed (st cp) = false ->
  run_from g O c0 (pre ++ Overwrite off data :: later) = Some c ->
  forall k, k < len data -> get (f (st c)) (off + k) = get data k.
Proof.
  intros HI0 pre off data later cp c Hf Hds Hp Hcl Hr k Hk.
  destruct (finish_ok_from_app pre _ _ Hf) as [Hf1 Hf2]. specialize (Hf2 cp Hp).
  rewrite run_from_app, Hp in Hr.
  pose proof (finish_ok_inv pre _ cp HI0 Hf1 Hp) as HIp.
  simpl in Hr, Hf2. rewrite Hcl in Hr, Hf2. simpl in Hf2.
  set (c1 := mkCfg (overwrite g (st cp) off data) (pos cp) (ref_write (ref cp) off data) (nid cp) (outs cp) (exps cp)) in *.
  assert (step g O cp (Overwrite off data) = Some c1) as Hs1 by (simpl; rewrite Hcl; reflexivity).
  pose proof (step_inv cp (Overwrite off data) c1 HIp I Hs1) as HI1.
  destruct (overwrite_ok g O (ref cp) (st cp) off data (ci_core _ HIp)) as (_ & _ & _ & _ & _ & _ & Q9).
  destruct (download_side_run later c1 c HI1 Hds Hf2 Hr) as (HIc & R1 & R2 & R3 & R4).
  destruct HIc as [[H1 H2 H2' H3 H4 (I1 & I2 & I3) H6] _ _].
  rewrite I1.
  - rewrite R1. unfold c1. simpl. rewrite get_ref_write_in by lia. f_equal. lia.
  - rewrite H1, R1. unfold c1. simpl. rewrite len_ref_write. lia.
  - apply R4. unfold c1. simpl. apply Q9. lia.
Qed.

(* what a step does to the request ids and the expectations: only Read touches them *)
Lemma step_exps c o c' :
  step g O c o = Some c' ->
  (exps c' = exps c /\ nid c' = nid c) \/
  exists off length, exps c' = exps c ++ [(nid c, ref_read (ref c) off length)] /\ nid c' = nid c + 1.
Proof.
  intro Hs. destruct o; simpl in Hs.
  - destruct (write g (st c) _); inversion Hs; subst; auto.
  - destruct (closed (st c)); inversion Hs; subst; auto.
  - destruct (closed (st c)); inversion Hs; subst; auto.
  - right. exists off, length. destruct (read (st c) (nid c) off length); inversion Hs; subst; auto.
  - inversion Hs; subst; auto.
  - destruct (fired (st c)); inversion Hs; subst; auto.
  - inversion Hs; subst; auto.
  - destruct (closed (st c)); inversion Hs; subst; auto.
Qed.

Lemma run_from_ind (P : cfg -> Prop) :
  (forall c o c', P c -> step g O c o = Some c' -> P c') ->
  forall l c c', P c -> run_from g O c l = Some c' -> P c'.
Proof.
  intro Hstep. induction l as [|o l IH]; intros c c' Hc Hr; simpl in Hr.
  - inversion Hr; subst. exact Hc.
  - destruct (step g O c o) as [c1|] eqn:Hs; [|discriminate]. eauto.
Qed.

Lemma exps_grow_run l c c' : run_from g O c l = Some c' -> forall x, In x (exps c) -> In x (exps c').
Proof.
  intros Hr x Hx. revert l c c' Hx Hr. apply run_from_ind. intros c o c' Hx Hs.
  destruct (step_exps c o c' Hs) as [[-> _] | (off & length & -> & _)]; [|apply in_or_app]; auto.
Qed.

(* the linearisation point of a read: the reference at the time the request is issued *)
Lemma read_recorded c0 pre off length later cp c :
  run_from g O c0 pre = Some cp ->
  run_from g O c0 (pre ++ Read off length :: later) = Some c ->
  In (nid cp, ref_read (ref cp) off length) (exps c).
Proof.
  intros Hp Hr. rewrite run_from_app, Hp in Hr. simpl in Hr.
  destruct (read (st cp) (nid cp) off length);
    (eapply exps_grow_run; [exact Hr|]; simpl; apply in_or_app; right; left; reflexivity).
Qed.

(* request ids are unique: an entry of [exps] is THE reference answer of that request *)
Definition ids_ok (c : cfg) : Prop :=
  NoDup (map fst (exps c)) /\ forall x, In x (exps c) -> fst x < nid c.

Lemma ids_init : ids_ok (init_cfg O d0).
Proof. split; simpl; [constructor | intros x []]. Qed.

Lemma ids_step c o c' : ids_ok c -> step g O c o = Some c' -> ids_ok c'.
Proof.
  intros [Hn Hb] Hs. unfold ids_ok.
  destruct (step_exps c o c' Hs) as [[-> ->] | (off & length & -> & ->)]; [split; assumption|].
  split.
  - rewrite map_app. apply NoDup_snoc; [exact Hn|]. simpl.
    intro Hx. apply in_map_iff in Hx. destruct Hx as (x & E & Hx). specialize (Hb x Hx). lia.
  - intros x Hx. apply in_app_or in Hx. destruct Hx as [Hx | [<- | []]]; [specialize (Hb x Hx)|]; simpl; lia.
Qed.

Lemma ids_run l c c' : ids_ok c -> run_from g O c l = Some c' -> ids_ok c'.
Proof. exact (run_from_ind ids_ok ids_step l c c'). Qed.

Lemma ids_unique c : ids_ok c ->
  forall id e1 e2, In (id, e1) (exps c) -> In (id, e2) (exps c) -> e1 = e2.
Proof. intros [Hn _] id e1 e2. exact (NoDup_fst_unique _ id e1 e2 Hn). Qed.

End Run.
