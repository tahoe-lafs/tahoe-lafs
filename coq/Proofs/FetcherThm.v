(* C03: statements over finite guarded runs, and a concrete fair run (non-vacuity of
   the fairness hypotheses of Proofs/FetcherLive.v). *)
From Coq Require Import List NArith Bool Arith Lia.
From Verif Require Import Lib.Sched Model.Fetcher Proofs.FetcherBase Proofs.FetcherWorld Proofs.FetcherLive.
Import ListNotations.

Section Runs.
  Variable w : world.
  Variables (k : nat) (seg : N).
  Hypothesis Hw : NoDup (w_shares w).

  Definition InvK (g : gst) : Prop := Inv w g /\ f_k (fst g) = k.

  Lemma invk_init : InvK (ginit k seg).
  Proof. split; [apply inv_init|reflexivity]. Qed.

  Lemma invk_step g e : InvK g -> ev_ok w g e -> InvK (fst (gstep g e)).
  Proof. intros [I K] Hok. split; [now apply gstep_inv|]. now rewrite gstep_fst, fstep_k. Qed.

  Definition out_ok (o : fout) : Prop :=
    match o with
    | OProcessBlocks _ => k <= good_distinct w
    | OFetchFailed e => e <> BadSegmentNumberError /\ good_distinct w < k
    | _ => True
    end.

  Lemma step_out_ok g e : InvK g -> ev_ok w g e -> Forall out_ok (snd (gstep g e)).
  Proof.
    intros [I K] Hok. apply Forall_forall. intros o Ho. destruct o as [sh| |bl|err]; cbn [out_ok]; auto.
    - rewrite <- K. eapply gstep_process_good; eauto.
    - assert (err <> BadSegmentNumberError) as NE.
      { intros E. subst. eapply gstep_no_badseg; eauto. }
      split; [exact NE|]. rewrite <- K. eapply gstep_error_few_good; eauto.
  Qed.

  Lemma run_out_ok g evs :
    InvK g -> accepted gstep (ev_ok w) g evs -> Forall out_ok (snd (run gstep g evs)).
  Proof. apply (outputs_run _ _ _ gstep (ev_ok w) InvK out_ok); [apply invk_step|apply step_out_ok]. Qed.
End Runs.

(* one good share, k = 1: add it, loop (request starts), COMPLETE, loop (process_blocks and
   stop), the finder reports exhaustion, the loop that queued runs; from then on only empty
   deliveries, which a stopped fetcher ignores *)
Definition ex_share : share := mk_share 0 0 0 1.
Definition ex_world : world := mk_world [ex_share] (fun _ => true).

Definition ex_run (n : nat) : fev :=
  match n with
  | 0 => EAddShares [ex_share]
  | 1 => ELoop None
  | 2 => EActivity ex_share COMPLETE
  | 3 => ELoop None
  | 4 => ENoMoreShares
  | 5 => ELoop None
  | _ => EAddShares []
  end.

Definition ex_end : gst := (mk_f 1 0 [] [] 1 [] [] [(0, 0)%N] true false 0, [ex_share]).

Lemma gstep_idle g : f_running (fst g) = false -> fst (gstep g (EAddShares [])) = g.
Proof. destruct g as [s a]. unfold gstep. cbn [fst snd fstep]. intros ->. cbn [fst]. now rewrite app_nil_r. Qed.

Lemma ex_rest j : gat 1 0 ex_run (6 + j) = ex_end.
Proof.
  induction j as [|j IH]; [reflexivity|]. rewrite Nat.add_succ_r. cbn [gat]. rewrite IH.
  now apply gstep_idle.
Qed.

Lemma ex_fair :
  NoDup (w_shares ex_world) /\ valid ex_world 1 0 ex_run /\ fair_loops 1 0 ex_run /\
  fair_requests 1 0 ex_run /\ fair_finder 1 0 ex_run /\ 1 <= good_distinct ex_world.
Proof.
  split; [repeat constructor; intros []|].
  split.
  { intros [|[|[|[|[|[|n]]]]]].
    - cbn. split; [repeat constructor; intros []|]. intros x [E|[]]. subst. split; [now left|intros []].
    - vm_compute. split; [lia|exact I].
    - cbn. split; [now left|]. split; [discriminate|]. intros _. split; reflexivity.
    - vm_compute. split; [lia|exact I].
    - cbn. intros x [E|[]]. subst. now left.
    - vm_compute. split; [lia|exact I].
    - split; [constructor|intros x []]. }
  split.
  { intros n L. destruct (Nat.lt_ge_cases n 6) as [H|H].
    - exists 5. split; [lia|]. now exists None.
    - replace n with (6 + (n - 6)) in L by lia. rewrite ex_rest in L. inversion L. }
  split.
  { intros n x _. exists (6 + n). split; [lia|]. rewrite ex_rest. intros []. }
  split.
  { exists 6. reflexivity. }
  vm_compute. lia.
Qed.
