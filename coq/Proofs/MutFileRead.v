(* C09: a whole-file publish stores the segments of the data (publish_represents, decoded_concat)
   and Retrieve's range selection + trimming returns exactly the requested slice
   (read_range_exact_ok): the lemmas behind segments_roundtrip and read_range_exact of Props/C09.v. *)
From Coq Require Import List Arith NArith Bool Lia.
From Verif Require Import Lib.Hex Lib.ListFacts Model.MutFile Proofs.MutFileLists.
Import ListNotations.

(* length of the last of the segments an n-byte file is cut into: a full segment when seg divides n *)
Definition tail_of (n seg : nat) : nat := if n mod seg =? 0 then seg else n mod seg.

Lemma tail_of_eq n seg : seg <> 0 -> 0 < n -> tail_of n seg = n - (div_ceil n seg - 1) * seg.
Proof.
  intros Hs Hn. unfold tail_of, div_ceil. destruct (divmod_eq n seg Hs) as [H1 H2].
  destruct (n mod seg =? 0) eqn:E.
  - apply Nat.eqb_eq in E. rewrite E in H1.
    assert (n / seg <> 0) by (intro Z; rewrite Z in H1; lia).
    replace (n / seg + 0 - 1) with (n / seg - 1) by lia. nia.
  - replace (n / seg + 1 - 1) with (n / seg) by lia. nia.
Qed.

Lemma sep_seg sdmf maxseg k dl ds off :
  e_seg (setup_encoding_parameters sdmf maxseg k dl ds off) = seg_size_of sdmf maxseg k dl.
Proof. reflexivity. Qed.

Lemma sep_eq0 sdmf maxseg k dl off : seg_size_of sdmf maxseg k dl = 0 ->
  setup_encoding_parameters sdmf maxseg k dl dl off = mk_enc 0 0 0 0 0.
Proof.
  intros H. unfold setup_encoding_parameters, seg_size_of in *. rewrite H, !Nat.eqb_refl. reflexivity.
Qed.

Lemma sep_eq sdmf maxseg k dl ds off seg : seg = seg_size_of sdmf maxseg k dl -> seg <> 0 ->
  setup_encoding_parameters sdmf maxseg k dl ds off =
  mk_enc seg (div_ceil dl seg) (off / seg) (tail_of dl seg) (div_ceil ds seg).
Proof.
  intros -> H. unfold setup_encoding_parameters, seg_size_of in *. set (seg := next_multiple _ k) in *.
  destruct (Nat.eqb_spec seg 0); [contradiction|]. cbn [negb andb]. f_equal.
  - unfold tail_of. destruct (Nat.eqb_spec dl 0) as [->|_]; cbn [negb andb].
    + rewrite Nat.mod_0_l by assumption. reflexivity.
    + destruct (dl mod seg =? 0); reflexivity.
  - (* end_segment + 1: both branches are div_ceil data_size segment_size *)
    destruct (Nat.eqb_spec ds dl) as [->|_]; [reflexivity|].
    unfold div_ceil. destruct (ds mod seg =? 0); lia.
Qed.

(* byte a - 1 lies in the last of the div_ceil a seg segments that a bytes fill *)
Lemma div_pred_ceil a seg : seg <> 0 -> 0 < a -> (a - 1) / seg = div_ceil a seg - 1.
Proof.
  intros Hs Ha. destruct (divmod_eq (a - 1) seg Hs) as [H1 H2].
  rewrite (div_ceil_qr a seg ((a - 1) / seg) ((a - 1) mod seg + 1)) by lia. lia.
Qed.

Lemma chunk_len_tail seg (d : bytes) i : seg <> 0 -> i < div_ceil (length d) seg ->
  length (slice (i * seg) (i * seg + seg) d) = if i + 1 =? div_ceil (length d) seg then tail_of (length d) seg else seg.
Proof.
  intros Hs Hi.
  assert (Hd : 0 < length d) by (destruct (length d); [rewrite div_ceil_0 in Hi by exact Hs|]; lia).
  rewrite chunk_len, Nat.add_1_r by assumption.
  destruct (Nat.eqb_spec (S i) (div_ceil (length d) seg)) as [E|_]; [|reflexivity].
  rewrite tail_of_eq, <- E by assumption. f_equal. f_equal. lia.
Qed.

(* _encode_segment asks for the length of the segment it is to get *)
Lemma seg_read_size_chunk (p : enc) (d : bytes) i :
  e_seg p <> 0 -> e_num p = div_ceil (length d) (e_seg p) -> e_tail p = tail_of (length d) (e_seg p) ->
  i < e_num p ->
  seg_read_size p i = length (slice (i * e_seg p) (i * e_seg p + e_seg p) d).
Proof.
  intros Hs Hn Ht Hi. unfold seg_read_size. rewrite Hn in *. rewrite Ht. symmetry. apply chunk_len_tail; assumption.
Qed.

Lemma push_md_chunks (p : enc) (d : bytes) :
  e_seg p <> 0 -> e_num p = div_ceil (length d) (e_seg p) -> e_tail p = tail_of (length d) (e_seg p) ->
  forall n i, i + n <= e_num p ->
  push_md n i p d (i * e_seg p) = Some (chunks_n n (e_seg p) (skipn (i * e_seg p) d)).
Proof.
  intros Hs Hnum Htail. induction n as [|n IH]; intros i Hle; [reflexivity|].
  cbn [push_md chunks_n]. unfold md_read.
  rewrite (seg_read_size_chunk p d i) by (try assumption; lia).
  rewrite slice_exact, Nat.eqb_refl, slice_add, skipn_add.
  destruct n as [|n]; [reflexivity|].
  (* more segments follow, so this one is full *)
  assert (Hfull : S i * e_seg p < length d) by (apply div_ceil_lt_iff; [exact Hs|lia]).
  rewrite firstn_length, skipn_length, Nat.min_l by lia.
  replace (i * e_seg p + e_seg p) with (S i * e_seg p) by lia.
  rewrite IH by lia. reflexivity.
Qed.

Lemma seg_size_sdmf_ge k n : 0 < k -> n <= seg_size_of true 0 k n.
Proof. intros. unfold seg_size_of. apply next_multiple_ge. assumption. Qed.

Lemma publish_represents sdmf maxseg k (d : bytes) :
  0 < k -> exists f, publish sdmf maxseg k d = Some f /\ represents sdmf maxseg k f d.
Proof.
  intros Hk. unfold publish, represents.
  destruct (Nat.eqb_spec k 0); [lia|].
  set (seg := seg_size_of sdmf maxseg k (length d)).
  destruct (Nat.eq_dec seg 0) as [Z|NZ].
  - (* only an empty SDMF file has segment size 0; nothing is pushed *)
    rewrite sep_eq0 by exact Z. cbn [e_num e_start e_end1 e_seg Nat.leb negb Nat.sub push_md map].
    rewrite andb_false_r. eexists. split; [reflexivity|].
    cbn [mf_sdmf mf_k mf_segsize mf_len mf_segs]. fold seg. rewrite Z. repeat split.
  - rewrite (sep_eq _ _ _ _ _ _ seg eq_refl NZ). cbn [e_num e_start e_end1 e_seg].
    rewrite Nat.div_0_l, Nat.sub_0_r by exact NZ.
    replace (sdmf && negb (div_ceil (length d) seg <=? 1)) with false.
    2:{ (* an SDMF file is one segment *)
        destruct sdmf; [|reflexivity]. symmetry. apply negb_false_iff, Nat.leb_le, div_ceil_le_iff; [exact NZ|].
        rewrite Nat.mul_1_l. exact (seg_size_sdmf_ge k (length d) Hk). }
    pose proof (push_md_chunks (mk_enc seg (div_ceil (length d) seg) 0 (tail_of (length d) seg) (div_ceil (length d) seg))
                  d NZ eq_refl eq_refl (div_ceil (length d) seg) 0 (le_n _)) as P.
    cbn [e_seg e_num] in P. rewrite Nat.mul_0_l in P. cbn [skipn] in P. rewrite P.
    eexists. split; [reflexivity|]. cbn [mf_sdmf mf_k mf_segsize mf_len mf_segs]. fold seg.
    repeat split. unfold chunks. destruct (Nat.eqb_spec seg 0); [contradiction|reflexivity].
Qed.

Lemma pad_nil k : pad k [] = [].
Proof. unfold pad, next_multiple. destruct k; [reflexivity|]. rewrite div_ceil_0 by lia. reflexivity. Qed.

Lemma represents_seg_pos sdmf maxseg k f d :
  represents sdmf maxseg k f d -> 0 < k -> (sdmf = false -> 0 < maxseg) -> (sdmf = true -> 0 < length d) ->
  mf_segsize f <> 0.
Proof.
  intros (_ & _ & Hs & _ & _) Hk Hm Hd. rewrite Hs. unfold seg_size_of. destruct sdmf.
  - pose proof (next_multiple_ge (length d) k Hk). specialize (Hd eq_refl). lia.
  - pose proof (next_multiple_pos maxseg k Hk (Hm eq_refl)). lia.
Qed.

Lemma represents_segs_length sdmf maxseg k f d : represents sdmf maxseg k f d ->
  length (mf_segs f) = if mf_segsize f =? 0 then 0 else div_ceil (length d) (mf_segsize f).
Proof.
  intros (_ & _ & _ & _ & Hsegs). rewrite Hsegs, map_length. unfold chunks.
  destruct (mf_segsize f =? 0); [reflexivity|apply chunks_n_length].
Qed.

Lemma represents_retr_num sdmf maxseg k f d :
  represents sdmf maxseg k f d -> 0 < k -> (sdmf = false -> 0 < maxseg) -> 0 < length d ->
  retr_num f = div_ceil (length d) (mf_segsize f).
Proof.
  intros R Hk Hm Hd. pose proof (represents_seg_pos _ _ _ _ _ R Hk Hm (fun _ => Hd)) as NZ.
  destruct R as (_ & _ & _ & Hl & _). unfold retr_num. rewrite Hl.
  destruct (length d =? 0) eqn:E; [apply Nat.eqb_eq in E; lia|].
  destruct (mf_segsize f =? 0) eqn:E2; [apply Nat.eqb_eq in E2; contradiction|]. reflexivity.
Qed.

Lemma retr_num_empty f : mf_len f = 0 -> retr_num f = 0.
Proof. intros H. unfold retr_num. rewrite H. reflexivity. Qed.

Lemma retr_tail_data_eq f : mf_segsize f <> 0 -> retr_tail_data f = tail_of (mf_len f) (mf_segsize f).
Proof.
  intros NZ. unfold retr_tail_data, tail_of.
  destruct (Nat.eqb_spec (mf_len f) 0) as [->|_]; [rewrite Nat.mod_0_l by exact NZ; reflexivity|].
  destruct (Nat.eqb_spec (mf_segsize f) 0); [contradiction|reflexivity].
Qed.

Lemma firstn_pad k (c : bytes) : firstn (length c) (pad k c) = c.
Proof. unfold pad. rewrite firstn_app, Nat.sub_diag, firstn_O, app_nil_r. apply firstn_all. Qed.

(* Retrieve trims a decoded buffer to the length of the segment that was padded into it *)
Lemma decoded_segment_represents sdmf maxseg k f (d : bytes) i :
  represents sdmf maxseg k f d -> 0 < k -> (sdmf = false -> 0 < maxseg) ->
  i < retr_num f ->
  decoded_segment f i = slice (i * mf_segsize f) (i * mf_segsize f + mf_segsize f) d.
Proof.
  intros R Hk Hm Hi.
  assert (Hl : mf_len f = length d) by (destruct R as (_ & _ & _ & Hl & _); exact Hl).
  assert (Hd : 0 < length d) by (destruct (length d); [rewrite retr_num_empty in Hi by exact Hl|]; lia).
  pose proof (represents_seg_pos _ _ _ _ _ R Hk Hm (fun _ => Hd)) as NZ.
  pose proof (represents_retr_num _ _ _ _ _ R Hk Hm Hd) as Hn. rewrite Hn in Hi.
  destruct R as (_ & _ & _ & _ & Hsegs).
  unfold decoded_segment. rewrite Hsegs, <- (pad_nil k) at 1. rewrite map_nth, chunks_nth by assumption.
  rewrite Hn, retr_tail_data_eq, Hl, <- chunk_len_tail by assumption.
  apply firstn_pad.
Qed.

Lemma decoded_concat sdmf maxseg k f (d : bytes) :
  represents sdmf maxseg k f d -> 0 < k -> (sdmf = false -> 0 < maxseg) ->
  concat (map (decoded_segment f) (seq 0 (retr_num f))) = d.
Proof.
  intros R Hk Hm.
  destruct (Nat.eq_dec (length d) 0) as [L|L].
  - destruct R as (_ & _ & _ & Hl & _). rewrite retr_num_empty by congruence. destruct d; [reflexivity|discriminate].
  - assert (Hd : 0 < length d) by lia.
    pose proof (represents_seg_pos _ _ _ _ _ R Hk Hm (fun _ => Hd)) as NZ.
    pose proof (represents_retr_num _ _ _ _ _ R Hk Hm Hd) as Hn.
    transitivity (concat (chunks (mf_segsize f) d)); [|apply concat_chunks; exact NZ].
    f_equal. apply nth_ext with (d := []) (d' := []).
    + rewrite map_length, seq_length, chunks_length by exact NZ. exact Hn.
    + intros i Hi. rewrite map_length, seq_length in Hi.
      rewrite (nth_indep _ [] (decoded_segment f 0)) by (rewrite map_length, seq_length; exact Hi).
      rewrite map_nth, seq_nth by exact Hi. cbn [Nat.add].
      rewrite (decoded_segment_represents sdmf maxseg k f d i R Hk Hm Hi).
      rewrite chunks_nth; [reflexivity|exact NZ|rewrite <- Hn; exact Hi].
Qed.

Lemma concat_seg_slices (d : bytes) seg a b : seg <> 0 ->
  forall n start, 0 < n -> a < (start + 1) * seg -> (start + n - 1) * seg <= b ->
  concat (map (fun c => slice (Nat.max (c * seg) a) (Nat.min (c * seg + seg) b) d) (seq start n))
  = slice (Nat.max (start * seg) a) (Nat.min ((start + n) * seg) b) d.
Proof.
  intros Hs. induction n as [|n IH]; intros start Hn Ha Hb; [lia|].
  cbn [seq map concat]. destruct n.
  - cbn [seq map concat]. rewrite app_nil_r. f_equal. f_equal. lia.
  - rewrite (IH (S start)); [| lia | nia | replace (S start + S n - 1) with (start + S (S n) - 1) by lia; exact Hb].
    assert ((start + 1) * seg <= (start + S (S n) - 1) * seg) by (apply Nat.mul_le_mono_r; lia).
    replace (Nat.min (start * seg + seg) b) with ((start + 1) * seg) by lia.
    replace (Nat.max (S start * seg) a) with ((start + 1) * seg) by lia.
    replace ((S start + S n) * seg) with ((start + S (S n)) * seg) by (f_equal; lia).
    apply slice_adj; [lia|].
    assert ((start + 1) * seg <= (start + S (S n)) * seg) by (apply Nat.mul_le_mono_r; lia). lia.
Qed.

(* _set_segment's trim of the last segment keeps its first tail_of (offset + size) segsize bytes *)
Lemma firstn_tail_of a seg (c : bytes) : length c <= seg ->
  (if a mod seg =? 0 then c else firstn (a mod seg) c) = firstn (tail_of a seg) c.
Proof.
  intros H. unfold tail_of. destruct (a mod seg =? 0); [|reflexivity]. symmetry. apply firstn_all2. exact H.
Qed.

Lemma set_segment_slice (d : bytes) seg off sz cur :
  seg <> 0 -> 0 < sz ->
  let start := off / seg in
  let last := (off + sz - 1) / seg in
  start <= cur <= last ->
  set_segment seg off sz start last cur (slice (cur * seg) (cur * seg + seg) d)
  = slice (Nat.max (cur * seg) off) (Nat.min (cur * seg + seg) (off + sz)) d.
Proof.
  intros Hs Hsz start last Hc.
  pose proof (div_bounds off seg Hs) as Bs. fold start in Bs.
  pose proof (div_bounds (off + sz - 1) seg Hs) as Bl. fold last in Bl.
  unfold set_segment. cbv zeta. set (c := slice (cur * seg) (cur * seg + seg) d).
  (* the tail trim cuts at off + sz *)
  assert (H1 : (if cur =? last then if (off + sz) mod seg =? 0 then c else firstn ((off + sz) mod seg) c else c)
               = slice (cur * seg) (Nat.min (cur * seg + seg) (off + sz)) d).
  { destruct (Nat.eqb_spec cur last) as [->|E].
    - assert (El : last = div_ceil (off + sz) seg - 1) by (apply div_pred_ceil; lia).
      rewrite firstn_tail_of by (unfold c; rewrite slice_length; lia).
      unfold c. rewrite firstn_slice, tail_of_eq, <- El by lia. f_equal. lia.
    - unfold c. f_equal. assert ((cur + 1) * seg <= last * seg) by (apply Nat.mul_le_mono_r; lia). lia. }
  rewrite H1. pose proof (Nat.div_mod off seg Hs) as Ho. fold start in Ho.
  destruct (Nat.eqb_spec cur start) as [->|E].
  - rewrite skipn_slice. f_equal. lia.
  - f_equal. assert ((start + 1) * seg <= cur * seg) by (apply Nat.mul_le_mono_r; lia). lia.
Qed.

Lemma retrieve_read_represents sdmf maxseg k f (d : bytes) off sz :
  represents sdmf maxseg k f d -> 0 < k -> (sdmf = false -> 0 < maxseg) ->
  off + sz <= length d ->
  retrieve_read f off (Some sz) = Some (slice off (off + sz) d).
Proof.
  intros R Hk Hm Hle. unfold retrieve_read.
  destruct (Nat.eqb_spec sz 0) as [->|Ez]; [rewrite slice_nil by lia; reflexivity|].
  assert (Hd : 0 < length d) by lia.
  pose proof (represents_seg_pos _ _ _ _ _ R Hk Hm (fun _ => Hd)) as NZ.
  pose proof (represents_retr_num _ _ _ _ _ R Hk Hm Hd) as Hn.
  assert (Hl : mf_len f = length d) by (destruct R as (_ & _ & _ & Hl & _); exact Hl).
  rewrite Hl, (proj2 (Nat.ltb_lt off (length d))), (proj2 (Nat.leb_le (off + sz) (length d))) by lia.
  cbn [andb negb]. set (seg := mf_segsize f) in *.
  replace (if off =? 0 then 0 else off / seg) with (off / seg)
    by (destruct (Nat.eqb_spec off 0) as [->|_]; [rewrite Nat.div_0_l by exact NZ|]; reflexivity).
  set (start := off / seg). set (last := (off + sz - 1) / seg).
  pose proof (div_bounds off seg NZ) as Bs. fold start in Bs.
  pose proof (div_bounds (off + sz - 1) seg NZ) as Bl. fold last in Bl.
  assert (Hsl : start <= last) by (apply Nat.div_le_mono; [exact NZ|lia]).
  assert (Hln : last < retr_num f) by (rewrite Hn; apply div_ceil_lt_iff; [exact NZ|lia]).
  rewrite (proj2 (Nat.leb_le start (retr_num f))), (proj2 (Nat.ltb_lt last (retr_num f))) by lia.
  cbn [negb orb]. f_equal.
  rewrite (map_ext_in _ (fun c => slice (Nat.max (c * seg) off) (Nat.min (c * seg + seg) (off + sz)) d)).
  2:{ intros c Hc. apply in_seq in Hc.
      rewrite (decoded_segment_represents sdmf maxseg k f d c R Hk Hm) by lia.
      fold seg. apply set_segment_slice; [exact NZ|lia|]. fold start last. lia. }
  clear - NZ Ez Bs Bl Hsl.
  rewrite concat_seg_slices; [| exact NZ | lia | lia | ].
  2:{ replace (start + (last + 1 - start) - 1) with last by lia. lia. }
  replace (start + (last + 1 - start)) with (last + 1) by lia.
  f_equal; lia.
Qed.

Lemma retrieve_read_to_end sdmf maxseg k f (d : bytes) off :
  represents sdmf maxseg k f d -> 0 < k -> (sdmf = false -> 0 < maxseg) ->
  off <= length d ->
  retrieve_read f off None = Some (skipn off d).
Proof.
  intros R Hk Hm Hle.
  assert (Hl : mf_len f = length d) by (destruct R as (_ & _ & _ & Hl & _); exact Hl).
  pose proof (retrieve_read_represents sdmf maxseg k f d off (length d - off) R Hk Hm) as H.
  unfold retrieve_read in *. rewrite Hl.
  replace (length d <? off) with false by (symmetry; apply Nat.ltb_ge; lia).
  rewrite Hl in H. rewrite H by lia. f_equal. apply slice_to_end. lia.
Qed.

Lemma read_all_represents sdmf maxseg k f (d : bytes) :
  represents sdmf maxseg k f d -> 0 < k -> (sdmf = false -> 0 < maxseg) -> read_all f = Some d.
Proof.
  intros R Hk Hm. unfold read_all. rewrite (retrieve_read_to_end sdmf maxseg k f d 0 R Hk Hm) by lia. reflexivity.
Qed.

Lemma retrieve_read_rejects f off sz : 0 < sz -> mf_len f < off + sz -> retrieve_read f off (Some sz) = None.
Proof.
  intros Hs H. unfold retrieve_read.
  destruct (sz =? 0) eqn:E; [apply Nat.eqb_eq in E; lia|].
  replace (off + sz <=? mf_len f) with false by (symmetry; apply Nat.leb_gt; lia).
  rewrite andb_false_r. reflexivity.
Qed.

Lemma retrieve_read_rejects_start f off : mf_len f < off -> retrieve_read f off None = None.
Proof.
  intros H. unfold retrieve_read. replace (mf_len f <? off) with true by (symmetry; apply Nat.ltb_lt; lia). reflexivity.
Qed.

Lemma read_range_exact_ok sdmf maxseg k f data off sz :
  0 < k -> (sdmf = false -> 0 < maxseg) -> represents sdmf maxseg k f data ->
  (off + sz <= length data -> retrieve_read f off (Some sz) = Some (slice off (off + sz) data)) /\
  (off <= length data -> retrieve_read f off None = Some (skipn off data)) /\
  (0 < sz -> length data < off + sz -> retrieve_read f off (Some sz) = None) /\
  (length data < off -> retrieve_read f off None = None).
Proof.
  intros Hk Hm R.
  assert (Hl : mf_len f = length data) by (destruct R as (_ & _ & _ & Hl & _); exact Hl).
  repeat split.
  - apply (retrieve_read_represents sdmf maxseg k f data off sz R Hk Hm).
  - apply (retrieve_read_to_end sdmf maxseg k f data off R Hk Hm).
  - intros H1 H2. apply retrieve_read_rejects; [exact H1|rewrite Hl; exact H2].
  - intros H. apply retrieve_read_rejects_start. rewrite Hl. exact H.
Qed.
