(* C08, full statements: whenever the model of servers_of_happiness returns a number,
   that number is the size of a maximum matching of the server/share relation. *)
From Coq Require Import List NArith ZArith Bool Arith Lia Permutation.
From Verif Require Import Model.Matching Proofs.Matching Proofs.MatchingLists Proofs.MatchingAugment
     Proofs.MatchingLoop Proofs.MatchingNetwork.
Import ListNotations.

Lemma in_enum_from : forall (A : Type) (l : list A) k i e, In (i, e) (enum_from k l) -> In e l.
Proof.
  intros A. induction l as [|a r IH]; intros k i e H; cbn [enum_from] in H; [destruct H|].
  destruct H as [H|H]; [inversion H; subst; left; reflexivity | right; eapply IH; exact H].
Qed.

Section Full.
Variable svm : servermap.
Hypothesis Hwf : wf_svm svm.

Let g := fst (flow_network_for svm).
Let tbl := snd (flow_network_for svm).
Let ns := length svm.
Let nsh := length tbl.
Let HN : Net g ns nsh := network_is_net svm Hwf.
Let keys := map fst svm.

Definition entry_matching (f : matrix) (e : nat * (N * list N)) : list (N * N) :=
  let '(i, (p, shs)) := e in
  flat_map (fun s => if Z.eqb (mget f i (idx_of tbl s)) 1 then [(p, s)] else []) shs.

Lemma matching_of_unfold : forall f, matching_of svm tbl f = flat_map (entry_matching f) (enum_from 1 svm).
Proof.
  intros f. unfold matching_of. apply flat_map_ext. intros [i [p shs]]. reflexivity.
Qed.

Lemma NoDup_svm : NoDup svm.
Proof. apply (NoDup_map_inv fst). apply (proj1 Hwf). Qed.

Lemma vmap_entries : forall f rest k,
  1 <= k ->
  (forall j e, nth_error rest j = Some e -> nth_error svm (k - 1 + j) = Some e) ->
  map (vmap svm) (flat_map (entry_matching f) (enum_from k rest)) =
  flat_map (flow_row g f) (seq k (length rest)).
Proof.
  intros f. induction rest as [|[p shs] r IH]; intros k Hk Hsuf; cbn [enum_from flat_map length seq map]; [reflexivity|].
  rewrite map_app. f_equal.
  - pose proof (Hsuf 0 (p, shs) eq_refl) as H0. rewrite Nat.add_0_r in H0.
    assert (Hin : In (p, shs) svm) by (eapply nth_error_In; exact H0).
    pose proof (posN_nth_error svm p shs (proj1 Hwf) Hin) as Hp.
    assert (Epos : posN p (map fst svm) = k - 1).
    { apply (proj1 (NoDup_nth_error svm) NoDup_svm).
      - apply nth_error_Some. rewrite Hp. discriminate.
      - rewrite Hp, H0. reflexivity. }
    unfold entry_matching. rewrite flat_map_if, map_map.
    assert (Ha : adj g k = map (idx_of tbl) shs).
    { replace k with (S (k - 1)) by lia. apply (adj_server svm (k - 1) p shs H0). }
    unfold flow_row. rewrite Ha.
    rewrite filter_map_comm, map_map.
    apply map_ext. intros s. unfold vmap. cbn [fst snd]. rewrite Epos. f_equal. lia.
  - apply IH; [lia|]. intros j e Hj. replace (S k - 1 + j) with (k - 1 + S j) by lia. apply Hsuf. exact Hj.
Qed.

Lemma vmap_matching_of : forall f, map (vmap svm) (matching_of svm tbl f) = flow_matching g ns f.
Proof.
  intros f. rewrite matching_of_unfold. unfold flow_matching.
  apply (vmap_entries f svm 1); [lia|]. intros j e Hj. exact Hj.
Qed.

Lemma matching_of_edges : forall f p s, In (p, s) (matching_of svm tbl f) -> edge svm p s.
Proof.
  intros f p s H. rewrite matching_of_unfold in H. apply in_flat_map in H.
  destruct H as [[i [q shs]] [He Hin]]. apply in_enum_from in He.
  unfold entry_matching in Hin. apply in_flat_map in Hin. destruct Hin as [x [Hx Hin]].
  destruct (Z.eqb (mget f i (idx_of tbl x)) 1); [|destruct Hin].
  destruct Hin as [Hin|[]]. inversion Hin; subst. exists shs. split; assumption.
Qed.

(* servers and shares are numbered injectively, so a matching of the relation is one of the network *)
Lemma vmap_matching : forall M', is_matching svm M' -> vmatching g ns (map (vmap svm) M').
Proof.
  intros M' [HE [H1 H2]]. destruct (tbl_facts svm) as [HT _].
  assert (Hk1 : forall p, In p (map fst M') -> In p (map fst svm)).
  { intros p Hp. apply in_map_iff in Hp. destruct Hp as [[p' s] [<- Hin]]. apply (edge_vertex svm Hwf p' s (HE p' s Hin)). }
  assert (Hk2 : forall s, In s (map snd M') -> In s (map fst tbl)).
  { intros s Hs. apply in_map_iff in Hs. destruct Hs as [[p s'] [<- Hin]]. apply (edge_vertex svm Hwf p s' (HE p s' Hin)). }
  assert (Ef : map fst (map (vmap svm) M') = map (fun p => S (posN p (map fst svm))) (map fst M'))
    by (rewrite !map_map; reflexivity).
  assert (Es : map snd (map (vmap svm) M') = map (idx_of tbl) (map snd M')) by (rewrite !map_map; reflexivity).
  split; [|rewrite Ef, Es; split].
  - intros i v Hin. apply in_map_iff in Hin. destruct Hin as [[p s] [[= <- <-] Hin]].
    destruct (edge_vertex svm Hwf p s (HE p s Hin)) as [Hs [He _]]. split; assumption.
  - apply NoDup_map_inj; [exact H1|]. intros x y Hx Hy Exy.
    apply (posN_inj svm (map fst svm)); [exact (Hk1 x Hx) | exact (Hk1 y Hy) | lia].
  - apply NoDup_map_inj; [exact H2|]. intros x y Hx Hy.
    exact (idx_of_inj _ tbl _ _ HT (Hk2 x Hx) (Hk2 y Hy)).
Qed.

Section FinalState.
Variables (f : matrix) (rg : graph).
Hypothesis HF : final_state g ns nsh f rg.

Lemma matching_of_is_matching : is_matching svm (matching_of svm tbl f).
Proof.
  destruct (flow_matching_is_matching g ns nsh HN f (proj1 HF)) as [_ [Hf1 Hf2]].
  rewrite <- vmap_matching_of in Hf1, Hf2. rewrite map_map in Hf1, Hf2.
  split; [apply matching_of_edges|]. split.
  - apply (NoDup_map_inv (fun p => S (posN p keys))). rewrite map_map. exact Hf1.
  - apply (NoDup_map_inv (idx_of tbl)). rewrite map_map. exact Hf2.
Qed.

Lemma matching_of_length : length (matching_of svm tbl f) = length (flow_matching g ns f).
Proof. rewrite <- vmap_matching_of. rewrite map_length. reflexivity. Qed.

Lemma matching_of_maximum : forall M', is_matching svm M' -> length M' <= length (matching_of svm tbl f).
Proof.
  intros M' HM. rewrite matching_of_length, <- (map_length (vmap svm) M').
  apply (flow_matching_maximum g ns nsh HN f rg HF). apply vmap_matching. exact HM.
Qed.

End FinalState.

Theorem soh_servermap_correct : forall n,
  soh_servermap svm = Some n ->
  exists M, is_matching svm M /\ n = Z.of_nat (length M) /\ max_matching_size svm (length M).
Proof.
  intros n H. unfold soh_servermap in H.
  destruct (soh_state svm) as [[f rg]|] eqn:Es; [|discriminate]. inversion H; subst n. clear H.
  unfold soh_state in Es. fold g in Es.
  pose proof (max_flow_spec g ns nsh HN _ _ _ Es) as HF.
  exists (matching_of svm tbl f). split; [apply (matching_of_is_matching f rg HF)|]. split.
  - fold ns. rewrite (value_is_length g ns nsh HN f (proj1 HF)), (matching_of_length f). reflexivity.
  - split.
    + exists (matching_of svm tbl f). split; [apply (matching_of_is_matching f rg HF) | reflexivity].
    + apply (matching_of_maximum f rg HF).
Qed.

End Full.

Lemma soh_maximum_full : forall svm n, wf_svm svm -> soh_servermap svm = Some n ->
  (0 <= n)%Z /\ max_matching_size svm (Z.to_nat n).
Proof.
  intros svm n Hwf H. destruct (soh_servermap_correct svm Hwf n H) as [M [_ [H2 H3]]].
  exact (max_size_Z _ _ _ H2 H3).
Qed.

Lemma add_share_keys : forall svm p s,
  map fst (add_share p s svm) = if memN p (map fst svm) then map fst svm else map fst svm ++ [p].
Proof.
  induction svm as [|[q l] r IH]; intros p s; cbn [add_share map fst]; [reflexivity|].
  unfold memN. cbn [existsb]. destruct (N.eqb p q) eqn:E; cbn [orb map fst].
  - reflexivity.
  - rewrite IH. unfold memN. destruct (existsb (N.eqb p) (map fst r)); reflexivity.
Qed.

Lemma add_share_wf : forall svm p s, wf_svm svm -> wf_svm (add_share p s svm).
Proof.
  intros svm p s [H1 H2]. split.
  - rewrite add_share_keys. destruct (memN p (map fst svm)) eqn:E; [exact H1|].
    apply NoDup_snoc; [exact H1|]. intros Hx. apply memN_In in Hx. rewrite Hx in E. discriminate.
  - clear H1. induction svm as [|[q l] r IH]; intros p' l' Hin; cbn [add_share] in Hin.
    + destruct Hin as [Hin|[]]. inversion Hin; subst. constructor; [intros [] | constructor].
    + assert (Hl : NoDup l) by (apply (H2 q l); left; reflexivity).
      assert (H2' : forall a b, In (a, b) r -> NoDup b) by (intros a b Hab; apply (H2 a b); right; exact Hab).
      destruct (N.eqb p q) eqn:E.
      * destruct Hin as [Hin|Hin]; [|apply (H2' p' l' Hin)].
        destruct (existsb (N.eqb s) l) eqn:Ex; inversion Hin; subst p' l'; [exact Hl|].
        apply NoDup_snoc; [exact Hl|]. intros Hx. apply memN_In in Hx. unfold memN in Hx. rewrite Hx in Ex. discriminate.
      * destruct Hin as [Hin|Hin]; [inversion Hin; subst p' l'; exact Hl|].
        apply (IH H2' p' l' Hin).
Qed.

Lemma shares_by_server_wf : forall sm, wf_svm (shares_by_server sm).
Proof.
  intros sm. unfold shares_by_server.
  apply fold_left_preserves; [|split; [constructor | intros p l []]].
  intros acc e Hacc. apply fold_left_preserves; [|exact Hacc].
  intros a p Ha. apply add_share_wf. exact Ha.
Qed.

Lemma max_matching_nil : max_matching_size [] 0.
Proof.
  split.
  - exists []. split; [|reflexivity]. split; [intros p s [] | split; constructor].
  - intros M' [HE _]. destruct M' as [|[p s] r]; [cbn [length]; lia|].
    exfalso. destruct (HE p s (or_introl eq_refl)) as [l [[] _]].
Qed.

(* the sharemap-level function: the number is the maximum matching of "server holds share" *)
Lemma servers_of_happiness_correct : forall sm n,
  servers_of_happiness sm = Some n ->
  (0 <= n)%Z /\ max_matching_size (shares_by_server sm) (Z.to_nat n).
Proof.
  intros sm n H. unfold servers_of_happiness in H. destruct sm as [|e r].
  - inversion H; subst. split; [lia|]. cbn. apply max_matching_nil.
  - apply soh_maximum_full; [apply shares_by_server_wf | exact H].
Qed.

Lemma servers_of_happiness_order : forall sm sm' n m,
  (forall p s, sm_edge sm p s <-> sm_edge sm' p s) ->
  servers_of_happiness sm = Some n -> servers_of_happiness sm' = Some m -> n = m.
Proof.
  intros sm sm' n m He Hn Hm.
  apply (max_size_Z_unique (shares_by_server sm) (shares_by_server sm')).
  - exact (presents_same_edges _ _ _ _ (presents_shares_by_server sm) (presents_shares_by_server sm') He).
  - exact (servers_of_happiness_correct _ _ Hn).
  - exact (servers_of_happiness_correct _ _ Hm).
Qed.

(* soh_certified asks for the final state twice, once for the number and once
   for the certificate, and an evaluator runs max_flow for each; this form asks
   once.  The sweep of Props/C08.v evaluates it. *)
Lemma soh_certified_once : forall svm,
  soh_certified svm =
  match soh_state svm with
  | Some (f, rg) =>
      match bfs rg 0 with
      | Some tree =>
          let tbl := snd (flow_network_for svm) in
          valid_certificate svm (sum_out f 0 (seq 1 (length svm)))
            (matching_of svm tbl f) (cover_servers svm tree) (cover_shares tbl tree)
      | None => false
      end
  | None => false
  end.
Proof.
  intros svm. unfold soh_certified, soh_servermap, soh_certificate.
  destruct (soh_state svm) as [[f rg]|]; [|reflexivity]. destruct (bfs rg 0); reflexivity.
Qed.

