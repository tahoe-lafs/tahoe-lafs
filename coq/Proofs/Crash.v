(* C29: the crash theorems over Model/Crash.v: a prefix of ANY operation's low-level call list
   leaves the files it does not touch alone (crash_outside_touched); for the operations the
   property covers, every prefix outside the add_lease window keeps the share data of every
   file (`good_ops`). *)
From Coq Require Import List Arith NArith Bool Lia.
From Verif Require Import Lib.Hex Lib.ListFacts Lib.FileSys Model.Crash
  Proofs.CrashBytes Proofs.CrashImm Proofs.CrashMut.
Import ListNotations.
Local Open Scope N_scope.

Lemma path_eqb_eq a b : path_eqb a b = true <-> a = b.
Proof.
  destruct a as [a1 a2|a1 a2], b as [b1 b2|b1 b2]; simpl;
    rewrite ?andb_true_iff, ?N.eqb_eq; split; try discriminate.
  1, 3: intros [-> ->]; reflexivity.
  all: intro H; injection H; auto.
Qed.

Lemma run_p_app a b s : run_p (a ++ b) s = run_p b (run_p a s).
Proof. apply run_app. Qed.

Lemma run_p_outside (P : path -> Prop) ops s q : within P ops -> ~ P q -> run_p ops s q = s q.
Proof. apply run_outside. exact path_eqb_eq. Qed.

Lemma run_p_lift_same p fops s f :
  s p = Some f -> run_p (map (lift p) fops) s p = Some (run_fops fops f).
Proof. apply run_lift_same. exact path_eqb_eq. Qed.

Lemma run_p_lift_other p fops s q : q <> p -> run_p (map (lift p) fops) s q = s q.
Proof. apply run_lift_other. exact path_eqb_eq. Qed.

Lemma map_fst_lift_flagged p (o : list (fop * bool)) :
  map fst (lift_flagged p o) = map (lift p) (map fst o).
Proof. unfold lift_flagged. rewrite !map_map. reflexivity. Qed.

Lemma lift_flagged_unflagged p (o : list fop) :
  lift_flagged p (unflagged o) = unflagged (map (lift p) o).
Proof. unfold lift_flagged, unflagged. rewrite !map_map. reflexivity. Qed.

Section Within.
Context (P : path -> Prop).

Definition step_within (st : step) : Prop :=
  forall s, within P (map fst (fst (st s))).

Lemma seq_steps_within steps :
  Forall step_within steps -> forall s, within P (map fst (seq_steps steps s)).
Proof.
  induction 1 as [|st r Hst _ IH]; intro s; [constructor|].
  cbn [seq_steps]. specialize (Hst s). destruct (st s) as [o [|]]; [|exact Hst].
  rewrite map_app. apply Forall_app. split; [exact Hst|apply IH].
Qed.

Lemma within_lift_flagged p o : P p -> within P (map fst (lift_flagged p o)).
Proof. rewrite map_fst_lift_flagged. apply within_lift. Qed.

Lemma within_unflagged_lift p (o : list fop) :
  P p -> within P (map fst (unflagged (map (lift p) o))).
Proof. rewrite map_fst_unflagged. apply within_lift. Qed.

Lemma within_create p size rec : P p -> within P (imm_create_ops p size rec).
Proof. intro H. constructor; [repeat constructor; exact H|apply within_lift, H]. Qed.

(* In each step every branch is either no call at all or calls on the one
   file the step is about. *)
Lemma imm_lease_step_within p rec : P p -> step_within (imm_lease_step p rec).
Proof.
  intros Hp s. unfold imm_lease_step, raise_. destruct (s p) as [f|]; [|constructor].
  destruct (imm_openable f); [|constructor].
  destruct (imm_add_or_renew_fops f rec); [|constructor]. apply within_lift_flagged, Hp.
Qed.

Lemma lease_step_within p ri rm : P p -> step_within (lease_step p ri rm).
Proof.
  intros Hp s. unfold lease_step, raise_. destruct (s p) as [f|]; [|constructor].
  destruct (mut_magic_ok f).
  - destruct (mut_add_or_renew_fops f rm); [|constructor]. apply within_unflagged_lift, Hp.
  - destruct (_ <? 4); [constructor|]. destruct (imm_version_ok f); [|constructor].
    destruct (_ <? 12); [constructor|].
    destruct (imm_add_or_renew_fops f ri); [|constructor]. apply within_lift_flagged, Hp.
Qed.

Lemma renew_step_within p hs e : P p -> step_within (renew_step p hs e).
Proof.
  intros Hp s. unfold renew_step, raise_. destruct (s p) as [f|]; [|constructor].
  destruct (mut_magic_ok f).
  - destruct (mut_renew_fops f hs e); [|constructor]. apply within_unflagged_lift, Hp.
  - destruct (_ <? 4); [constructor|]. destruct (imm_version_ok f); [|constructor].
    destruct (_ <? 12); [constructor|].
    destruct (imm_renew_fops f hs e); [|constructor]. apply within_unflagged_lift, Hp.
Qed.

Lemma alloc_step_within si size rec sh :
  P (Incoming si sh) -> step_within (alloc_step si size rec sh).
Proof.
  intros Hp s. unfold alloc_step. destruct (_ || _); [constructor|].
  cbn [fst]. rewrite map_fst_unflagged. apply within_create, Hp.
Qed.

Lemma write_step_within si nodeid we e :
  P (Final si (tw_sh e)) -> step_within (write_step si nodeid we e).
Proof.
  destruct e as [[[sh tv] dv] nl]. cbn [tw_sh]. intros Hp s. unfold write_step.
  destruct nl as [[|nl]|].
  1: destruct (exists_at s (Final si sh)); repeat constructor; exact Hp.
  all: destruct (s (Final si sh)) as [f|]; destruct (mut_writev_all_fops _ dv _) as [o ok];
    cbn [fst]; rewrite map_fst_unflagged; repeat constructor; try exact Hp;
    apply within_lift, Hp.
Qed.

Lemma mlease_step_within si rec e :
  P (Final si (tw_sh e)) -> step_within (mlease_step si rec e).
Proof.
  destruct e as [[[sh tv] dv] nl]. cbn [tw_sh]. intros Hp s. unfold mlease_step, raise_.
  destruct nl as [[|nl]|]; [constructor| |];
    (destruct (s (Final si sh)) as [f|]; [|constructor];
     destruct (mut_add_or_renew_fops f rec); [|constructor]; apply within_unflagged_lift, Hp).
Qed.

Lemma existing_In s si order sh : In sh (existing s si order) -> In sh order.
Proof. unfold existing. intro H. apply filter_In in H. tauto. Qed.

Lemma ops_within o s :
  Forall P (touched o) -> within P (map fst (ops_of o s)).
Proof.
  intro H. rewrite Forall_forall in H.
  destruct o as [si order shnums size rec renew|si sh size off data|si sh|si sh
                |si sh size prev off data|si sh
                |si order ri rm|si order hs e|si order nodeid we tw lease]; cbn [ops_of touched] in *.
  - destruct (all_existing _ _ _ _); [|constructor].
    apply seq_steps_within, Forall_app. split.
    + destruct renew; [|constructor]. apply Forall_map, Forall_forall. intros sh Hsh.
      apply imm_lease_step_within, H, in_or_app. left. apply in_map, (existing_In _ _ _ _ Hsh).
    + apply Forall_map, Forall_forall. intros sh Hsh.
      apply alloc_step_within, H, in_or_app. right. apply in_map, Hsh.
  - destruct (_ <=? _); repeat constructor. apply H. simpl. auto.
  - repeat constructor; apply H; simpl; auto.
  - repeat constructor; apply H; simpl; auto.
  - destruct (_ <=? _); [|constructor].
    destruct (covered _ _); repeat constructor; apply H; simpl; auto.
  - constructor.
  - apply seq_steps_within, Forall_map, Forall_forall. intros sh Hsh.
    apply lease_step_within, H, in_map, (existing_In _ _ _ _ Hsh).
  - apply seq_steps_within, Forall_map, Forall_forall. intros sh Hsh.
    apply renew_step_within, H, in_map, (existing_In _ _ _ _ Hsh).
  - destruct (_ && _); [|constructor].
    apply seq_steps_within, Forall_app. split.
    + apply Forall_map, Forall_forall. intros e He.
      apply write_step_within, H, (in_map (fun e => Final si (tw_sh e))), He.
    + destruct lease as [rec|]; [|constructor]. apply Forall_map, Forall_forall. intros e He.
      apply mlease_step_within, H, (in_map (fun e => Final si (tw_sh e))), He.
Qed.
End Within.

Lemma crash_outside_touched o s pre p :
  In pre (crash_prefixes (plain_ops o s)) -> ~ In p (touched o) -> run_p pre s p = s p.
Proof.
  intros Hpre Hp.
  apply (crash_outside _ _ path_eqb_eq (fun q => In q (touched o)) _ _ _ _ Hpre); [|exact Hp].
  apply ops_within, Forall_forall. auto.
Qed.

(* every stored share file is a well-formed container of its kind *)
Definition file_ok (f : file) : bool :=
  if mut_magic_ok f then mut_wf f
  else if imm_version_ok f then imm_wf f
  else true.

(* every final share file of the state is file_ok *)
Definition Inv (s : state) : Prop :=
  forall si sh f, s (Final si sh) = Some f -> file_ok f = true.

(* s' satisfies Inv and shows the same share data as s *)
Definition kept (s s' : state) : Prop :=
  Inv s' /\ forall si sh, data_of (s' (Final si sh)) = data_of (s (Final si sh)).

Lemma kept_refl s : Inv s -> kept s s.
Proof. intro H. split; [exact H|reflexivity]. Qed.

Lemma kept_trans a b c : kept a b -> kept b c -> kept a c.
Proof. intros [_ H1] [Hc H2]. split; [exact Hc|]. intros si sh. rewrite H2. apply H1. Qed.

(* every prefix of o that does not end inside the add_lease window, run from s, keeps s *)
Definition good_ops (s : state) (o : list lop) : Prop := crash_safe run_p (kept s) s o.

Definition good_step (st : step) : Prop := forall s, Inv s -> good_ops s (fst (st s)).

Lemma good_ops_nil s : Inv s -> good_ops s [].
Proof. intro H. apply crash_safe_nil, kept_refl, H. Qed.

Lemma seq_good steps :
  Forall good_step steps -> forall s, Inv s -> good_ops s (seq_steps steps s).
Proof.
  induction 1 as [|st r Hst _ IH]; intros s Hs; [apply good_ops_nil, Hs|].
  cbn [seq_steps]. specialize (Hst s Hs). destruct (st s) as [o [|]]; [|exact Hst].
  cbn [fst] in Hst. apply (crash_safe_app run_p _ (kept (run_p (map fst o) s))).
  - exact run_p_app.
  - exact Hst.
  - apply IH. exact (proj1 (crash_safe_all _ _ _ _ Hst)).
  - intros Hmid y. apply kept_trans, Hmid.
Qed.

(* `kept` for one file: g is well formed and reads back the data of f *)
Definition same_share (f g : file) : Prop :=
  file_ok g = true /\ data_of (Some g) = data_of (Some f).

Lemma data_of_imm f : imm_wf f = true -> file_ok f = true /\ data_of (Some f) = Some (imm_data f).
Proof.
  intro H. destruct (imm_wf_facts f H) as [_ [Hv _]].
  pose proof (version_not_magic f Hv) as Hm.
  unfold data_of, view_of, file_ok. rewrite Hm, H, Hv. auto.
Qed.

Lemma data_of_mut f :
  mut_magic_ok f = true -> mut_wf f = true ->
  file_ok f = true /\ data_of (Some f) = Some (mut_data f).
Proof.
  intros Hm Hw. pose proof (mut_wf_facts f Hw) as Hl.
  unfold data_of, view_of, file_ok. rewrite Hm, Hw, (proj2 (N.ltb_ge _ _)) by lia. auto.
Qed.

Lemma imm_same_share f g : imm_wf f = true -> imm_same f g -> same_share f g.
Proof.
  intros Hf [Hg Hd]. destruct (data_of_imm f Hf) as [_ Ef], (data_of_imm g Hg) as [Ok Eg].
  split; [exact Ok|]. rewrite Ef, Eg, Hd. reflexivity.
Qed.

Lemma mut_same_share f g :
  mut_magic_ok f = true -> mut_wf f = true -> mut_same f g -> same_share f g.
Proof.
  intros Hm Hw H.
  destruct (mut_same_view f g Hm Hw H) as [Mg [Wg Dg]].
  destruct (data_of_mut f Hm Hw) as [_ Ef], (data_of_mut g Mg Wg) as [Ok Eg].
  split; [exact Ok|]. rewrite Ef, Eg, Dg. reflexivity.
Qed.

Lemma kept_one_file s s' p f g :
  Inv s -> s p = Some f -> s' p = Some g -> (forall q, q <> p -> s' q = s q) ->
  same_share f g -> kept s s'.
Proof.
  intros Hs Hf Hg Ho [Hok Hd].
  assert (C : forall q, q = p \/ s' q = s q).
  { intro q. destruct (path_eqb q p) eqn:E; [left; apply path_eqb_eq, E|right].
    apply Ho. intro X. apply path_eqb_eq in X. congruence. }
  split.
  - intros si sh f' Hf'. destruct (C (Final si sh)) as [E|E]; rewrite E in Hf'.
    + rewrite Hg in Hf'. apply some_inj in Hf'. subst f'. exact Hok.
    + exact (Hs _ _ _ Hf').
  - intros si sh. destruct (C (Final si sh)) as [E|E]; rewrite E; [|reflexivity].
    rewrite Hg, Hf. exact Hd.
Qed.

Lemma good_ops_lifted s si sh f o :
  Inv s -> s (Final si sh) = Some f -> crash_safe run_fops (same_share f) f o ->
  good_ops s (lift_flagged (Final si sh) o).
Proof.
  intros Hs Hf. intro H. apply crash_safe_map. revert H. apply crash_safe_sim. intros l.
  apply (kept_one_file s _ (Final si sh) f _ Hs Hf).
  - apply run_p_lift_same, Hf.
  - intros q. apply run_p_lift_other.
Qed.

Lemma good_ops_lifted_unflagged s si sh f (o : list fop) :
  Inv s -> s (Final si sh) = Some f ->
  (forall k, same_share f (run_fops (firstn k o) f)) ->
  good_ops s (unflagged (map (lift (Final si sh)) o)).
Proof.
  intros Hs Hf Hk. rewrite <- lift_flagged_unflagged.
  apply (good_ops_lifted s si sh f _ Hs Hf), crash_safe_unflagged, Hk.
Qed.

Lemma Inv_imm s si sh f :
  Inv s -> s (Final si sh) = Some f -> imm_version_ok f = true -> imm_wf f = true.
Proof.
  intros Hs Hf Hv. specialize (Hs si sh f Hf). unfold file_ok in Hs.
  rewrite (version_not_magic f Hv), Hv in Hs. exact Hs.
Qed.

Lemma good_imm_lease s si sh f rec o :
  Inv s -> s (Final si sh) = Some f -> imm_version_ok f = true -> length rec = 72%nat ->
  imm_add_or_renew_fops f rec = Some o -> good_ops s (lift_flagged (Final si sh) o).
Proof.
  intros Hs Hf Hv Hrec E. pose proof (Inv_imm s si sh f Hs Hf Hv) as Hw.
  apply (good_ops_lifted s si sh f _ Hs Hf). generalize (imm_lease_file f rec o Hw Hrec E).
  apply crash_safe_sim. intro l. apply imm_same_share, Hw.
Qed.

Lemma good_imm_renew s si sh f hs e o :
  Inv s -> s (Final si sh) = Some f -> imm_version_ok f = true ->
  imm_renew_fops f hs e = Some o -> good_ops s (unflagged (map (lift (Final si sh)) o)).
Proof.
  intros Hs Hf Hv E. pose proof (Inv_imm s si sh f Hs Hf Hv) as Hw.
  apply (good_ops_lifted_unflagged s si sh f _ Hs Hf). intro k.
  apply imm_same_share, (imm_renew_file f hs e o Hw E k). exact Hw.
Qed.

Lemma good_mut_fops s si sh f o :
  Inv s -> s (Final si sh) = Some f -> mut_magic_ok f = true -> Forall (safe f) o ->
  good_ops s (unflagged (map (lift (Final si sh)) o)).
Proof.
  intros Hs Hf Hm Hsafe. pose proof (Hs si sh f Hf) as Hw. unfold file_ok in Hw. rewrite Hm in Hw.
  apply (good_ops_lifted_unflagged s si sh f _ Hs Hf). intro k.
  apply (mut_same_share f _ Hm Hw), mut_safe_prefix; assumption.
Qed.

Lemma good_ops_incoming s (l : list pop) :
  Inv s -> within (fun q => is_incoming q = true) l -> good_ops s (unflagged l).
Proof.
  intros Hs Hl. apply crash_safe_unflagged. intro k.
  assert (E : forall si sh, run_p (firstn k l) s (Final si sh) = s (Final si sh)).
  { intros si sh. apply (run_p_outside _ _ _ _ (Forall_firstn _ _ _ Hl)). discriminate. }
  split.
  - intros si sh f. rewrite E. apply Hs.
  - intros si sh. rewrite E. reflexivity.
Qed.

Lemma good_imm_lease_step si sh rec :
  length rec = 72%nat -> good_step (imm_lease_step (Final si sh) rec).
Proof.
  intros Hrec s Hs. pose proof (good_ops_nil s Hs) as Nil. unfold imm_lease_step, raise_.
  destruct (s (Final si sh)) as [f|] eqn:Hf; [|exact Nil].
  destruct (imm_openable f) eqn:Hop; [|exact Nil]. apply andb_true_iff in Hop.
  destruct (imm_add_or_renew_fops f rec) as [o|] eqn:E; [|exact Nil].
  apply (good_imm_lease s si sh f rec); tauto.
Qed.

Lemma good_lease_step si sh ri rm :
  length ri = 72%nat -> length rm = 92%nat -> good_step (lease_step (Final si sh) ri rm).
Proof.
  intros Hri Hrm s Hs. pose proof (good_ops_nil s Hs) as Nil. unfold lease_step, raise_.
  destruct (s (Final si sh)) as [f|] eqn:Hf; [|exact Nil].
  destruct (mut_magic_ok f) eqn:Hm.
  - destruct (mut_add_or_renew_fops f rm) as [o|] eqn:E; [|exact Nil].
    apply (good_mut_fops s si sh f); auto. apply (mut_add_or_renew_safe f rm); assumption.
  - destruct (_ <? 4); [exact Nil|]. destruct (imm_version_ok f) eqn:Hv; [|exact Nil].
    destruct (_ <? 12); [exact Nil|].
    destruct (imm_add_or_renew_fops f ri) as [o|] eqn:E; [|exact Nil].
    apply (good_imm_lease s si sh f ri); assumption.
Qed.

Lemma good_renew_step si sh hs e : good_step (renew_step (Final si sh) hs e).
Proof.
  intros s Hs. pose proof (good_ops_nil s Hs) as Nil. unfold renew_step, raise_.
  destruct (s (Final si sh)) as [f|] eqn:Hf; [|exact Nil].
  destruct (mut_magic_ok f) eqn:Hm.
  - destruct (mut_renew_fops f hs e) as [o|] eqn:E; [|exact Nil].
    apply (good_mut_fops s si sh f); auto. apply (mut_renew_safe f hs e), E.
  - destruct (_ <? 4); [exact Nil|]. destruct (imm_version_ok f) eqn:Hv; [|exact Nil].
    destruct (_ <? 12); [exact Nil|].
    destruct (imm_renew_fops f hs e) as [o|] eqn:E; [|exact Nil].
    apply (good_imm_renew s si sh f hs e); assumption.
Qed.

Lemma good_alloc_step si size rec sh : good_step (alloc_step si size rec sh).
Proof.
  intros s Hs. unfold alloc_step. destruct (_ || _); [apply good_ops_nil, Hs|].
  apply good_ops_incoming; [exact Hs|]. apply (within_create (fun q => is_incoming q = true)). reflexivity.
Qed.

(* the lease records have the size the serializers produce *)
Definition recs_ok (o : sop) : Prop :=
  match o with
  | ImmAllocate _ _ _ _ rec _ => length rec = 72%nat
  | AddLease _ _ ri rm => length ri = 72%nat /\ length rm = 92%nat
  | _ => True
  end.

(* Every crash point of a lease-only operation outside the add_lease window
   leaves every share well-formed and with the data it had. *)
Lemma lease_ops_good o s :
  lease_only o = true -> recs_ok o -> Inv s -> good_ops s (ops_of o s).
Proof.
  intros Hl Hr Hs.
  destruct o as [si0 order shnums size rec renew| | | | |
                |si0 order ri rm|si0 order hs e|];
    try discriminate Hl; cbn [ops_of recs_ok] in *.
  - destruct (all_existing _ _ _ _); [|apply good_ops_nil, Hs].
    apply seq_good; [|exact Hs]. apply Forall_app. split.
    + destruct renew; [|constructor]. apply Forall_map, Forall_forall. intros sh _.
      apply good_imm_lease_step, Hr.
    + apply Forall_map, Forall_forall. intros sh _. apply good_alloc_step.
  - apply seq_good; [|exact Hs]. apply Forall_map, Forall_forall. intros sh _.
    apply good_lease_step; tauto.
  - apply seq_good; [|exact Hs]. apply Forall_map, Forall_forall. intros sh _.
    apply good_renew_step.
Qed.

Lemma recover_idem s p : recover (recover s) p = recover s p.
Proof. unfold recover. destruct (is_incoming p); reflexivity. Qed.

(* a crash inside the cleanup itself, followed by another restart *)
Lemma recover_after_partial_cleanup s (l : list path) k p :
  (forall q, In q l -> is_incoming q = true) ->
  recover (run_p (firstn k (map Unlink l)) s) p = recover s p.
Proof.
  intro H. unfold recover. destruct (is_incoming p) eqn:E; [reflexivity|].
  apply (run_p_outside (fun q => is_incoming q = true)); [|congruence].
  apply Forall_firstn, Forall_map, Forall_forall. intros q Hq. repeat constructor. apply H, Hq.
Qed.
