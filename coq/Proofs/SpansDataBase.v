(* C37: DataSpans -- N-indexed slicing lemmas, the denotation of a chunk list as a
   partial map offset -> byte, the representation invariant (strong: merged;
   weak: sorted and disjoint, as between the loop and the merge pass of add). *)
From Coq Require Import List Arith NArith Bool Lia ZifyBool ZifyNat ZifyN.
From Verif Require Import Lib.ListFacts Model.Spans Proofs.SpansBase.
Import ListNotations.
Local Open Scope N_scope.

Definition nget (d : list N) (k : N) : option N := nth_error d (N.to_nat k).

Lemma nlen_nil : nlen [] = 0.
Proof. reflexivity. Qed.

Lemma nlen_cons x d : nlen (x :: d) = nlen d + 1.
Proof. unfold nlen. cbn [length]. lia. Qed.

Lemma nlen_app a b : nlen (a ++ b) = nlen a + nlen b.
Proof. unfold nlen. rewrite app_length. lia. Qed.

Lemma nlen_ntake k d : nlen (ntake k d) = N.min k (nlen d).
Proof. unfold nlen, ntake. rewrite firstn_length. lia. Qed.

Lemma nlen_ndrop k d : nlen (ndrop k d) = nlen d - k.
Proof. unfold nlen, ndrop. rewrite skipn_length. lia. Qed.

Lemma nlast_pos k d : 0 < k -> nlast k d = ndrop (nlen d - k) d.
Proof. intro H. unfold nlast. assert (E : (k =? 0) = false) by lia. rewrite E. reflexivity. Qed.

Lemma nget_ntake k d j : nget (ntake k d) j = if j <? k then nget d j else None.
Proof.
  unfold nget, ntake. destruct (N.ltb_spec j k) as [L|L].
  - apply nth_error_firstn. lia.
  - apply nth_error_None. rewrite firstn_length. lia.
Qed.

Lemma nget_ndrop k d j : nget (ndrop k d) j = nget d (k + j).
Proof. unfold nget, ndrop. rewrite nth_error_skipn. f_equal. lia. Qed.

Lemma nget_app a b j : nget (a ++ b) j = if j <? nlen a then nget a j else nget b (j - nlen a).
Proof.
  unfold nget, nlen. destruct (j <? N.of_nat (length a)) eqn:E.
  - apply nth_error_app1. lia.
  - rewrite nth_error_app2 by lia. f_equal. lia.
Qed.

Lemma nget_none d j : nlen d <= j -> nget d j = None.
Proof. unfold nget, nlen. intro H. apply nth_error_None. lia. Qed.

Lemma nget_some d j : j < nlen d -> exists v, nget d j = Some v.
Proof.
  unfold nget, nlen. intro H. destruct (nth_error d (N.to_nat j)) eqn:E; [eauto|].
  apply nth_error_None in E. lia.
Qed.

Lemma nget_is_some d j : is_some (nget d j) = (j <? nlen d).
Proof.
  destruct (j <? nlen d) eqn:E.
  - destruct (nget_some d j ltac:(lia)) as [v ->]. reflexivity.
  - rewrite nget_none by lia. reflexivity.
Qed.

Lemma nget_ext a b : nlen a = nlen b -> (forall k, k < nlen a -> nget a k = nget b k) -> a = b.
Proof.
  unfold nlen, nget. intros L E. apply nth_error_ext. intro i.
  destruct (Nat.lt_ge_cases i (length a)) as [Hi|Hi].
  - specialize (E (N.of_nat i) ltac:(lia)). rewrite Nat2N.id in E. exact E.
  - rewrite (proj2 (nth_error_None a i)), (proj2 (nth_error_None b i)) by lia. reflexivity.
Qed.

Fixpoint dget (z : N) (l : dspans) : option N :=
  match l with
  | [] => None
  | sp :: r => if in_iv (fst sp) (nlen (snd sp)) z then nget (snd sp) (z - fst sp) else dget z r
  end.

Lemma dget_cons z s d r :
  dget z ((s, d) :: r) = if in_iv s (nlen d) z then nget d (z - s) else dget z r.
Proof. reflexivity. Qed.

Lemma dget_cong c l l' : (forall z, dget z l = dget z l') ->
  forall z, dget z (c :: l) = dget z (c :: l').
Proof. intros E z. destruct c. rewrite !dget_cons, E. reflexivity. Qed.

Lemma dget_nil_chunk s r z : dget z ((s, []) :: r) = dget z r.
Proof. rewrite dget_cons. unfold in_iv. rewrite nlen_nil, N.add_0_r. destruct (N.leb_spec s z), (N.ltb_spec z s); try reflexivity; lia. Qed.

(* a chunk may be cut in two anywhere (m is where the second part starts) *)
Lemma dget_app m s d1 d2 r z : m = s + nlen d1 ->
  dget z ((s, d1 ++ d2) :: r) = dget z ((s, d1) :: (m, d2) :: r).
Proof.
  intros ->. rewrite !dget_cons, nget_app, nlen_app. unfold in_iv.
  destruct ((s <=? z) && (z <? s + (nlen d1 + nlen d2))) eqn:A, (z - s <? nlen d1) eqn:B,
    ((s <=? z) && (z <? s + nlen d1)) eqn:C,
    ((s + nlen d1 <=? z) && (z <? s + nlen d1 + nlen d2)) eqn:D;
    try reflexivity; try (exfalso; lia).
  f_equal. lia.
Qed.

Lemma dget_cut k s d r z :
  dget z ((s, d) :: r) = dget z ((s, ntake k d) :: (s + k, ndrop k d) :: r).
Proof.
  destruct (N.le_gt_cases k (nlen d)) as [L|L].
  - rewrite <- (firstn_skipn (N.to_nat k) d) at 1. apply dget_app. fold (ntake k d). rewrite nlen_ntake. lia.
  - unfold ntake, ndrop, nlen in *. rewrite firstn_all2, skipn_all2 by lia.
    rewrite (dget_cong _ _ _ (dget_nil_chunk _ r)). reflexivity.
Qed.

(* slices of a chunk, read at the offsets of the chunk they were cut from *)
Lemma dget_take s d k r z : k <= nlen d ->
  dget z ((s, ntake k d) :: r) = if in_iv s k z then nget d (z - s) else dget z r.
Proof.
  intro H. rewrite dget_cons, nlen_ntake, nget_ntake, N.min_l by exact H.
  destruct (in_iv s k z) eqn:Z; [|reflexivity]. unfold in_iv in Z.
  rewrite (proj2 (N.ltb_lt _ _)) by lia. reflexivity.
Qed.

Lemma dget_drop a s d k r z : a = s + k ->
  dget z ((a, ndrop k d) :: r) = if in_iv a (nlen d - k) z then nget d (z - s) else dget z r.
Proof.
  intros ->. rewrite dget_cons, nlen_ndrop, nget_ndrop.
  destruct (in_iv (s + k) (nlen d - k) z) eqn:Z; [|reflexivity]. unfold in_iv in Z. f_equal. lia.
Qed.

(* closes a goal whose two sides test z against intervals and agree wherever the tests can *)
Ltac iv_cases :=
  repeat match goal with |- context [in_iv ?a ?n ?z] => destruct (in_iv a n z) eqn:? end;
  try reflexivity; exfalso; unfold in_iv in *; lia.

Fixpoint dwf_from (e : N) (l : dspans) : Prop :=
  match l with
  | [] => True
  | sp :: r => e <= fst sp /\ 0 < nlen (snd sp) /\ dwf_from (fst sp + nlen (snd sp) + 1) r
  end.

Definition dwf (l : dspans) : Prop := dwf_from 0 l.

Fixpoint dweak_from (e : N) (l : dspans) : Prop :=
  match l with
  | [] => True
  | sp :: r => e <= fst sp /\ 0 < nlen (snd sp) /\ dweak_from (fst sp + nlen (snd sp)) r
  end.

Lemma dwf_from_weaken e e' l : e' <= e -> dwf_from e l -> dwf_from e' l.
Proof. destruct l as [|sp r]; cbn [dwf_from]; [trivial|]. intros H (H1 & H2 & H3). repeat split; [lia|assumption|assumption]. Qed.

Lemma dweak_from_weaken e e' l : e' <= e -> dweak_from e l -> dweak_from e' l.
Proof. destruct l as [|sp r]; cbn [dweak_from]; [trivial|]. intros H (H1 & H2 & H3). repeat split; [lia|assumption|assumption]. Qed.

Lemma dwf_dweak l : forall e, dwf_from e l -> dweak_from e l.
Proof.
  induction l as [|sp r IH]; intros e H; [exact I|].
  cbn [dwf_from] in H. destruct H as (H1 & H2 & H3). cbn [dweak_from]. repeat split; try assumption.
  apply IH. apply (dwf_from_weaken (fst sp + nlen (snd sp) + 1) (fst sp + nlen (snd sp))); [lia|exact H3].
Qed.

Lemma dget_below_weak l : forall e z, dweak_from e l -> z < e -> dget z l = None.
Proof.
  induction l as [|sp r IH]; intros e z H Hz; [reflexivity|].
  destruct sp as [s d]. cbn [dweak_from fst snd] in H. destruct H as (H1 & H2 & H3). rewrite dget_cons.
  assert (E : in_iv s (nlen d) z = false) by (unfold in_iv; lia). rewrite E.
  apply (IH _ _ H3). lia.
Qed.

Lemma dget_below l e z : dwf_from e l -> z < e -> dget z l = None.
Proof. intros H. apply dget_below_weak. apply dwf_dweak. exact H. Qed.

Lemma dwf_from_In e l sp : dwf_from e l -> In sp l -> e <= fst sp /\ 0 < nlen (snd sp).
Proof.
  revert e; induction l as [|y r IH]; intros e H Hin; [contradiction|].
  cbn [dwf_from] in H. destruct H as (H1 & H2 & H3).
  destruct Hin as [<-|Hin]; [auto|]. destruct (IH _ H3 Hin). split; lia.
Qed.

Definition shape (l : dspans) : spans := map (fun sp => (fst sp, nlen (snd sp))) l.

Lemma shape_wf l : forall e, dwf_from e l <-> wf_from e (shape l).
Proof.
  induction l as [|sp r IH]; intro e; [split; trivial|].
  cbn [dwf_from shape map wf_from fst snd]. rewrite IH. reflexivity.
Qed.

Lemma shape_mem z l : mem z (shape l) = is_some (dget z l).
Proof.
  induction l as [|[s d] r IH]; [reflexivity|].
  cbn [shape map fst snd]. rewrite mem_cons, dget_cons. cbn [fst snd]. fold (shape r). rewrite IH.
  destruct (in_iv s (nlen d) z) eqn:E; [|reflexivity].
  rewrite nget_is_some. unfold in_iv in E. cbn [orb]. lia.
Qed.

Lemma shape_len l : spans_len (shape l) = ds_len l.
Proof. induction l as [|sp r IH]; [reflexivity|]. cbn [shape map]. rewrite spans_len_cons. cbn [snd]. fold (shape r). rewrite IH. reflexivity. Qed.
