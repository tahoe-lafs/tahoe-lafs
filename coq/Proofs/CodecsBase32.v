(* base32: a2b (b2a os) = os; the converse under "trailing bits are zero"; its refutation. *)
From Coq Require Import String.
From Coq Require Import List NArith ZArith Bool Lia ZifyBool ZifyNat ZifyN.
From Verif Require Import Lib.Hex Lib.Bytes Lib.ListFacts Model.Base32 Gen.CodecConsts.
Import ListNotations.
Local Open Scope N_scope.

(* [index_of] and [nth] on an alphabet are inverse to each other: one way for any
   list, the other for the letters below n once a table of n entries is checked *)
Lemma index_of_nth : forall l c i v,
  index_of c l i = Some v -> exists k, v = i + N.of_nat k /\ (k < length l)%nat /\ nth k l 0 = c.
Proof.
  induction l as [|x l IH]; intros c i v H; cbn [index_of] in H; [discriminate|].
  destruct (x =? c) eqn:E.
  - injection H as <-. apply N.eqb_eq in E. exists 0%nat. cbn. repeat split; [lia|lia|assumption].
  - apply IH in H. destruct H as (k & -> & Hk & Hn). exists (S k). cbn [length nth]. repeat split; [lia|lia|assumption].
Qed.

Lemma index_of_letter chars c v :
  index_of c chars 0 = Some v -> nth (N.to_nat v) chars 0 = c /\ v < N.of_nat (length chars).
Proof.
  intro H. apply index_of_nth in H. destruct H as (k & -> & Hk & Hn).
  replace (N.to_nat (0 + N.of_nat k)) with k by lia. split; [assumption|lia].
Qed.

Lemma letter_index_of chars n :
  forallb (fun v => match index_of (nth (N.to_nat v) chars 0) chars 0 with Some w => w =? v | None => false end)
          (map N.of_nat (seq 0 n)) = true ->
  forall v, v < N.of_nat n -> index_of (nth (N.to_nat v) chars 0) chars 0 = Some v.
Proof.
  intros Hall v H. rewrite forallb_forall in Hall.
  assert (Hin : In v (map N.of_nat (seq 0 n))).
  { replace v with (N.of_nat (N.to_nat v)) by lia. apply in_map, in_seq. lia. }
  specialize (Hall v Hin).
  destruct (index_of _ chars 0) as [w|]; [|discriminate]. apply N.eqb_eq in Hall. congruence.
Qed.

Lemma b32_val_char v : v < 32 -> b32_val (b32_char v) = Some v.
Proof. apply (letter_index_of base32_chars 32). vm_compute. reflexivity. Qed.

Lemma b32_char_val c v : b32_val c = Some v -> b32_char v = c /\ v < 32.
Proof. apply index_of_letter. Qed.

Lemma map_opt_map {A B} (f : A -> option B) (g : B -> A) l :
  (forall x, In x l -> f (g x) = Some x) -> map_opt f (map g l) = Some l.
Proof.
  induction l as [|x l IH]; intro H; [reflexivity|].
  cbn [map map_opt]. rewrite H by (left; reflexivity). rewrite IH; [reflexivity|].
  intros y Hy. apply H. right. assumption.
Qed.

Lemma map_opt_inv {A B} (f : A -> option B) (g : B -> A) (P : B -> Prop) :
  (forall c v, f c = Some v -> g v = c /\ P v) ->
  forall l vals, map_opt f l = Some vals -> l = map g vals /\ Forall P vals /\ length vals = length l.
Proof.
  intros Hf. induction l as [|c l IH]; intros vals H; cbn [map_opt] in H.
  - injection H as <-. repeat split. constructor.
  - destruct (f c) as [v|] eqn:E; [|discriminate].
    destruct (map_opt f l) as [r|] eqn:Er; [|discriminate]. injection H as <-.
    destruct (Hf c v E) as [Hg Hp]. destruct (IH r eq_refl) as (Hl & Hall & Hlen).
    cbn [map length]. rewrite Hg, <- Hl, Hlen. repeat split. constructor; assumption.
Qed.

Lemma bits_length w l : length (flat_map (be_digits 2 w) l) = (w * length l)%nat.
Proof.
  induction l as [|x l IH]; cbn [flat_map length]; [lia|].
  rewrite app_length, be_digits_length, IH. lia.
Qed.

Lemma bits_below w l : digits_below 2 (flat_map (be_digits 2 w) l) = true.
Proof.
  induction l as [|x l IH]; cbn [flat_map]; [reflexivity|].
  unfold digits_below in *. rewrite forallb_app, IH, andb_true_r. apply be_digits_below. lia.
Qed.

Lemma digits_below_firstn b n l : digits_below b l = true -> digits_below b (firstn n l) = true.
Proof. apply forallb_firstn. Qed.

Lemma digits_below_skipn b n l : digits_below b l = true -> digits_below b (skipn n l) = true.
Proof. apply forallb_skipn. Qed.

Lemma forallb_repeat {A} (f : A -> bool) x n : f x = true -> forallb f (repeat x n) = true.
Proof. intro H. induction n; cbn; [reflexivity|rewrite H; assumption]. Qed.

(* Regrouping.  A bit string cut into c groups of w bits, each read as a number:
   the numbers are below 2^w, and writing them out again with w bits each gives
   the c*w bits that were cut. *)
Lemma group_values_lt w : forall c l,
  digits_below 2 l = true -> (c * w <= length l)%nat ->
  Forall (fun v => v < 2 ^ N.of_nat w) (map (be_value 2) (groups w c l)).
Proof.
  induction c as [|c IH]; intros l Hb Hl; cbn [groups map]; constructor.
  - rewrite <- (firstn_length_le l (n := w)) at 2 by lia.
    apply be_value_bound, digits_below_firstn, Hb.
  - apply IH; [apply digits_below_skipn, Hb|rewrite skipn_length; lia].
Qed.

Lemma digits_of_group_values w : forall c l,
  digits_below 2 l = true -> (c * w <= length l)%nat ->
  flat_map (be_digits 2 w) (map (be_value 2) (groups w c l)) = firstn (c * w) l.
Proof.
  induction c as [|c IH]; intros l Hb Hl; [reflexivity|].
  cbn [groups map flat_map Nat.mul].
  rewrite IH by (apply digits_below_skipn, Hb || rewrite skipn_length; lia).
  rewrite firstn_add. f_equal.
  rewrite <- (firstn_length_le l (n := w)) at 1 by lia.
  apply be_digits_value, digits_below_firstn, Hb.
Qed.

(* Conversely, numbers below 2^w written with w bits each, followed by anything,
   are read back by cutting as many groups as there were numbers. *)
Lemma group_values_of_digits w rest : forall vs,
  Forall (fun v => v < 2 ^ N.of_nat w) vs ->
  map (be_value 2) (groups w (length vs) (flat_map (be_digits 2 w) vs ++ rest)) = vs.
Proof.
  induction 1 as [|v vs Hv _ IH]; [reflexivity|].
  cbn [length flat_map groups map]. rewrite <- app_assoc.
  rewrite firstn_app_exact, skipn_app_exact by apply be_digits_length.
  rewrite IH, be_digits_small by (lia || assumption). reflexivity.
Qed.

Lemma all_zero_repeat l : forallb (fun b => b =? 0) l = true -> l = repeat 0 (length l).
Proof.
  induction l as [|x l IH]; cbn [forallb length repeat]; [reflexivity|].
  intro H. apply andb_true_iff in H. destruct H as [Hx Hl]. apply N.eqb_eq in Hx. subst x.
  f_equal. apply IH. assumption.
Qed.

Lemma be_value_zeros p : be_value 2 (repeat 0 p) = 0.
Proof.
  induction p as [|p IH]; [reflexivity|]. cbn [repeat]. rewrite be_value_cons, IH. lia.
Qed.

Lemma bytes_ok_Forall l : bytes_ok l = true -> Forall (fun v => v < 2 ^ N.of_nat 8) l.
Proof.
  unfold bytes_ok. rewrite forallb_forall. intro H. apply Forall_forall. intros x Hx.
  specialize (H x Hx). unfold byte_ok in H. change (2 ^ N.of_nat 8) with 256. lia.
Qed.

Lemma last_map {A B} (f : A -> B) l d : l <> [] -> last (map f l) (f d) = f (last l d).
Proof.
  induction l as [|x l IH]; intro H; [congruence|].
  destruct l as [|y l]; [reflexivity|]. cbn [map] in *. cbn [last] in *. apply IH. discriminate.
Qed.

Lemma last_groups {A} w : forall c (l : list A) d,
  c <> 0%nat -> last (groups w c l) d = firstn w (skipn ((c - 1) * w) l).
Proof.
  induction c as [|c IH]; intros l d Hc; [congruence|].
  destruct c as [|c]; [reflexivity|].
  change (last (groups w (S (S c)) l) d) with (last (groups w (S c) (skipn w l)) d).
  rewrite IH, skipn_add by discriminate. do 2 f_equal. lia.
Qed.

(* b2a writes n octets as c = ceil(8n/5) characters, the last one padded with
   5c - 8n zero bits; a2b reads c characters as floor(5c/8) octets.  Writing
   n = 5k + r, the five residues r = 0..4 give c = 8k + 0, 2, 4, 5, 7 and
   0, 2, 4, 1, 3 bits of padding. *)
Lemma chars_cover n : (8 * n <= Nat.div (8 * n + 4) 5 * 5)%nat.
Proof. lia. Qed.

Lemma octets_of_chars n : Nat.div (Nat.div (8 * n + 4) 5 * 5) 8 = n.
Proof. lia. Qed.

Lemma padding_cases n c p : c = Nat.div (8 * n + 4) 5 -> p = (c * 5 - 8 * n)%nat ->
  N.of_nat c mod 8 = 0 \/ (N.of_nat c mod 8 = 2 /\ p = 2%nat) \/ (N.of_nat c mod 8 = 4 /\ p = 4%nat) \/
  N.of_nat c mod 8 = 5 \/ (N.of_nat c mod 8 = 7 /\ p = 3%nat).
Proof. lia. Qed.

Lemma chars_of_octets c :
  N.of_nat c mod 8 = 0 \/ N.of_nat c mod 8 = 2 \/ N.of_nat c mod 8 = 4 \/ N.of_nat c mod 8 = 5 \/ N.of_nat c mod 8 = 7 ->
  Nat.div (Nat.div (c * 5) 8 * 8 + 4) 5 = c.
Proof. lia. Qed.

Lemma b32_last_ok_table v :
  b32_last_ok 0 v = true /\ b32_last_ok 1 v = false /\ b32_last_ok 2 v = (v mod 2 ^ 1 =? 0) /\
  b32_last_ok 3 v = false /\ b32_last_ok 4 v = (v mod 2 ^ 3 =? 0) /\ b32_last_ok 5 v = (v mod 2 ^ 0 =? 0) /\
  b32_last_ok 6 v = false /\ b32_last_ok 7 v = (v mod 2 ^ 2 =? 0).
Proof. repeat split. Qed.

Lemma b32_last_ok_legit m v : m < 8 -> b32_last_ok m v = true -> m = 0 \/ m = 2 \/ m = 4 \/ m = 5 \/ m = 7.
Proof.
  intros Hm H. destruct (b32_last_ok_table v) as (_ & H1 & _ & H3 & _ & _ & H6 & _).
  assert (Hc : m = 0 \/ m = 1 \/ m = 2 \/ m = 3 \/ m = 4 \/ m = 5 \/ m = 6 \/ m = 7) by lia.
  destruct Hc as [->|[->|[->|[->|[->|[->|[->| ->]]]]]]]; try tauto; congruence.
Qed.

Lemma mul_pow2_mod t e d : (t * 2 ^ (e + d)) mod 2 ^ e = 0.
Proof. rewrite N.add_comm, N.pow_add_r, N.mul_assoc. apply N.mod_mul, N.pow_nonzero. discriminate. Qed.

(* the table admits a last character that carries the padding b2a produces
   (it asks for one zero bit fewer) *)
Lemma b32_last_ok_padding n t :
  b32_last_ok (N.of_nat (Nat.div (8 * n + 4) 5) mod 8)
              (t * 2 ^ N.of_nat (Nat.div (8 * n + 4) 5 * 5 - 8 * n)) = true.
Proof.
  set (c := Nat.div (8 * n + 4) 5). set (p := (c * 5 - 8 * n)%nat).
  destruct (b32_last_ok_table (t * 2 ^ N.of_nat p)) as (T0 & _ & T2 & _ & T4 & T5 & _ & T7).
  destruct (padding_cases n c p eq_refl eq_refl) as [E|[[E Ep]|[[E Ep]|[E|[E Ep]]]]]; rewrite E.
  - exact T0.
  - rewrite T2, Ep. apply N.eqb_eq. exact (mul_pow2_mod t 1 1).
  - rewrite T4, Ep. apply N.eqb_eq. exact (mul_pow2_mod t 3 1).
  - rewrite T5. apply N.eqb_eq, N.mod_1_r.
  - rewrite T7, Ep. apply N.eqb_eq. exact (mul_pow2_mod t 2 1).
Qed.

Section Encode.
Variable os : list N.

Let n := length os.
Let bits := flat_map (be_digits 2 8) os.
Let c := Nat.div (8 * n + 4) 5.
Let p := (c * 5 - 8 * n)%nat.
Let padded := bits ++ repeat 0 p.
Let qs := map (be_value 2) (groups 5 c padded).

Lemma enc_bits_len : length bits = (8 * n)%nat.
Proof. apply bits_length. Qed.

Lemma enc_b2a : b32_b2a os = map b32_char qs.
Proof. unfold b32_b2a. fold bits. rewrite enc_bits_len. unfold qs. rewrite map_map. reflexivity. Qed.

Lemma enc_padded_len : length padded = (c * 5)%nat.
Proof.
  unfold padded, p. rewrite app_length, repeat_length, enc_bits_len.
  pose proof (chars_cover n). fold c in H. lia.
Qed.

Lemma enc_padded_below : digits_below 2 padded = true.
Proof. unfold padded, digits_below. rewrite forallb_app. apply andb_true_iff. split; [apply bits_below|apply forallb_repeat; reflexivity]. Qed.

Lemma enc_vals : map_opt b32_val (map b32_char qs) = Some qs.
Proof.
  apply map_opt_map. intros x Hx. apply b32_val_char. revert x Hx. apply Forall_forall.
  apply (group_values_lt 5); [apply enc_padded_below|rewrite enc_padded_len; lia].
Qed.

Lemma enc_regroup : flat_map (be_digits 2 5) qs = padded.
Proof.
  unfold qs. rewrite digits_of_group_values by (apply enc_padded_below || rewrite enc_padded_len; lia).
  apply firstn_all2. rewrite enc_padded_len. lia.
Qed.

Lemma enc_octets : Nat.div (length qs * 5) 8 = n.
Proof. unfold qs. rewrite map_length, groups_length. apply octets_of_chars. Qed.

Lemma enc_decode : bytes_ok os = true -> b32_decode_vals qs = os.
Proof.
  intro os_ok. unfold b32_decode_vals. rewrite enc_regroup, enc_octets.
  apply group_values_of_digits, bytes_ok_Forall, os_ok.
Qed.

(* the last character is the remaining bits followed by the p padding zeros *)
Lemma enc_last_ok : qs <> [] -> b32_last_ok (N.of_nat (length qs) mod 8) (last qs 0) = true.
Proof.
  intro Hne.
  assert (Hc : length qs = c) by (unfold qs; rewrite map_length, groups_length; reflexivity).
  assert (Hpos : c <> 0%nat) by (intro E; apply Hne, length_zero_iff_nil; rewrite Hc; exact E).
  assert (Ha : ((c - 1) * 5 <= 8 * n <= c * 5)%nat) by (unfold c; lia).
  rewrite Hc. change 0 with (be_value 2 []). unfold qs in *.
  rewrite last_map by (intros E; apply Hne; rewrite E; reflexivity).
  rewrite last_groups by exact Hpos. unfold padded. rewrite skipn_app, enc_bits_len.
  replace ((c - 1) * 5 - 8 * n)%nat with 0%nat by lia. cbn [skipn].
  rewrite firstn_all2 by (rewrite app_length, skipn_length, repeat_length, enc_bits_len; unfold p; lia).
  rewrite be_value_app, be_value_zeros, repeat_length, N.add_0_r. apply b32_last_ok_padding.
Qed.

Theorem b32_roundtrip : bytes_ok os = true -> b32_a2b (b32_b2a os) = Some os.
Proof.
  intro os_ok. rewrite enc_b2a. unfold b32_a2b.
  assert (Hcb : b32_could_be (map b32_char qs) = true).
  { unfold b32_could_be. rewrite enc_vals.
    destruct (map b32_char qs) as [|x l] eqn:E; [reflexivity|].
    rewrite <- E, map_length. apply enc_last_ok. intro Hq. rewrite Hq in E. discriminate. }
  rewrite Hcb, enc_vals, enc_decode by exact os_ok. reflexivity.
Qed.

Theorem b32_b2a_trailing_zero : b32_trailing_zero (b32_b2a os) = true.
Proof.
  rewrite enc_b2a. unfold b32_trailing_zero. rewrite enc_vals, enc_regroup, enc_octets.
  unfold padded. rewrite skipn_app_exact by (rewrite enc_bits_len; lia).
  apply forallb_repeat. reflexivity.
Qed.
End Encode.

Theorem b32_converse_canonical cs x :
  b32_a2b cs = Some x -> b32_trailing_zero cs = true -> b32_b2a x = cs.
Proof.
  unfold b32_a2b, b32_trailing_zero.
  destruct (b32_could_be cs) eqn:Hcb; [|discriminate].
  destruct (map_opt b32_val cs) as [vals|] eqn:Hv; [|discriminate].
  intros Hx Htz. injection Hx as <-.
  destruct (map_opt_inv b32_val b32_char (fun v => v < 32) b32_char_val cs vals Hv) as (Hcs & Hlt & Hlen).
  set (c := length vals) in *.
  set (bits := flat_map (be_digits 2 5) vals) in *.
  set (n := Nat.div (c * 5) 8) in *.
  assert (Hbl : length bits = (5 * c)%nat) by apply bits_length.
  unfold b32_decode_vals, b32_b2a. fold c bits n.
  (* the bits of the decoded octets are the first 8n bits *)
  rewrite digits_of_group_values by (apply bits_below || unfold n; lia).
  rewrite firstn_length_le by (unfold n; lia).
  (* the number of characters is recovered *)
  assert (Hc : Nat.div (n * 8 + 4) 5 = c).
  { apply chars_of_octets. unfold b32_could_be in Hcb. destruct cs as [|c0 cs'].
    - left. rewrite Hlen. reflexivity.
    - rewrite Hv, <- Hlen in Hcb. apply b32_last_ok_legit in Hcb; [exact Hcb|apply N.mod_lt; lia]. }
  rewrite Hc.
  (* padding back gives the original bit string *)
  assert (Hpad : firstn (n * 8) bits ++ repeat 0 (c * 5 - n * 8) = bits).
  { rewrite <- (firstn_skipn (n * 8) bits) at 2. f_equal.
    rewrite (all_zero_repeat _ Htz), skipn_length. f_equal. lia. }
  rewrite Hpad, <- (app_nil_r bits), <- map_map. unfold bits, c.
  rewrite group_values_of_digits by exact Hlt. symmetry. exact Hcs.
Qed.

(* the unconditional converse is false: "ac" decodes to 00, which encodes to "aa" *)
Theorem b32_converse_refuted : exists cs x, b32_a2b cs = Some x /\ b32_b2a x <> cs.
Proof.
  exists (bytes_of_string "ac"%string), [0]. split; [vm_compute; reflexivity|vm_compute; discriminate].
Qed.

Definition b32_noncanonical_witnesses : list (list N) :=
  map bytes_of_string ["ac"; "aaai"; "aaaab"; "aaaaaae"; "76"; "aaaaaaaaac"]%string.

Theorem b32_noncanonical_accepted :
  forallb (fun cs => match b32_a2b cs with
                     | Some x => negb (list_N_eqb (b32_b2a x) cs) && negb (b32_trailing_zero cs)
                     | None => false
                     end) b32_noncanonical_witnesses = true.
Proof. vm_compute. reflexivity. Qed.
