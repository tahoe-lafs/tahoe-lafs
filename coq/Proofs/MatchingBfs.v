(* bfs: the predecessor table it returns describes a set of vertices that contains
   the source, is closed under the edges of the graph, and every predecessor link is
   an edge from a coloured vertex one level closer to the source. *)
From Coq Require Import List NArith ZArith Bool Arith Lia.
From Verif Require Import Model.Matching Proofs.MatchingLists.
Import ListNotations.

Section Bfs.
Variable rg : graph.
Variable dim : nat.
Hypothesis Hlen : length rg = dim.
Hypothesis Hrange : forall u v, In v (adj rg u) -> v < dim.
Hypothesis Hpos : 0 < dim.

Definition col (c : list nat) (v : nat) : nat := nth v c 0.
Definition prd (p : list (option nat)) (v : nat) : option nat := nth v p None.

(* [n] = Some x: the vertex being expanded, taken off the queue and not yet black.  A vertex
   that is coloured and not grey is black; only those need all their neighbours coloured.
   [d]: the BFS level of a vertex.  It is the Python `distance` list, which the model leaves out
   and the proof keeps: visit_step sets d v = S (d n) where the code sets distance[v] =
   distance[n] + 1.  That a predecessor link goes down one level (bi_p) is what bounds walk_back
   (walk_total) and makes the path found `levelled` (bfs_spec, Proofs/MatchingPath.v). *)
Record BInv (c : list nat) (p : list (option nat)) (q : list nat) (d : nat -> nat) (n : option nat) : Prop := {
  bi_lc : length c = dim;
  bi_lp : length p = dim;
  bi_q : forall v, In v q -> col c v <> 0;
  bi_g : forall v, col c v = 1 -> Some v = n \/ In v q;
  bi_n : forall x, n = Some x -> col c x <> 0;
  bi_b : forall u, col c u <> 0 -> col c u <> 1 -> forall v, In v (adj rg u) -> col c v <> 0;
  bi_c : forall v, col c v <> 0 <-> (v = 0 \/ prd p v <> None);
  bi_z : prd p 0 = None;
  bi_p : forall v u, prd p v = Some u -> In v (adj rg u) /\ col c u <> 0 /\ d v = S (d u)
}.

Lemma col_upd : forall c i x v, i < length c -> col (upd i x c) v = if Nat.eqb i v then x else col c v.
Proof. intros c i x v H. unfold col. rewrite nth_upd, (proj2 (Nat.ltb_lt _ _) H). reflexivity. Qed.

Lemma prd_upd : forall p i x v, i < length p -> prd (upd i x p) v = if Nat.eqb i v then x else prd p v.
Proof. intros p i x v H. unfold prd. rewrite nth_upd, (proj2 (Nat.ltb_lt _ _) H). reflexivity. Qed.

Lemma coloured_upd : forall c i x v, i < length c -> x <> 0 ->
  (col (upd i x c) v <> 0 <-> v = i \/ col c v <> 0).
Proof.
  intros c i x v H Hx. rewrite col_upd by exact H. destruct (Nat.eqb_spec i v) as [->|Hne]; [tauto|].
  split; [intros Hc; right; exact Hc | intros [->|Hc]; [contradiction | exact Hc]].
Qed.

Lemma col_lt : forall c v, length c = dim -> col c v <> 0 -> v < dim.
Proof.
  intros c v Hl Hv. destruct (Nat.lt_ge_cases v dim) as [H|H]; [exact H|].
  unfold col in Hv. rewrite nth_overflow in Hv by lia. contradiction.
Qed.

Lemma visit_step : forall c p q d n v,
  BInv c p q d (Some n) -> In v (adj rg n) -> col c v = 0 ->
  BInv (upd v 1 c) (upd v (Some n) p) (q ++ [v]) (fun x => if Nat.eqb x v then S (d n) else d x) (Some n).
Proof.
  intros c p q d n v [Ilc Ilp Iq Ig Icur Ib Ic Iz Ip] Hv Hw.
  pose proof (Hrange _ _ Hv) as Hvd. pose proof (Icur n eq_refl) as Hn.
  assert (Lc : v < length c) by lia.
  assert (Lp : v < length p) by lia.
  assert (Hv0 : v <> 0) by (intros ->; exact (proj2 (Ic 0) (or_introl eq_refl) Hw)).
  assert (Cm : forall x, col c x <> 0 -> col (upd v 1 c) x <> 0).
  { intros x Hx. apply coloured_upd; [exact Lc | discriminate | right; exact Hx]. }
  constructor.
  - rewrite length_upd. exact Ilc.
  - rewrite length_upd. exact Ilp.
  - intros x Hx. apply in_app_iff in Hx. destruct Hx as [Hx|[<-|[]]].
    + apply Cm, Iq, Hx.
    + apply coloured_upd; [exact Lc | discriminate | left; reflexivity].
  - intros x Hx. rewrite col_upd in Hx by exact Lc. destruct (Nat.eqb_spec v x) as [E|_].
    + right. apply in_app_iff. right. left. exact E.
    + destruct (Ig x Hx) as [H|H]; [left; exact H | right; apply in_app_iff; left; exact H].
  - intros x [= <-]. apply Cm, Hn.
  - intros u Hu0 Hu1 x Hx. rewrite col_upd in Hu0, Hu1 by exact Lc.
    destruct (Nat.eqb v u); [destruct (Hu1 eq_refl)|]. apply Cm, (Ib u Hu0 Hu1 x Hx).
  - intros x. rewrite col_upd, prd_upd by assumption. destruct (Nat.eqb v x) eqn:E; [|apply Ic].
    split; [intros _; right; discriminate | intros _; discriminate].
  - rewrite prd_upd by exact Lp. destruct (Nat.eqb_spec v 0); [contradiction | exact Iz].
  - intros x u Hx. rewrite prd_upd in Hx by exact Lp. destruct (Nat.eqb_spec v x) as [E|Hne].
    + subst x. injection Hx as <-. split; [exact Hv|]. split; [apply Cm, Hn|].
      rewrite Nat.eqb_refl. destruct (Nat.eqb_spec n v) as [E|_]; [subst n; contradiction | reflexivity].
    + destruct (Ip x u Hx) as [P1 [P2 P3]]. split; [exact P1|]. split; [apply Cm, P2|].
      destruct (Nat.eqb_spec x v) as [E|_]; [subst x; contradiction|].
      destruct (Nat.eqb_spec u v) as [E|_]; [subst u; contradiction | exact P3].
Qed.

Lemma visit_spec : forall nbrs c p q d n c' p' q',
  BInv c p q d (Some n) -> (forall v, In v nbrs -> In v (adj rg n)) ->
  bfs_visit nbrs n c p q = (c', p', q') ->
  exists d', BInv c' p' q' d' (Some n) /\
             (forall v, In v nbrs -> col c' v <> 0) /\
             (forall v, col c v <> 0 -> col c' v <> 0).
Proof.
  induction nbrs as [|v r IH]; intros c p q d n c' p' q' I Hsub H; cbn [bfs_visit] in H.
  - injection H as <- <- <-. exists d. split; [exact I|]. split; [intros v [] | auto].
  - assert (Hsub' : forall x, In x r -> In x (adj rg n)) by (intros x Hx; apply Hsub; right; exact Hx).
    fold (col c v) in H. destruct (Nat.eqb_spec (col c v) 0) as [E|E].
    + pose proof (visit_step c p q d n v I (Hsub v (or_introl eq_refl)) E) as I1.
      destruct (IH _ _ _ _ _ _ _ _ I1 Hsub' H) as [d' [I' [H1 H2]]].
      assert (Lc : v < length c) by (rewrite (bi_lc _ _ _ _ _ I); exact (Hrange n v (Hsub v (or_introl eq_refl)))).
      exists d'. split; [exact I'|]. split.
      * intros x [<-|Hx]; [|apply H1; exact Hx]. apply H2, coloured_upd; [exact Lc | discriminate | left; reflexivity].
      * intros x Hx. apply H2, coloured_upd; [exact Lc | discriminate | right; exact Hx].
    + destruct (IH _ _ _ _ _ _ _ _ I Hsub' H) as [d' [I' [H1 H2]]].
      exists d'. split; [exact I'|]. split; [|exact H2].
      intros x [<-|Hx]; [apply H2; exact E | apply H1; exact Hx].
Qed.

Lemma finish_vertex : forall c p q d n,
  BInv c p q d (Some n) -> (forall v, In v (adj rg n) -> col c v <> 0) ->
  BInv (upd n 2 c) p q d None.
Proof.
  intros c p q d n [Ilc Ilp Iq Ig Icur Ib Ic Iz Ip] Hn.
  assert (Ln : n < length c) by (rewrite Ilc; exact (col_lt c n Ilc (Icur n eq_refl))).
  pose proof (fun x => col_upd c n 2 x Ln) as Cu.
  assert (Cm : forall x, col c x <> 0 <-> col (upd n 2 c) x <> 0).
  { intros x. rewrite coloured_upd by (exact Ln || discriminate).
    split; [intros H; right; exact H | intros [->|H]; [exact (Icur n eq_refl) | exact H]]. }
  constructor.
  - rewrite length_upd. exact Ilc.
  - exact Ilp.
  - intros x Hx. apply Cm, Iq, Hx.
  - intros x Hx. rewrite Cu in Hx. destruct (Nat.eqb_spec n x) as [_|Hne]; [discriminate|].
    destruct (Ig x Hx) as [[= ->]|H]; [contradiction | right; exact H].
  - intros x [=].
  - intros u Hu0 Hu1 x Hx. apply Cm. rewrite Cu in Hu0, Hu1. destruct (Nat.eqb_spec n u) as [E|_].
    + subst u. apply Hn, Hx.
    + apply (Ib u Hu0 Hu1 x Hx).
  - intros x. rewrite <- Cm. apply Ic.
  - exact Iz.
  - intros x u Hx. destruct (Ip x u Hx) as [P1 [P2 P3]]. split; [exact P1|]. split; [apply Cm, P2 | exact P3].
Qed.

Lemma pop_vertex : forall c p n q d, BInv c p (n :: q) d None -> BInv c p q d (Some n).
Proof.
  intros c p n q d [Ilc Ilp Iq Ig Icur Ib Ic Iz Ip]. constructor; try assumption.
  - intros v Hv. apply Iq. right. exact Hv.
  - intros v Hv. destruct (Ig v Hv) as [[=]|[->|H]]; [left; reflexivity | right; exact H].
  - intros x [= <-]. apply Iq. left. reflexivity.
Qed.

Lemma loop_spec : forall fuel c p q d tree,
  BInv c p q d None -> bfs_loop fuel rg c p q = Some tree ->
  exists c' d', BInv c' tree [] d' None.
Proof.
  induction fuel as [|fuel IH]; intros c p q d tree I H; destruct q as [|n q]; cbn [bfs_loop] in H;
    try discriminate.
  1, 2: injection H as <-; exists c, d; exact I.
  destruct (bfs_visit (adj rg n) n c p q) as [[c1 p1] q1] eqn:Ev.
  destruct (visit_spec _ _ _ _ _ _ _ _ _ (pop_vertex _ _ _ _ _ I) (fun v Hv => Hv) Ev) as [d1 [I1 [H1 _]]].
  apply (IH _ _ _ _ _ (finish_vertex _ _ _ _ _ I1 H1) H).
Qed.

Lemma init_inv : BInv (upd 0 1 (repeat 0 dim)) (repeat None dim) [0] (fun _ => 0) None.
Proof.
  assert (Hc : forall v, col (upd 0 1 (repeat 0 dim)) v = if Nat.eqb 0 v then 1 else 0).
  { intros v. rewrite col_upd by (rewrite repeat_length; exact Hpos).
    destruct (Nat.eqb 0 v); [reflexivity | apply nth_repeat]. }
  assert (Hp : forall v, prd (repeat None dim) v = None) by (intros v; apply nth_repeat).
  constructor.
  - rewrite length_upd. apply repeat_length.
  - apply repeat_length.
  - intros v [<-|[]]. rewrite Hc. discriminate.
  - intros v Hv. rewrite Hc in Hv. destruct (Nat.eqb_spec 0 v) as [E|_]; [right; left; exact E | discriminate].
  - intros x [=].
  - intros u Hu0 Hu1. rewrite Hc in Hu0, Hu1. destruct (Nat.eqb 0 u); [destruct (Hu1 eq_refl) | destruct (Hu0 eq_refl)].
  - intros v. rewrite Hc, Hp. destruct (Nat.eqb_spec 0 v); intuition congruence.
  - apply Hp.
  - intros v u Hv. rewrite Hp in Hv. discriminate.
Qed.

Theorem bfs_spec : forall tree,
  bfs rg 0 = Some tree ->
  length tree = dim /\
  reached tree 0 = true /\
  nth 0 tree None = None /\
  (forall u v, reached tree u = true -> In v (adj rg u) -> reached tree v = true) /\
  (exists d : nat -> nat, forall v u, nth v tree None = Some u ->
      In v (adj rg u) /\ reached tree u = true /\ d v = S (d u)).
Proof.
  intros tree H. unfold bfs in H. rewrite Hlen in H.
  destruct (loop_spec _ _ _ _ _ _ init_inv H) as [c [d [Ilc Ilp Iq Ig Icur Ib Ic Iz Ip]]].
  assert (Hr : forall v, reached tree v = true <-> col c v <> 0).
  { intros v. rewrite Ic. unfold reached, prd. destruct v as [|v]; [intuition congruence|].
    destruct (nth (S v) tree None); intuition congruence. }
  split; [exact Ilp|]. split; [reflexivity|]. split; [exact Iz|]. split.
  - (* the queue is empty, so no vertex is grey *)
    intros u v Hu Hv. apply Hr. apply Hr in Hu. apply (Ib u Hu); [|exact Hv].
    intro H1. destruct (Ig u H1) as [[=]|[]].
  - exists d. intros v u Hv. destruct (Ip v u Hv) as [P1 [P2 P3]].
    split; [exact P1|]. split; [apply Hr; exact P2 | exact P3].
Qed.

(* Termination.  Each round of bfs_loop either shortens the queue or colours a white vertex, so
   the number of white vertices plus the length of the queue bounds the rounds left. *)

Definition whites (c : list nat) : nat := length (filter (fun x => Nat.eqb x 0) c).

Lemma whites_upd_le : forall c v x, x <> 0 -> whites (upd v x c) <= whites c.
Proof.
  unfold whites. induction c as [|a r IH]; intros v x Hx; [destruct v; cbn; lia|].
  destruct v as [|v]; cbn [upd filter].
  - destruct (Nat.eqb x 0) eqn:E; [apply Nat.eqb_eq in E; contradiction|].
    destruct (Nat.eqb a 0); cbn [length]; lia.
  - specialize (IH v x Hx). destruct (Nat.eqb a 0); cbn [length]; lia.
Qed.

Lemma whites_upd_white : forall c v x, x <> 0 -> v < length c -> nth v c 0 = 0 ->
  S (whites (upd v x c)) = whites c.
Proof.
  unfold whites. induction c as [|a r IH]; intros v x Hx Hv Hw; cbn [length] in Hv; [lia|].
  destruct v as [|v]; cbn [upd filter nth] in *.
  - subst a. cbn [Nat.eqb]. destruct (Nat.eqb x 0) eqn:E; [apply Nat.eqb_eq in E; contradiction|].
    cbn [length]. reflexivity.
  - assert (Hv' : v < length r) by lia. specialize (IH v x Hx Hv' Hw).
    destruct (Nat.eqb a 0); cbn [length]; lia.
Qed.

Lemma visit_measure : forall nbrs n c p q c' p' q',
  (forall v, In v nbrs -> v < length c) ->
  bfs_visit nbrs n c p q = (c', p', q') ->
  whites c' + length q' = whites c + length q /\ length c' = length c.
Proof.
  induction nbrs as [|v r IH]; intros n c p q c' p' q' Hr H; cbn [bfs_visit] in H.
  - inversion H; subst. split; reflexivity.
  - assert (Hv : v < length c) by (apply Hr; left; reflexivity).
    destruct (Nat.eqb (nth v c 0) 0) eqn:E.
    + apply Nat.eqb_eq in E.
      assert (Hr' : forall x, In x r -> x < length (upd v 1 c)) by (intros x Hx; rewrite length_upd; apply Hr; right; exact Hx).
      destruct (IH _ _ _ _ _ _ _ Hr' H) as [H1 H2]. rewrite length_upd in H2. split; [|exact H2].
      rewrite H1, app_length. cbn [length].
      pose proof (whites_upd_white c v 1 (Nat.neq_succ_0 0) Hv E). lia.
    + apply (IH _ _ _ _ _ _ _ (fun x Hx => Hr x (or_intror Hx)) H).
Qed.

Lemma loop_total : forall fuel c p q,
  length c = dim -> whites c + length q <= fuel -> bfs_loop fuel rg c p q <> None.
Proof.
  induction fuel as [|fuel IH]; intros c p q Hc Hm.
  - destruct q as [|n q]; cbn [bfs_loop]; [discriminate | cbn [length] in Hm; lia].
  - destruct q as [|n q]; cbn [bfs_loop]; [discriminate|].
    destruct (bfs_visit (adj rg n) n c p q) as [[c1 p1] q1] eqn:Ev.
    assert (Hr : forall v, In v (adj rg n) -> v < length c) by (intros v Hv; rewrite Hc; apply (Hrange n v Hv)).
    destruct (visit_measure _ _ _ _ _ _ _ _ Hr Ev) as [H1 H2].
    apply IH.
    + rewrite length_upd, H2. exact Hc.
    + pose proof (whites_upd_le c1 n 2 (Nat.neq_succ_0 1)). cbn [length] in Hm. lia.
Qed.

Lemma bfs_total : bfs rg 0 <> None.
Proof.
  unfold bfs. rewrite Hlen. apply loop_total.
  - rewrite length_upd. apply repeat_length.
  - pose proof (whites_upd_le (repeat 0 dim) 0 1 (Nat.neq_succ_0 0)) as H1.
    pose proof (filter_length_le (fun x => Nat.eqb x 0) (repeat 0 dim)) as H2. rewrite repeat_length in H2.
    fold (whites (repeat 0 dim)) in H2. cbn [length]. lia.
Qed.

(* [seen]: the vertices already walked through; they lie on higher levels than [v], so they are
   distinct, and there are at most [dim] of them *)
Lemma walk_total : forall c d tree,
  BInv c tree [] d None ->
  forall fuel v seen acc,
    col c v <> 0 -> NoDup seen -> (forall x, In x seen -> x < dim /\ d v < d x) ->
    dim <= fuel + length seen -> walk_back fuel tree v acc <> None.
Proof.
  intros c d tree [Ilc _ _ _ _ _ Ic _ Ip].
  assert (Hcons : forall v seen, col c v <> 0 -> NoDup seen -> (forall x, In x seen -> x < dim /\ d v < d x) ->
            NoDup (v :: seen) /\ forall x, In x (v :: seen) -> x < dim).
  { intros v seen Hv Hnd Hs. split.
    - constructor; [|exact Hnd]. intro Hin. destruct (Hs _ Hin). lia.
    - intros x [<-|Hx]; [exact (col_lt c _ Ilc Hv) | apply (Hs x Hx)]. }
  induction fuel as [|fuel IH]; intros v seen acc Hv Hnd Hs Hf;
    (destruct v as [|v]; cbn [walk_back]; [discriminate|]); destruct (Hcons _ _ Hv Hnd Hs) as [Hnd' Hb].
  - exfalso. pose proof (NoDup_bounded_length _ _ Hnd' Hb) as Hl. cbn [length] in Hl. lia.
  - destruct (nth (S v) tree None) as [u|] eqn:Eu.
    + destruct (Ip (S v) u Eu) as [_ [Hu Hd]]. apply (IH u (S v :: seen)).
      * exact Hu.
      * exact Hnd'.
      * intros x Hx. split; [apply Hb, Hx|]. destruct Hx as [<-|Hx]; [lia | destruct (Hs x Hx); lia].
      * cbn [length]. lia.
    + exfalso. apply (Ic (S v)) in Hv. destruct Hv as [Hv|Hv]; [discriminate | exact (Hv Eu)].
Qed.

Theorem bfs_walk_total : forall tree v acc,
  bfs rg 0 = Some tree -> reached tree v = true -> walk_back dim tree v acc <> None.
Proof.
  intros tree v acc H Hv. unfold bfs in H. rewrite Hlen in H.
  destruct (loop_spec _ _ _ _ _ _ init_inv H) as [c [d I]].
  apply (walk_total c d tree I dim v [] acc).
  - apply (bi_c _ _ _ _ _ I). unfold reached in Hv. destruct v as [|v]; [left; reflexivity|].
    right. unfold prd. destruct (nth (S v) tree None); discriminate.
  - constructor.
  - intros x [].
  - cbn [length]. lia.
Qed.

End Bfs.
