(* _reindex / _flow_network_for: the graph built from a servermap is a layered
   network whose server rows are the servermap's share lists under an injective
   numbering of the shares. *)
From Coq Require Import List NArith ZArith Bool Arith Lia.
From Verif Require Import Model.Matching Proofs.Matching Proofs.MatchingLists Proofs.MatchingAugment.
Import ListNotations.

(* the table while it is built: distinct shares, numbered base, base+1, ... in order of insertion,
   the newest in front *)
Definition tbl_inv (base : nat) (tbl : list (N * nat)) : Prop :=
  NoDup (map fst tbl) /\ map snd tbl = rev (seq base (length tbl)).

Lemma lookup_idx_In : forall s tbl i, lookup_idx s tbl = Some i -> In (s, i) tbl.
Proof.
  intros s. induction tbl as [|[k j] r IH]; intros i H; cbn [lookup_idx] in H; [discriminate|].
  destruct (N.eqb s k) eqn:E.
  - apply N.eqb_eq in E. subst k. inversion H; subst. left. reflexivity.
  - right. apply IH. exact H.
Qed.

Lemma lookup_idx_None : forall s tbl, lookup_idx s tbl = None <-> ~ In s (map fst tbl).
Proof.
  intros s. induction tbl as [|[k j] r IH]; cbn [lookup_idx map fst In].
  - split; [intros _ [] | reflexivity].
  - destruct (N.eqb s k) eqn:E.
    + apply N.eqb_eq in E. subst k. split; [discriminate | intros H; exfalso; apply H; left; reflexivity].
    + apply N.eqb_neq in E. rewrite IH. split.
      * intros H [H1|H1]; [apply E; symmetry; exact H1 | contradiction].
      * intros H H1. apply H. right. exact H1.
Qed.

Lemma lookup_idx_app_r : forall s new tbl, ~ In s (map fst new) -> lookup_idx s (new ++ tbl) = lookup_idx s tbl.
Proof.
  intros s. induction new as [|[k j] r IH]; intros tbl H; cbn [app lookup_idx]; [reflexivity|].
  cbn [map fst In] in H. destruct (N.eqb s k) eqn:E.
  - apply N.eqb_eq in E. exfalso. apply H. left. symmetry. exact E.
  - apply IH. intro H1. apply H. right. exact H1.
Qed.

Lemma idx_of_stable : forall new tbl s, NoDup (map fst (new ++ tbl)) -> In s (map fst tbl) ->
  idx_of (new ++ tbl) s = idx_of tbl s.
Proof.
  intros new tbl s Hnd Hs. unfold idx_of. rewrite lookup_idx_app_r; [reflexivity|].
  rewrite map_app in Hnd. apply NoDup_app_iff in Hnd. destruct Hnd as [_ [_ D]].
  intro Hn. exact (D s Hn Hs).
Qed.

Lemma tbl_inv_range : forall base tbl s i, tbl_inv base tbl -> In (s, i) tbl -> base <= i < base + length tbl.
Proof.
  intros base tbl s i [_ H] Hin.
  assert (Hi : In i (map snd tbl)) by (apply in_map_iff; exists (s, i); split; [reflexivity | exact Hin]).
  rewrite H in Hi. apply in_rev in Hi. apply in_seq in Hi. exact Hi.
Qed.

Lemma tbl_inv_snd_NoDup : forall base tbl, tbl_inv base tbl -> NoDup (map snd tbl).
Proof. intros base tbl [_ H]. rewrite H. apply NoDup_rev. apply seq_NoDup. Qed.

Lemma idx_of_In : forall tbl s, In s (map fst tbl) -> In (s, idx_of tbl s) tbl.
Proof.
  intros tbl s Hs. unfold idx_of. destruct (lookup_idx s tbl) as [i|] eqn:E.
  - apply lookup_idx_In. exact E.
  - apply lookup_idx_None in E. contradiction.
Qed.

Lemma idx_of_inj : forall base tbl s s', tbl_inv base tbl ->
  In s (map fst tbl) -> In s' (map fst tbl) -> idx_of tbl s = idx_of tbl s' -> s = s'.
Proof.
  intros base tbl s s' HT Hs Hs' E.
  pose proof (NoDup_map_In_inj snd tbl _ _ (tbl_inv_snd_NoDup _ _ HT)
                (idx_of_In tbl s Hs) (idx_of_In tbl s' Hs') E) as Ep.
  congruence.
Qed.

Lemma assign_spec : forall shs base tbl tbl' num',
  tbl_inv base tbl -> assign shs tbl (base + length tbl) = (tbl', num') ->
  tbl_inv base tbl' /\ num' = base + length tbl' /\ (exists new, tbl' = new ++ tbl) /\
  (forall s, In s shs -> In s (map fst tbl')).
Proof.
  induction shs as [|s r IH]; intros base tbl tbl' num' HT H; cbn [assign] in H.
  - injection H as <- <-. split; [exact HT|]. split; [reflexivity|]. split; [exists []; reflexivity | intros s []].
  - destruct (lookup_idx s tbl) as [i|] eqn:El.
    + destruct (IH _ _ _ _ HT H) as [H1 [H2 [[new H3] H4]]].
      split; [exact H1|]. split; [exact H2|]. split; [exists new; exact H3|].
      intros x [<-|Hx]; [|apply H4; exact Hx]. subst tbl'. rewrite map_app. apply in_app_iff. right.
      apply lookup_idx_In in El. apply (in_map fst _ _ El).
    + apply lookup_idx_None in El.
      assert (HT' : tbl_inv base ((s, base + length tbl) :: tbl)).
      { destruct HT as [T1 T2]. split.
        - cbn [map fst]. constructor; assumption.
        - cbn [map snd length]. rewrite T2, seq_S, rev_app_distr. reflexivity. }
      replace (S (base + length tbl)) with (base + length ((s, base + length tbl) :: tbl)) in H by (cbn [length]; lia).
      destruct (IH _ _ _ _ HT' H) as [H1 [H2 [[new H3] H4]]].
      split; [exact H1|]. split; [exact H2|]. split.
      * exists (new ++ [(s, base + length tbl)]). rewrite <- app_assoc. exact H3.
      * intros x [<-|Hx]; [|apply H4; exact Hx]. subst tbl'. rewrite map_app. apply in_app_iff. right.
        left. reflexivity.
Qed.

Lemma reindex_rows_spec : forall rows base tbl rs t,
  tbl_inv base tbl -> reindex_rows rows tbl (base + length tbl) = (rs, t) ->
  tbl_inv base t /\ (exists new, t = new ++ tbl) /\
  rs = map (map (idx_of t)) rows /\
  (forall shs s, In shs rows -> In s shs -> In s (map fst t)).
Proof.
  induction rows as [|shs r IH]; intros base tbl rs t HT H; cbn [reindex_rows] in H.
  - injection H as <- <-. split; [exact HT|]. split; [exists []; reflexivity|]. split; [reflexivity | intros shs s []].
  - destruct (assign shs tbl (base + length tbl)) as [tbl' num'] eqn:Ea.
    destruct (assign_spec _ _ _ _ _ HT Ea) as [A1 [-> [[new1 A3] A4]]].
    destruct (reindex_rows r tbl' (base + length tbl')) as [rs' t'] eqn:Er.
    injection H as <- <-.
    destruct (IH _ _ _ _ A1 Er) as [R1 [[new2 R2] [R3 R4]]].
    split; [exact R1|]. split; [exists (new2 ++ new1); rewrite <- app_assoc; subst; reflexivity|]. split.
    + cbn [map]. f_equal; [|exact R3].
      apply map_ext_in. intros s Hs. subst t'. symmetry. apply idx_of_stable; [apply R1 | apply A4; exact Hs].
    + intros l s [<-|Hl] Hs; [|apply (R4 l s Hl Hs)].
      subst t'. rewrite map_app. apply in_app_iff. right. apply A4. exact Hs.
Qed.

Definition wf_svm (svm : servermap) : Prop :=
  NoDup (map fst svm) /\ forall p l, In (p, l) svm -> NoDup l.

Section Network.
Variable svm : servermap.
Hypothesis Hwf : wf_svm svm.

Let g := fst (flow_network_for svm).
Let tbl := snd (flow_network_for svm).
Let ns := length svm.
Let nsh := length tbl.

Definition server_rows : list (list nat) := map (map (idx_of tbl)) (map snd svm).

Lemma tbl_facts :
  tbl_inv (S ns) tbl /\
  (forall p l s, In (p, l) svm -> In s l -> In s (map fst tbl)) /\
  g = (seq 1 ns :: server_rows) ++ repeat [ns + nsh + 1] nsh ++ [[]].
Proof.
  unfold g, server_rows, tbl, nsh, tbl, flow_network_for. fold ns.
  destruct (reindex_rows (map snd svm) [] (S ns)) as [rows tb] eqn:Er. cbn [fst snd].
  assert (HT0 : tbl_inv (S ns) []) by (split; [constructor | reflexivity]).
  replace (S ns) with (S ns + length (@nil (N * nat))) in Er by (cbn [length]; lia).
  destruct (reindex_rows_spec _ _ _ _ _ HT0 Er) as [R1 [_ [R3 R4]]].
  split; [exact R1|]. split; [|rewrite R3; reflexivity].
  intros p l s Hin Hs. apply (R4 l s); [|exact Hs]. apply in_map_iff. exists (p, l). split; [reflexivity | exact Hin].
Qed.

Lemma adj_server : forall k p l, nth_error svm k = Some (p, l) -> adj g (S k) = map (idx_of tbl) l.
Proof.
  intros k p l Hk. destruct tbl_facts as [_ [_ Eg]].
  assert (Hr : nth_error server_rows k = Some (map (idx_of tbl) l)).
  { apply (map_nth_error (map (idx_of tbl))). exact (map_nth_error snd _ _ Hk). }
  rewrite Eg. unfold adj. cbn [app nth].
  rewrite app_nth1 by (apply nth_error_Some; rewrite Hr; discriminate).
  apply nth_error_nth. exact Hr.
Qed.

Lemma network_is_net : Net g ns nsh.
Proof.
  destruct tbl_facts as [HT [Hkeys Eg]].
  assert (Lr : length server_rows = ns) by (unfold server_rows; rewrite !map_length; reflexivity).
  constructor.
  - rewrite Eg. rewrite !app_length, repeat_length. cbn [length]. lia.
  - rewrite Eg. reflexivity.
  - intros i Hi. destruct i as [|k]; [lia|].
    assert (Hk : k < length svm) by (fold ns; lia).
    destruct (nth_error svm k) as [[p l]|] eqn:Ek; [|apply nth_error_None in Ek; lia].
    rewrite (adj_server k p l Ek).
    assert (Hin : In (p, l) svm) by (eapply nth_error_In; exact Ek).
    split.
    + intros s Hs. apply in_map_iff in Hs. destruct Hs as [x [Ex Hx]]. subst s.
      pose proof (idx_of_In tbl x (Hkeys p l x Hin Hx)) as Hi'.
      pose proof (tbl_inv_range _ _ _ _ HT Hi') as Hr. fold nsh in Hr. lia.
    + apply NoDup_map_inj; [apply (proj2 Hwf p l Hin)|].
      intros x y Hx Hy. apply (idx_of_inj (S ns) tbl x y HT (Hkeys p l x Hin Hx) (Hkeys p l y Hin Hy)).
  - intros s Hs. rewrite Eg. unfold adj.
    rewrite app_nth2 by (cbn [length]; lia). cbn [length]. rewrite Lr.
    rewrite app_nth1 by (rewrite repeat_length; lia).
    apply nth_repeat_lt. lia.
  - rewrite Eg. unfold adj.
    rewrite app_nth2 by (cbn [length]; lia). cbn [length]. rewrite Lr.
    rewrite app_nth2 by (rewrite repeat_length; lia). rewrite repeat_length.
    replace (ns + nsh + 1 - S ns - nsh) with 0 by lia. reflexivity.
Qed.

Fixpoint posN (p : N) (keys : list N) : nat :=
  match keys with
  | [] => 0
  | k :: r => if N.eqb p k then 0 else S (posN p r)
  end.

Lemma posN_nth_error : forall (l : servermap) p shs,
  NoDup (map fst l) -> In (p, shs) l -> nth_error l (posN p (map fst l)) = Some (p, shs).
Proof.
  induction l as [|[k v] r IH]; intros p shs Hnd Hin; [destruct Hin|].
  cbn [map fst posN]. cbn [map fst] in Hnd. inversion Hnd as [|x y Hn Hr]; subst.
  destruct (N.eqb p k) eqn:E.
  - apply N.eqb_eq in E. subst k. destruct Hin as [Hin|Hin]; [inversion Hin; subst; reflexivity|].
    exfalso. apply Hn. apply in_map_iff. exists (p, shs). split; [reflexivity | exact Hin].
  - apply N.eqb_neq in E. destruct Hin as [Hin|Hin]; [inversion Hin; subst; contradiction|].
    cbn [nth_error]. apply IH; assumption.
Qed.

Lemma posN_inj : forall keys p q, In p keys -> In q keys -> posN p keys = posN q keys -> p = q.
Proof.
  induction keys as [|k r IH]; intros p q Hp Hq E; [destruct Hp|].
  cbn [posN] in E. destruct (N.eqb p k) eqn:Ep; destruct (N.eqb q k) eqn:Eq.
  - apply N.eqb_eq in Ep. apply N.eqb_eq in Eq. subst. reflexivity.
  - discriminate.
  - discriminate.
  - apply N.eqb_neq in Ep. apply N.eqb_neq in Eq.
    destruct Hp as [Hp|Hp]; [exfalso; apply Ep; symmetry; exact Hp|].
    destruct Hq as [Hq|Hq]; [exfalso; apply Eq; symmetry; exact Hq|].
    apply IH; [assumption | assumption | lia].
Qed.

Definition vmap (e : N * N) : nat * nat := (S (posN (fst e) (map fst svm)), idx_of tbl (snd e)).

Lemma edge_vertex : forall p s, edge svm p s ->
  server ns (S (posN p (map fst svm))) /\ E g (S (posN p (map fst svm))) (idx_of tbl s) /\
  In p (map fst svm) /\ In s (map fst tbl).
Proof.
  intros p s [l [Hin Hs]]. destruct tbl_facts as [_ [Hkeys _]].
  pose proof (posN_nth_error svm p l (proj1 Hwf) Hin) as Hn.
  assert (Hlt : posN p (map fst svm) < ns) by (apply nth_error_Some; rewrite Hn; discriminate).
  split; [unfold server; lia|]. split.
  - unfold E. rewrite (adj_server _ p l Hn). apply in_map. exact Hs.
  - split; [apply in_map_iff; exists (p, l); split; [reflexivity | exact Hin] | apply (Hkeys p l s Hin Hs)].
Qed.

End Network.
