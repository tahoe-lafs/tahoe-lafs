(* Order on bucket names, sorting, and the per-directory step of the crawler
   (process_prefixdir). *)
From Coq Require Import List NArith Bool Arith Lia Sorting.Sorted.
From Verif Require Import Lib.ListFacts Model.Crawler.
Import ListNotations.

(* lexicographic, letter by letter *)
Lemma name_leb_cons x a y b :
  name_leb (x :: a) (y :: b) =
  match (x ?= y)%N with Lt => true | Eq => name_leb a b | Gt => false end.
Proof. cbn. unfold N.ltb. rewrite N.eqb_compare. destruct (x ?= y)%N; reflexivity. Qed.

Lemma name_leb_refl a : name_leb a a = true.
Proof.
  induction a as [|x a IH]; [reflexivity|]. rewrite name_leb_cons, N.compare_refl. exact IH.
Qed.

Lemma name_leb_total a b : name_leb a b = true \/ name_leb b a = true.
Proof.
  revert b; induction a as [|x a IH]; intros [|y b]; auto.
  rewrite !name_leb_cons, (N.compare_antisym x y). destruct (x ?= y)%N; cbn; auto.
Qed.

Lemma name_leb_trans a b c : name_leb a b = true -> name_leb b c = true -> name_leb a c = true.
Proof.
  revert b c; induction a as [|x a IH]; intros [|y b] [|z c]; auto; try discriminate.
  rewrite !name_leb_cons.
  destruct (N.compare_spec x y) as [->|Lxy|]; [|intros _|discriminate].
  - destruct (y ?= z)%N; [apply IH|reflexivity|discriminate].
  - destruct (N.compare_spec y z) as [<-|Lyz|]; [| |discriminate]; intros _.
    + rewrite (proj2 (N.compare_lt_iff x y) Lxy). reflexivity.
    + rewrite (proj2 (N.compare_lt_iff x z) (N.lt_trans _ _ _ Lxy Lyz)). reflexivity.
Qed.

Lemma name_leb_antisym a b : name_leb a b = true -> name_leb b a = true -> a = b.
Proof.
  revert b; induction a as [|x a IH]; intros [|y b]; auto; try discriminate.
  rewrite !name_leb_cons, (N.compare_antisym x y).
  destruct (N.compare_spec x y) as [->| |]; cbn; try discriminate.
  intros H1 H2. f_equal. exact (IH b H1 H2).
Qed.

Definition nlt (a b : name) : Prop := name_leb b a = false.

Lemma nlt_leb a b : nlt a b -> name_leb a b = true.
Proof. unfold nlt; intros H. destruct (name_leb_total a b) as [E|E]; [exact E|congruence]. Qed.

Lemma nlt_irrefl a : ~ nlt a a.
Proof. unfold nlt. rewrite name_leb_refl. discriminate. Qed.

Lemma leb_nlt_trans a b c : name_leb a b = true -> nlt b c -> nlt a c.
Proof.
  unfold nlt; intros H1 H2. destruct (name_leb c a) eqn:E; [|reflexivity].
  rewrite (name_leb_trans c a b E H1) in H2. discriminate.
Qed.

Lemma nlt_leb_trans a b c : nlt a b -> name_leb b c = true -> nlt a c.
Proof.
  unfold nlt; intros H1 H2. destruct (name_leb c a) eqn:E; [|reflexivity].
  rewrite (name_leb_trans b c a H2 E) in H1. discriminate.
Qed.

Lemma nlt_trans a b c : nlt a b -> nlt b c -> nlt a c.
Proof. intros H1 H2. eapply leb_nlt_trans; [apply nlt_leb; exact H1|exact H2]. Qed.

Lemma leb_neq_nlt a b : name_leb a b = true -> a <> b -> nlt a b.
Proof.
  unfold nlt; intros H N. destruct (name_leb b a) eqn:E; [|reflexivity].
  exfalso; apply N; apply name_leb_antisym; assumption.
Qed.

(* Names that begin with different, equally long directory prefixes compare as
   the prefixes do. *)
Lemma prefix_order p q : length p = length q -> nlt p q ->
  forall a b, is_prefix p a = true -> is_prefix q b = true -> nlt a b.
Proof.
  unfold nlt. revert q; induction p as [|x p IH]; intros [|y q] L H a b Ha Hb; cbn in *; try discriminate.
  destruct a as [|x' a]; [discriminate|]. destruct b as [|y' b]; [discriminate|].
  apply andb_true_iff in Ha as [Hx Ha]. apply andb_true_iff in Hb as [Hy Hb].
  apply N.eqb_eq in Hx, Hy. subst x' y'. cbn.
  destruct (N.ltb y x); [discriminate|].
  destruct (N.eqb y x); [|reflexivity].
  apply (IH q); [injection L; auto|exact H|exact Ha|exact Hb].
Qed.

Lemma insert_In x l y : In y (insert x l) <-> y = x \/ In y l.
Proof.
  induction l as [|z l IH]; cbn.
  - intuition.
  - destruct (name_leb x z); cbn; [intuition|]. rewrite IH. intuition.
Qed.

Lemma isort_In l y : In y (isort l) <-> In y l.
Proof.
  induction l as [|z l IH]; cbn; [tauto|]. rewrite insert_In, IH. intuition.
Qed.

Lemma insert_sorted x l : StronglySorted nlt l -> ~ In x l -> StronglySorted nlt (insert x l).
Proof.
  induction l as [|z l IH]; intros S NI; cbn.
  - constructor; constructor.
  - inversion S as [|? ? S' F]; subst.
    destruct (name_leb x z) eqn:E.
    + assert (nlt x z) by (apply leb_neq_nlt; [exact E|intros ->; apply NI; left; reflexivity]).
      constructor; [exact S|]. constructor; [assumption|].
      rewrite Forall_forall in *. intros w Hw. eapply nlt_trans; eauto.
    + constructor.
      * apply IH; [exact S'|]. intros I; apply NI; right; exact I.
      * rewrite Forall_forall in *. intros w Hw. apply insert_In in Hw as [->|Hw]; [exact E|auto].
Qed.

Lemma isort_sorted l : NoDup l -> StronglySorted nlt (isort l).
Proof.
  induction 1 as [|x l NI ND IH]; cbn; [constructor|].
  apply insert_sorted; [exact IH|]. rewrite isort_In. exact NI.
Qed.

Lemma sorted_NoDup l : StronglySorted nlt l -> NoDup l.
Proof.
  induction 1 as [|x l S IH F]; constructor; [|exact IH].
  intros I. rewrite Forall_forall in F. exact (nlt_irrefl x (F x I)).
Qed.

Definition notskip (lcb : option name) (b : name) : bool := negb (skips lcb b).

Lemma notskip_above lcb b e : skips lcb b = false -> nlt b e -> notskip lcb e = true.
Proof.
  unfold notskip, skips. destruct lcb as [l|]; [|reflexivity].
  intros H1 H2. assert (nlt l e) by (eapply nlt_trans; [exact H1|exact H2]).
  unfold nlt in H. rewrite H. reflexivity.
Qed.

(* What holds of any listing, sorted or not: only names not skipped on entry are
   processed; a name skipped on entry stays skipped; a listing gone through to
   its end lies at or below the new last-complete-bucket; and a slice that is
   never told its time is up goes through to the end. *)
Lemma ppd_any c i d : forall lcb o evs lcb' o' x,
  process_prefixdir c i d lcb o = (evs, lcb', o', x) ->
  (forall e, In e evs -> exists b, e = EProc c i b /\ skips lcb b = false) /\
  (forall a, skips lcb a = true -> skips lcb' a = true) /\
  (x = false -> forall z, In z d -> skips lcb' z = true) /\
  (o = [] -> o' = [] /\ x = false).
Proof.
  induction d as [|b r IH]; intros lcb o evs lcb' o' x H; cbn in H.
  - injection H as <- <- <- <-. repeat split; auto; intros ? [].
  - destruct (skips lcb b) eqn:Sk.
    + destruct (IH _ _ _ _ _ _ H) as (A & B & C & D).
      split; [exact A|]. split; [exact B|]. split; [|exact D].
      intros X z [<-|I]; [exact (B _ Sk)|exact (C X z I)].
    + assert (Up : forall a, skips lcb a = true -> skips (Some b) a = true).
      { destruct lcb as [l|]; [|discriminate]. intros a Sa.
        exact (nlt_leb a b (leb_nlt_trans a l b Sa Sk)). }
      assert (A0 : exists b0, EProc c i b = EProc c i b0 /\ skips lcb b0 = false)
        by (exists b; split; [reflexivity|exact Sk]).
      destruct (tick o) as [up o1] eqn:T. destruct up.
      * injection H as <- <- <- <-.
        split; [intros e [<-|[]]; exact A0|]. split; [exact Up|]. split; [discriminate|].
        intros ->. discriminate T.
      * destruct (process_prefixdir c i r (Some b) o1) as [[[ev1 l1] o2] x1] eqn:P.
        injection H as <- <- <- <-. destruct (IH _ _ _ _ _ _ P) as (A & B & C & D).
        split; [|split; [|split]].
        -- intros e [<-|I]; [exact A0|]. destruct (A e I) as (b2 & E & S2).
           exists b2. split; [exact E|]. destruct (skips lcb b2) eqn:S3; [|reflexivity].
           rewrite (Up b2 S3) in S2. discriminate S2.
        -- intros a Sa. exact (B a (Up a Sa)).
        -- intros X z [<-|I]; [apply B; cbn; apply name_leb_refl|exact (C X z I)].
        -- intros ->. injection T as <-. apply D. reflexivity.
Qed.

Lemma filter_notskip_cons lcb b r :
  filter (notskip lcb) (b :: r) =
  if skips lcb b then filter (notskip lcb) r else b :: filter (notskip lcb) r.
Proof. cbn [filter]. unfold notskip at 1. destruct (skips lcb b); reflexivity. Qed.

(* On a strictly increasing listing the names still to be processed are those
   above last-complete-bucket; the call processes an initial stretch of them
   and, when its time is up, leaves those above the new last-complete-bucket,
   which is the old one or a name of the listing. *)
Lemma ppd_spec c i d : StronglySorted nlt d ->
  forall lcb o evs lcb' o' x,
  process_prefixdir c i d lcb o = (evs, lcb', o', x) ->
  (lcb' = lcb \/ exists b, lcb' = Some b /\ In b d) /\
  exists done,
    evs = map (EProc c i) done /\
    filter (notskip lcb) d = done ++ (if x then filter (notskip lcb') d else []).
Proof.
  induction 1 as [|b r S IH F]; intros lcb o evs lcb' o' x H; cbn in H.
  - injection H as <- <- <- <-. split; [left; reflexivity|]. exists []. split; reflexivity.
  - rewrite Forall_forall in F. destruct (skips lcb b) eqn:Sk.
    + pose proof (proj1 (proj2 (ppd_any _ _ _ _ _ _ _ _ _ H)) b Sk) as Sk'.
      destruct (IH _ _ _ _ _ _ H) as (Prov & done & E1 & E2).
      split; [destruct Prov as [->|(b2 & -> & I2)]; eauto using in_cons|].
      exists done. split; [exact E1|]. rewrite !filter_notskip_cons, Sk, Sk'. exact E2.
    + assert (R1 : filter (notskip lcb) r = r).
      { apply filter_all_true. intros e He. eapply notskip_above; [exact Sk|apply F; exact He]. }
      assert (R2 : filter (notskip (Some b)) r = r).
      { apply filter_all_true. intros e He. unfold notskip; cbn. rewrite (F e He). reflexivity. }
      destruct (tick o) as [[] o1].
      * injection H as <- <- <- <-. split; [eauto using in_eq|].
        exists [b]. split; [reflexivity|].
        rewrite !filter_notskip_cons, Sk. cbn [skips]. rewrite name_leb_refl, R1, R2. reflexivity.
      * destruct (process_prefixdir c i r (Some b) o1) as [[[ev1 l1] o2] x1] eqn:P.
        injection H as <- <- <- <-.
        pose proof (proj1 (proj2 (ppd_any _ _ _ _ _ _ _ _ _ P)) b (name_leb_refl b)) as Sk'.
        destruct (IH _ _ _ _ _ _ P) as (Prov & done & -> & E2). rewrite R2 in E2.
        split; [right; destruct Prov as [->|(b2 & -> & I2)]; eauto using in_eq, in_cons|].
        exists (b :: done). split; [reflexivity|].
        rewrite !filter_notskip_cons, Sk, Sk', R1. cbn. f_equal. exact E2.
Qed.
