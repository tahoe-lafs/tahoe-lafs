(* Soundness of the download validation pipeline (Model/ImmVerify.v): whatever the shares
   contain and however their contents change between calls, the node keeps only genuine
   hash-tree nodes, an accepted block is the uploader's block, a delivered segment is the
   uploader's ciphertext segment. *)
From Coq Require Import List ZArith NArith Bool Lia.
From Verif Require Import Gen.ImmConsts Model.HashTree Model.ImmFile Model.ImmVerify
  Proofs.HashTreeBase Proofs.HashTree Proofs.HashTreeBuild Proofs.ImmVerifyTree.
Import ListNotations.
Local Open Scope Z_scope.

(* a well-formed encoded file: what Encoder guarantees about its own parameters *)
Record ef_wf (f : efile) : Prop := {
  wf_k : (1 <= ef_k f)%N;
  wf_seg : (1 <= ef_segsize f)%N;
  wf_mod : (ef_segsize f mod ef_k f = 0)%N;
  wf_blocks : length (ef_blocks f) = N.to_nat (d_num_segments (calculate_sizes (ef_size f) (ef_k f) (ef_segsize f)));
  wf_segs : length (ef_segs f) = N.to_nat (d_num_segments (calculate_sizes (ef_size f) (ef_k f) (ef_segsize f))) }.

Section Soundness.
  Variable H : Type.
  Variable H_eqb : H -> H -> bool.
  Variable pair_hash : H -> H -> H.
  Variable truthy : H -> bool.
  Variable empty_leaf : Z -> H.
  Variable block_hash : list N -> H.
  Variable seg_hash : list N -> H.
  Variable UB : Type.
  Variable ueb_hash : UB -> H.
  Variable parse_ueb : UB -> option (ueb H).
  Variable dec : N -> N -> list (N * list N) -> list (list N).
  Variable ser_ueb : ueb H -> UB.

  Hypothesis H_eqb_spec : forall a b, H_eqb a b = true <-> a = b.
  Hypothesis all_truthy_H : forall h, truthy h = true.
  Hypothesis pair_inj : forall a b c d, pair_hash a b = pair_hash c d -> a = c /\ b = d.
  Hypothesis block_inj : forall a b, block_hash a = block_hash b -> a = b.
  Hypothesis seg_inj : forall a b, seg_hash a = seg_hash b -> a = b.
  Hypothesis ueb_inj : forall a b, ueb_hash a = ueb_hash b -> a = b.
  Hypothesis parse_ser : forall u, parse_ueb (ser_ueb u) = Some u.

  Variable f : efile.
  Variable key : list N.
  Hypothesis Hwf : ef_wf f.

  Notation c := (g_cap H pair_hash empty_leaf block_hash seg_hash UB ueb_hash ser_ueb key f).
  Notation set_hashes := (set_hashes H H_eqb pair_hash truthy).
  Notation TreeOK := (TreeOK H).
  Notation merkle := (merkle H pair_hash).
  Notation mk_tree := (mk_tree H pair_hash empty_leaf).
  Notation node_of := (node_of H empty_leaf).
  Notation get_block := (get_block H H_eqb pair_hash truthy block_hash UB ueb_hash parse_ueb).
  Notation decode_and_check := (decode_and_check H H_eqb pair_hash truthy seg_hash dec).
  Notation fetch_segment := (fetch_segment H H_eqb pair_hash truthy block_hash seg_hash UB ueb_hash parse_ueb dec).
  Notation collect_blocks := (collect_blocks H H_eqb pair_hash truthy block_hash UB ueb_hash parse_ueb).
  Notation serve := (serve H H_eqb pair_hash truthy block_hash seg_hash UB ueb_hash parse_ueb dec).
  Notation step_accepted := (step_accepted H H_eqb pair_hash truthy H_eqb_spec all_truthy_H pair_inj).
  Notation step_keeps := (step_keeps H H_eqb pair_hash truthy H_eqb_spec all_truthy_H pair_inj).

  (* nn: N, the number of shares; nseg: the number of segments.
     ns, nc: numbers of NODES: ns of the share hash tree (one leaf per share), nc of the crypttext
     hash tree and of each block hash tree (one leaf per segment).
     Gs, Gc, Gb s: the uploader's share hash tree, crypttext hash tree and block hash tree of
     share s, as functions from node number to hash. *)
  Definition nn : Z := Z.of_N (ef_n f).
  Definition nseg : Z := Z.of_N (d_num_segments (calculate_sizes (ef_size f) (ef_k f) (ef_segsize f))).
  Definition ns : Z := 2 * roundup_pow2 nn - 1.
  Definition nc : Z := 2 * roundup_pow2 nseg - 1.
  Definition Gs : Z -> H := node_of (g_sht H pair_hash empty_leaf block_hash f).
  Definition Gc : Z -> H := node_of (g_cht H pair_hash empty_leaf seg_hash f).
  Definition Gb (s : Z) : Z -> H := node_of (g_bht H pair_hash empty_leaf block_hash f s).
  Notation g_bht := (g_bht H pair_hash empty_leaf block_hash f).
  Notation g_sht := (g_sht H pair_hash empty_leaf block_hash f).
  Notation g_cht := (g_cht H pair_hash empty_leaf seg_hash f).

  Lemma ns_ge1 : 1 <= ns.
  Proof. unfold ns. pose proof (roundup_ge1 nn). lia. Qed.
  Lemma nc_ge1 : 1 <= nc.
  Proof. unfold nc. pose proof (roundup_ge1 nseg). lia. Qed.

  Lemma tree_facts : forall A (g : A -> H) (l : list A) d n, zlen l = n ->
    zlen (mk_tree (map g l)) = 2 * roundup_pow2 n - 1 /\
    merkle (node_of (mk_tree (map g l))) (2 * roundup_pow2 n - 1) /\
    (forall i, 0 <= i < n -> node_of (mk_tree (map g l)) (first_leaf_num n + i) = g (nth (Z.to_nat i) l d)).
  Proof.
    intros A g l d n <-.
    destruct (hash_tree_merkle H pair_hash empty_leaf (map g l) (empty_leaf 0)) as [M1 [M2 [_ M4]]].
    cbv zeta in M1, M2, M4. fold (mk_tree (map g l)) in M1, M2, M4.
    replace (zlen (map g l)) with (zlen l) in * by (unfold zlen; rewrite map_length; reflexivity).
    split; [exact M1|]. split.
    - intros p Hp Hlt. apply M4; [exact Hp|rewrite M1; exact Hlt].
    - intros i Hi. etransitivity; [apply M2; exact Hi|].
      rewrite (nth_indep _ _ (g d)) by (rewrite map_length; unfold zlen in Hi; lia). apply map_nth.
  Qed.

  Lemma zlen_blocks : zlen (ef_blocks f) = nseg.
  Proof. unfold zlen, nseg. rewrite (wf_blocks f Hwf). lia. Qed.
  Lemma zlen_segs : zlen (ef_segs f) = nseg.
  Proof. unfold zlen, nseg. rewrite (wf_segs f Hwf). lia. Qed.

  Lemma bht_tree : forall s,
    zlen (g_bht s) = nc /\ merkle (Gb s) nc /\
    (forall j, 0 <= j < nseg -> Gb s (first_leaf_num nseg + j) = block_hash (gblock f s j)).
  Proof.
    intros s. exact (tree_facts _ (fun blocks => block_hash (nth (Z.to_nat s) blocks [])) (ef_blocks f) [] nseg zlen_blocks).
  Qed.

  Lemma sht_tree :
    zlen g_sht = ns /\ merkle Gs ns /\ (forall s, 0 <= s < nn -> Gs (first_leaf_num nn + s) = Gb s 0).
  Proof.
    destruct (tree_facts _ (fun i => nth 0 (g_bht (Z.of_nat i)) (empty_leaf 0)) (seq 0 (N.to_nat (ef_n f))) 0%nat nn) as [F1 [F2 F3]].
    { unfold zlen, nn. rewrite seq_length. lia. }
    split; [exact F1|]. split; [exact F2|]. intros s Hs. unfold Gs, ImmVerify.g_sht. rewrite (F3 s Hs).
    rewrite seq_nth by (unfold nn in Hs; lia). cbn [Nat.add]. rewrite Z2Nat.id by lia. reflexivity.
  Qed.

  Lemma cht_tree :
    zlen g_cht = nc /\ merkle Gc nc /\
    (forall j, 0 <= j < nseg -> Gc (first_leaf_num nseg + j) = seg_hash (gsegment f j)).
  Proof. exact (tree_facts _ seg_hash (ef_segs f) [] nseg zlen_segs). Qed.

  Definition bht_merkle s := proj1 (proj2 (bht_tree s)).
  Definition bht_leaf s := proj2 (proj2 (bht_tree s)).
  Definition sht_merkle := proj1 (proj2 sht_tree).
  Definition sht_leaf := proj2 (proj2 sht_tree).
  Definition cht_merkle := proj1 (proj2 cht_tree).
  Definition cht_leaf := proj2 (proj2 cht_tree).

  (* share_hash_tree.get_leaf(s), read from a genuine tree, is the root of share s's block hash tree *)
  Lemma sht_leaf_read : forall T s h, TreeOK Gs ns T -> 0 <= s < nn ->
    get T (first_leaf_num nn + s) = Some (Some h) -> h = Gb s 0.
  Proof.
    intros T s h HT Hs Hg. pose proof (fl_leaf_range nn s Hs) as Hr.
    rewrite (get_valid _ _ _ (get_some_valid _ _ _ _ Hg)), normz_nonneg in Hg by lia. injection Hg as Hg.
    rewrite (tk_gen _ _ _ _ HT (first_leaf_num nn + s) h ltac:(lia) Hg). apply sht_leaf, Hs.
  Qed.

  (* a block whose hash a genuine block hash tree accepts as leaf j is the uploader's *)
  Lemma accepted_block : forall s T j b ord T1, 0 <= j < nseg -> TreeOK (Gb s) nc T ->
    set_hashes (first_leaf_num nseg) T [] [(j, block_hash b)] ord = Accepted H T1 ->
    TreeOK (Gb s) nc T1 /\ b = gblock f s j.
  Proof.
    intros s T j b ord T1 Hj HT Hacc.
    destruct (step_accepted (Gb s) nc _ _ _ _ _ _ (bht_merkle s) HT Hacc) as [HT1 [V _]].
    split; [exact HT1|]. apply block_inj. rewrite <- (bht_leaf s j Hj).
    apply (V j _ (or_introl eq_refl) (fl_leaf_range nseg j Hj)).
  Qed.

  Lemma get0_fresh : forall nl, get (fresh_tree H nl) 0 = Some None.
  Proof.
    intros nl. unfold fresh_tree, iht_init. pose proof (roundup_ge1 nl).
    rewrite get_valid by (unfold validz, zlen; rewrite repeat_length; lia).
    unfold slot. rewrite nth_repeat. reflexivity.
  Qed.

  Lemma seed_root_fresh : forall nl h ord,
    seed_root H H_eqb pair_hash truthy nl (fresh_tree H nl) h ord = Accepted H (rooted H h (2 * roundup_pow2 nl - 1)).
  Proof.
    intros nl h ord. pose proof (roundup_ge1 nl).
    apply (seed_fresh H H_eqb pair_hash truthy); lia.
  Qed.

  Definition bht_ok (dn : dnode H) : Prop :=
    forall s T, bht_get H (dn_bht dn) s = Some T -> 0 <= s < nn -> TreeOK (Gb s) nc T.

  Definition node_inv (dn : dnode H) : Prop :=
    match dn_segsize dn with
    | None => dn_sht dn = fresh_tree H nn
    | Some ss => ss = ef_segsize f /\ TreeOK Gs ns (dn_sht dn) /\ TreeOK Gc nc (dn_cht dn) /\ bht_ok dn
    end.

  Lemma node_init_inv : node_inv (node_init H c).
  Proof. reflexivity. Qed.

  Lemma bht_get_put : forall l s T s', bht_get H (bht_put H l s T) s' = if s' =? s then Some T else bht_get H l s'.
  Proof.
    induction l as [|[k v] l IH]; intros s T s'; unfold bht_put in *; cbn [dict_set bht_get].
    - destruct (s' =? s); reflexivity.
    - destruct (s =? k) eqn:E.
      + apply Z.eqb_eq in E. subst k. cbn [bht_get]. destruct (s' =? s); reflexivity.
      + cbn [bht_get]. rewrite IH. destruct (s' =? k) eqn:E2; [|reflexivity].
        apply Z.eqb_eq in E2. subst k. destruct (s' =? s) eqn:E3; [|reflexivity].
        apply Z.eqb_eq in E3. subst s'. rewrite Z.eqb_refl in E. discriminate.
  Qed.

  Lemma node_nseg_eq : node_nseg H c (ef_segsize f) = nseg.
  Proof. reflexivity. Qed.

  Definition after_ueb (dn : dnode H) : Prop :=
    dn_segsize dn = Some (ef_segsize f) /\ TreeOK Gs ns (dn_sht dn) /\ TreeOK Gc nc (dn_cht dn) /\ bht_ok dn.

  Lemma after_ueb_iff : forall dn, after_ueb dn <-> node_inv dn /\ dn_segsize dn <> None.
  Proof.
    intros dn. unfold after_ueb, node_inv. destruct (dn_segsize dn) as [ss|]; split.
    - intros [E R]. injection E as ->. split; [split; [reflexivity|exact R]|discriminate].
    - intros [[-> R] _]. split; [reflexivity|exact R].
    - intros [E _]. discriminate.
    - intros [_ Hn]. congruence.
  Qed.

  Notation ueb_bytes := (ser_ueb (g_ueb H pair_hash empty_leaf block_hash seg_hash f)).

  (* the uploader's UEB passes validate_and_store_UEB, and both trees then hold their root *)
  Lemma store_ueb_genuine : forall dn o1 o2, dn_sht dn = fresh_tree H nn ->
    store_ueb H H_eqb pair_hash truthy UB ueb_hash parse_ueb c dn ueb_bytes o1 o2
    = inl (mkDn (Some (ef_segsize f)) (rooted H (Gs 0) ns) (rooted H (Gc 0) nc) []).
  Proof.
    intros dn o1 o2 Hsht. unfold store_ueb. cbn [g_cap c_ueb_hash c_k c_n].
    rewrite (proj2 (H_eqb_spec _ _) eq_refl), parse_ser. cbn [negb g_ueb u_segment_size u_crypttext_root u_share_root].
    pose proof (wf_k f Hwf) as Wk. pose proof (wf_seg f Hwf) as Ws.
    assert (((ef_segsize f =? 0) || (ef_k f =? 0) || negb (ef_segsize f mod ef_k f =? 0))%N = false) as ->.
    { rewrite (wf_mod f Hwf). cbn [N.eqb negb]. rewrite orb_false_r. apply orb_false_iff. split; apply N.eqb_neq; lia. }
    rewrite node_nseg_eq. fold nn. rewrite Hsht, !seed_root_fresh. reflexivity.
  Qed.

  Lemma stage_ueb_sound : forall dn sh ords dn' r,
    node_inv dn ->
    stage_ueb H H_eqb pair_hash truthy UB ueb_hash parse_ueb c dn sh ords = (dn', r) ->
    node_inv dn' /\ (r = None -> after_ueb dn').
  Proof.
    intros dn sh ords dn' r Hinv Hst. unfold stage_ueb in Hst.
    destruct (dn_segsize dn) as [ss|] eqn:Ess.
    - injection Hst as <- <-. split; [exact Hinv|]. intros _. apply after_ueb_iff. split; [exact Hinv|congruence].
    - destruct (s_ueb sh) as [b|]; [|injection Hst as <- <-; split; [exact Hinv|discriminate]].
      destruct (store_ueb H H_eqb pair_hash truthy UB ueb_hash parse_ueb c dn b (ords 0%nat) (ords 1%nat)) as [dn1|e] eqn:Es;
        injection Hst as <- <-; [|split; [exact Hinv|discriminate]].
      assert (b = ueb_bytes) as ->.
      { unfold store_ueb in Es. destruct (H_eqb (ueb_hash b) (c_ueb_hash c)) eqn:Eh; [|discriminate]. apply ueb_inj, H_eqb_spec, Eh. }
      unfold node_inv in Hinv. rewrite Ess in Hinv. rewrite (store_ueb_genuine dn _ _ Hinv) in Es. injection Es as <-.
      assert (Hau : after_ueb (mkDn (Some (ef_segsize f)) (rooted H (Gs 0) ns) (rooted H (Gc 0) nc) [])).
      { split; [reflexivity|]. split; [apply rooted_ok, ns_ge1|]. split; [apply rooted_ok, nc_ge1|]. intros s T Hg. discriminate. }
      split; [apply after_ueb_iff; exact Hau|intros _; exact Hau].
  Qed.

  (* the node holds a CommonShare, hence a block hash tree, for share number s *)
  Definition has_bht (dn : dnode H) (s : Z) : Prop := bht_get H (dn_bht dn) s <> None.

  (* Every later stage leaves the node as it is or puts one tree back after a set_hashes call on
     it, which keeps that tree genuine whatever the outcome (step_keeps). *)
  Lemma put_sht : forall dn T, after_ueb dn -> TreeOK Gs ns T ->
    after_ueb (mkDn (dn_segsize dn) T (dn_cht dn) (dn_bht dn)).
  Proof. intros dn T [Hss [_ [Hc Hb]]] HT. exact (conj Hss (conj HT (conj Hc Hb))). Qed.

  Lemma put_cht : forall dn T, after_ueb dn -> TreeOK Gc nc T ->
    after_ueb (mkDn (dn_segsize dn) (dn_sht dn) T (dn_bht dn)).
  Proof. intros dn T [Hss [Hs [_ Hb]]] HT. exact (conj Hss (conj Hs (conj HT Hb))). Qed.

  Lemma put_bht : forall dn s T, after_ueb dn -> (0 <= s < nn -> TreeOK (Gb s) nc T) ->
    let dn' := mkDn (dn_segsize dn) (dn_sht dn) (dn_cht dn) (bht_put H (dn_bht dn) s T) in
    after_ueb dn' /\ has_bht dn' s.
  Proof.
    intros dn s T [Hss [Hs [Hc Hb]]] HT dn'. split.
    - split; [exact Hss|]. split; [exact Hs|]. split; [exact Hc|].
      intros s' T' Hg Hr. cbn [dn' dn_bht] in Hg. rewrite bht_get_put in Hg.
      destruct (s' =? s) eqn:E; [|apply (Hb s' T' Hg Hr)].
      apply Z.eqb_eq in E. subst s'. injection Hg as <-. apply HT. exact Hr.
    - unfold has_bht, dn'. cbn [dn_bht]. rewrite bht_get_put, Z.eqb_refl. discriminate.
  Qed.

  Lemma stage_share_hashes_sound : forall dn s sh ords dn' r,
    after_ueb dn ->
    stage_share_hashes H H_eqb pair_hash truthy UB c dn s sh ords = (dn', r) -> after_ueb dn'.
  Proof.
    intros dn s sh ords dn' r Hau Hst. pose proof Hau as [_ [Hs _]].
    unfold stage_share_hashes in Hst. cbn [g_cap c_n] in Hst. fold nn in Hst.
    destruct (needed_hashes H (first_leaf_num nn) (dn_sht dn) s false) as [[|x nd]|]; try (injection Hst as <- _; exact Hau).
    destruct (s_share_hashes sh) as [[|p l]|]; try (injection Hst as <- _; exact Hau).
    destruct (existsb _ _); [injection Hst as <- _; exact Hau|].
    pose proof (step_keeps Gs ns (first_leaf_num nn) (dn_sht dn) (pydict (p :: l)) [] (ords 2%nat) sht_merkle Hs) as Hk.
    destruct (set_hashes (first_leaf_num nn) (dn_sht dn) (pydict (p :: l)) [] (ords 2%nat)) as [T|e T];
      injection Hst as <- _; apply put_sht; assumption.
  Qed.

  Lemma stage_block_root_sound : forall dn s ords dn' r,
    after_ueb dn ->
    stage_block_root H H_eqb pair_hash truthy c dn nseg s ords = (dn', r) ->
    after_ueb dn' /\ (r = None -> has_bht dn' s).
  Proof.
    intros dn s ords dn' r Hau Hst. pose proof Hau as [_ [Hs [_ Hb]]].
    unfold stage_block_root, common_bht in Hst. cbn [g_cap c_n] in Hst. fold nn in Hst.
    destruct (bht_get H (dn_bht dn) s) as [T0|] eqn:Eg.
    - (* a CommonShare exists *)
      destruct (is_truthy H truthy match get T0 0 with Some v => v | None => None end) eqn:Et.
      + injection Hst as <- <-. split; [exact Hau|]. intros _. unfold has_bht. rewrite Eg. discriminate.
      + (* its root is missing: only possible for a share number outside 0..N-1 *)
        assert (Hout : ~ (0 <= s < nn)).
        { intros Hr. destruct (Hb s T0 Eg Hr) as [Hl _ Hroot]. pose proof nc_ge1.
          rewrite get_valid, normz_nonneg in Et by (unfold validz; lia).
          destruct (slot T0 0) as [h|]; [|congruence]. cbn [is_truthy] in Et. rewrite all_truthy_H in Et. discriminate. }
        destruct (get (dn_sht dn) (first_leaf_num nn + s)) as [[h|]|]; try (injection Hst as <- <-; split; [exact Hau|discriminate]).
        destruct (seed_root H H_eqb pair_hash truthy nseg T0 h (ords 3%nat)) as [T'|e T']; injection Hst as <- <-;
          destruct (put_bht dn s T' Hau ltac:(tauto)) as [P1 P2]; (split; [exact P1|]); [intros _; exact P2|discriminate].
    - (* new CommonShare *)
      rewrite get0_fresh in Hst. cbn [is_truthy] in Hst.
      destruct (get (dn_sht dn) (first_leaf_num nn + s)) as [[h|]|] eqn:Egl; try (injection Hst as <- <-; split; [exact Hau|discriminate]).
      rewrite seed_root_fresh in Hst. injection Hst as <- <-.
      destruct (put_bht dn s (rooted H h nc) Hau) as [P1 P2]; [|split; [exact P1|intros _; exact P2]].
      intros Hr. rewrite (sht_leaf_read _ s h Hs Hr Egl). apply rooted_ok, nc_ge1.
  Qed.

  (* the CommonShare of a share number, once it exists, holds a genuine tree *)
  Lemma common_bht_ok : forall dn s, after_ueb dn -> has_bht dn s -> 0 <= s < nn ->
    TreeOK (Gb s) nc (common_bht H dn nseg s).
  Proof.
    intros dn s [_ [_ [_ Hb]]] Hh Hr. unfold has_bht in Hh. unfold common_bht.
    destruct (bht_get H (dn_bht dn) s) as [T|] eqn:Eg; [apply (Hb s T Eg Hr)|congruence].
  Qed.

  (* ... and stays one through any set_hashes call on it *)
  Lemma put_common_bht : forall dn s hs ls ord, after_ueb dn -> has_bht dn s ->
    let T := left_by H (set_hashes (first_leaf_num nseg) (common_bht H dn nseg s) hs ls ord) in
    let dn' := mkDn (dn_segsize dn) (dn_sht dn) (dn_cht dn) (bht_put H (dn_bht dn) s T) in
    after_ueb dn' /\ has_bht dn' s.
  Proof.
    intros dn s hs ls ord Hau Hh. apply put_bht; [exact Hau|].
    intros Hr. apply step_keeps; [apply bht_merkle|apply common_bht_ok; assumption].
  Qed.

  Lemma stage_block_hashes_sound : forall dn s j sh ords dn' r,
    after_ueb dn -> has_bht dn s ->
    stage_block_hashes H H_eqb pair_hash truthy UB dn nseg s j sh ords = (dn', r) ->
    after_ueb dn' /\ has_bht dn' s.
  Proof.
    intros dn s j sh ords dn' r Hau Hh Hst. unfold stage_block_hashes in Hst. cbv zeta in Hst.
    destruct (needed_hashes H (first_leaf_num nseg) (common_bht H dn nseg s) j true) as [[|x nd]|];
      try (injection Hst as <- _; split; assumption).
    destruct (gather H (s_block_hashes sh) (x :: nd)) as [hs|]; [|injection Hst as <- _; split; assumption].
    pose proof (put_common_bht dn s hs [] (ords 4%nat) Hau Hh) as Hp.
    destruct (set_hashes (first_leaf_num nseg) (common_bht H dn nseg s) hs [] (ords 4%nat)) as [T1|e T1];
      injection Hst as <- _; exact Hp.
  Qed.

  Lemma stage_ct_hashes_sound : forall dn j sh ords dn' r,
    after_ueb dn ->
    stage_ct_hashes H H_eqb pair_hash truthy UB dn nseg j sh ords = (dn', r) ->
    after_ueb dn' /\ dn_bht dn' = dn_bht dn.
  Proof.
    intros dn j sh ords dn' r Hau Hst. pose proof Hau as [_ [_ [Hc _]]].
    unfold stage_ct_hashes in Hst.
    destruct (needed_hashes H (first_leaf_num nseg) (dn_cht dn) j true) as [[|x nd]|]; try (injection Hst as <- _; split; [assumption|reflexivity]).
    destruct (gather H (s_ct_hashes sh) (x :: nd)) as [hs|]; [|injection Hst as <- _; split; [assumption|reflexivity]].
    pose proof (step_keeps Gc nc (first_leaf_num nseg) (dn_cht dn) hs [] (ords 5%nat) cht_merkle Hc) as Hk.
    destruct (set_hashes (first_leaf_num nseg) (dn_cht dn) hs [] (ords 5%nat)) as [T1|e T1]; injection Hst as <- _;
      (split; [apply put_cht; assumption|reflexivity]).
  Qed.

  Lemma stage_block_sound : forall dn s j sh ords dn' r,
    after_ueb dn -> has_bht dn s -> 0 <= j < nseg ->
    stage_block H H_eqb pair_hash truthy block_hash UB dn nseg s j sh ords = (dn', r) ->
    after_ueb dn' /\ (forall b, r = GBlock b -> 0 <= s < nn -> b = gblock f s j).
  Proof.
    intros dn s j sh ords dn' r Hau Hh Hj Hst. unfold stage_block in Hst.
    destruct (zassoc j (s_blocks sh)) as [b|]; [|injection Hst as <- <-; split; [exact Hau|discriminate]].
    cbv zeta in Hst. pose proof (put_common_bht dn s [] [(j, block_hash b)] (ords 6%nat) Hau Hh) as [Hp _].
    destruct (set_hashes (first_leaf_num nseg) (common_bht H dn nseg s) [] [(j, block_hash b)] (ords 6%nat)) as [T1|e T1] eqn:Esh;
      injection Hst as <- <-; (split; [exact Hp|]); [|discriminate].
    intros b0 Hb0 Hr. injection Hb0 as <-. apply (accepted_block s _ j b _ T1 Hj (common_bht_ok dn s Hau Hh Hr) Esh).
  Qed.

  (* a stage that fails ends the call with the node it leaves *)
  Lemma and_then_inv : forall (st : stage H) k dn' r,
    and_then H st k = (dn', r) ->
    (exists e, st = (dn', Some e) /\ r = GErr e) \/ (exists dn1, st = (dn1, None) /\ k dn1 = (dn', r)).
  Proof. intros [dn1 [e|]] k dn' r Hr; cbn [and_then] in Hr; [left; injection Hr as <- <-|right]; eauto. Qed.

  Theorem get_block_sound : forall dn s j sh ords dn' r,
    node_inv dn -> get_block c dn s j sh ords = (dn', r) ->
    node_inv dn' /\ (forall b, r = GBlock b -> 0 <= s < nn -> b = gblock f s j).
  Proof.
    intros dn s j sh ords dn' r Hinv Hg. unfold ImmVerify.get_block in Hg.
    assert (Hi : forall dn1, after_ueb dn1 -> node_inv dn1) by (intros dn1 A; apply after_ueb_iff, A).
    destruct (check_offsets H UB sh); [injection Hg as <- <-; split; [exact Hinv|discriminate]|].
    apply and_then_inv in Hg as [[e [E ->]]|[dn1 [E Hg]]]; destruct (stage_ueb_sound _ _ _ _ _ Hinv E) as [I1 A1];
      [split; [exact I1|discriminate]|].
    specialize (A1 eq_refl). rewrite (proj1 A1), node_nseg_eq in Hg.
    destruct ((j <? 0) || (nseg <=? j)) eqn:Ej; [injection Hg as <- <-; split; [exact I1|discriminate]|].
    apply orb_false_iff in Ej. destruct Ej as [Ej1 Ej2]. apply Z.ltb_ge in Ej1. apply Z.leb_gt in Ej2.
    apply and_then_inv in Hg as [[e [E2 ->]]|[dn2 [E2 Hg]]];
      pose proof (stage_share_hashes_sound _ _ _ _ _ _ A1 E2) as A2; [split; [apply Hi, A2|discriminate]|].
    apply and_then_inv in Hg as [[e [E3 ->]]|[dn3 [E3 Hg]]];
      destruct (stage_block_root_sound _ _ _ _ _ A2 E3) as [A3 B3]; [split; [apply Hi, A3|discriminate]|].
    apply and_then_inv in Hg as [[e [E4 ->]]|[dn4 [E4 Hg]]];
      destruct (stage_block_hashes_sound _ _ _ _ _ _ _ A3 (B3 eq_refl) E4) as [A4 B4]; [split; [apply Hi, A4|discriminate]|].
    apply and_then_inv in Hg as [[e [E5 ->]]|[dn5 [E5 Hg]]];
      destruct (stage_ct_hashes_sound _ _ _ _ _ _ A4 E5) as [A5 B5]; [split; [apply Hi, A5|discriminate]|].
    unfold has_bht in B4. rewrite <- B5 in B4.
    destruct (stage_block_sound _ _ _ _ _ _ _ A5 B4 (conj Ej1 Ej2) Hg) as [A6 V6].
    split; [apply Hi, A6|exact V6].
  Qed.

  Theorem decode_and_check_sound : forall dn j blocks ord dn' r,
    node_inv dn -> decode_and_check c dn j blocks ord = (dn', r) ->
    node_inv dn' /\ (forall seg, r = inl seg -> 0 <= j < nseg -> seg = gsegment f j).
  Proof.
    intros dn j blocks ord dn' r Hinv Hd. unfold ImmVerify.decode_and_check in Hd.
    destruct (dn_segsize dn) as [ss|] eqn:Ess; [|injection Hd as <- <-; split; [exact Hinv|discriminate]].
    assert (Hau : after_ueb dn) by (apply after_ueb_iff; split; [exact Hinv|congruence]).
    pose proof Hau as [Hss [_ [Hc _]]]. assert (ss = ef_segsize f) as -> by congruence.
    change (Z.of_N (d_num_segments (node_sizes H c (ef_segsize f)))) with nseg in Hd.
    set (segment := if j =? nseg - 1 then _ else _) in Hd.
    pose proof (step_keeps Gc nc (first_leaf_num nseg) (dn_cht dn) [] [(j, seg_hash segment)] ord cht_merkle Hc) as Hk.
    destruct (set_hashes (first_leaf_num nseg) (dn_cht dn) [] [(j, seg_hash segment)] ord) as [T1|e T1] eqn:Esh;
      injection Hd as <- <-; (split; [rewrite <- Ess; apply after_ueb_iff, put_cht; assumption|]); [|discriminate].
    intros seg Hseg Hj. injection Hseg as <-.
    destruct (step_accepted Gc nc _ _ _ _ _ _ cht_merkle Hc Esh) as [_ [V _]].
    specialize (V j (seg_hash segment) (or_introl eq_refl) (fl_leaf_range nseg j Hj)).
    rewrite (cht_leaf j Hj) in V. apply seg_inj. exact V.
  Qed.

  Lemma collect_blocks_sound : forall tries dn j have dn' have',
    node_inv dn ->
    (forall s b, In (s, b) have -> 0 <= s < nn -> b = gblock f s j) ->
    collect_blocks c dn j tries have = (dn', have') ->
    node_inv dn' /\ (forall s b, In (s, b) have' -> 0 <= s < nn -> b = gblock f s j).
  Proof.
    induction tries as [|[[s sh] ords] r IH]; intros dn j have dn' have' Hinv Hh Hc; cbn [ImmVerify.collect_blocks] in Hc.
    - destruct (Z.of_N (c_k c) <=? zlen have); inversion Hc; subst; split; assumption.
    - destruct (Z.of_N (c_k c) <=? zlen have); [inversion Hc; subst; split; assumption|].
      destruct (zassoc s have); [apply (IH dn j have dn' have' Hinv Hh Hc)|].
      destruct (get_block c dn s j sh ords) as [dn1 [b|e]] eqn:Eg;
        destruct (get_block_sound _ _ _ _ _ _ _ Hinv Eg) as [I1 V1].
      + apply (IH dn1 j (have ++ [(s, b)]) dn' have' I1); [|exact Hc]. intros s' b' Hin Hr. apply in_app_or in Hin. destruct Hin as [Hin|[Hin|[]]].
        * apply (Hh s' b' Hin Hr).
        * inversion Hin. subst. apply (V1 b' eq_refl Hr).
      + apply (IH dn1 j have dn' have' I1 Hh Hc).
  Qed.

  Theorem fetch_segment_sound : forall dn j tries ord dn' r,
    node_inv dn -> fetch_segment c dn j tries ord = (dn', r) ->
    node_inv dn' /\ (forall seg, r = inl seg -> 0 <= j < nseg -> seg = gsegment f j).
  Proof.
    intros dn j tries ord dn' r Hinv Hf. unfold ImmVerify.fetch_segment in Hf.
    destruct (collect_blocks c dn j tries []) as [dn1 have] eqn:Ec.
    destruct (collect_blocks_sound tries dn j [] dn1 have Hinv ltac:(intros s b []) Ec) as [I1 _].
    destruct (zlen have <? Z.of_N (c_k c)); [inversion Hf; subst; split; [exact I1|discriminate]|].
    apply (decode_and_check_sound _ _ _ _ _ _ I1 Hf).
  Qed.

  Definition gseg (j : N) : list N := gsegment f (Z.of_N j).

  Theorem serve_prefix : forall ws dn script chunks res,
    node_inv dn ->
    Forall (fun w => (w_segnum w < d_num_segments (calculate_sizes (ef_size f) (ef_k f) (ef_segsize f)))%N) ws ->
    serve c dn ws script = (chunks, res) ->
    (exists rest, apply_writes gseg ws = concat chunks ++ rest) /\
    (res = None -> concat chunks = apply_writes gseg ws).
  Proof.
    induction ws as [|w ws IH]; intros dn script chunks res Hinv Hws Hs; cbn [ImmVerify.serve] in Hs.
    - inversion Hs. subst. split; [exists []; reflexivity|reflexivity].
    - destruct (script (w_segnum w)) as [tries ord].
      destruct (fetch_segment c dn (Z.of_N (w_segnum w)) tries ord) as [dn1 [segment|e]] eqn:Ef.
      + destruct (fetch_segment_sound _ _ _ _ _ _ Hinv Ef) as [I1 V1].
        inversion Hws as [|w' ws' Hw Hws']. subst.
        assert (Hj : 0 <= Z.of_N (w_segnum w) < nseg) by (unfold nseg; lia).
        rewrite (V1 segment eq_refl Hj) in Hs.
        destruct (serve c dn1 ws script) as [chunks1 res1] eqn:Es1.
        destruct (IH _ _ _ _ I1 Hws' Es1) as [[rest Hr] Hok].
        inversion Hs. subst. unfold apply_writes in *. cbn [map concat]. fold (gseg (w_segnum w)).
        split.
        * exists rest. rewrite Hr. rewrite app_assoc. reflexivity.
        * intros Ht. rewrite (Hok Ht). reflexivity.
      + inversion Hs. subst. split; [eexists; reflexivity|discriminate].
  Qed.
End Soundness.
