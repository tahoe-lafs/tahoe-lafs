(* Immutable container (ShareFile): what each prefix of the lease operations
   does to one well-formed share file. *)
From Coq Require Import List Arith NArith Bool Lia.
From Verif Require Import Lib.Hex Lib.FileSys Model.Crash Proofs.CrashBytes.
Import ListNotations.
Local Open Scope N_scope.

Lemma flen_len f : flen f = N.of_nat (length f).
Proof. reflexivity. Qed.

Lemma imm_wf_facts f :
  imm_wf f = true ->
  12 <= flen f /\ imm_version_ok f = true /\ 12 + 72 * imm_count f <= flen f.
Proof.
  unfold imm_wf. rewrite !andb_true_iff, !N.leb_le. tauto.
Qed.

(* g is a well-formed immutable share that reads back the data of f *)
Definition imm_same (f g : file) : Prop := imm_wf g = true /\ imm_data g = imm_data f.

(* so is any g that is f with d 72-byte lease records appended and counted, version and data
   bytes unchanged *)
Lemma imm_agree f g d :
  imm_wf f = true ->
  flen g = flen f + 72 * d -> imm_count g = imm_count f + d ->
  sub 0 4 g = sub 0 4 f ->
  sub 12 (imm_lease_offset f - 12) g = sub 12 (imm_lease_offset f - 12) f ->
  imm_same f g.
Proof.
  intros Hwf Hl Hc H0 Hd. destruct (imm_wf_facts f Hwf) as [H12 [Hv Hfit]].
  assert (Ho : imm_lease_offset g = imm_lease_offset f)
    by (unfold imm_lease_offset; rewrite Hl, Hc; lia).
  split.
  - unfold imm_wf, imm_version_ok, imm_version in *.
    rewrite H0, Hv, Hl, Hc, !andb_true_iff, !N.leb_le. repeat split; lia.
  - unfold imm_data. rewrite Ho. exact Hd.
Qed.

Lemma imm_write_in_leases f off bs :
  imm_wf f = true ->
  imm_lease_offset f <= off ->
  off + flen bs <= flen f ->
  imm_same f (write_at f off bs).
Proof.
  intros Hwf Hlo Hin.
  destruct (imm_wf_facts f Hwf) as [H12 [_ Hfit]].
  assert (Hlo12 : 12 <= imm_lease_offset f) by (unfold imm_lease_offset in *; lia).
  apply (imm_agree f _ 0 Hwf).
  - unfold flen in *. rewrite write_at_length_inside; lia.
  - unfold imm_count. rewrite sub_write_at_before; unfold flen in *; lia.
  - apply sub_write_at_before; unfold flen in *; lia.
  - apply sub_write_at_before; unfold flen in *; lia.
Qed.

Lemma find_index_spec {A} (pr : A -> bool) l : forall i0 i x,
  find_index pr l i0 = Some (i, x) ->
  exists j, i = i0 + N.of_nat j /\ nth_error l j = Some x.
Proof.
  induction l as [|y l IH]; intros i0 i x H; simpl in H; [discriminate|].
  destruct (pr y).
  - inversion H; subst. exists 0%nat. split; [lia|reflexivity].
  - apply IH in H. destruct H as [j [E Hn]]. exists (S j). split; [lia|exact Hn].
Qed.

Lemma chunks_nth fuel k : forall l j x,
  nth_error (chunks fuel k l) j = Some x ->
  (length x <= k)%nat /\ (j * k < length l)%nat.
Proof.
  induction fuel as [|fuel IH]; intros l j x H; cbn [chunks] in H.
  - destruct j; discriminate.
  - destruct l as [|y l]; [destruct j; discriminate|].
    destruct j as [|j]; cbn [nth_error] in H.
    + inversion H; subst x. split.
      * rewrite firstn_length. lia.
      * cbn [length]. lia.
    + apply IH in H. destruct H as [H1 H2]. split; [exact H1|].
      rewrite skipn_length in H2. cbn [length] in *. lia.
Qed.

Lemma chunks_short fuel k l :
  l <> [] -> (length l <= k)%nat -> chunks (S fuel) k l = [l].
Proof.
  intros Hl Hk. destruct l as [|y l]; [congruence|]. cbn [chunks].
  rewrite firstn_all2, skipn_all2 by exact Hk. destruct fuel; reflexivity.
Qed.

Lemma imm_leases_nth f j r :
  imm_wf f = true ->
  nth_error (imm_leases f) j = Some r ->
  (length r <= 72)%nat /\ N.of_nat j < imm_count f.
Proof.
  intros Hwf H. destruct (imm_wf_facts f Hwf) as [_ [_ Hfit]].
  unfold imm_leases in H. apply chunks_nth in H. destruct H as [H1 H2].
  split; [exact H1|].
  rewrite skipn_length in H2. unfold imm_lease_offset, flen in *. lia.
Qed.

Lemma some_inj {A} (a b : A) : Some a = Some b -> a = b.
Proof. congruence. Qed.

Lemma firstn_unflagged {A} k (l : list A) : firstn k (unflagged l) = unflagged (firstn k l).
Proof. apply firstn_map. Qed.

Lemma in_window_unflagged {A} (l : list A) : in_window (unflagged l) = false.
Proof.
  unfold in_window, unflagged. rewrite <- map_rev. destruct (rev l); reflexivity.
Qed.

Lemma map_fst_unflagged {A} (l : list A) : map fst (unflagged l) = l.
Proof. unfold unflagged. rewrite map_map. simpl. apply map_id. Qed.

Lemma in_window_app {A} (a b : list (A * bool)) :
  in_window (a ++ b) = match b with [] => in_window a | _ => in_window b end.
Proof.
  destruct b as [|x b]; [rewrite app_nil_r; reflexivity|].
  unfold in_window. rewrite rev_app_distr.
  destruct (rev (x :: b)) as [|y r] eqn:E; [|reflexivity].
  apply (f_equal (@length _)) in E. rewrite rev_length in E. discriminate.
Qed.

Lemma in_window_map {A B} (g : A -> B) (o : list (A * bool)) :
  in_window (map (fun y => (g (fst y), snd y)) o) = in_window o.
Proof.
  unfold in_window. rewrite <- map_rev. destruct (rev o) as [|[x b] r]; reflexivity.
Qed.

(* The calls o are flagged; `run` executes unflagged calls from x.  R holds
   after every prefix of o that does not end inside the add_lease window, and o
   itself does not end there. *)
Definition crash_safe {A X} (run : list A -> X -> X) (R : X -> Prop) (x : X)
    (o : list (A * bool)) : Prop :=
  in_window o = false /\
  forall k, in_window (firstn k o) = false -> R (run (map fst (firstn k o)) x).

Lemma crash_safe_all {A X} (run : list A -> X -> X) R x o :
  crash_safe run R x o -> R (run (map fst o) x).
Proof. intros [Hw H]. specialize (H (length o)). rewrite firstn_all in H. exact (H Hw). Qed.

Lemma crash_safe_nil {A X} (run : list A -> X -> X) (R : X -> Prop) x :
  R (run [] x) -> crash_safe run R x [].
Proof. intro H. split; [reflexivity|]. intros k _. rewrite firstn_nil. exact H. Qed.

Lemma crash_safe_unflagged {A X} (run : list A -> X -> X) (R : X -> Prop) x l :
  (forall k, R (run (firstn k l) x)) -> crash_safe run R x (unflagged l).
Proof.
  intro H. split; [apply in_window_unflagged|]. intros k _.
  rewrite firstn_unflagged, map_fst_unflagged. apply H.
Qed.

(* the same calls run in another setting, where each outcome implies its image *)
Lemma crash_safe_sim {A X Y} (run : list A -> X -> X) (run' : list A -> Y -> Y)
    (R : X -> Prop) (R' : Y -> Prop) x y o :
  (forall l, R (run l x) -> R' (run' l y)) -> crash_safe run R x o -> crash_safe run' R' y o.
Proof. intros H [Hw Hk]. split; [exact Hw|]. intros k Hwk. apply H, Hk, Hwk. Qed.

Lemma crash_safe_map {A B X} (g : A -> B) (run : list B -> X -> X) R x o :
  crash_safe (fun l => run (map g l)) R x o ->
  crash_safe run R x (map (fun y => (g (fst y), snd y)) o).
Proof.
  intros [Hw Hk]. split; [rewrite in_window_map; exact Hw|]. intros k Hwk.
  rewrite firstn_map, in_window_map in Hwk. rewrite firstn_map, map_map. cbn [fst].
  rewrite <- (map_map fst g). apply Hk, Hwk.
Qed.

(* b runs after a; what R' says of b's crash points carries back to x *)
Lemma crash_safe_app {A X} (run : list A -> X -> X) (R R' : X -> Prop) x a b :
  (forall a b x, run (a ++ b) x = run b (run a x)) ->
  crash_safe run R x a ->
  crash_safe run R' (run (map fst a) x) b ->
  (R (run (map fst a) x) -> forall y, R' y -> R y) ->
  crash_safe run R x (a ++ b).
Proof.
  intros Happ Ha [Hwb Hb] Htr. pose proof (crash_safe_all _ _ _ _ Ha) as Hmid.
  destruct Ha as [Hwa Ha]. split.
  - rewrite in_window_app. destruct b; assumption.
  - intros k. rewrite firstn_app. destruct (Nat.le_gt_cases k (length a)) as [Hle|Hgt].
    + replace (k - length a)%nat with 0%nat by lia. rewrite firstn_O, app_nil_r. apply Ha.
    + rewrite firstn_all2, map_app, Happ, in_window_app by lia. intro Hk.
      apply Htr; [exact Hmid|]. apply Hb.
      destruct (firstn (k - length a) b); [reflexivity|exact Hk].
Qed.

Lemma imm_renew_file f hs e o :
  imm_wf f = true ->
  imm_renew_fops f hs e = Some o ->
  forall k, imm_same f (run_fops (firstn k o) f).
Proof.
  intros Hwf H k. unfold imm_renew_fops in H.
  destruct (find_index _ (imm_leases f) 0) as [[i r]|] eqn:E; [|discriminate].
  apply find_index_spec in E. destruct E as [j [Ei Hn]].
  destruct (imm_leases_nth f j r Hwf Hn) as [Hr Hj].
  destruct (imm_wf_facts f Hwf) as [_ [_ Hfit]].
  apply some_inj in H. subst o.
  destruct (imm_rec_exp r <? e).
  - destruct k as [|k]; [split; [exact Hwf|reflexivity]|].
    rewrite firstn_all2 by (simpl; lia).
    cbn [run_fops fold_left apply_fop].
    apply imm_write_in_leases; [exact Hwf|lia|].
    unfold flen. rewrite app_length, firstn_length, enc_length.
    unfold imm_lease_offset, flen in *. lia.
  - destruct k; split; [exact Hwf|reflexivity|exact Hwf|reflexivity].
Qed.

Lemma imm_append_offset f :
  imm_wf f = true -> imm_lease_offset f + 72 * imm_count f = flen f.
Proof.
  intro H. destruct (imm_wf_facts f H) as [_ [_ Hfit]]. unfold imm_lease_offset. lia.
Qed.

Lemma imm_count_written h v : v < 2 ^ 32 -> imm_count (write_at h 8 (enc 4 v)) = v.
Proof.
  intro Hv. unfold imm_count.
  replace 4 with (flen (enc 4 v)) by (unfold flen; rewrite enc_length; reflexivity).
  rewrite sub_write_at_same. apply be_enc_small. exact Hv.
Qed.

(* both writes of add_lease done *)
Lemma imm_add_complete f rec :
  imm_wf f = true -> length rec = 72%nat -> imm_count f + 1 < 2 ^ 32 ->
  imm_same f (write_at (write_at f (imm_lease_offset f + 72 * imm_count f) rec)
                       8 (enc 4 (imm_count f + 1))).
Proof.
  intros Hwf Hrec Hn.
  destruct (imm_wf_facts f Hwf) as [H12 [Hv Hfit]].
  assert (Hlo : imm_lease_offset f <= flen f) by (unfold imm_lease_offset; lia).
  rewrite (imm_append_offset f Hwf), write_at_end.
  apply (imm_agree f _ 1 Hwf).
  - unfold flen in *. rewrite write_at_length_inside; rewrite app_length, ?enc_length; lia.
  - apply imm_count_written, Hn.
  - rewrite sub_write_at_before, sub_app_left; rewrite ?app_length; unfold flen in *;
      (reflexivity || lia).
  - rewrite sub_write_at_after, sub_app_left; rewrite ?app_length, ?enc_length;
      unfold imm_lease_offset, flen in *; (reflexivity || lia).
Qed.

(* only the first write of add_lease done: the data region grows by one lease
   record (72 bytes) -- for EVERY well-formed share and every lease *)
Lemma imm_add_window f rec :
  imm_wf f = true -> length rec = 72%nat ->
  let g := write_at f (imm_lease_offset f + 72 * imm_count f) rec in
  length (imm_data g) = (length (imm_data f) + 72)%nat.
Proof.
  intros Hwf Hrec g.
  destruct (imm_wf_facts f Hwf) as [H12 [Hv Hfit]].
  subst g. rewrite (imm_append_offset f Hwf), write_at_end.
  assert (Hc : imm_count (f ++ rec) = imm_count f).
  { unfold imm_count. rewrite sub_app_left; [reflexivity|]. unfold flen in H12. lia. }
  unfold imm_data, imm_lease_offset. rewrite Hc.
  rewrite !sub_length. unfold flen in *. rewrite app_length, Hrec. lia.
Qed.

(* the alternative order: only the count written.  The data region SHRINKS by
   72 bytes (when it has that many), which loses share data: no better. *)
Lemma imm_add_count_first_window f :
  imm_wf f = true -> imm_count f + 1 < 2 ^ 32 ->
  (72 <= length (imm_data f))%nat ->
  let g := write_at f 8 (enc 4 (imm_count f + 1)) in
  (length (imm_data g) + 72 = length (imm_data f))%nat.
Proof.
  intros Hwf Hn Hbig g.
  destruct (imm_wf_facts f Hwf) as [H12 [Hv Hfit]].
  assert (Hlen : length g = length f).
  { apply write_at_length_inside. rewrite enc_length. unfold flen in H12. lia. }
  revert Hbig. unfold imm_data, imm_lease_offset. rewrite (imm_count_written f _ Hn : imm_count g = _).
  rewrite !sub_length. unfold flen in *. rewrite Hlen. lia.
Qed.

Lemma imm_lease_file f rec o :
  imm_wf f = true -> length rec = 72%nat ->
  imm_add_or_renew_fops f rec = Some o ->
  crash_safe run_fops (imm_same f) f o.
Proof.
  intros Hwf Hrec H. unfold imm_add_or_renew_fops in H.
  destruct (imm_renew_fops f (imm_rec_renew rec) (imm_rec_exp rec)) as [o'|] eqn:E.
  - apply some_inj in H. subst o. apply crash_safe_unflagged.
    eapply imm_renew_file; eassumption.
  - unfold imm_add_fops in H.
    destruct (2 ^ 32 <=? imm_count f + 1) eqn:En; [discriminate|].
    apply N.leb_gt in En. apply some_inj in H. subst o.
    split; [reflexivity|].
    intros [|[|k]] Hk.
    + split; [exact Hwf|reflexivity].
    + discriminate Hk.
    + rewrite firstn_all2 by (simpl; lia). cbn [map fst run_fops fold_left apply_fop].
      apply imm_add_complete; assumption.
Qed.

Lemma sub_0_4_of_32 f : sub 0 4 f = firstn 4 (sub 0 32 f).
Proof.
  unfold sub. change (N.to_nat 0) with 0%nat. simpl skipn.
  change (N.to_nat 4) with 4%nat. change (N.to_nat 32) with 32%nat.
  rewrite firstn_firstn. reflexivity.
Qed.

Lemma magic_not_version f : mut_magic_ok f = true -> imm_version_ok f = false.
Proof.
  unfold mut_magic_ok. rewrite orb_true_iff, !list_N_eqb_eq.
  unfold imm_version_ok, imm_version. rewrite sub_0_4_of_32.
  intros [H|H]; rewrite H; reflexivity.
Qed.

Lemma version_not_magic f : imm_version_ok f = true -> mut_magic_ok f = false.
Proof.
  intro H. destruct (mut_magic_ok f) eqn:E; [|reflexivity].
  apply magic_not_version in E. congruence.
Qed.
