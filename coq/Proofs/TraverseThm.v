(* C21  The invariants of the walk and the lemmas that Props/C21.v states as theorems. *)
From Coq Require Import List NArith Bool Lia Arith.
From Verif Require Import Lib.ListFacts Model.Traverse Proofs.Traverse.
Import ListNotations.
Local Open Scope N_scope.
Local Open Scope bool_scope.

(* membership in a list built with ++ and ::, spelled out as a disjunction *)
Ltac inapp H := repeat first [rewrite in_app_iff in H | progress cbn [In] in H].
Ltac inapp_goal := repeat first [rewrite in_app_iff | progress cbn [In]].

Lemma loop_inv g (P : state -> Prop) :
  (forall st, P st -> st_stack st <> [] -> P (step g st)) ->
  forall fuel st out, P st -> loop g fuel st = Some out ->
  exists st', P st' /\ st_stack st' = [] /\ st_out st' = out.
Proof.
  intro Hstep. induction fuel as [|f IH]; intros st out HP Hl; simpl in Hl.
  - destruct (st_stack st) eqn:E; [|discriminate]. inversion Hl. exists st. auto.
  - destruct (st_stack st) eqn:E.
    + inversion Hl. exists st. auto.
    + apply (IH (step g st)); [|exact Hl]. apply Hstep; [exact HP|]. rewrite E. discriminate.
Qed.

Lemma loop_fuel_mono g : forall f st out, loop g f st = Some out -> forall f', (f <= f')%nat -> loop g f' st = Some out.
Proof.
  induction f as [|f IH]; intros st out H f' Hle; simpl in H.
  - destruct (st_stack st) eqn:E; [|discriminate]. destruct f'; simpl; rewrite E; exact H.
  - destruct (st_stack st) eqn:E.
    + destruct f'; simpl; rewrite E; exact H.
    + destruct f' as [|f']; [lia|]. simpl. rewrite E. apply IH; [exact H | lia].
Qed.

Section Termination.
  Variable g : graph.
  Hypothesis Hdv : dirs_have_verifier g.

  Definition gverifiers : list N :=
    flat_map (fun e : N * node => match n_verifier (snd e) with Some v => [v] | None => [] end) g.

  Definition unfound (found : list N) : nat := length (filter (fun v => negb (mem v found)) gverifiers).

  Lemma gverifiers_len : (length gverifiers <= length g)%nat.
  Proof.
    clear Hdv. unfold gverifiers. induction g as [|[i n] g' IH]; simpl; [lia|].
    rewrite app_length. destruct (n_verifier n); simpl; lia.
  Qed.

  Lemma gverifiers_In i n v : lookup g i = Some n -> n_verifier n = Some v -> In v gverifiers.
  Proof.
    intros Hl Hv. apply lookup_In in Hl. unfold gverifiers. apply in_flat_map.
    exists (i, n). split; [exact Hl|]. simpl. rewrite Hv. left. reflexivity.
  Qed.

  Lemma unfound_le found : (unfound found <= length g)%nat.
  Proof. unfold unfound. etransitivity; [apply filter_length_le|apply gverifiers_len]. Qed.

  Lemma notin_cons_le (U : list N) w found :
    (length (filter (fun v => negb (mem v (w :: found))) U) <= length (filter (fun v => negb (mem v found)) U))%nat.
  Proof.
    apply filter_length_mono. intros x _ H. simpl in H.
    apply negb_true_iff, orb_false_iff in H. rewrite (proj2 H). reflexivity.
  Qed.

  Lemma unfound_cons_le w found : (unfound (w :: found) <= unfound found)%nat.
  Proof. apply notin_cons_le. Qed.

  Lemma notin_cons_lt (U : list N) w found :
    In w U -> mem w found = false ->
    (length (filter (fun v => negb (mem v (w :: found))) U) + 1 <= length (filter (fun v => negb (mem v found)) U))%nat.
  Proof.
    induction U as [|x U IH]; simpl; [tauto|].
    intros [H|H] Hm.
    - subst x. rewrite N.eqb_refl, Hm. simpl. pose proof (notin_cons_le U w found) as Hle. simpl in Hle. lia.
    - specialize (IH H Hm). simpl in IH.
      destruct (x =? w), (mem x found); simpl; lia.
  Qed.

  Lemma scan_measure p kids found :
    (unfound (s_found (scan g p kids found)) + length (s_dirs (scan g p kids found)) <= unfound found)%nat.
  Proof.
    pattern kids, found, (scan g p kids found). apply scan_ind; cbv beta; clear kids found; trivial.
    { intro found. simpl. lia. }
    intros nm c nc r found El Ek Hm found' s. unfold found'. destruct (n_verifier nc) as [w|] eqn:Ev; intro IH.
    - (* a new verify cap: `unfound` drops by one, which pays for the directory pushed *)
      pose proof (notin_cons_lt gverifiers w found (gverifiers_In _ _ _ El Ev) (Hm w eq_refl)) as Hlt.
      fold (unfound (w :: found)) (unfound found) in Hlt.
      destruct (is_dir (n_kind nc)); simpl; lia.
    - destruct (is_dir (n_kind nc)) eqn:Ed; [|exact IH].
      destruct (Hdv c nc El) as [v Hv]; [destruct (n_kind nc); try discriminate; reflexivity|congruence].
  Qed.

  Definition measure (st : state) : nat := (length (st_stack st) + unfound (st_found st))%nat.

  Lemma step_measure st : st_stack st <> [] -> (measure (step g st) + 1 <= measure st)%nat.
  Proof.
    unfold measure, step. destruct (st_stack st) as [|[p d] rest]; [congruence|]. intros _.
    destruct (lookup g d) as [nd|]; simpl.
    - rewrite app_length. pose proof (scan_measure p (sort_children (n_children nd)) (st_found st)). lia.
    - lia.
  Qed.

  Lemma loop_terminates : forall fuel st, (measure st <= fuel)%nat -> exists out, loop g fuel st = Some out.
  Proof.
    induction fuel as [|f IH]; intros st H; simpl.
    - destruct (st_stack st) eqn:E; [eauto|]. unfold measure in H. rewrite E in H. simpl in H. lia.
    - destruct (st_stack st) eqn:E; [eauto|].
      apply IH. assert (st_stack st <> []) by (rewrite E; discriminate).
      pose proof (step_measure st H0). lia.
  Qed.

  Lemma traverse_terminates root : exists out, traverse g root = Some out.
  Proof.
    unfold traverse, traverse_fuel. apply loop_terminates.
    unfold measure, init_state. simpl. apply le_n_S, unfound_le.
  Qed.
End Termination.

Section Walk.
  Variable g : graph.
  Variable root : N.
  Variable nr : node.
  Hypothesis Hwf : wf_graph g.
  Hypothesis Hroot : lookup g root = Some nr.
  Hypothesis Hrootdir : n_kind nr = KDir.

  (* the child c is reported or pending, or an entry with its verify cap is *)
  Definition handled (st : state) (c : N) (nc : node) : Prop :=
    (exists q, In (q, c) (st_out st ++ st_stack st)) \/ (exists v, n_verifier nc = Some v /\ In v (st_found st)).

  (* i_count: `found` is exactly the set of verify caps of the entries reported or pending, and there is
     one such entry per verify cap in it *)
  Record inv (st : state) : Prop := mkInv {
    i_stackdir : forall q j, In (q, j) (st_stack st) -> exists m, lookup g j = Some m /\ n_kind m = KDir;
    i_walk : forall q j, In (q, j) (st_out st ++ st_stack st) -> walk g root q = Some j;
    i_root : In ([], root) (st_out st ++ st_stack st);
    i_handled : forall q d nd nm c nc, In (q, d) (st_out st) -> lookup g d = Some nd -> n_kind nd = KDir ->
                                       In (nm, c) (n_children nd) -> lookup g c = Some nc -> handled st c nc;
    i_count : forall v, (vcount g v (st_out st) + vcount g v (st_stack st))%nat = Nat.b2n (mem v (st_found st))
  }.

  Lemma inv_init : inv (init_state g root).
  Proof.
    unfold init_state. rewrite Hroot. constructor; cbn [st_out st_stack st_found app].
    - intros q j [H|[]]. inversion H; subst. exists nr. auto.
    - intros q j [H|[]]. inversion H; subst. simpl. rewrite Hroot. reflexivity.
    - left. reflexivity.
    - intros q d nd nm c nc [].
    - intro v. rewrite vcount_nil, vcount_cons, vcount_nil, (has_verifier_node g v _ _ nr Hroot).
      destruct (n_verifier nr) as [w|]; simpl; [|reflexivity].
      rewrite (N.eqb_sym v w), orb_false_r. destruct (w =? v); reflexivity.
  Qed.

  Lemma inv_step st : inv st -> st_stack st <> [] -> inv (step g st).
  Proof.
    intros I Hne. unfold step.
    destruct (st_stack st) as [|[p d] rest] eqn:Es; [congruence|]. clear Hne.
    destruct (i_stackdir st I p d) as (nd & Hd & Hdk); [rewrite Es; left; reflexivity|].
    rewrite Hd.
    set (kids := sort_children (n_children nd)).
    destruct (scan_origin g p kids kids (st_found st) (incl_refl kids)) as (Ou & Of & Od).
    set (s := scan g p kids (st_found st)) in *.
    rewrite Forall_forall in Ou, Of, Od.
    assert (Hmem : forall x, In x ((st_out st ++ [(p, d)] ++ s_unknown s ++ s_files s) ++ s_dirs s ++ rest) <->
                   In x (st_out st ++ st_stack st) \/ In x (s_unknown s ++ s_files s ++ s_dirs s)).
    { intro x. rewrite Es. inapp_goal. tauto. }
    assert (Hent : forall q c, In (q, c) (s_unknown s ++ s_files s ++ s_dirs s) -> walk g root q = Some c).
    { intros q c H.
      assert (exists b, from_kids g p kids b (q, c)) as (b & nm & nc & Hq & Hin & Hl & _)
          by (inapp H; destruct H as [H|[H|H]]; eauto).
      simpl in Hq, Hin, Hl. subst q. apply (proj1 (sort_children_In _ _)) in Hin.
      eapply walk_snoc; [|exact Hd|exact Hdk| |exact Hl].
      - apply (i_walk st I). rewrite Es. apply in_or_app. right. left. reflexivity.
      - apply find_child_nodup; [|exact Hin]. apply (wf_names g Hwf d nd Hd). }
    constructor; cbn [st_out st_stack st_found app].
    - intros q j H. apply in_app_or in H. destruct H as [H|H].
      + destruct (Od _ H) as (_ & nc & _ & _ & Hl & Hk). exists nc. split; [exact Hl|].
        destruct (n_kind nc); try discriminate. reflexivity.
      + apply (i_stackdir st I q j). rewrite Es. right. exact H.
    - intros q j H. apply Hmem in H. destruct H as [K|K]; [exact (i_walk st I q j K)|exact (Hent q j K)].
    - apply Hmem. left. exact (i_root st I).
    - intros q d' nd' nm c nc H Hd' Hk' Hin Hc. unfold handled. cbn [st_out st_stack st_found app].
      inapp H. destruct H as [H|[H|H]].
      + (* an older entry: handled before, still handled *)
        destruct (i_handled st I q d' nd' nm c nc H Hd' Hk' Hin Hc) as [[q' K]|(v & K1 & K2)].
        * left. exists q'. apply Hmem. left. exact K.
        * right. exists v. split; [exact K1|]. apply scan_found_mono. exact K2.
      + (* the directory just listed *)
        inversion H; subst q d'. rewrite Hd in Hd'. inversion Hd'; subst nd'.
        apply (proj2 (sort_children_In _ _)) in Hin.
        destruct (scan_handled g p kids (st_found st) nm c nc Hin Hc) as [[q' K]|K]; [|right; exact K].
        left. exists q'. apply Hmem. right. inapp_goal. exact K.
      + (* unknown nodes and files are not directories *)
        exfalso. destruct H as [H|H]; [apply Ou in H|apply Of in H];
          destruct H as (_ & m & _ & _ & Hm & Hnk); simpl in Hm; rewrite Hd' in Hm; inversion Hm; subst m;
          rewrite Hk' in Hnk; discriminate.
    - intro v.
      pose proof (i_count st I v) as C. rewrite Es, vcount_cons in C.
      destruct (scan_count g p kids (wf_unknown g Hwf) (st_found st) v) as (S1 & S2).
      fold s in S1, S2.
      change (st_out st ++ [(p, d)] ++ s_unknown s ++ s_files s) with (st_out st ++ (p, d) :: s_unknown s ++ s_files s).
      rewrite !vcount_app, vcount_cons, !vcount_app, S1. lia.
  Qed.

  Lemma traverse_final fuel out :
    traverse_fuel g fuel root = Some out ->
    exists st, inv st /\ st_stack st = [] /\ st_out st = out.
  Proof.
    intro H. unfold traverse_fuel in H.
    apply (loop_inv g inv inv_step fuel (init_state g root) out inv_init H).
  Qed.

  Definition covered (out : list visit) (o : N) : Prop :=
    exists q j m, In (q, j) out /\ lookup g j = Some m /\ n_obj m = o.

  Lemma child_objs_In nd nm c nc :
    In (nm, c) (n_children nd) -> lookup g c = Some nc -> In (nm, Some (n_obj nc)) (child_objs g nd).
  Proof.
    intros Hin Hl. unfold child_objs. apply in_map_iff. exists (nm, c). simpl. rewrite Hl.
    split; [reflexivity|]. apply (proj2 (sort_children_In _ _)). exact Hin.
  Qed.

  Lemma child_objs_inv nd nm o :
    In (nm, Some o) (child_objs g nd) -> exists c nc, In (nm, c) (n_children nd) /\ lookup g c = Some nc /\ n_obj nc = o.
  Proof.
    unfold child_objs. intro H. apply in_map_iff in H. destruct H as ([nm' c] & E & Hin). simpl in E.
    apply (proj1 (sort_children_In _ _)) in Hin.
    destruct (lookup g c) as [nc|] eqn:El; [|discriminate]. inversion E; subst.
    exists c, nc. repeat split; auto.
  Qed.

  Lemma visits_all_reachable_lem fuel out :
    traverse_fuel g fuel root = Some out ->
    forall i n, reachable g root i -> lookup g i = Some n -> covered out (n_obj n).
  Proof.
    intro Ht. destruct (traverse_final fuel out Ht) as (st & I & Hs & Ho).
    intros i n Hr. revert n. induction Hr as [nr' Hnr | d nd nm c nc Hrd IH Hd Hk Hin Hc]; intros n Hl.
    - rewrite Hl in Hnr. inversion Hnr; subst nr'.
      exists [], root, n. split; [|auto].
      pose proof (i_root st I) as R. rewrite Hs, app_nil_r, Ho in R. exact R.
    - rewrite Hc in Hl. inversion Hl; subst n.
      destruct (IH nd Hd) as (q & j & m & Hqj & Hm & Hobj).
      (* m is a cap for the same object as nd: same kind, same (name, object) links *)
      destruct (wf_same_obj g Hwf j d m nd Hm Hd Hobj) as (_ & Hkind & Hkids).
      assert (Hmk : n_kind m = KDir) by congruence.
      specialize (Hkids Hmk).
      pose proof (child_objs_In nd nm c nc Hin Hc) as Hco. rewrite <- Hkids in Hco.
      destruct (child_objs_inv m nm (n_obj nc) Hco) as (c' & nc' & Hin' & Hc' & Hobj').
      rewrite <- Ho in Hqj.
      destruct (i_handled st I q j m nm c' nc' Hqj Hm Hmk Hin' Hc') as [[q' K]|(v & K1 & K2)].
      + rewrite Hs, app_nil_r, Ho in K. exists q', c', nc'. auto.
      + pose proof (i_count st I v) as C. apply mem_In in K2. rewrite K2, Hs, vcount_nil, Nat.add_0_r, Ho in C.
        destruct (proj1 (vcount_pos g v out) (Nat.eq_le_incl _ _ (eq_sym C))) as (q2 & j2 & m2 & J1 & J2 & J3).
        exists q2, j2, m2. split; [exact J1|]. split; [exact J2|].
        rewrite <- Hobj'. apply (wf_verifier g Hwf j2 c' m2 nc' v J2 Hc' J3 K1).
  Qed.

  Lemma paths_lead_to_nodes_lem fuel out :
    traverse_fuel g fuel root = Some out -> forall q j, In (q, j) out -> walk g root q = Some j.
  Proof.
    intro Ht. destruct (traverse_final fuel out Ht) as (st & I & Hs & Ho).
    intros q j H. apply (i_walk st I). rewrite Hs, app_nil_r, Ho. exact H.
  Qed.

  Lemma at_most_once_lem fuel out v :
    traverse_fuel g fuel root = Some out -> (vcount g v out <= 1)%nat.
  Proof.
    intro Ht. destruct (traverse_final fuel out Ht) as (st & I & Hs & Ho).
    pose proof (i_count st I v) as C. rewrite Hs, Ho, vcount_nil in C.
    destruct (mem v (st_found st)); simpl in C; lia.
  Qed.

  Lemma with_verifier_exactly_once_lem fuel out :
    traverse_fuel g fuel root = Some out ->
    forall i n v, reachable g root i -> lookup g i = Some n -> n_verifier n = Some v ->
    count_obj g (n_obj n) out = 1%nat.
  Proof.
    intros Ht i n v Hr Hl Hv.
    (* counting by object = counting by verify cap, on visited nodes *)
    assert (Heq : count_obj g (n_obj n) out = vcount g v out).
    { unfold count_obj, vcount. f_equal. apply filter_ext_in. intros [q j] Hin.
      unfold has_obj, has_verifier. simpl.
      destruct (walk_lookup g q root j (paths_lead_to_nodes_lem fuel out Ht q j Hin)) as (m & Hm). rewrite Hm.
      destruct (n_obj m =? n_obj n) eqn:E.
      - apply N.eqb_eq in E.
        destruct (wf_same_obj g Hwf j i m n Hm Hl E) as (Hvv & _ & _).
        rewrite Hvv, Hv. simpl. symmetry. apply N.eqb_refl.
      - symmetry. apply not_true_iff_false. intro K. apply opt_N_eqb_eq in K.
        apply N.eqb_neq in E. apply E. apply (wf_verifier g Hwf j i m n v Hm Hl K Hv). }
    rewrite Heq.
    pose proof (at_most_once_lem fuel out v Ht).
    destruct (visits_all_reachable_lem fuel out Ht i n Hr Hl) as (q & j & m & Hqj & Hm & Hobj).
    destruct (wf_same_obj g Hwf j i m n Hm Hl Hobj) as (Hvv & _ & _).
    assert (1 <= vcount g v out)%nat by (apply vcount_pos; exists q, j, m; repeat split; congruence).
    lia.
  Qed.
End Walk.

Lemma child_objs_eqb_eq a b : child_objs_eqb a b = true -> a = b.
Proof.
  revert b. induction a as [|[n1 o1] a IH]; destruct b as [|[n2 o2] b]; simpl; intro H; try discriminate; [reflexivity|].
  apply andb_prop in H. destruct H as [H H3]. apply andb_prop in H. destruct H as [H1 H2].
  apply name_eqb_eq in H1. apply opt_N_eqb_eq in H2. subst. f_equal. apply IH. exact H3.
Qed.

Lemma kind_eqb_eq a b : kind_eqb a b = true -> a = b.
Proof. destruct a, b; simpl; intro H; try discriminate; reflexivity. Qed.

Lemma wf_graphb_sound g : wf_graphb g = true -> wf_graph g.
Proof.
  unfold wf_graphb. intro H. rewrite forallb_forall in H.
  assert (Hn : forall i n, lookup g i = Some n -> node_ok g n = true).
  { intros i n Hl. apply lookup_In in Hl. specialize (H _ Hl). simpl in H. apply andb_prop in H. tauto. }
  assert (Hp : forall i j a b, lookup g i = Some a -> lookup g j = Some b ->
               same_object_agree g a b = true /\ verifier_identifies a b = true).
  { intros i j a b Ha Hb. apply lookup_In in Ha. apply lookup_In in Hb.
    specialize (H _ Ha). simpl in H. apply andb_prop in H. destruct H as [_ H].
    rewrite forallb_forall in H. specialize (H _ Hb). simpl in H. apply andb_prop in H. exact H. }
  unfold node_ok in Hn. repeat setoid_rewrite andb_true_iff in Hn.
  constructor.
  - intros i n Hl. exact (proj1 (proj1 (Hn i n Hl))).
  - intros i n nm c Hl Hin. pose proof (proj2 (proj1 (Hn i n Hl))) as Hc.
    rewrite forallb_forall in Hc. specialize (Hc _ Hin). simpl in Hc.
    destruct (lookup g c) as [nc|]; [eauto|discriminate].
  - intros i n Hl Hk. pose proof (proj2 (Hn i n Hl)) as Hu. rewrite Hk in Hu. simpl in Hu.
    destruct (n_verifier n); [discriminate|reflexivity].
  - intros i j a b Ha Hb Ho. destruct (Hp i j a b Ha Hb) as [Hs _].
    unfold same_object_agree in Hs. rewrite Ho, N.eqb_refl, !andb_true_iff in Hs. destruct Hs as [[H1 H2] H3].
    apply opt_N_eqb_eq in H1. apply kind_eqb_eq in H2.
    split; [exact H1|]. split; [exact H2|].
    intro Hk. rewrite Hk in H3. apply child_objs_eqb_eq. exact H3.
  - intros i j a b v Ha Hb Hva Hvb. destruct (Hp i j a b Ha Hb) as [_ Hv].
    unfold verifier_identifies in Hv. rewrite Hva, Hvb, N.eqb_refl in Hv. apply N.eqb_eq. exact Hv.
Qed.

Lemma dirs_have_verifierb_sound g : dirs_have_verifierb g = true -> dirs_have_verifier g.
Proof.
  unfold dirs_have_verifierb, dirs_have_verifier. intros H i n Hl Hk.
  rewrite forallb_forall in H. apply lookup_In in Hl. specialize (H _ Hl). simpl in H.
  rewrite Hk in H. simpl in H. destruct (n_verifier n) as [v|]; [eauto|discriminate].
Qed.

Lemma traverse_fuel_mono g root f out :
  traverse_fuel g f root = Some out -> forall f', (f <= f')%nat -> traverse_fuel g f' root = Some out.
Proof. unfold traverse_fuel. intros H f' Hle. eapply loop_fuel_mono; eauto. Qed.

(* the statement "every reachable object exactly once" fails for objects
   without a verify cap: they are handed to the walker once per link *)
Definition two_links (k : kind) : graph :=
  [ (0, mkNode 0 KDir (Some 100) None [([97], 1); ([98], 1)]);
    (1, mkNode 1 k None (Some 3) []) ].

Lemma two_links_reachable k : reachable (two_links k) 0 1.
Proof.
  eapply (reach_child (two_links k) 0 0 _ [97] 1 _).
  - eapply reach_root. reflexivity.
  - reflexivity.
  - reflexivity.
  - left. reflexivity.
  - reflexivity.
Qed.

Lemma no_verifier_once_per_link k :
  In k [KFileLit; KDir; KUnknown] ->
  exists g root nr out i n,
    wf_graph g /\ lookup g root = Some nr /\ n_kind nr = KDir /\ traverse g root = Some out /\
    reachable g root i /\ lookup g i = Some n /\ n_kind n = k /\ n_verifier n = None /\
    count_obj g (n_obj n) out = 2%nat.
Proof.
  intro Hk.
  exists (two_links k), 0, (mkNode 0 KDir (Some 100) None [([97], 1); ([98], 1)]),
         [([], 0); ([[97]], 1); ([[98]], 1)], 1, (mkNode 1 k None (Some 3) []).
  destruct Hk as [<-|[<-|[<-|[]]]]; (split; [apply wf_graphb_sound; vm_compute; reflexivity|]);
    repeat split; try reflexivity; apply two_links_reachable.
Qed.
