(* Invariants of IncompleteHashTree.set_hashes (Model/HashTree.v):
   - RInv: what the rollback needs (every changed slot is in remove_upon_failure,
     slots that were truthy never change);
   - VInv: every slot changed so far is either still red-dotted, in the words of the
     comment in set_hashes (`marked`, Proofs/HashTreeBase.v: its key is in this_level
     or in a level set), or settled: its parent slot holds pair_hash of the two child
     slots, and none of the three slots is written again.
   Consequences: characterisation of accepted calls, soundness, rollback. *)
From Coq Require Import List ZArith Bool Lia.
From Verif Require Import Model.HashTree Proofs.HashTreeBase.
Import ListNotations.
Local Open Scope Z_scope.

Section HashTreeProofs.
  Variable H : Type.
  Variable H_eqb : H -> H -> bool.
  Variable pair_hash : H -> H -> H.
  Variable truthy : H -> bool.
  Hypothesis H_eqb_spec : forall a b, H_eqb a b = true <-> a = b.
  Hypothesis pair_truthy : forall a b, truthy (pair_hash a b) = true.

  Notation tree := (list (option H)).
  Notation wst := (wst H).
  Notation is_truthy := (is_truthy H truthy).
  Notation stepB := (stepB H H_eqb truthy).
  Notation phaseB := (phaseB H H_eqb truthy).
  Notation stepC := (stepC H H_eqb pair_hash truthy).
  Notation run_level := (run_level H H_eqb pair_hash truthy).
  Notation run_levels := (run_levels H H_eqb pair_hash truthy).
  Notation set_hashes := (set_hashes H H_eqb pair_hash truthy).
  Notation mkW := (mkW H).

  Lemma opt_dec : forall a b : option H, a = b \/ a <> b.
  Proof.
    intros [a|] [b|]; try (right; discriminate); try (left; reflexivity).
    destruct (H_eqb a b) eqn:E.
    - apply H_eqb_spec in E. subst. left. reflexivity.
    - right. intros Heq. inversion Heq. subst. assert (H_eqb b b = true) by (apply H_eqb_spec; reflexivity). congruence.
  Qed.

  Lemma truthy_some : forall o, is_truthy o = true -> exists h, o = Some h /\ truthy h = true.
  Proof. intros [h|] Ht; cbn in Ht; [eauto|discriminate]. Qed.

  (* new_hashes: the entries of `hashes` and the leaves, keyed by node number *)
  Lemma merge_spec : forall fl leaves nh nh',
    merge_leaves H H_eqb fl nh leaves = Some nh' ->
    forall k h, In (k, h) nh' <-> In (k, h) nh \/ exists ln, k = fl + ln /\ In (ln, h) leaves.
  Proof.
    intros fl. induction leaves as [|[ln lh] r IH]; intros nh nh' Hm k h; cbn [merge_leaves] in Hm.
    - inversion Hm. subst. split; [auto|intros [Hin|[ln [_ []]]]; exact Hin].
    - destruct (assoc H (fl + ln) nh) as [h'|] eqn:Ea.
      + destruct (H_eqb h' lh) eqn:Eq; [|discriminate]. apply H_eqb_spec in Eq. subst h'. apply assoc_in in Ea.
        rewrite (IH _ _ Hm). cbn [In]. split.
        * intros [Hin|[l [Hk Hin]]]; [left; exact Hin|right; exists l; auto].
        * intros [Hin|[l [Hk [Heq|Hin]]]]; [left; exact Hin|left; inversion Heq; subst; exact Ea|right; exists l; auto].
      + rewrite (IH _ _ Hm), in_app_iff. cbn [In]. split.
        * intros [[Hin|[Heq|[]]]|[l [Hk Hin]]]; [left; exact Hin|right; exists ln; inversion Heq; auto|right; exists l; auto].
        * intros [Hin|[l [Hk [Heq|Hin]]]]; [left; left; exact Hin|left; right; left; inversion Heq; subst; reflexivity|right; exists l; auto].
  Qed.

  (* the "conflicting hashes" error needs two different values for one node *)
  Lemma merge_consistent : forall fl (G : Z -> H) leaves nh,
    (forall k h, In (k, h) nh -> h = G k) -> (forall ln h, In (ln, h) leaves -> h = G (fl + ln)) ->
    exists nh', merge_leaves H H_eqb fl nh leaves = Some nh'.
  Proof.
    intros fl G. induction leaves as [|[ln lh] r IH]; intros nh Hnh Hlv; cbn [merge_leaves]; [eauto|].
    pose proof (Hlv ln lh (or_introl eq_refl)) as Hh.
    assert (Hr : forall l h, In (l, h) r -> h = G (fl + l)) by (intros l h Hin; apply Hlv; right; exact Hin).
    destruct (assoc H (fl + ln) nh) as [h'|] eqn:Ea.
    - apply assoc_in in Ea. rewrite (Hnh _ _ Ea), Hh, (proj2 (H_eqb_spec _ _) eq_refl). apply IH; assumption.
    - apply IH; [|exact Hr]. intros k h Hin. apply in_app_iff in Hin.
      destruct Hin as [Hin|[Heq|[]]]; [apply Hnh; exact Hin|injection Heq as <- <-; exact Hh].
  Qed.

  (* T0 is the tree as the call found it.  A key is a Python index, possibly negative; it is valid
     for -len <= key < len and then names slot normz len key, slots being numbered from 0.
     r_ruf: a slot that differs from T0 is named by a key of remove_upon_failure;
     r_ruf2: a valid key of remove_upon_failure names a slot that is not truthy in T0 (None or b""),
     so writing None there gives T0 back when T0 stores no b"" (rollback_restores). *)
  Record RInv (T0 : tree) (st : wst) : Prop := {
    r_len : length (wT H st) = length T0;
    r_keep : forall j, 0 <= j -> is_truthy (slot T0 j) = true -> slot (wT H st) j = slot T0 j;
    r_ruf : forall j, 0 <= j < zlen T0 -> slot (wT H st) j <> slot T0 j ->
            exists key, In key (wruf H st) /\ validz (zlen T0) key /\ normz (zlen T0) key = j;
    r_ruf2 : forall key, In key (wruf H st) -> validz (zlen T0) key ->
             is_truthy (slot T0 (normz (zlen T0) key)) = false
  }.

  Lemma RInv_zlen : forall T0 st, RInv T0 st -> zlen (wT H st) = zlen T0.
  Proof. intros T0 st R. unfold zlen. rewrite (r_len _ _ R). reflexivity. Qed.

  Lemma RInv_lv : forall T0 st lv', RInv T0 st -> RInv T0 (mkW (wT H st) lv' (wruf H st)).
  Proof. intros T0 st lv' [R1 R2 R3 R4]. constructor; cbn; auto. Qed.

  Lemma RInv_write : forall T0 st key v lv',
    RInv T0 st -> validz (zlen T0) key ->
    is_truthy (slot (wT H st) (normz (zlen T0) key)) = false ->
    RInv T0 (mkW (upd (wT H st) (Z.to_nat (normz (zlen T0) key)) v) lv' (zadd key (wruf H st))).
  Proof.
    intros T0 st key v lv' R Hv Hf. pose proof (RInv_zlen _ _ R) as Hz.
    pose proof (normz_range _ _ Hv) as Hr. set (a := normz (zlen T0) key) in *.
    destruct R as [R1 R2 R3 R4]. constructor; cbn [wT wlv wruf].
    - rewrite upd_length. exact R1.
    - intros j Hj Ht. rewrite slot_upd by lia.
      destruct (a =? j) eqn:E; [|apply R2; assumption].
      apply Z.eqb_eq in E. subst j. rewrite <- (R2 a) in Ht by (lia || assumption). congruence.
    - intros j Hj Hne. rewrite slot_upd in Hne by lia.
      destruct (a =? j) eqn:E.
      + apply Z.eqb_eq in E. exists key. split; [apply in_zadd; auto|auto].
      + destruct (R3 j Hj Hne) as [k [Hk1 Hk2]]. exists k. split; [apply in_zadd; auto|auto].
    - intros k Hk Hkv. apply in_zadd in Hk. destruct Hk as [->|Hk]; [|apply R4; assumption].
      fold a. destruct (is_truthy (slot T0 a)) eqn:Et; [|reflexivity].
      rewrite <- (R2 a) in Et by (lia || assumption). congruence.
  Qed.

  (* what an error exit establishes: the exception is one the except clause catches, and the
     state it leaves can be rolled back *)
  Definition caught (T0 : tree) (x : err * wst) : Prop := fst x <> Crash /\ RInv T0 (snd x).

  (* l <= depth_of j: j and its sibling lie at level l or deeper.  While level l and the levels
     above it are drained, a write goes to a slot above level l that is not truthy (settled_upd):
     not to j or its sibling, nor to the parent slot, which is truthy (pair_truthy). *)
  Definition settled (l : Z) (T : tree) (j : Z) : Prop :=
    j = 0 \/
    (1 <= j /\ l <= depth_of j /\
     exists a b, slot T (parz j) = Some (pair_hash a b) /\
                 slot T (2 * parz j + 1) = Some a /\ slot T (2 * parz j + 2) = Some b).

  (* T0: the tree as the call found it.
     l: the level being drained; the sets of wlv at levels >= l are empty (v_empty).  During
        phase B, l is the number of levels.
     M: this_level, the set of level l, which run_levels takes out of wlv while it is drained;
        stepC_ok takes M = i :: cur, the popped key put back.
     The facts about a key are stated for 0 <= key: a negative key of `hashes` has depth_of = -1,
     so phase B puts it in the deepest level set (hashes_to_check[-1]), whatever slot it names;
     stepC answers IndexError for it (`sibling`). *)
  Record VInv (T0 : tree) (l : Z) (M : list Z) (st : wst) : Prop := {
    v_lvM : forall key, In key M -> 0 <= key -> key < zlen T0 /\ depth_of key = l;
    v_lv : forall k key, In key (nth k (wlv H st) []) -> 0 <= key -> key < zlen T0 /\ depth_of key = Z.of_nat k;
    v_empty : forall k, l <= Z.of_nat k -> nth k (wlv H st) [] = [];
    v_pres : forall key, marked M (wlv H st) key -> 0 <= key -> slot (wT H st) key <> None;
    v_new : forall j, 0 <= j < zlen T0 -> slot (wT H st) j <> None -> slot (wT H st) j <> slot T0 j ->
            (exists key, marked M (wlv H st) key /\ validz (zlen T0) key /\ normz (zlen T0) key = j)
            \/ settled l (wT H st) j
  }.

  Lemma settled_mono : forall l l' T j, l' <= l -> settled l T j -> settled l' T j.
  Proof. intros l l' T j Hl [->|[H1 [H2 H3]]]; [left; reflexivity|right; repeat split; [assumption|lia|assumption]]. Qed.

  (* a marked set can be replaced by one that marks no more and loses only settled keys *)
  Lemma VInv_shrink : forall T0 l M M' st,
    VInv T0 l M st ->
    (forall y, In y M' -> In y M) ->
    (forall y, In y M -> In y M' \/ (0 <= y /\ settled l (wT H st) y)) ->
    VInv T0 l M' st.
  Proof.
    intros T0 l M M' st [V1 V2 V3 V4 V5] Hsub Hlost. constructor; auto.
    - intros key [Hk|Hk] H0; apply V4; auto; [left; auto|right; auto].
    - intros j Hj Hp Hne. destruct (V5 j Hj Hp Hne) as [[key [[Hk|Hk] [Hv Hn]]]|Hs]; [| |right; exact Hs].
      + destruct (Hlost key Hk) as [Hk'|[H0 Hs]].
        * left. exists key. split; [left; exact Hk'|auto].
        * right. rewrite normz_nonneg in Hn by exact H0. subst j. exact Hs.
      + left. exists key. split; [right; exact Hk|auto].
  Qed.

  Lemma settle_pair : forall l T i a b,
    1 <= i -> l <= depth_of i ->
    slot T (parz i) = Some (pair_hash a b) ->
    slot T (2 * parz i + 1) = Some a -> slot T (2 * parz i + 2) = Some b ->
    settled l T i /\ settled l T (sibz i).
  Proof.
    intros l T i a b Hi Hd Hp Ha Hb. split; right.
    - repeat split; auto. exists a, b. auto.
    - pose proof (sibz_ge1 i Hi). rewrite depth_sibz, parz_sibz by exact Hi. repeat split; auto. exists a, b. auto.
  Qed.

  Lemma VInv_ext : forall T0 l M M' st, (forall y, In y M' <-> In y M) -> VInv T0 l M st -> VInv T0 l M' st.
  Proof.
    intros T0 l M M' st HM V. apply (VInv_shrink T0 l M M' st V); intros y Hy; [|left]; apply HM; exact Hy.
  Qed.

  Lemma VInv_settle : forall T0 l i cur st a b,
    VInv T0 l (i :: cur) st -> 1 <= i -> l <= depth_of i ->
    slot (wT H st) (parz i) = Some (pair_hash a b) ->
    slot (wT H st) (2 * parz i + 1) = Some a -> slot (wT H st) (2 * parz i + 2) = Some b ->
    VInv T0 l (zdiscard (sibz i) cur) st.
  Proof.
    intros T0 l i cur st a b V Hi Hd Hp Ha Hb.
    destruct (settle_pair l _ i a b Hi Hd Hp Ha Hb) as [S1 S2]. pose proof (sibz_ge1 i Hi) as Hs.
    apply (VInv_shrink T0 l (i :: cur) _ st V).
    - intros y Hy. apply in_zdiscard in Hy. right. apply Hy.
    - intros y [<-|Hy]; [right; split; [lia|exact S1]|].
      destruct (Z.eq_dec y (sibz i)) as [->|Hne]; [right; split; [lia|exact S2]|left; apply in_zdiscard; auto].
  Qed.

  (* a settled node stays settled when a slot that is not truthy, above its level, is written:
     its parent slot is truthy and its family lies at level l or below *)
  Lemma settled_upd : forall l T j v x,
    0 <= j < zlen T -> is_truthy (slot T j) = false -> depth_of j < l ->
    settled l T x -> settled l (upd T (Z.to_nat j) v) x.
  Proof.
    intros l T j v x Hj Hf Hd [->|[Hx1 [Hdx [a [b [E1 [E2 E3]]]]]]]; [left; reflexivity|].
    right. split; [exact Hx1|]. split; [exact Hdx|]. exists a, b.
    pose proof (parz_range x Hx1) as Hpx. destruct (depth_children (parz x)) as [D1 D2]; [lia|].
    pose proof (depth_parz x Hx1) as Dx.
    rewrite !slot_upd_other; auto; try lia; intros Heq; rewrite Heq in *; try lia.
    rewrite E1 in Hf. cbn in Hf. rewrite pair_truthy in Hf. discriminate.
  Qed.

  Lemma VInv_add : forall T0 l M st key h kk ruf',
    VInv T0 l M st -> zlen (wT H st) = zlen T0 ->
    validz (zlen T0) key ->
    is_truthy (slot (wT H st) (normz (zlen T0) key)) = false ->
    depth_of (normz (zlen T0) key) < l ->
    (kk < length (wlv H st))%nat -> Z.of_nat kk < l ->
    (0 <= key -> depth_of key = Z.of_nat kk) ->
    VInv T0 l M (mkW (upd (wT H st) (Z.to_nat (normz (zlen T0) key)) (Some h))
                     (upd (wlv H st) kk (zadd key (nth kk (wlv H st) []))) ruf').
  Proof.
    intros T0 l M st key h kk ruf' [V1 V2 V3 V4 V5] Hz Hv Hf Hd Hkk Hkl Hdk.
    pose proof (normz_range _ _ Hv) as Hj. set (j := normz (zlen T0) key) in *.
    assert (Hslot : forall x, 0 <= x -> slot (upd (wT H st) (Z.to_nat j) (Some h)) x = if j =? x then Some h else slot (wT H st) x).
    { intros x Hx. apply slot_upd; [rewrite Hz; exact Hj|exact Hx]. }
    assert (Hjk : 0 <= key -> j = key) by (intros H0; apply normz_nonneg; exact H0).
    constructor; cbn [wT wlv wruf].
    - exact V1.
    - intros k key' Hk H0. apply in_level_add in Hk; [|exact Hkk]. destruct Hk as [[-> ->]|Hk]; [|apply V2; assumption].
      split; [rewrite <- (Hjk H0); lia|apply Hdk; exact H0].
    - intros k Hk. rewrite nth_upd_lt by exact Hkk.
      assert (Nat.eqb k kk = false) as -> by (apply Nat.eqb_neq; lia). apply V3; exact Hk.
    - intros key' Hm H0. rewrite Hslot by exact H0. destruct (j =? key') eqn:E; [discriminate|].
      apply marked_add in Hm; [|exact Hkk]. destruct Hm as [->|Hm]; [|apply V4; assumption].
      apply Z.eqb_neq in E. elim E. apply Hjk. exact H0.
    - intros x Hx Hp Hne. rewrite Hslot in Hp, Hne by lia. destruct (j =? x) eqn:E.
      + apply Z.eqb_eq in E. left. exists key. split; [apply marked_add; auto|split; [exact Hv|exact E]].
      + destruct (V5 x Hx Hp Hne) as [[key' [Hm Hr]]|Hs].
        * left. exists key'. split; [apply marked_add; auto|exact Hr].
        * right. apply settled_upd; [rewrite Hz; exact Hj|exact Hf|exact Hd|exact Hs].
  Qed.

  Lemma stepB_ok : forall T0 nl st i h,
    RInv T0 st -> VInv T0 nl [] st ->
    (forall x, 0 <= x < zlen T0 -> depth_of x < nl) ->
    zlen (wlv H st) = nl ->
    match stepB st i h with
    | inl st' => RInv T0 st' /\ VInv T0 nl [] st' /\ length (wlv H st') = length (wlv H st)
    | inr x => caught T0 x
    end.
  Proof.
    intros T0 nl st i h R V Hdep Hnl. pose proof (RInv_zlen _ _ R) as Hz. unfold stepB.
    destruct (get (wT H st) i) as [cur|] eqn:Eg; [|split; [discriminate|exact R]].
    pose proof (get_some_valid _ _ _ _ Eg) as Hv. rewrite get_valid in Eg by exact Hv.
    apply Some_inj in Eg. rewrite Hz in Hv, Eg. pose proof (normz_range _ _ Hv) as Hj.
    destruct (is_truthy cur) eqn:Et.
    - destruct cur as [c|]; [|auto].
      destruct (H_eqb c h); [auto|split; [discriminate|exact R]].
    - destruct (get (wlv H st) (depth_of i)) as [s|] eqn:El; [|split; [discriminate|exact R]].
      rewrite put_valid by (rewrite Hz; exact Hv). rewrite Hz.
      destruct (get_some_put _ _ _ _ [] El) as [Hkk [-> Hput]]. rewrite Hput. rewrite <- Eg in Et.
      split; [apply RInv_write; assumption|]. split; [|cbn; apply upd_length].
      apply VInv_add; try assumption.
      + apply Hdep. exact Hj.
      + unfold zlen in *. lia.
      + intros H0. pose proof (depth_nonneg i H0). rewrite normz_nonneg; lia.
  Qed.

  Lemma phaseB_ok : forall T0 nl nh st,
    RInv T0 st -> VInv T0 nl [] st ->
    (forall x, 0 <= x < zlen T0 -> depth_of x < nl) ->
    zlen (wlv H st) = nl ->
    match phaseB nh st with
    | inl st' => RInv T0 st' /\ VInv T0 nl [] st' /\ length (wlv H st') = length (wlv H st)
    | inr x => caught T0 x
    end.
  Proof.
    intros T0 nl nh. induction nh as [|[i h] r IH]; intros st R V Hd Hnl; cbn [HashTree.phaseB].
    - auto.
    - pose proof (stepB_ok T0 nl st i h R V Hd Hnl) as Hs.
      destruct (stepB st i h) as [st'|[e st']].
      + destruct Hs as [R' [V' Hl]].
        assert (Hnl' : zlen (wlv H st') = nl) by (unfold zlen in *; rewrite Hl; exact Hnl).
        specialize (IH st' R' V' Hd Hnl'). destruct (phaseB r st') as [st''|[e st'']]; [|exact IH].
        destruct IH as [R'' [V'' Hl'']]. split; [exact R''|split; [exact V''|congruence]].
      + exact Hs.
  Qed.

  Lemma stepC_root : forall l cur st, stepC l 0 cur st = inl (cur, st).
  Proof. reflexivity. Qed.

  Lemma stepC_index : forall l i cur st,
    i <> 0 -> ~ (1 <= i /\ 2 * parz i + 2 < zlen (wT H st)) -> stepC l i cur st = inr (IndexError, st).
  Proof.
    intros l i cur st Hi Hbad. unfold HashTree.stepC. apply Z.eqb_neq in Hi. rewrite Hi.
    destruct (sibling (zlen (wT H st)) i) as [s|] eqn:Es; [|reflexivity].
    apply sibling_some in Es. elim Hbad. split; apply Es.
  Qed.

  (* the rest of stepC once both children a, b of p = parz i are present:
     compare with, or fill in, the parent slot *)
  Definition pair_step (l i : Z) (cur : list Z) (st : wst) (a b : H) : (list Z * wst) + (err * wst) :=
    let p := parz i in
    let rest := zdiscard (sibz i) cur in
    if is_truthy (slot (wT H st) p) then
      match slot (wT H st) p with
      | Some ph => if H_eqb ph (pair_hash a b) then inl (rest, st) else inr (BadHashError, st)
      | None => inr (Crash, st)
      end
    else
      let T' := upd (wT H st) (Z.to_nat p) (Some (pair_hash a b)) in
      let ruf' := zadd p (wruf H st) in
      if negb (depth_of p =? l - 1) then inr (Crash, mkW T' (wlv H st) ruf')
      else match get (wlv H st) (depth_of p) with
           | None => inr (IndexError, mkW T' (wlv H st) ruf')
           | Some s => match put (wlv H st) (depth_of p) (zadd p s) with
                       | None => inr (IndexError, mkW T' (wlv H st) ruf')
                       | Some lv' => inl (rest, mkW T' lv' ruf')
                       end
           end.

  Lemma stepC_slots : forall l i cur st,
    1 <= i -> 2 * parz i + 2 < zlen (wT H st) ->
    stepC l i cur st =
      match slot (wT H st) (sibz i), slot (wT H st) (2 * parz i + 1), slot (wT H st) (2 * parz i + 2) with
      | None, _, _ => inr (NotEnoughHashesError, st)
      | Some _, Some a, Some b => pair_step l i cur st a b
      | Some _, _, _ => inr (Crash, st)
      end.
  Proof.
    intros l i cur st Hi Hc. pose proof (parz_range i Hi) as Hp.
    destruct (min_max_sib i Hi) as [Hmin Hmax].
    unfold HashTree.stepC. cbv zeta.
    assert (i =? 0 = false) as -> by (apply Z.eqb_neq; lia).
    rewrite (sibling_intro _ i Hi Hc), (get_slot _ _ (sibz i)) by lia.
    destruct (slot (wT H st) (sibz i)) as [hs|]; [|reflexivity].
    rewrite parent_intro, Hmin, Hmax, !get_slot by lia.
    destruct (slot (wT H st) (2 * parz i + 1)) as [a|], (slot (wT H st) (2 * parz i + 2)) as [b|]; try reflexivity.
    unfold pair_step. destruct (is_truthy (slot (wT H st) (parz i))); [reflexivity|].
    rewrite put_nonneg by lia. reflexivity.
  Qed.

  Lemma popped_depth : forall T0 l i cur st,
    VInv T0 l (i :: cur) st -> 1 <= i -> depth_of i = l /\ depth_of (parz i) = l - 1 /\ 1 <= l.
  Proof.
    intros T0 l i cur st V Hi. pose proof (parz_range i Hi) as Hp.
    destruct (v_lvM _ _ _ _ V i (or_introl eq_refl) ltac:(lia)) as [_ Hdi].
    pose proof (depth_parz i Hi). pose proof (depth_nonneg (parz i) ltac:(lia)). lia.
  Qed.

  (* i is marked, hence present; i and sibz i are the two children of parz i *)
  Lemma popped_children : forall T0 l i cur st,
    VInv T0 l (i :: cur) st -> 1 <= i -> slot (wT H st) (sibz i) <> None ->
    exists a b, slot (wT H st) (2 * parz i + 1) = Some a /\ slot (wT H st) (2 * parz i + 2) = Some b.
  Proof.
    intros T0 l i cur st V Hi Hs.
    pose proof (v_pres _ _ _ _ V i (or_introl (or_introl eq_refl)) ltac:(lia)) as Hp.
    destruct (slot (wT H st) i) as [hi|] eqn:Ei; [|congruence].
    destruct (slot (wT H st) (sibz i)) as [hs|] eqn:Es; [|congruence].
    destruct (node_cases i Hi) as [[H1 H2]|[H1 H2]]; [exists hi, hs|exists hs, hi]; rewrite <- H1, <- H2; auto.
  Qed.

  Lemma stepC_ok : forall T0 l i cur st,
    RInv T0 st -> VInv T0 l (i :: cur) st ->
    match stepC l i cur st with
    | inl (cur', st') => RInv T0 st' /\ VInv T0 l cur' st' /\ (length cur' <= length cur)%nat /\ length (wlv H st') = length (wlv H st)
    | inr x => caught T0 x
    end.
  Proof.
    intros T0 l i cur st R V. pose proof (RInv_zlen _ _ R) as Hz.
    destruct (Z.eq_dec i 0) as [->|Hi0].
    { rewrite stepC_root.
      split; [exact R|]. split; [|split; [lia|reflexivity]].
      apply (VInv_shrink T0 l (0 :: cur) cur st V).
      - intros y Hy. right. exact Hy.
      - intros y [<-|Hy]; [right; split; [lia|left; reflexivity]|left; exact Hy]. }
    assert (Hd : (1 <= i /\ 2 * parz i + 2 < zlen (wT H st)) \/ ~ (1 <= i /\ 2 * parz i + 2 < zlen (wT H st))) by lia.
    destruct Hd as [[Hi1 Hc]|Hbad]; [|rewrite stepC_index by assumption; split; [discriminate|exact R]].
    rewrite stepC_slots by assumption.
    destruct (slot (wT H st) (sibz i)) as [hs|] eqn:Ess; [|split; [discriminate|exact R]].
    destruct (popped_children _ _ _ _ _ V Hi1) as [a [b [Ha Hb]]]; [rewrite Ess; discriminate|]. rewrite Ha, Hb.
    pose proof (parz_range i Hi1) as Hp. destruct (popped_depth _ _ _ _ _ V Hi1) as [Hdi [Hdp Hl1]].
    unfold pair_step.
    destruct (is_truthy (slot (wT H st) (parz i))) eqn:Et.
    - destruct (slot (wT H st) (parz i)) as [ph|] eqn:Esp; [|discriminate Et].
      destruct (H_eqb ph (pair_hash a b)) eqn:Eq; [|split; [discriminate|exact R]].
      apply H_eqb_spec in Eq. subst ph.
      split; [exact R|]. split; [|split; [apply zdiscard_length|reflexivity]].
      apply (VInv_settle T0 l i cur st a b V Hi1 ltac:(lia) Esp Ha Hb).
    - rewrite Hdp, Z.eqb_refl. cbn [negb]. rewrite Hz in Hc.
      pose proof (RInv_write T0 st (parz i) (Some (pair_hash a b))) as HR.
      pose proof (VInv_add T0 l (i :: cur) st (parz i) (pair_hash a b)) as HV.
      rewrite (normz_nonneg _ (parz i)) in HR, HV by lia.
      destruct (get (wlv H st) (l - 1)) as [sset|] eqn:El; [|split; [discriminate|apply HR; [exact R|unfold validz; lia|exact Et]]].
      destruct (get_some_put _ _ _ _ [] El) as [Hkk [-> Hput]]. rewrite Hput.
      rewrite (normz_nonneg _ (l - 1)) in * by lia.
      split; [apply HR; [exact R|unfold validz; lia|exact Et]|].
      split; [|split; [apply zdiscard_length|cbn [wlv]; apply upd_length]].
      apply (VInv_settle T0 l i cur _ a b); cbn [wT]; [|exact Hi1|lia| | |].
      + apply HV; [exact V|exact Hz|unfold validz; lia|exact Et|lia|exact Hkk|lia|lia].
      + apply slot_upd_same. lia.
      + rewrite slot_upd_other by lia. exact Ha.
      + rewrite slot_upd_other by lia. exact Hb.
  Qed.

  (* `while this_level:` as a loop rule.  An invariant of (this_level, state) that sees this_level
     as a set, and that every iteration re-establishes without making this_level longer, holds
     with this_level empty when the loop ends. *)
  Lemma run_level_rule : forall l (I : list Z -> wst -> Prop) (Q : err * wst -> Prop),
    (forall cur cur' st, (forall y, In y cur' <-> In y cur) -> I cur st -> I cur' st) ->
    (forall i cur st, I (i :: cur) st ->
       match stepC l i cur st with
       | inl (cur', st') => (length cur' <= length cur)%nat /\ I cur' st'
       | inr x => Q x
       end) ->
    forall fuel cur st ord, (length cur <= fuel)%nat -> I cur st ->
    match run_level fuel l cur st ord with
    | inl (st', _, cur') => cur' = [] /\ I [] st'
    | inr x => Q x
    end.
  Proof.
    intros l I Q Hext Hstep. induction fuel as [|f IH]; intros cur st ord Hlen Hi; cbn [HashTree.run_level].
    - destruct cur; [auto|cbn in Hlen; lia].
    - destruct (zpop ord cur) as [[[i cur'] ord']|] eqn:Ep.
      + apply zpop_spec in Ep. destruct Ep as [Hpop Hlt].
        pose proof (Hstep i cur' st (Hext _ _ _ Hpop Hi)) as Hs.
        destruct (stepC l i cur' st) as [[cur'' st']|x]; [|exact Hs].
        destruct Hs as [Hl Hi']. apply IH; [lia|exact Hi'].
      + apply zpop_none in Ep. subst cur. auto.
  Qed.

  Lemma run_level_ok : forall T0 l fuel cur st ord,
    (length cur <= fuel)%nat -> RInv T0 st -> VInv T0 l cur st ->
    match run_level fuel l cur st ord with
    | inl (st', _, cur') => cur' = [] /\ RInv T0 st' /\ VInv T0 l [] st'
    | inr x => caught T0 x
    end.
  Proof.
    intros T0 l fuel cur st ord Hlen R V.
    apply (run_level_rule l (fun c s => RInv T0 s /\ VInv T0 l c s) (caught T0)); [| |exact Hlen|auto].
    - intros c c' s Hc [R' V']. split; [exact R'|apply (VInv_ext _ _ _ _ _ Hc V')].
    - intros i c s [R' V']. pose proof (stepC_ok T0 l i c s R' V') as Hs.
      destruct (stepC l i c s) as [[c' s']|x]; [|exact Hs]. destruct Hs as [R'' [V'' [Hl _]]]. auto.
  Qed.

  Lemma VInv_next : forall T0 L st,
    VInv T0 (Z.of_nat (S L)) [] st ->
    VInv T0 (Z.of_nat L) (nth L (wlv H st) []) (mkW (wT H st) (upd (wlv H st) L []) (wruf H st)).
  Proof.
    intros T0 L st [V1 V2 V3 V4 V5]. constructor; cbn [wT wlv wruf].
    - intros key Hk H0. apply V2; assumption.
    - intros k key Hk H0. rewrite nth_upd_default in Hk. destruct (Nat.eqb k L); [destruct Hk|apply V2; assumption].
    - intros k Hk. rewrite nth_upd_default. destruct (Nat.eqb k L) eqn:E; [reflexivity|]. apply Nat.eqb_neq in E. apply V3. lia.
    - intros key Hm H0. apply V4; [apply (proj1 (marked_take _ _ _) Hm)|exact H0].
    - intros j Hj Hp Hne. destruct (V5 j Hj Hp Hne) as [[key [Hm Hr]]|Hs].
      + left. exists key. split; [apply (proj2 (marked_take _ _ _) Hm)|exact Hr].
      + right. apply (settled_mono (Z.of_nat (S L))); [lia|exact Hs].
  Qed.

  Lemma run_levels_ok : forall T0 k st ord,
    RInv T0 st -> VInv T0 (Z.of_nat k) [] st ->
    match run_levels k st ord with
    | inl st' => RInv T0 st' /\ VInv T0 0 [] st'
    | inr x => caught T0 x
    end.
  Proof.
    intros T0 k. induction k as [|L IH]; intros st ord R V; cbn [HashTree.run_levels].
    - auto.
    - pose proof (VInv_next T0 L st V) as V'.
      pose proof (RInv_lv T0 st (upd (wlv H st) L []) R) as R'.
      pose proof (run_level_ok T0 (Z.of_nat L) _ _ _ ord (le_n _) R' V') as Hs. revert Hs.
      destruct (run_level _ _ _ _ _) as [[[st' ord'] c']|x]; intros Hs; [|exact Hs].
      destruct Hs as [_ [R'' V'']]. apply IH; assumption.
  Qed.

  Lemma init_inv : forall T0 nl,
    RInv T0 (mkW T0 (repeat [] nl) []) /\ VInv T0 (Z.of_nat nl) [] (mkW T0 (repeat [] nl) []).
  Proof.
    intros T0 nl. split; constructor; cbn [wT wlv wruf].
    - reflexivity.
    - reflexivity.
    - intros j _ Hne. congruence.
    - intros key [].
    - intros key [].
    - intros k key Hk. rewrite nth_repeat in Hk. destruct Hk.
    - intros k _. apply nth_repeat.
    - intros key [[]|[k Hk]]. rewrite nth_repeat in Hk. destruct Hk.
    - intros j _ _ Hne. congruence.
  Qed.

  Lemma set_hashes_cases : forall fl T0 hashes leaves ord,
    (exists st, set_hashes fl T0 hashes leaves ord = Accepted H (wT H st) /\ RInv T0 st /\ VInv T0 0 [] st)
    \/ set_hashes fl T0 hashes leaves ord = Rejected H BadHashError T0
    \/ (exists e st, e <> Crash /\ RInv T0 st /\
          set_hashes fl T0 hashes leaves ord = Rejected H e (rollback H (wT H st) (wruf H st))).
  Proof.
    intros fl T0 hashes leaves ord. unfold HashTree.set_hashes.
    destruct (merge_leaves H H_eqb fl hashes leaves) as [nh|]; [|right; left; reflexivity].
    cbv zeta. set (nl := Z.to_nat (depth_of (zlen T0 - 1) + 1)).
    destruct (init_inv T0 nl) as [R0 V0].
    assert (Hrej : forall e st, e <> Crash -> RInv T0 st ->
              exists e' st', e' <> Crash /\ RInv T0 st' /\ handle H e st = Rejected H e' (rollback H (wT H st') (wruf H st'))).
    { intros e st He R. exists e, st. split; [exact He|]. split; [exact R|]. destruct e; try reflexivity. congruence. }
    pose proof (phaseB_ok T0 (Z.of_nat nl) nh _ R0 V0) as HB.
    assert (Hdep : forall x, 0 <= x < zlen T0 -> depth_of x < Z.of_nat nl) by (intros x Hx; pose proof (depth_bound _ x Hx); unfold nl; lia).
    assert (Hnl : zlen (wlv H (mkW T0 (repeat [] nl) [])) = Z.of_nat nl) by (cbn [wlv]; unfold zlen; rewrite repeat_length; reflexivity).
    specialize (HB Hdep Hnl).
    destruct (phaseB nh (mkW T0 (repeat [] nl) [])) as [st1|[e st]].
    - destruct HB as [R1 [V1 Hl1]]. cbn [wlv] in Hl1. rewrite repeat_length in Hl1.
      rewrite <- Hl1 in V1.
      pose proof (run_levels_ok T0 (length (wlv H st1)) st1 ord R1 V1) as HC.
      destruct (run_levels (length (wlv H st1)) st1 ord) as [st2|[e st]].
      + left. exists st2. destruct HC as [R2 V2]. auto.
      + right. right. destruct HC as [He R]. apply Hrej; assumption.
    - right. right. destruct HB as [He R]. apply Hrej; assumption.
  Qed.

  (* What an accepted call did: nothing truthy was touched, and every slot that
     changed is the child of a parent slot holding pair_hash of its two child slots. *)
  Theorem accepted_char : forall fl T0 hashes leaves ord T1,
    set_hashes fl T0 hashes leaves ord = Accepted H T1 ->
    length T1 = length T0 /\
    (forall j, 0 <= j -> is_truthy (slot T0 j) = true -> slot T1 j = slot T0 j) /\
    (forall j, 0 <= j < zlen T0 -> slot T1 j <> None -> slot T1 j <> slot T0 j -> settled 0 T1 j).
  Proof.
    intros fl T0 hashes leaves ord T1 Hacc.
    destruct (set_hashes_cases fl T0 hashes leaves ord) as [[st [Hs [R V]]]|[Hs|[e [st [_ [_ Hs]]]]]]; rewrite Hs in Hacc; try discriminate.
    inversion Hacc. subst T1. split; [apply (r_len _ _ R)|]. split; [apply (r_keep _ _ R)|].
    intros j Hj Hp Hne. destruct (v_new _ _ _ _ V j Hj Hp Hne) as [[key [[[]|[k Hk]] _]]|Hst]; [|exact Hst].
    rewrite (v_empty _ _ _ _ V k) in Hk by lia. destruct Hk.
  Qed.

  Definition unput (T : tree) (a : Z) : tree := match put T a None with Some T' => T' | None => T end.

  Lemma unput_length : forall T a, length (unput T a) = length T.
  Proof.
    intros T a. unfold unput. destruct (put T a None) eqn:E; [|reflexivity].
    apply put_some_valid in E. destruct E as [_ ->]. apply upd_length.
  Qed.

  Lemma unput_slot : forall T a j, 0 <= j ->
    (validz (zlen T) a /\ normz (zlen T) a = j /\ slot (unput T a) j = None)
    \/ (~ (validz (zlen T) a /\ normz (zlen T) a = j) /\ slot (unput T a) j = slot T j).
  Proof.
    intros T a j Hj. unfold unput. destruct (put T a None) eqn:E.
    - apply put_some_valid in E. destruct E as [Hv ->]. pose proof (normz_range _ _ Hv) as Hr.
      rewrite slot_upd by lia. destruct (normz (zlen T) a =? j) eqn:En.
      + apply Z.eqb_eq in En. left. auto.
      + apply Z.eqb_neq in En. right. split; [intros [_ E]; exact (En E)|reflexivity].
    - right. split; [|reflexivity]. intros [Hv _]. rewrite put_valid in E by exact Hv. discriminate.
  Qed.

  Lemma rollback_unfold : forall T a r, rollback H T (a :: r) = rollback H (unput T a) r.
  Proof. reflexivity. Qed.

  Lemma rollback_length : forall ruf T, length (rollback H T ruf) = length T.
  Proof.
    induction ruf as [|a r IH]; intros T; [reflexivity|]. rewrite rollback_unfold, IH. apply unput_length.
  Qed.

  Lemma rollback_slot : forall ruf T j, 0 <= j ->
    ((exists key, In key ruf /\ validz (zlen T) key /\ normz (zlen T) key = j) /\ slot (rollback H T ruf) j = None)
    \/ ((forall key, In key ruf -> validz (zlen T) key -> normz (zlen T) key <> j) /\ slot (rollback H T ruf) j = slot T j).
  Proof.
    induction ruf as [|a r IH]; intros T j Hj; [right; split; [intros key []|reflexivity]|].
    rewrite rollback_unfold.
    assert (Hz : zlen (unput T a) = zlen T) by (unfold zlen; rewrite unput_length; reflexivity).
    destruct (IH (unput T a) j Hj) as [[[key [Hk Hr]] Hs]|[Hm Hs]]; rewrite Hz in *.
    - left. split; [exists key; split; [right; exact Hk|exact Hr]|exact Hs].
    - rewrite Hs. destruct (unput_slot T a j Hj) as [[Hv [Hn Hu]]|[Hc Hu]].
      + left. split; [exists a; split; [left; reflexivity|split; assumption]|exact Hu].
      + right. split; [|exact Hu]. intros key [<-|Hk] Hv Hn; [apply Hc; split; assumption|apply (Hm key Hk Hv Hn)].
  Qed.

  (* no stored value is the empty byte string *)
  Definition all_truthy (T : tree) : Prop := forall j, 0 <= j -> slot T j <> None -> is_truthy (slot T j) = true.

  Lemma rollback_restores : forall T0 st, RInv T0 st -> all_truthy T0 -> rollback H (wT H st) (wruf H st) = T0.
  Proof.
    intros T0 st R Hat. pose proof (RInv_zlen _ _ R) as Hz.
    apply slot_ext_eq; [rewrite rollback_length; apply (r_len _ _ R)|].
    intros j Hj. unfold zlen in Hj. rewrite rollback_length in Hj. fold (zlen (wT H st)) in Hj. rewrite Hz in Hj.
    destruct (rollback_slot (wruf H st) (wT H st) j ltac:(lia)) as [[[key [Hk [Hv Hn]]] Hs]|[Hm Hs]]; rewrite Hs; rewrite Hz in *.
    - pose proof (r_ruf2 _ _ R key Hk Hv) as Hf. rewrite Hn in Hf.
      destruct (slot T0 j) as [h|] eqn:E; [|reflexivity].
      assert (Ht : is_truthy (slot T0 j) = true) by (apply Hat; [lia|rewrite E; discriminate]).
      rewrite E in Ht. congruence.
    - destruct (opt_dec (slot (wT H st) j) (slot T0 j)) as [He|Hne]; [exact He|].
      destruct (r_ruf _ _ R j Hj Hne) as [key [Hk [Hv Hn]]]. exfalso. apply (Hm key Hk Hv Hn).
  Qed.

  Theorem rejected_restores : forall fl T0 hashes leaves ord e T1,
    all_truthy T0 ->
    set_hashes fl T0 hashes leaves ord = Rejected H e T1 -> T1 = T0 /\ e <> Crash.
  Proof.
    intros fl T0 hashes leaves ord e T1 Hat Hrej.
    destruct (set_hashes_cases fl T0 hashes leaves ord) as [[st [Hs _]]|[Hs|[e' [st [He [R Hs]]]]]]; rewrite Hs in Hrej; try discriminate.
    - inversion Hrej. split; [reflexivity|discriminate].
    - inversion Hrej. subst. split; [apply rollback_restores; assumption|exact He].
  Qed.

  Section Genuine.
    Variable G : Z -> H.             (* the tree that produced the trusted root *)
    Variable n : Z.
    Hypothesis pair_inj : forall a b c d, pair_hash a b = pair_hash c d -> a = c /\ b = d.
    Hypothesis merkle : forall p, 0 <= p -> 2 * p + 2 < n -> G p = pair_hash (G (2 * p + 1)) (G (2 * p + 2)).
    Hypothesis G_truthy : forall j, 0 <= j < n -> truthy (G j) = true.

    Definition genuine (T : tree) : Prop := forall j h, 0 <= j -> slot T j = Some h -> h = G j.
    Definition closed (T : tree) : Prop :=
      forall j, 1 <= j -> slot T j <> None -> slot T (parz j) <> None /\ slot T (sibz j) <> None.

    Lemma genuine_all_truthy : forall T, zlen T = n -> genuine T -> all_truthy T.
    Proof.
      intros T Hn Hg j Hj Hp. destruct (slot T j) as [h|] eqn:E; [|congruence].
      cbn. rewrite (Hg j h Hj E). apply G_truthy. split; [exact Hj|]. rewrite <- Hn. apply (slot_some_lt _ _ _ _ Hj E).
    Qed.

    Theorem accepted_genuine : forall fl T0 hashes leaves ord T1,
      zlen T0 = n -> genuine T0 -> slot T0 0 <> None ->
      set_hashes fl T0 hashes leaves ord = Accepted H T1 ->
      genuine T1.
    Proof.
      intros fl T0 hashes leaves ord T1 Hn Hg Hroot Hacc.
      destruct (accepted_char _ _ _ _ _ _ Hacc) as [Hlen [Hkeep Hnew]].
      pose proof (genuine_all_truthy T0 Hn Hg) as Hat.
      assert (Hz : zlen T1 = n) by (unfold zlen in *; rewrite Hlen; exact Hn).
      intros j h Hj. revert h. pattern j. apply Zlt_0_ind; [|exact Hj]. clear j Hj.
      intros j IH Hj h Hs.
      assert (Hjn : j < n) by (rewrite <- Hz; apply (slot_some_lt _ _ _ _ Hj Hs)).
      destruct (opt_dec (slot T1 j) (slot T0 j)) as [He|Hne].
      - apply (Hg j h Hj). rewrite <- He. exact Hs.
      - assert (Hp : slot T1 j <> None) by (rewrite Hs; discriminate).
        destruct (Hnew j ltac:(lia) Hp Hne) as [->|[Hj1 [_ [a [b [E1 [E2 E3]]]]]]].
        + exfalso. apply Hne. apply Hkeep; [lia|]. apply Hat; [lia|exact Hroot].
        + pose proof (parz_range j Hj1) as Hpr.
          assert (Hc : 2 * parz j + 2 < n) by (rewrite <- Hz; apply (slot_some_lt _ T1 (2 * parz j + 2) b); [lia|exact E3]).
          pose proof (IH (parz j) ltac:(lia) _ E1) as Hpg.
          rewrite (merkle (parz j) ltac:(lia) Hc) in Hpg. apply pair_inj in Hpg. destruct Hpg as [-> ->].
          destruct (node_cases j Hj1) as [[H1 _]|[H1 _]]; rewrite H1 in Hs at 1; congruence.
    Qed.

    Theorem accepted_closed : forall fl T0 hashes leaves ord T1,
      all_truthy T0 -> closed T0 ->
      set_hashes fl T0 hashes leaves ord = Accepted H T1 ->
      closed T1.
    Proof.
      intros fl T0 hashes leaves ord T1 Hat Hc Hacc.
      destruct (accepted_char _ _ _ _ _ _ Hacc) as [Hlen [Hkeep Hnew]].
      assert (Hk : forall x, 0 <= x -> slot T0 x <> None -> slot T1 x <> None).
      { intros x Hx Hp. rewrite Hkeep; [exact Hp|exact Hx|apply Hat; assumption]. }
      intros j Hj Hp.
      destruct (opt_dec (slot T1 j) (slot T0 j)) as [He|Hne].
      - rewrite He in Hp. destruct (Hc j Hj Hp) as [C1 C2]. pose proof (parz_range j Hj). pose proof (sibz_ge1 j Hj).
        split; apply Hk; (lia || assumption).
      - assert (Hjn : j < zlen T0).
        { destruct (slot T1 j) as [h|] eqn:E; [|congruence]. unfold zlen. rewrite <- Hlen. apply (slot_some_lt _ T1 j h); [lia|exact E]. }
        destruct (Hnew j ltac:(lia) Hp Hne) as [->|[_ [_ [a [b [E1 [E2 E3]]]]]]]; [lia|].
        split; [rewrite E1; discriminate|].
        destruct (node_cases j Hj) as [[_ H2]|[_ H2]]; rewrite H2; [rewrite E3|rewrite E2]; discriminate.
    Qed.
  End Genuine.
End HashTreeProofs.
