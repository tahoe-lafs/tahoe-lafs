(* C23: the mutable container refines a bounded growable byte array (DESIGN.md A.5).
   A file satisfies `layout_ok` exactly when it is the rendering `flat c` of a
   structured container with `wf c`; every byte-level operation of
   Model/MutContainer.v takes `flat c` to `flat c'` with `wf c'`: an explicit `c'`
   for the field writes, some `c'` for write_share_data, write_vectors and writev
   (writev raises only after it has applied the vectors before the offending one).
   On structured containers the readable data `c_data` evolves like the reference
   array while the lease fields stay as they are. *)
From Coq Require Import List NArith Arith Bool Lia.
From Coq Require FinFun.
From Verif Require Import Lib.Hex Lib.ListFacts Gen.MutConsts Model.MutContainer Proofs.MutContainerBytes.
Import ListNotations.
Local Open Scope N_scope.

Ltac consts := unfold DATA_LENGTH_OFFSET, EXTRA_LEASE_OFFSET_POS, HEADER_SIZE, LEASE_SIZE, DATA_OFFSET,
  NUM_HEADER_LEASE_SLOTS, INITIAL_EXTRA_LEASE_OFFSET in *.

Record FC := mkFC {
  c_id : list N;      (* magic, write-enabler nodeid, write enabler: 84 bytes *)
  c_dlb : list N;     (* data length, 8 bytes *)
  c_elob : list N;    (* extra lease offset, 8 bytes *)
  c_slots : list N;   (* four lease slots, 368 bytes *)
  c_region : list N;  (* container region; the data is its first data_length bytes *)
  c_nxb : list N;     (* number of extra leases, 4 bytes *)
  c_extra : list N }. (* extra leases *)

Definition hdr (c : FC) : list N := c_id c ++ c_dlb c ++ c_elob c ++ c_slots c.
Definition tail (c : FC) : list N := c_nxb c ++ c_extra c.
Definition flat (c : FC) : file := hdr c ++ c_region c ++ tail c.

Definition c_dl (c : FC) : N := unbe (c_dlb c).
Definition c_nx (c : FC) : N := unbe (c_nxb c).
Definition c_data (c : FC) : list N := firstn (N.to_nat (c_dl c)) (c_region c).

Record wf (maxsz : N) (c : FC) : Prop := {
  wf_id : length (c_id c) = 84%nat;
  wf_magic : schema_of_header (c_id c) <> None;
  wf_dlb : length (c_dlb c) = 8%nat;
  wf_elob : length (c_elob c) = 8%nat;
  wf_slots : length (c_slots c) = 368%nat;
  wf_nxb : length (c_nxb c) = 4%nat;
  wf_dl : c_dl c <= len (c_region c);
  wf_elo : unbe (c_elob c) = 468 + len (c_region c);
  wf_max : len (c_region c) <= maxsz;
  wf_extra : len (c_extra c) = c_nx c * 92 }.

Definition set_dlb (c : FC) (b : list N) : FC :=
  mkFC (c_id c) b (c_elob c) (c_slots c) (c_region c) (c_nxb c) (c_extra c).
Definition set_region (c : FC) (r : list N) : FC :=
  mkFC (c_id c) (c_dlb c) (c_elob c) (c_slots c) r (c_nxb c) (c_extra c).
Definition set_region_elob (c : FC) (r b : list N) : FC :=
  mkFC (c_id c) (c_dlb c) b (c_slots c) r (c_nxb c) (c_extra c).

Ltac fc_simpl := cbn [c_id c_dlb c_elob c_slots c_region c_nxb c_extra set_dlb set_region set_region_elob] in *.

(* the fields a data write must not touch *)
Definition same_leases (c c' : FC) : Prop :=
  c_id c' = c_id c /\ c_slots c' = c_slots c /\ c_nxb c' = c_nxb c /\ c_extra c' = c_extra c.

Lemma same_leases_refl c : same_leases c c.
Proof. repeat split. Qed.
Lemma same_leases_trans a b c : same_leases a b -> same_leases b c -> same_leases a c.
Proof. unfold same_leases. intuition congruence. Qed.

Lemma hdr_length maxsz c : wf maxsz c -> length (hdr c) = 468%nat.
Proof. intros [? ? ? ? ? ? ? ? ? ?]. unfold hdr. rewrite !app_length. lia. Qed.

Lemma tail_length maxsz c : wf maxsz c -> length (tail c) = (4 + N.to_nat (c_nx c) * 92)%nat.
Proof. intros [? ? ? ? ? ? ? ? ? Hx]. unfold tail. rewrite app_length. unfold len in Hx. lia. Qed.

Lemma flat_length maxsz c : wf maxsz c ->
  length (flat c) = (468 + length (c_region c) + 4 + N.to_nat (c_nx c) * 92)%nat.
Proof.
  intro Hw. unfold flat. rewrite !app_length, (hdr_length _ _ Hw), (tail_length _ _ Hw). lia.
Qed.

Lemma c_data_length maxsz c : wf maxsz c -> len (c_data c) = c_dl c.
Proof. intros [? ? ? ? ? ? Hd ? ? ?]. unfold c_data, len in *. rewrite firstn_length. lia. Qed.

Lemma flat_dlb c : flat c = c_id c ++ c_dlb c ++ (c_elob c ++ c_slots c ++ c_region c ++ tail c).
Proof. unfold flat, hdr. rewrite <- !app_assoc. reflexivity. Qed.

Lemma flat_elob c : flat c = (c_id c ++ c_dlb c) ++ c_elob c ++ (c_slots c ++ c_region c ++ tail c).
Proof. unfold flat, hdr. rewrite <- !app_assoc. reflexivity. Qed.

Lemma flat_slots c : flat c = (c_id c ++ c_dlb c ++ c_elob c) ++ c_slots c ++ (c_region c ++ tail c).
Proof. unfold flat, hdr. rewrite <- !app_assoc. reflexivity. Qed.

Lemma flat_nxb c : flat c = (hdr c ++ c_region c) ++ c_nxb c ++ c_extra c.
Proof. unfold flat, tail. rewrite <- !app_assoc. reflexivity. Qed.

Lemma read_dl_flat maxsz c : wf maxsz c -> read_data_length (flat c) = Ok (c_dl c).
Proof.
  intro Hw. unfold read_data_length. consts. rewrite pread_prn, flat_dlb.
  rewrite prn_exact; [apply unpack_be_ok| |]; destruct Hw; auto.
Qed.

Lemma read_elo_flat maxsz c : wf maxsz c -> read_extra_lease_offset (flat c) = Ok (468 + len (c_region c)).
Proof.
  intro Hw. unfold read_extra_lease_offset. consts. rewrite pread_prn, flat_elob.
  rewrite prn_exact.
  - rewrite unpack_be_ok by (destruct Hw; auto). f_equal. destruct Hw; auto.
  - rewrite app_length. destruct Hw. change (N.to_nat 92) with 92%nat. lia.
  - destruct Hw; auto.
Qed.

Lemma read_nx_flat maxsz c : wf maxsz c -> read_num_extra_leases (flat c) = Ok (c_nx c).
Proof.
  intro Hw. unfold read_num_extra_leases. rewrite (read_elo_flat _ _ Hw).
  rewrite pread_prn, flat_nxb. rewrite prn_exact.
  - apply unpack_be_ok. destruct Hw; auto.
  - rewrite app_length, (hdr_length _ _ Hw). unfold len. lia.
  - destruct Hw; auto.
Qed.

(* the schema is decided by the first 32 bytes *)
Lemma schema_of_header_firstn n h : (32 <= n)%nat -> schema_of_header (firstn n h) = schema_of_header h.
Proof. intro Hn. unfold schema_of_header. rewrite firstn_firstn, Nat.min_l by exact Hn. reflexivity. Qed.

Lemma schema_of_header_app a b : (32 <= length a)%nat -> schema_of_header (a ++ b) = schema_of_header a.
Proof.
  intro Ha. rewrite <- (schema_of_header_firstn (length a) (a ++ b)) by exact Ha.
  rewrite firstn_app_exact; reflexivity.
Qed.

Lemma header_flat maxsz c : wf maxsz c -> pread (flat c) 0 HEADER_SIZE = c_id c ++ c_dlb c ++ c_elob c.
Proof.
  intro Hw. rewrite flat_slots. apply (firstn_app_exact _ _ 100). rewrite !app_length. destruct Hw. lia.
Qed.

Lemma open_flat maxsz c : wf maxsz c ->
  open_container (flat c) = match schema_of_header (c_id c) with Some v => Ok v | None => Err EUnknownVersion end.
Proof.
  intro Hw. unfold open_container. rewrite (header_flat _ _ Hw), schema_of_header_app; [reflexivity|].
  destruct Hw. lia.
Qed.

Lemma open_flat_ok maxsz c : wf maxsz c -> exists v, open_container (flat c) = Ok v.
Proof.
  intro Hw. rewrite (open_flat _ _ Hw). destruct (schema_of_header (c_id c)) as [v|] eqn:E; [eauto|].
  destruct Hw. congruence.
Qed.

Lemma rwe_flat maxsz c : wf maxsz c -> read_write_enabler (flat c) = Ok (pread (c_id c) 52 32).
Proof.
  intro Hw. unfold read_write_enabler. rewrite (header_flat _ _ Hw).
  pose proof (wf_id _ _ Hw) as Hi. pose proof (wf_magic _ _ Hw) as Hs.
  replace (length (c_id c ++ c_dlb c ++ c_elob c)) with (N.to_nat HEADER_SIZE)
    by (rewrite !app_length; destruct Hw; consts; lia).
  rewrite Nat.eqb_refl, schema_of_header_app by lia.
  destruct (schema_of_header (c_id c)); [|congruence]. f_equal.
  rewrite !pread_prn. apply prn_inside. rewrite Hi. change (N.to_nat 52 + N.to_nat 32 <= 84)%nat. lia.
Qed.

Lemma unbe_be8 v : v < 2 ^ 64 -> unbe (be 8 v) = v.
Proof. exact (unbe_be 8 v). Qed.

Lemma write_dl_flat maxsz c v : wf maxsz c -> v < 2 ^ 64 ->
  write_data_length (flat c) v = Done (flat (set_dlb c (be 8 v))).
Proof.
  intros Hw Hv. unfold write_data_length. rewrite pack_be_ok by exact Hv.
  f_equal. consts. rewrite pwrite_pwn, flat_dlb. rewrite pwn_exact.
  - rewrite (flat_dlb (set_dlb c (be 8 v))). reflexivity.
  - destruct Hw; auto.
  - rewrite be_length. destruct Hw; auto.
Qed.

Lemma wf_set_dlb maxsz c v : wf maxsz c -> v <= len (c_region c) -> v < 2 ^ 64 -> wf maxsz (set_dlb c (be 8 v)).
Proof.
  intros [? ? ? ? ? ? ? ? ? ?] Hv Hb. constructor; unfold c_dl, c_nx in *; fc_simpl; auto; try apply be_length.
  rewrite unbe_be8 by exact Hb. exact Hv.
Qed.

Lemma pwrite_region maxsz c off d : wf maxsz c -> off + len d <= len (c_region c) ->
  pwrite (flat c) (468 + off) d = flat (set_region c (pwrite (c_region c) off d)).
Proof.
  intros Hw Hi. rewrite !pwrite_pwn. unfold flat at 1.
  replace (N.to_nat (468 + off)) with (length (hdr c) + N.to_nat off)%nat by (rewrite (hdr_length _ _ Hw); lia).
  rewrite pwn_app_skip. rewrite pwn_inside by (unfold len in Hi; lia). reflexivity.
Qed.

Lemma wf_set_region maxsz c r : wf maxsz c -> length r = length (c_region c) -> wf maxsz (set_region c r).
Proof.
  intros [? ? ? ? ? ? ? ? ? ?] Hl. constructor; unfold c_dl, c_nx, len in *; fc_simpl; rewrite ?Hl; auto.
Qed.

Lemma wf_pwrite_region maxsz c off d : wf maxsz c -> off + len d <= len (c_region c) ->
  wf maxsz (set_region c (pwrite (c_region c) off d)).
Proof.
  intros Hw Hi. apply wf_set_region; [exact Hw|]. apply Nat2N.inj, len_pwrite_inside, Hi.
Qed.

Lemma read_clip (region : list N) (dl off n : N) :
  pread region off (if dl <? off + n then dl - off else n) = pread (firstn (N.to_nat dl) region) off n.
Proof.
  unfold pread. rewrite skipn_firstn_comm, firstn_firstn. f_equal. destruct (N.ltb_spec dl (off + n)); lia.
Qed.

Lemma pread_region maxsz c off n : wf maxsz c -> off + n <= len (c_region c) ->
  pread (flat c) (468 + off) n = pread (c_region c) off n.
Proof.
  intros Hw Hi. rewrite !pread_prn. unfold flat.
  replace (N.to_nat (468 + off)) with (length (hdr c) + N.to_nat off)%nat by (rewrite (hdr_length _ _ Hw); lia).
  rewrite prn_app_skip by reflexivity. apply prn_inside. unfold len in Hi. lia.
Qed.

Lemma read_share_data_flat maxsz c off n : wf maxsz c ->
  read_share_data (flat c) off n = Ok (ref_read (c_data c) off n).
Proof.
  intro Hw. unfold read_share_data, ref_read, c_data. rewrite (read_dl_flat _ _ Hw), <- read_clip.
  pose proof (wf_dl _ _ Hw) as Hd.
  set (l' := if c_dl c <? off + n then c_dl c - off else n).
  destruct (N.eqb_spec l' 0) as [E|E]; [rewrite E; reflexivity|].
  f_equal. apply (pread_region maxsz); [exact Hw|].
  subst l'. destruct (N.ltb_spec (c_dl c) (off + n)); lia.
Qed.

Lemma abs_data_flat maxsz c : wf maxsz c -> abs_data (flat c) = Ok (c_data c).
Proof.
  intro Hw. unfold abs_data. rewrite (read_dl_flat _ _ Hw). f_equal.
  exact (pread_region maxsz c 0 (c_dl c) Hw (wf_dl _ _ Hw)).
Qed.

Lemma readv_flat maxsz c rv : wf maxsz c -> readv (flat c) rv = Ok (ref_readv (c_data c) rv).
Proof.
  intro Hw. induction rv as [|[off n] r IH]; [reflexivity|].
  cbn [readv ref_readv map]. rewrite (read_share_data_flat _ _ _ _ Hw). rewrite IH. reflexivity.
Qed.

Lemma check_testv_flat maxsz c tv : wf maxsz c -> check_testv (flat c) tv = Ok (ref_check_testv (c_data c) tv).
Proof.
  intro Hw. induction tv as [|[[off n] sp] r IH]; [reflexivity|].
  cbn [check_testv ref_check_testv]. rewrite (read_share_data_flat _ _ _ _ Hw).
  destruct (list_N_eqb (ref_read (c_data c) off n) sp); [exact IH|reflexivity].
Qed.

(* container growth: the extra-lease block moves, the region is extended with zeros *)
Definition grown (c : FC) (new : N) : FC :=
  set_region_elob c (c_region c ++ zeros (new - len (c_region c))) (be 8 (468 + new)).

Lemma ccs_flat maxsz c new : wf maxsz c -> 468 + maxsz < 2 ^ 64 ->
  len (c_region c) <= new -> new <= maxsz ->
  change_container_size maxsz (flat c) new = Done (flat (grown c new)).
Proof.
  intros Hw Hm Hge Hle. unfold change_container_size.
  destruct (N.ltb_spec maxsz new); [lia|].
  rewrite (read_elo_flat _ _ Hw). consts.
  destruct (N.ltb_spec (468 + new) (468 + len (c_region c))); [lia|].
  rewrite (read_nx_flat _ _ Hw).
  pose proof (hdr_length _ _ Hw) as Hh. pose proof (tail_length _ _ Hw) as Ht.
  assert (Ha : N.to_nat (468 + len (c_region c)) = length (hdr c ++ c_region c))
    by (rewrite app_length, Hh; unfold len; lia).
  assert (Htl : tail c <> []) by (intro E; rewrite E in Ht; cbn in Ht; lia).
  (* the extra-lease block is read, blanked, and written again behind the grown region *)
  rewrite pread_prn, !pwrite_pwn. unfold zeros, flat at 1 2. rewrite app_assoc, Ha.
  replace (N.to_nat (4 + c_nx c * 92)) with (length (tail c)) by lia.
  rewrite prn_app_end, pwn_move_block by (auto; lia).
  replace (N.to_nat (468 + new) - length (hdr c ++ c_region c))%nat with (N.to_nat (new - len (c_region c))) by lia.
  (* and the offset field is updated *)
  unfold write_extra_lease_offset. consts. rewrite pack_be_ok by (change (256 ^ N.of_nat 8) with (2 ^ 64); lia).
  f_equal. rewrite pwrite_pwn, (flat_elob (grown c new)). unfold grown, hdr, zeros. fc_simpl.
  rewrite <- !app_assoc, !(app_assoc (c_id c) (c_dlb c)). apply pwn_exact.
  - rewrite app_length. destruct Hw. change (N.to_nat 92) with 92%nat. lia.
  - rewrite be_length. destruct Hw; auto.
Qed.

Lemma wf_grown maxsz c new : wf maxsz c -> 468 + maxsz < 2 ^ 64 -> len (c_region c) <= new -> new <= maxsz ->
  wf maxsz (grown c new).
Proof.
  intros [? ? ? ? ? ? ? ? ? ?] Hm Hge Hle. constructor; unfold grown, c_dl, c_nx in *; fc_simpl; auto; try apply be_length;
    rewrite ?unbe_be8 by lia; rewrite len_app, len_zeros; lia.
Qed.

(* `_write_share_data` first makes room for off + n bytes of data *)
Lemma make_room maxsz c off n : wf maxsz c -> 468 + maxsz < 2 ^ 64 -> off + n <= maxsz ->
  exists c1, (if 468 + len (c_region c) <? 468 + off + n
              then change_container_size maxsz (flat c) (off + n) else Done (flat c)) = Done (flat c1) /\
             wf maxsz c1 /\ off + n <= len (c_region c1) /\ c_dl c1 = c_dl c /\ c_data c1 = c_data c /\
             same_leases c c1.
Proof.
  intros Hw Hm Hfit. pose proof (wf_dl _ _ Hw) as Hd.
  destruct (N.ltb_spec (468 + len (c_region c)) (468 + off + n)).
  - exists (grown c (off + n)). split; [apply ccs_flat; auto; lia|]. split; [apply wf_grown; auto; lia|].
    unfold c_data, c_dl, grown, len in *. fc_simpl. rewrite app_length, zeros_length, firstn_app.
    replace (N.to_nat (unbe (c_dlb c)) - length (c_region c))%nat with 0%nat by lia.
    rewrite app_nil_r. repeat split. lia.
  - exists c. split; [reflexivity|]. split; [exact Hw|]. split; [lia|]. repeat split.
Qed.

Lemma data_write_inside (r : list N) (dl off : N) x : dl <= len r -> off + len x <= dl ->
  firstn (N.to_nat dl) (pwrite r off x) = ref_write (firstn (N.to_nat dl) r) off x.
Proof.
  intros Hd Hi. unfold len in *. rewrite pwrite_pwn, firstn_pwn_inside, <- pwrite_pwn by lia.
  apply pwrite_ref_write. right. unfold len. rewrite firstn_length. lia.
Qed.

(* the write ends at or beyond dl: the gap up to off, if any, has been zeroed, and the
   data now ends where the write ends *)
Lemma data_write_past (r : list N) (dl off : N) x : dl <= off + len x -> off + len x <= len r ->
  firstn (N.to_nat (off + len x)) (pwrite (pwrite r dl (zeros (off - dl))) off x)
  = ref_write (firstn (N.to_nat dl) r) off x.
Proof.
  intros Hp Hi. unfold len, zeros in *. rewrite !pwrite_pwn, N2Nat.inj_sub.
  replace (N.to_nat (off + N.of_nat (length x))) with (N.to_nat off + length x)%nat by lia.
  rewrite firstn_pwn by (rewrite pwn_length_inside; rewrite ?repeat_length; lia).
  rewrite firstn_pwn_zeros by lia.
  unfold ref_write, fit. rewrite (skipn_all2 (n := N.to_nat off + length x)) by (rewrite firstn_length; lia).
  rewrite app_nil_r, <- app_assoc. reflexivity.
Qed.

Lemma write_share_data_flat maxsz c off data : wf maxsz c -> 468 + maxsz < 2 ^ 64 -> off + len data <= maxsz ->
  exists c', write_share_data maxsz (flat c) off data = Done (flat c') /\ wf maxsz c' /\
             c_data c' = ref_write (c_data c) off data /\ same_leases c c'.
Proof.
  intros Hw Hm Hfit. unfold write_share_data.
  rewrite (read_dl_flat _ _ Hw), (read_elo_flat _ _ Hw). consts.
  pose proof (wf_dl _ _ Hw) as Hdl. pose proof (wf_max _ _ Hw) as Hmax.
  destruct (N.leb_spec (c_dl c) (off + len data)) as [Hge|Hin].
  - (* the write reaches or passes the end of the data *)
    destruct (make_room _ _ off (len data) Hw Hm Hfit) as (c1 & -> & Hw1 & Hbig & Hdl1 & Hd1 & Hs1).
    cbn [obind]. rewrite (read_elo_flat _ _ Hw1), <- Hdl1, <- Hd1. rewrite <- Hdl1 in Hge. pose proof (wf_dl _ _ Hw1) as Hdl1'.
    destruct (N.ltb_spec (468 + len (c_region c1)) (468 + off + len data)); [lia|].
    (* an empty gap is an empty write, which changes nothing *)
    replace (if c_dl c1 <? off then pwrite (flat c1) (468 + c_dl c1) (zeros (off - c_dl c1)) else flat c1)
      with (pwrite (flat c1) (468 + c_dl c1) (zeros (off - c_dl c1))).
    2:{ destruct (N.ltb_spec (c_dl c1) off) as [|Hle]; [reflexivity|]. apply N.sub_0_le in Hle. rewrite Hle. reflexivity. }
    assert (Hgap : c_dl c1 + len (zeros (off - c_dl c1)) <= len (c_region c1)) by (rewrite len_zeros; lia).
    rewrite (pwrite_region _ _ _ _ Hw1 Hgap). pose proof (wf_pwrite_region _ _ _ _ Hw1 Hgap) as Hw2.
    set (c2 := set_region c1 _) in *.
    assert (Hbig2 : off + len data <= len (c_region c2)) by (subst c2; fc_simpl; rewrite len_pwrite_inside; assumption).
    rewrite (write_dl_flat maxsz) by (auto; lia). cbn [obind].
    assert (Hw3 : wf maxsz (set_dlb c2 (be 8 (off + len data)))) by (apply wf_set_dlb; auto; lia).
    rewrite (pwrite_region maxsz) by (auto; exact Hbig2).
    eexists. split; [reflexivity|]. split; [apply wf_pwrite_region; auto; exact Hbig2|]. split.
    + unfold c_data, c_dl. fc_simpl. rewrite unbe_be8 by lia. apply data_write_past; auto.
    + apply (same_leases_trans _ c1); [assumption|]. repeat split.
  - (* the write lies strictly inside the data *)
    cbn [obind]. rewrite (pwrite_region maxsz) by (auto; lia).
    eexists. split; [reflexivity|]. split; [apply wf_pwrite_region; auto; lia|].
    split; [|repeat split]. unfold c_data, c_dl in *. fc_simpl. apply data_write_inside; lia.
Qed.

Lemma write_share_data_too_large maxsz c off data : wf maxsz c -> maxsz < off + len data ->
  write_share_data maxsz (flat c) off data = Raised (flat c) EDataTooLarge.
Proof.
  intros Hw Hbig. unfold write_share_data.
  rewrite (read_dl_flat _ _ Hw), (read_elo_flat _ _ Hw). consts.
  pose proof (wf_dl _ _ Hw). pose proof (wf_max _ _ Hw).
  destruct (N.leb_spec (c_dl c) (off + len data)); [|lia].
  destruct (N.ltb_spec (468 + len (c_region c)) (468 + off + len data)); [|lia].
  unfold change_container_size. destruct (N.ltb_spec maxsz (off + len data)); [reflexivity|lia].
Qed.

Lemma len_ref_write d off data : len (ref_write d off data) = N.max (len d) (off + len data).
Proof.
  unfold ref_write, len. rewrite !app_length, firstn_length, repeat_length, skipn_length. lia.
Qed.

(* the witness of a five-part conclusion; the parts that hold by assumption are closed *)
Ltac five c := exists c; split; [|split; [|split; [|split]]]; auto using same_leases_refl.

Lemma write_vectors_flat maxsz c dv : wf maxsz c -> 468 + maxsz < 2 ^ 64 ->
  exists c', out_file (write_vectors maxsz (flat c) dv) = flat c' /\ wf maxsz c' /\ same_leases c c' /\
             out_err (write_vectors maxsz (flat c) dv) = snd (ref_write_vectors maxsz (c_data c) dv) /\
             c_data c' = fst (ref_write_vectors maxsz (c_data c) dv).
Proof.
  intros Hw Hm. revert c Hw. induction dv as [|[off d] r IH]; intros c Hw.
  - five c.
  - cbn [write_vectors ref_write_vectors].
    destruct (N.ltb_spec maxsz (off + len d)) as [Hbig|Hfit].
    + rewrite (write_share_data_too_large _ _ _ _ Hw Hbig). cbn [obind out_file out_err fst snd]. five c.
    + destruct (write_share_data_flat _ _ _ _ Hw Hm Hfit) as (c1 & E1 & Hw1 & Hd1 & Hs1).
      rewrite E1. cbn [obind]. destruct (IH c1 Hw1) as (c' & Ef & Hw' & Hs' & Ee & Hd').
      rewrite Hd1 in *. five c'. eapply same_leases_trans; eauto.
Qed.

Lemma writev_flat maxsz c dv nl : wf maxsz c -> 468 + maxsz < 2 ^ 64 ->
  exists c', out_file (writev maxsz (flat c) dv nl) = flat c' /\ wf maxsz c' /\ same_leases c c' /\
             out_err (writev maxsz (flat c) dv nl) = snd (ref_writev maxsz (c_data c) dv nl) /\
             c_data c' = fst (ref_writev maxsz (c_data c) dv nl).
Proof.
  intros Hw Hm. unfold writev, ref_writev.
  destruct (write_vectors_flat maxsz c dv Hw Hm) as (c1 & Ef & Hw1 & Hs1 & Ee & Hd1).
  destruct (write_vectors maxsz (flat c) dv) as [f1|f1 e1] eqn:Ewv; cbn [out_file out_err obind] in *.
  - destruct (ref_write_vectors maxsz (c_data c) dv) as [d1 [e|]] eqn:Er; cbn [fst snd] in *; [discriminate|].
    subst f1 d1. destruct nl as [n|]; [|five c1].
    rewrite (read_dl_flat _ _ Hw1). cbn [ref_truncate]. rewrite (c_data_length _ _ Hw1).
    destruct (N.ltb_spec n (c_dl c1)) as [Hlt|Hnl]; [|five c1].
    (* truncation: only the data-length field changes *)
    pose proof (wf_dl _ _ Hw1). pose proof (wf_max _ _ Hw1).
    rewrite (write_dl_flat maxsz) by (auto; lia). cbn [out_file out_err fst snd].
    exists (set_dlb c1 (be 8 n)). split; [reflexivity|]. split; [apply wf_set_dlb; auto; lia|].
    split; [eapply same_leases_trans; [exact Hs1|repeat split]|]. split; [reflexivity|].
    unfold c_data, c_dl in *. fc_simpl. rewrite unbe_be8, firstn_firstn by lia. f_equal. lia.
  - destruct (ref_write_vectors maxsz (c_data c) dv) as [d1 [e|]] eqn:Er; cbn [fst snd] in *; [|discriminate].
    five c1.
Qed.

(* the raw lease records depend only on the lease fields *)
Definition rec_of (c : FC) (i : N) : list N :=
  if i <? 4 then pread (c_slots c) (i * 92) 92 else pread (c_extra c) ((i - 4) * 92) 92.

Definition recs (c : FC) : list (list N) := map (rec_of c) (nseq (4 + c_nx c)).

Lemma in_nseq_iff i n : In i (nseq n) <-> i < n.
Proof.
  unfold nseq. rewrite in_map_iff. split.
  - intros (k & <- & Hk). apply in_seq in Hk. lia.
  - intro Hi. exists (N.to_nat i). split; [lia|apply in_seq; lia].
Qed.

Lemma NoDup_nseq n : NoDup (nseq n).
Proof. apply FinFun.Injective_map_NoDup; [intros a b; lia|apply seq_NoDup]. Qed.

Lemma nseq_succ n : nseq (n + 1) = nseq n ++ [n].
Proof.
  unfold nseq. replace (N.to_nat (n + 1)) with (N.to_nat n + 1)%nat by lia.
  rewrite seq_app, map_app. cbn. f_equal. f_equal. lia.
Qed.

Lemma collect_res_map {A B} (f : A -> res B) (g : A -> B) l :
  (forall x, In x l -> f x = Ok (g x)) -> collect_res (map f l) = Ok (map g l).
Proof.
  induction l as [|x l IH]; intro Hf; [reflexivity|].
  cbn [map collect_res]. rewrite (Hf x (or_introl eq_refl)). rewrite IH by (intros; apply Hf; right; assumption).
  reflexivity.
Qed.

Lemma read_lease_raw_flat maxsz c i : wf maxsz c -> i < 4 + c_nx c -> read_lease_raw (flat c) i = Ok (rec_of c i).
Proof.
  intros Hw Hi. unfold read_lease_raw, lease_record_offset, rec_of.
  rewrite (read_elo_flat _ _ Hw), (read_nx_flat _ _ Hw). consts.
  destruct (N.ltb_spec i 4) as [H4|H4].
  - f_equal. rewrite !pread_prn. rewrite flat_slots.
    replace (N.to_nat (100 + i * 92)) with (length (c_id c ++ c_dlb c ++ c_elob c) + N.to_nat (i * 92))%nat.
    2:{ rewrite !app_length. destruct Hw. lia. }
    rewrite prn_app_skip by reflexivity. apply prn_inside. destruct Hw. change (N.to_nat 92) with 92%nat. lia.
  - destruct (N.ltb_spec (i - 4) (c_nx c)); [|lia]. f_equal.
    rewrite !pread_prn. rewrite flat_nxb. rewrite app_assoc.
    replace (N.to_nat (468 + len (c_region c) + 4 + (i - 4) * 92))
      with (length ((hdr c ++ c_region c) ++ c_nxb c) + N.to_nat ((i - 4) * 92))%nat.
    2:{ rewrite !app_length, (hdr_length _ _ Hw). destruct Hw. unfold len. lia. }
    apply prn_app_skip. reflexivity.
Qed.

Lemma raw_lease_records_flat maxsz c : wf maxsz c -> raw_lease_records (flat c) = Ok (recs c).
Proof.
  intro Hw. unfold raw_lease_records, num_lease_slots. rewrite (read_nx_flat _ _ Hw). consts.
  apply collect_res_map. intros i Hi. apply (read_lease_raw_flat maxsz); auto. apply in_nseq_iff, Hi.
Qed.

Lemma recs_same c c' : same_leases c c' -> recs c' = recs c.
Proof.
  intros (Hid & Hs & Hn & He). unfold recs, rec_of, c_nx. rewrite Hs, Hn, He. reflexivity.
Qed.

(* layout_ok is exactly "is the rendering of a well-formed structured container":
   the fields of `parse f` are the pieces of f the header reads look at *)
Definition parse (f : file) : FC :=
  let elo := N.to_nat (unbe (prn f 92 8)) in
  mkFC (prn f 0 84) (prn f 84 8) (prn f 92 8) (prn f 100 368) (prn f 468 (elo - 468)) (prn f elo 4) (skipn (elo + 4) f).

Lemma flat_parse f : (468 <= N.to_nat (unbe (prn f 92 8)))%nat -> flat (parse f) = f.
Proof.
  intro Helo. unfold flat, hdr, tail, parse, prn. fc_simpl. rewrite <- !app_assoc.
  set (elo := N.to_nat (unbe (firstn 8 (skipn 92 f)))) in *.
  rewrite (firstn_skipn_add elo 4 f), (split_at 468 elo f Helo).
  rewrite (firstn_skipn_add 100 368 f : _ ++ skipn 468 f = _).
  rewrite (firstn_skipn_add 92 8 f : _ ++ skipn 100 f = _).
  rewrite (firstn_skipn_add 84 8 f : _ ++ skipn 92 f = _).
  apply firstn_skipn.
Qed.

Lemma wf_parse maxsz f :
  schema_of_header (c_id (parse f)) <> None ->
  468 + c_dl (parse f) <= unbe (c_elob (parse f)) -> unbe (c_elob (parse f)) <= 468 + maxsz ->
  len f = unbe (c_elob (parse f)) + 4 + c_nx (parse f) * 92 ->
  wf maxsz (parse f).
Proof.
  intros Hs H1 H2 H3. unfold len in H3.
  (* every piece lies inside f, so it has its nominal length *)
  assert (Hr : length (c_region (parse f)) = (N.to_nat (unbe (c_elob (parse f))) - 468)%nat)
    by (apply (prn_length_inside f 468 (N.to_nat (unbe (c_elob (parse f))) - 468)); lia).
  assert (Hn : length (c_nxb (parse f)) = 4%nat)
    by (apply (prn_length_inside f (N.to_nat (unbe (c_elob (parse f)))) 4); lia).
  assert (Hx : length (c_extra (parse f)) = (length f - (N.to_nat (unbe (c_elob (parse f))) + 4))%nat)
    by apply skipn_length.
  assert (Hf : (468 <= length f)%nat) by lia.
  constructor; unfold len; rewrite ?Hr, ?Hx; try assumption; try lia; apply prn_length_inside; clear - Hf; lia.
Qed.

Lemma layout_ok_parse maxsz f : layout_ok maxsz f = true -> wf maxsz (parse f) /\ f = flat (parse f).
Proof.
  unfold layout_ok. destruct (open_container f) as [v|] eqn:Eo; [|discriminate].
  destruct (read_data_length f) as [dl|] eqn:Ed; [|discriminate].
  destruct (read_extra_lease_offset f) as [elo|] eqn:Ee; [|discriminate].
  destruct (read_num_extra_leases f) as [n|] eqn:En; [|discriminate].
  intro Hc. apply andb_prop in Hc as [Hc H3]. apply andb_prop in Hc as [H1 H2].
  apply N.leb_le in H1, H2. apply N.eqb_eq in H3.
  unfold read_num_extra_leases in En. rewrite Ee in En.
  apply unpack_be_inv in Ed as [_ ->]. apply unpack_be_inv in Ee as [_ ->]. apply unpack_be_inv in En as [_ ->].
  (* what was read are the fields of `parse f` *)
  split; [apply wf_parse; [|exact H1|exact H2|exact H3]|].
  - unfold open_container in Eo. change (pread f 0 HEADER_SIZE) with (firstn 100 f) in Eo.
    change (c_id (parse f)) with (firstn 84 f). rewrite schema_of_header_firstn in Eo |- * by lia.
    destruct (schema_of_header f); discriminate.
  - symmetry. apply flat_parse.
    change (unbe (prn f 92 8)) with (unbe (pread f EXTRA_LEASE_OFFSET_POS 8)).
    unfold DATA_OFFSET in H1. lia.
Qed.

Lemma flat_layout_ok maxsz c : wf maxsz c -> layout_ok maxsz (flat c) = true.
Proof.
  intro Hw. unfold layout_ok. destruct (open_flat_ok _ _ Hw) as (v & ->).
  rewrite (read_dl_flat _ _ Hw), (read_elo_flat _ _ Hw), (read_nx_flat _ _ Hw). consts.
  pose proof (wf_dl _ _ Hw). pose proof (wf_max _ _ Hw).
  apply andb_true_intro; split; [apply andb_true_intro; split|].
  - apply N.leb_le. lia.
  - apply N.leb_le. lia.
  - apply N.eqb_eq. unfold len at 1. rewrite (flat_length _ _ Hw). unfold len. lia.
Qed.

Lemma layout_ok_iff maxsz f : layout_ok maxsz f = true <-> exists c, wf maxsz c /\ f = flat c.
Proof.
  split.
  - intro Hl. exists (parse f). apply layout_ok_parse. exact Hl.
  - intros (c & Hw & ->). apply flat_layout_ok. exact Hw.
Qed.
