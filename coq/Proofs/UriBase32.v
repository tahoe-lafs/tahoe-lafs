(* base32 as used by uri.py: the two round trips, for every length, and that
   a2b's precondition never fires on what the regexes accept.

   b32_field_ok g: every character in the alphabet, a length some octet count
   produces, and the last character in the class `cls_pad p` where p is the
   number of pad bits -- exactly what the regex fragments BASE32STR_* demand.

   Octet count n, quintet count q and pad bits p belong together when
   5q = 8n + p with p <= 4; every fact about lengths below comes from that. *)
From Coq Require Import String List NArith ZArith PeanoNat Bool Lia ZifyBool ZifyNat ZifyN.
From Verif Require Import Lib.Hex Lib.ListFacts Lib.Bytes Gen.Uri Model.UriBase32.
Import ListNotations.
Local Open Scope N_scope.

Lemma index_of_some c : forall l i, index_of c l = Some i ->
  (N.to_nat i < length l)%nat /\ nth (N.to_nat i) l 0 = c.
Proof.
  induction l as [|x l IH]; intros i H; cbn [index_of] in H.
  - discriminate.
  - destruct (c =? x) eqn:E.
    + injection H as <-. apply N.eqb_eq in E. subst. cbn. split; [lia|reflexivity].
    + destruct (index_of c l) as [j|] eqn:Ej; [|discriminate]. cbn in H. injection H as <-.
      destruct (IH j eq_refl) as [H1 H2]. rewrite N2Nat.inj_succ. cbn [length nth]. split; [lia|exact H2].
Qed.

Lemma index_of_mem c : forall l, mem c l = true <-> exists i, index_of c l = Some i.
Proof.
  induction l as [|x l IH]; cbn [mem existsb index_of].
  - split; [discriminate|intros [i H]; discriminate].
  - destruct (c =? x) eqn:E; cbn [orb].
    + split; [intros _; eexists; reflexivity|reflexivity].
    + fold (mem c l). rewrite IH. split; intros [i H].
      * rewrite H. eexists; reflexivity.
      * destruct (index_of c l) as [j|]; [exists j; reflexivity|discriminate].
Qed.

Lemma mem_In c l : mem c l = true <-> In c l.
Proof. exact (existsb_eqb_In N.eqb N.eqb_eq c l). Qed.

Lemma mem_subset a b c : forallb (fun x => mem x b) a = true -> mem c a = true -> mem c b = true.
Proof.
  intros H Hc. rewrite forallb_forall in H. apply H. apply mem_In. exact Hc.
Qed.

Definition range32 : list N := map N.of_nat (seq 0 32).

(* a fact about each of the 32 quintet values, checked on the table *)
Lemma forall_lt32 (f : N -> bool) : forallb f range32 = true -> forall v, v < 32 -> f v = true.
Proof.
  intros H v Hv. rewrite forallb_forall in H. apply H.
  unfold range32. rewrite <- (N2Nat.id v). apply in_map, in_seq. lia.
Qed.

Lemma c2v_v2c v : v < 32 -> c2v (v2c v) = Some v.
Proof.
  intro H.
  pose proof (forall_lt32 (fun v => match c2v (v2c v) with Some w => w =? v | None => false end)
                ltac:(vm_compute; reflexivity) v H) as E.
  cbv beta in E. destruct (c2v (v2c v)) as [w|]; [|discriminate].
  apply N.eqb_eq in E. subst. reflexivity.
Qed.

Lemma c2v_some c v : c2v c = Some v -> v < 32 /\ v2c v = c.
Proof.
  intro H. apply index_of_some in H. change (length alphabet) with 32%nat in H. destruct H as [H1 H2].
  split; [lia|exact H2].
Qed.

Lemma b32char_roundtrip c : is_b32char c = true -> c2v0 c < 32 /\ v2c (c2v0 c) = c.
Proof.
  intro H. apply index_of_mem in H. destruct H as [v Hv]. unfold c2v0, c2v. rewrite Hv.
  apply c2v_some. exact Hv.
Qed.

Lemma v2c_b32char v : v < 32 -> is_b32char (v2c v) = true.
Proof. intro H. apply index_of_mem. exists v. apply c2v_v2c. exact H. Qed.

Lemma c2v0_v2c v : v < 32 -> c2v0 (v2c v) = v.
Proof. intro H. unfold c2v0. rewrite c2v_v2c by exact H. reflexivity. Qed.

(* the regex character classes are "the low p bits are zero" *)
Lemma cls_pad_spec p v : (p <= 4)%nat -> v < 32 ->
  mem (v2c v) (cls_pad p) = (v mod 2 ^ N.of_nat p =? 0).
Proof.
  intros Hp Hv.
  pose proof (forall_lt32 (fun v => forallb (fun p => Bool.eqb (mem (v2c v) (cls_pad p)) (v mod 2 ^ N.of_nat p =? 0)) (seq 0 5))
                ltac:(vm_compute; reflexivity) v Hv) as E.
  cbv beta in E. rewrite forallb_forall in E.
  specialize (E p). apply eqb_prop. apply E. apply in_seq. lia.
Qed.

Lemma cls_pad_alphabet p c : mem c (cls_pad p) = true -> is_b32char c = true.
Proof.
  destruct p as [|[|[|[|[|p]]]]]; try (cbn [cls_pad mem existsb]; discriminate);
    (apply mem_subset; vm_compute; reflexivity).
Qed.

Definition pad_of (q : nat) : nat := (5 * q - 8 * num_octets q)%nat.

Lemma shape_unique n q p : (5 * q = 8 * n + p)%nat -> (p <= 4)%nat ->
  num_quintets n = q /\ num_octets q = n.
Proof.
  intros E Hp. unfold num_quintets, num_octets. split; symmetry.
  - apply (Nat.div_unique _ 5 q (4 - p)); lia.
  - apply (Nat.div_unique _ 8 n p); lia.
Qed.

Lemma quintets_shape n : exists p, (5 * num_quintets n = 8 * n + p /\ p <= 4)%nat.
Proof. exists (5 * num_quintets n - 8 * n)%nat. unfold num_quintets. lia. Qed.

Lemma pad_sum q : (8 * num_octets q + pad_of q = 5 * q)%nat.
Proof. unfold pad_of, num_octets. lia. Qed.

Lemma octets_of_quintets n : num_octets (num_quintets n) = n.
Proof. destruct (quintets_shape n) as (p & E & Hp). apply (shape_unique n _ p E Hp). Qed.

(* the lengths some octet count produces are those that leave at most 4 pad bits *)
Lemma legit_iff q : num_quintets (num_octets q) = q <-> (pad_of q <= 4)%nat.
Proof.
  pose proof (pad_sum q) as S. split; intro H.
  - destruct (quintets_shape (num_octets q)) as (p & E & Hp). rewrite H in E. lia.
  - apply (shape_unique _ q (pad_of q)); [lia|exact H].
Qed.

(* pad_of q = 5q mod 8 depends on q mod 8 only *)
Lemma pad_of_mod8 q : pad_of (q mod 8) = pad_of q.
Proof.
  assert (M : forall a, pad_of a = ((5 * a) mod 8)%nat) by (intro a; symmetry; apply Nat.mod_eq; discriminate).
  rewrite !M. apply Nat.mul_mod_idemp_r. discriminate.
Qed.

Lemma pow256 n : 256 ^ N.of_nat n = 2 ^ N.of_nat (8 * n).
Proof.
  rewrite Nat2N.inj_mul. change (N.of_nat 8) with 8. rewrite N.pow_mul_r. reflexivity.
Qed.

Lemma pow32 q : 32 ^ N.of_nat q = 2 ^ N.of_nat (5 * q).
Proof.
  rewrite Nat2N.inj_mul. change (N.of_nat 5) with 5. rewrite N.pow_mul_r. reflexivity.
Qed.

Lemma pow2_split a b : 2 ^ N.of_nat (a + b) = 2 ^ N.of_nat a * 2 ^ N.of_nat b.
Proof. rewrite Nat2N.inj_add. apply N.pow_add_r. Qed.

Lemma pow2_nonzero k : 2 ^ k <> 0.
Proof. apply N.pow_nonzero. discriminate. Qed.

(* the low p bits of a base-32 number are those of its last digit: 2^p divides 32 *)
Lemma low_bits_of_last a v p : (p <= 4)%nat -> (a * 32 + v) mod 2 ^ N.of_nat p = v mod 2 ^ N.of_nat p.
Proof.
  intro H. replace 32 with (2 ^ N.of_nat (5 - p) * 2 ^ N.of_nat p).
  - rewrite N.mul_assoc, N.add_comm. apply N.mod_add, pow2_nonzero.
  - rewrite <- pow2_split. replace (5 - p + p)%nat with 5%nat by lia. reflexivity.
Qed.

(* n octets shifted left by the p pad bits fill q quintets exactly *)
Lemma shifted_bound n q p V : (5 * q = 8 * n + p)%nat ->
  V < 256 ^ N.of_nat n <-> V * 2 ^ N.of_nat p < 32 ^ N.of_nat q.
Proof.
  intro E. rewrite pow256, pow32, E, pow2_split. apply N.mul_lt_mono_pos_r.
  apply N.neq_0_lt_0, pow2_nonzero.
Qed.

Lemma map_roundtrip {A} (f g : A -> A) (P : A -> bool) l :
  (forall x, P x = true -> g (f x) = x) -> forallb P l = true -> map g (map f l) = l.
Proof.
  intros H. induction l as [|x l IH]; cbn; intro Hl; [reflexivity|].
  apply andb_true_iff in Hl. destruct Hl as [Hx Hl]. rewrite H, IH by assumption. reflexivity.
Qed.

Lemma forallb_map_impl {A B} (P : A -> bool) (Q : B -> bool) (f : A -> B) l :
  (forall x, P x = true -> Q (f x) = true) -> forallb P l = true -> forallb Q (map f l) = true.
Proof.
  intro H. induction l as [|x l IH]; cbn; intro Hl; [reflexivity|].
  apply andb_true_iff in Hl. destruct Hl as [Hx Hl]. rewrite (H x Hx). exact (IH Hl).
Qed.

Lemma digits32_chars ds : digits_below 32 ds = true -> forallb is_b32char (map v2c ds) = true.
Proof. apply forallb_map_impl. intros d Hd. apply v2c_b32char, N.ltb_lt, Hd. Qed.

Lemma chars_digits32 cs : forallb is_b32char cs = true -> digits_below 32 (map c2v0 cs) = true.
Proof. apply forallb_map_impl. intros c Hc. apply N.ltb_lt, b32char_roundtrip, Hc. Qed.

Lemma last_in_forallb (f : N -> bool) g : g <> [] -> forallb f g = true -> f (last g 0) = true.
Proof.
  intros Hne H. destruct (exists_last Hne) as (l & x & ->). rewrite last_last.
  rewrite forallb_app in H. apply andb_true_iff in H. destruct H as [_ H]. cbn in H.
  rewrite andb_true_r in H. exact H.
Qed.

Lemma last_map_c2v0 g : g <> [] -> last (map c2v0 g) 0 = c2v0 (last g 0).
Proof.
  intro H. destruct (exists_last H) as (l & x & ->). rewrite map_app. cbn [map]. rewrite !last_last. reflexivity.
Qed.

Definition b32_field_ok (g : bytes) : Prop :=
  forallb is_b32char g = true
  /\ num_quintets (num_octets (length g)) = length g
  /\ (pad_of (length g) = 0%nat \/ mem (last g 0) (cls_pad (pad_of (length g))) = true).

Lemma b32_field_intro g : forallb is_b32char g = true -> (pad_of (length g) <= 4)%nat ->
  (g <> [] -> mem (last g 0) (cls_pad (pad_of (length g))) = true) -> b32_field_ok g.
Proof.
  intros C P M. split; [exact C|]. split; [apply legit_iff; exact P|].
  destruct g; [left; reflexivity|right; apply M; discriminate].
Qed.

(* with no pad bits the class is the whole alphabet, so the disjunction in
   b32_field_ok only matters for the empty string *)
Lemma field_ok_last g : b32_field_ok g -> g <> [] -> mem (last g 0) (cls_pad (pad_of (length g))) = true.
Proof.
  intros (C & _ & [Z|M]) Hne; [|exact M]. rewrite Z. exact (last_in_forallb _ g Hne C).
Qed.

(* the low pad bits of the number a well-shaped string spells are zero *)
Lemma field_ok_low_bits g : b32_field_ok g ->
  be_value 32 (map c2v0 g) mod 2 ^ N.of_nat (pad_of (length g)) = 0.
Proof.
  intro H. destruct (list_eq_dec N.eq_dec g []) as [->|Hne]; [reflexivity|].
  pose proof (field_ok_last g H Hne) as M. destruct H as (C & L & _). apply legit_iff in L.
  destruct (b32char_roundtrip _ (last_in_forallb _ g Hne C)) as [Hlt Hrt].
  rewrite <- Hrt, cls_pad_spec in M by assumption. apply N.eqb_eq in M.
  destruct (exists_last Hne) as (l & x & ->). rewrite last_last in M.
  rewrite map_app. cbn [map]. rewrite be_value_snoc, low_bits_of_last by exact L. exact M.
Qed.

Lemma b2a_length os : length (b2a os) = num_quintets (length os).
Proof. unfold b2a. rewrite map_length, be_digits_length. reflexivity. Qed.

(* encoder and decoder with the other length (q quintets, n octets) and the pad p given by the
   equation 5 q = 8 n + p instead of computed by division.  The round trips pass the lengths
   in explicitly, which keeps division out of lia's sight *)
Lemma b2a_shape os q p : (5 * q = 8 * length os + p)%nat -> (p <= 4)%nat ->
  b2a os = map v2c (be_digits 32 q (be_value 256 os * 2 ^ N.of_nat p)).
Proof.
  intros E Hp. unfold b2a. cbv zeta. destruct (shape_unique _ _ _ E Hp) as [-> _].
  replace (5 * q - 8 * length os)%nat with p by lia. reflexivity.
Qed.

Lemma a2b_shape g n p : (5 * length g = 8 * n + p)%nat -> (p <= 4)%nat ->
  a2b g = be_digits 256 n (be_value 32 (map c2v0 g) / 2 ^ N.of_nat p).
Proof.
  intros E Hp. unfold a2b. cbv zeta. destruct (shape_unique _ _ _ E Hp) as [_ ->].
  replace (5 * length g - 8 * n)%nat with p by lia. reflexivity.
Qed.

Theorem a2b_b2a os : bytes_ok os = true -> a2b (b2a os) = os.
Proof.
  intro H. destruct (quintets_shape (length os)) as (p & E & Hp).
  assert (E' : (5 * length (b2a os) = 8 * length os + p)%nat) by (rewrite b2a_length; exact E).
  rewrite (a2b_shape (b2a os) (length os) p E' Hp).
  rewrite (b2a_shape os _ p E Hp), (map_roundtrip v2c c2v0 (fun d => d <? 32)).
  - rewrite be_digits_small; [|reflexivity|apply (shifted_bound _ _ _ _ E), be_value_bound, H].
    rewrite N.div_mul by apply pow2_nonzero. apply be_digits_value. exact H.
  - intros x Hx. apply c2v0_v2c, N.ltb_lt, Hx.
  - apply be_digits_below. reflexivity.
Qed.

(* the last digit of V * 2^p has its low p bits zero *)
Lemma shifted_last_digit V p : (p <= 4)%nat -> mem (v2c ((V * 2 ^ N.of_nat p) mod 32)) (cls_pad p) = true.
Proof.
  intro Hp. rewrite cls_pad_spec; [|exact Hp|apply N.mod_lt; discriminate]. apply N.eqb_eq.
  set (W := V * 2 ^ N.of_nat p).
  rewrite <- (low_bits_of_last (W / 32) _ p Hp), N.mul_comm, <- N.div_mod by discriminate.
  apply N.mod_mul, pow2_nonzero.
Qed.

Theorem b2a_field_ok os : bytes_ok os = true -> b32_field_ok (b2a os).
Proof.
  intros _. destruct (quintets_shape (length os)) as (p & E & Hp).
  pose proof (pad_sum (num_quintets (length os))) as S. rewrite octets_of_quintets in S.
  rewrite (b2a_shape os _ p E Hp). generalize dependent (num_quintets (length os)). intros q E S.
  assert (P : pad_of q = p) by (clear -E S; lia).
  apply b32_field_intro; rewrite ?map_length, ?be_digits_length, ?P;
    [apply digits32_chars, be_digits_below; reflexivity|exact Hp|].
  destruct q as [|q']; [intros []; reflexivity|intros _].
  cbn [be_digits]. rewrite map_app. cbn [map]. rewrite last_last. apply shifted_last_digit, Hp.
Qed.

Theorem a2b_length g : length (a2b g) = num_octets (length g).
Proof. unfold a2b. apply be_digits_length. Qed.

Theorem a2b_bytes_ok g : bytes_ok (a2b g) = true.
Proof. unfold a2b. apply be_digits_bytes_ok. Qed.

Theorem b2a_a2b g : b32_field_ok g -> b2a (a2b g) = g.
Proof.
  intro H. pose proof (field_ok_low_bits g H) as Hlow. destruct H as (Hch & Hlen & _).
  apply legit_iff in Hlen. pose proof (eq_sym (pad_sum (length g))) as Hsum.
  set (p := pad_of (length g)) in *. set (n := num_octets (length g)) in *.
  assert (Hn : (5 * length g = 8 * length (a2b g) + p)%nat) by (rewrite a2b_length; exact Hsum).
  rewrite (b2a_shape _ (length g) p Hn Hlen), (a2b_shape g n p Hsum Hlen).
  assert (Hd : digits_below 32 (map c2v0 g) = true) by apply chars_digits32, Hch.
  pose proof (be_value_bound 32 _ Hd) as HW. rewrite map_length in HW.
  set (W := be_value 32 (map c2v0 g)) in *.
  assert (HWeq : W / 2 ^ N.of_nat p * 2 ^ N.of_nat p = W).
  { pose proof (N.div_mod W _ (pow2_nonzero (N.of_nat p))) as E. rewrite Hlow, N.add_0_r, N.mul_comm in E.
    symmetry. exact E. }
  rewrite be_digits_small, HWeq; [|reflexivity|apply (shifted_bound n (length g) p _ Hsum); rewrite HWeq; exact HW].
  subst W. rewrite <- (map_length c2v0 g), (be_digits_value 32 _ Hd).
  apply (map_roundtrip c2v0 v2c is_b32char); [|exact Hch]. intros x Hx. apply b32char_roundtrip, Hx.
Qed.

(* row r of the s8 table holds the class of every pad count a length = r mod 8 can leave *)
Lemma s8_rows : forallb (fun r => (4 <? pad_of r)%nat
                                  || let row := s8_row r in forallb (fun x => mem x row) (cls_pad (pad_of r)))
                        (seq 0 8) = true.
Proof. vm_compute. reflexivity. Qed.

Theorem field_ok_could_be g : b32_field_ok g -> could_be_base32_encoded g = true.
Proof.
  intro H. unfold could_be_base32_encoded. destruct g as [|c g']; [reflexivity|]. set (g := c :: g') in *.
  pose proof (field_ok_last g H ltac:(discriminate)) as M. destruct H as (-> & L & _). rewrite andb_true_r.
  apply legit_iff in L. rewrite <- pad_of_mod8 in M, L.
  pose proof s8_rows as T. rewrite forallb_forall in T. specialize (T (length g mod 8)%nat).
  rewrite in_seq in T. destruct (orb_prop _ _ (T ltac:(split; [lia|apply Nat.mod_upper_bound; discriminate]))) as [F|S].
  - apply Nat.ltb_lt in F. lia.
  - exact (mem_subset _ _ _ S M).
Qed.
