(* split_netstring: round trip (for any reader of the length numeral that reads
   what b"%d" prints), strict converse, agreement of the strict reader with the
   real one, fuel, and the refutation of the unconditional converse. *)
From Coq Require Import String.
From Coq Require Import List NArith ZArith Bool Lia.
From Verif Require Import Lib.Decimal Lib.DecimalFacts Lib.Hex Lib.ListFacts Lib.Netstring Lib.NetstringFacts
     Model.PyResult Model.PyInt Model.NetstringCodec Proofs.CodecsPyInt.
Import ListNotations.
Local Open Scope N_scope.

Lemma find_byte_app c : forall l r, ~ In c l -> find_byte c (l ++ c :: r) = Some (l, r).
Proof.
  induction l as [|b l IH]; intros r H; cbn [app find_byte].
  - rewrite N.eqb_refl. reflexivity.
  - destruct (b =? c) eqn:E.
    + apply N.eqb_eq in E. exfalso. apply H. left. assumption.
    + rewrite IH; [reflexivity|]. intro Hin. apply H. right. assumption.
Qed.

Lemma find_byte_some c : forall l x y, find_byte c l = Some (x, y) -> l = x ++ c :: y /\ ~ In c x.
Proof.
  induction l as [|b l IH]; intros x y H; cbn [find_byte] in H; [discriminate|].
  destruct (b =? c) eqn:E.
  - injection H as <- <-. apply N.eqb_eq in E. subst. split; [reflexivity|intros []].
  - destruct (find_byte c l) as [[x' y']|] eqn:F; [|discriminate].
    injection H as <- <-. destruct (IH x' y' eq_refl) as [-> Hn]. split; [reflexivity|].
    intros [Hb|Hin]; [apply N.eqb_neq in E; congruence|tauto].
Qed.

Lemma to_nat_blen a : N.to_nat (blen a) = length a.
Proof. unfold blen. apply Nat2N.id. Qed.

Lemma netstring_blen a : blen (netstring a) = blen (dec (blen a)) + 1 + blen a + 1.
Proof. unfold blen at 1. rewrite netstring_length. unfold blen. lia. Qed.

Lemma firstn_skipn_cons {A} n (l : list A) c r :
  skipn n l = c :: r -> l = firstn n l ++ c :: r /\ length (firstn n l) = n.
Proof.
  intro H. split.
  - rewrite <- H. symmetry. apply firstn_skipn.
  - apply firstn_length_le. pose proof (skipn_length n l) as Hl. rewrite H in Hl. cbn [length] in Hl. lia.
Qed.

Definition raised {A} (r : result A) : Prop :=
  match r with Ok _ | Err EFuel => False | Err _ => True end.

(* one pass through the loop body: a numeral, a string of that length and a comma are
   taken off the front of [rest] *)
Inductive split_step (rd : list N -> option Z) (rest : list N) (pos : N) : list N -> N -> list N -> Prop :=
  split_step_intro numeral z str rest' :
    ~ In 58 numeral -> rd numeral = Some z -> (0 <= z)%Z -> blen str = Z.to_N z ->
    rest = numeral ++ 58 :: str ++ 44 :: rest' ->
    split_step rd rest pos str (pos + blen numeral + 1 + Z.to_N z + 1) rest'.

Lemma split_loop_step rd f rest pos ns acc str pos' rest' :
  split_step rd rest pos str pos' rest' ->
  split_loop rd (S f) rest pos ns acc =
  if N.of_nat (length (acc ++ [str])) =? ns then Ok (acc ++ [str], pos', rest')
  else split_loop rd f rest' pos' ns (acc ++ [str]).
Proof.
  intros [numeral z str0 rest0 Hc R Hz Hlen ->].
  destruct (numeral ++ 58 :: str0 ++ 44 :: rest0) as [|b l] eqn:E.
  { apply app_eq_nil in E. destruct E; discriminate. }
  cbn [split_loop]. rewrite <- E, find_byte_app, R by assumption.
  rewrite (proj2 (Z.ltb_ge z 0)) by assumption. cbv zeta. rewrite <- Hlen.
  rewrite (proj2 (N.ltb_ge _ _)) by (rewrite blen_app; lia).
  rewrite to_nat_blen, firstn_app_exact, skipn_app_exact by reflexivity. reflexivity.
Qed.

Lemma split_loop_unroll rd f rest pos ns acc r :
  split_loop rd (S f) rest pos ns acc = r ->
  rest = [] /\ r = Ok (acc, pos, []) \/
  (exists str pos' rest', split_step rd rest pos str pos' rest' /\
     (if N.of_nat (length (acc ++ [str])) =? ns then Ok (acc ++ [str], pos', rest')
      else split_loop rd f rest' pos' ns (acc ++ [str])) = r) \/
  raised r.
Proof.
  intros <-. destruct rest as [|b rest0]; [left; split; reflexivity|right].
  cbn [split_loop]. set (rest := b :: rest0).
  destruct (find_byte 58 rest) as [[numeral after]|] eqn:F; [|right; exact I].
  apply find_byte_some in F. destruct F as [Hrest Hc].
  destruct (rd numeral) as [z|] eqn:R; [|right; exact I].
  destruct (z <? 0)%Z eqn:Hz; [right; exact I|]. apply Z.ltb_ge in Hz. cbv zeta.
  destruct (blen after <? Z.to_N z); [right; exact I|].
  destruct (skipn (N.to_nat (Z.to_N z)) after) as [|c rest'] eqn:Hs; [right; exact I|].
  destruct (c =? 44) eqn:Hc44; [|right; exact I]. apply N.eqb_eq in Hc44. subst c.
  apply firstn_skipn_cons in Hs. destruct Hs as [Hafter Hlen].
  left. eexists _, _, rest'. split; [|reflexivity].
  apply split_step_intro; try assumption.
  - unfold blen. rewrite Hlen. apply N2Nat.id.
  - rewrite Hrest, Hafter at 1. reflexivity.
Qed.

Section Reader.
Variable rd : list N -> option Z.
Hypothesis rd_dec : forall n, rd (dec n) = Some (Z.of_N n).

Lemma split_step_netstring a rest' pos : split_step rd (netstring a ++ rest') pos a (pos + blen (netstring a)) rest'.
Proof.
  replace (pos + blen (netstring a)) with (pos + blen (dec (blen a)) + 1 + Z.to_N (Z.of_N (blen a)) + 1)
    by (rewrite netstring_blen; lia).
  apply split_step_intro; [apply colon_not_in_dec|apply rd_dec|lia|lia|].
  rewrite netstring_unfold, <- !app_assoc. cbn [app]. rewrite <- app_assoc. reflexivity.
Qed.

Lemma split_loop_netstrings : forall l fuel acc pos x numstrings,
  l <> [] -> (length l <= fuel)%nat -> numstrings = N.of_nat (length acc + length l) ->
  split_loop rd fuel (concat (map netstring l) ++ x) pos numstrings acc =
  Ok (acc ++ l, pos + blen (concat (map netstring l)), x).
Proof.
  induction l as [|a l IH]; intros fuel acc pos x ns Hne Hf Hns; [congruence|].
  destruct fuel as [|f]; [cbn in Hf; lia|].
  cbn [map concat]. rewrite <- app_assoc, (split_loop_step _ _ _ _ _ _ _ _ _ (split_step_netstring a _ pos)).
  destruct l as [|b l].
  - cbn [map concat app]. cbn [length] in Hns.
    assert (E : N.of_nat (length (acc ++ [a])) =? ns = true).
    { apply N.eqb_eq. rewrite app_length. cbn [length]. lia. }
    rewrite E, app_nil_r. reflexivity.
  - assert (E : N.of_nat (length (acc ++ [a])) =? ns = false).
    { apply N.eqb_neq. rewrite app_length. cbn [length] in *. lia. }
    rewrite E. rewrite IH.
    + rewrite <- app_assoc. cbn [app]. rewrite blen_app. f_equal. f_equal. f_equal. lia.
    + discriminate.
    + cbn [length] in *. lia.
    + rewrite app_length. cbn [length] in *. lia.
Qed.

Lemma skipn_N_0 data : skipn_N 0 data = data.
Proof. unfold skipn_N. destruct (blen data <? 0) eqn:E; [apply N.ltb_lt in E; lia|reflexivity]. Qed.

Lemma concat_netstrings_length l : (length l <= length (concat (map netstring l)))%nat.
Proof.
  induction l as [|a l IH]; cbn [map concat length]; [lia|].
  rewrite app_length. pose proof (netstring_length a). lia.
Qed.

Theorem split_netstring_roundtrip_with l :
  split_netstring_with rd (concat (map netstring l)) (N.of_nat (length l)) 0 (Some []) =
  Ok (l, blen (concat (map netstring l))).
Proof.
  unfold split_netstring_with. rewrite skipn_N_0.
  destruct l as [|a l].
  - reflexivity.
  - rewrite <- (app_nil_r (concat (map netstring (a :: l)))) at 2.
    rewrite split_loop_netstrings with (x := []).
    + cbn [app]. rewrite N.ltb_irrefl. cbn [list_N_eqb]. change (blen []) with 0. f_equal. f_equal. lia.
    + discriminate.
    + pose proof (concat_netstrings_length (a :: l)). lia.
    + reflexivity.
Qed.

Theorem split_netstring_roundtrip_prefix_with l x :
  l <> [] ->
  split_netstring_with rd (concat (map netstring l) ++ x) (N.of_nat (length l)) 0 None =
  Ok (l, blen (concat (map netstring l))).
Proof.
  intro Hne. unfold split_netstring_with. rewrite skipn_N_0.
  rewrite split_loop_netstrings.
  - cbn [app]. rewrite N.ltb_irrefl. f_equal.
  - assumption.
  - pose proof (concat_netstrings_length l). rewrite app_length. lia.
  - reflexivity.
Qed.
End Reader.

Lemma split_step_strict rest pos str pos' rest' :
  split_step strict_nat rest pos str pos' rest' ->
  rest = netstring str ++ rest' /\ pos' = pos + blen (netstring str).
Proof.
  intros [numeral z str0 rest0 _ R _ Hlen ->]. apply strict_nat_canonical in R. destruct R as [_ ->].
  rewrite <- Hlen, netstring_blen, netstring_unfold, <- !app_assoc. cbn [app]. rewrite <- app_assoc.
  split; [reflexivity|lia].
Qed.

Lemma split_loop_strict_inv : forall fuel rest pos ns acc els pos' rest',
  split_loop strict_nat fuel rest pos ns acc = Ok (els, pos', rest') ->
  exists l, els = acc ++ l /\ rest = concat (map netstring l) ++ rest'
            /\ pos' = pos + blen (concat (map netstring l)).
Proof.
  induction fuel as [|f IH]; intros rest pos ns acc els pos' rest' H; [discriminate|].
  apply split_loop_unroll in H. destruct H as [[-> [= <- <- <-]]|[(str & pos1 & rest1 & St & H)|[]]].
  - exists []. rewrite app_nil_r. cbn. repeat split. lia.
  - apply split_step_strict in St. destruct St as [-> ->].
    destruct (N.of_nat (length (acc ++ [str])) =? ns).
    + injection H as <- <- <-. exists [str]. cbn [map concat]. rewrite app_nil_r. repeat split.
    + apply IH in H. destruct H as (l & -> & -> & ->).
      exists (str :: l). cbn [map concat]. rewrite <- !app_assoc, blen_app. repeat split. lia.
Qed.

Theorem split_netstring_strict_converse data ns els p :
  split_netstring_strict data ns 0 (Some []) = Ok (els, p) ->
  concat (map netstring els) = data /\ p = blen data.
Proof.
  unfold split_netstring_strict, split_netstring_with. rewrite skipn_N_0.
  destruct (split_loop strict_nat (S (length data)) data 0 ns []) as [[[els' pos'] rest']|e] eqn:L; [|discriminate].
  destruct (N.of_nat (length els') <? ns); [discriminate|].
  destruct (list_N_eqb rest' []) eqn:Er; [|discriminate].
  apply list_N_eqb_eq in Er. subst rest'. intro H. injection H as <- <-.
  apply split_loop_strict_inv in L. destruct L as (l & -> & -> & ->).
  cbn [app]. rewrite app_nil_r. split; [reflexivity|]. change (blen []) with 0. lia.
Qed.

Section Mono.
Variables rd1 rd2 : list N -> option Z.
Hypothesis Hrd : forall l z, rd1 l = Some z -> rd2 l = Some z.

Lemma split_step_mono rest pos str pos' rest' :
  split_step rd1 rest pos str pos' rest' -> split_step rd2 rest pos str pos' rest'.
Proof. intros []. econstructor; eauto. Qed.

Lemma split_loop_mono : forall fuel rest pos ns acc r,
  split_loop rd1 fuel rest pos ns acc = Ok r -> split_loop rd2 fuel rest pos ns acc = Ok r.
Proof.
  induction fuel as [|f IH]; intros rest pos ns acc r H; [discriminate|].
  apply split_loop_unroll in H. destruct H as [[-> [= ->]]|[(str & pos' & rest' & St & H)|[]]]; [reflexivity|].
  rewrite (split_loop_step _ _ _ _ _ _ _ _ _ (split_step_mono _ _ _ _ _ St)).
  destruct (N.of_nat (length (acc ++ [str])) =? ns); [exact H|apply IH, H].
Qed.
End Mono.

Theorem split_netstring_strict_sound data ns pos t r :
  split_netstring_strict data ns pos t = Ok r -> split_netstring data ns pos t = Ok r.
Proof.
  unfold split_netstring_strict, split_netstring, split_netstring_with.
  destruct (split_loop strict_nat (S (length data)) (skipn_N pos data) pos ns []) as [x|e] eqn:L; [|discriminate].
  rewrite (split_loop_mono strict_nat py_int strict_nat_sound _ _ _ _ _ _ L). trivial.
Qed.

(* the real code, on inputs whose numerals are canonical *)
Theorem split_netstring_converse_canonical data ns els p :
  split_netstring data ns 0 (Some []) = Ok (els, p) ->
  is_ok (split_netstring_strict data ns 0 (Some [])) = true ->
  concat (map netstring els) = data /\ p = blen data.
Proof.
  intros H Hc. destruct (split_netstring_strict data ns 0 (Some [])) as [[els' p']|e] eqn:S; [|discriminate].
  pose proof (split_netstring_strict_sound _ _ _ _ _ S) as S'. rewrite H in S'. injection S' as <- <-.
  apply split_netstring_strict_converse with (ns := ns). assumption.
Qed.

Lemma split_step_shorter rd rest pos str pos' rest' :
  split_step rd rest pos str pos' rest' -> (length rest' < length rest)%nat.
Proof. intros [numeral z str0 rest0 _ _ _ _ ->]. rewrite app_length. cbn [length]. rewrite app_length. cbn [length]. lia. Qed.

Lemma split_loop_fuel rd : forall fuel rest pos ns acc,
  (length rest < fuel)%nat -> split_loop rd fuel rest pos ns acc <> Err EFuel.
Proof.
  induction fuel as [|f IH]; intros rest pos ns acc Hf H; [lia|].
  apply split_loop_unroll in H. destruct H as [[_ [=]]|[(str & pos' & rest' & St & H)|[]]].
  destruct (N.of_nat (length (acc ++ [str])) =? ns); [discriminate|].
  apply (IH rest' pos' ns (acc ++ [str])); [|exact H]. apply split_step_shorter in St. lia.
Qed.

Theorem split_netstring_fuel_suffices rd data ns t :
  split_netstring_with rd data ns 0 t <> Err EFuel.
Proof.
  unfold split_netstring_with. rewrite skipn_N_0.
  pose proof (split_loop_fuel rd (S (length data)) data 0 ns [] ltac:(lia)) as H.
  destruct (split_loop rd (S (length data)) data 0 ns []) as [[[els pos] rest]|e].
  - destruct (N.of_nat (length els) <? ns); [discriminate|]. destruct t; [|discriminate].
    destruct (list_N_eqb rest l); discriminate.
  - intro E. injection E as ->. apply H. reflexivity.
Qed.

Theorem split_netstring_converse_refuted :
  exists data els p, split_netstring data 1 0 (Some []) = Ok (els, p) /\ concat (map netstring els) <> data.
Proof.
  exists (bytes_of_string "+3:abc,"%string), [bytes_of_string "abc"%string], 7. split; [vm_compute; reflexivity|vm_compute; discriminate].
Qed.

Definition noncanonical_numeral_witnesses : list (list N) :=
  map bytes_of_string ["+3:abc,"; "03:abc,"; " 3:abc,"; "3 :abc,"; "1_0:abcdefghij,"; "-0:,"]%string.

Theorem split_netstring_noncanonical_accepted :
  forallb (fun data =>
    match split_netstring data 1 0 (Some []) with
    | Ok (els, _) => negb (list_N_eqb (concat (map netstring els)) data)
    | Err _ => false
    end) noncanonical_numeral_witnesses = true.
Proof. vm_compute. reflexivity. Qed.

Theorem split_netstring_strict_rejects_witnesses :
  forallb (fun data => negb (is_ok (split_netstring_strict data 1 0 (Some [])))) noncanonical_numeral_witnesses = true.
Proof. vm_compute. reflexivity. Qed.
