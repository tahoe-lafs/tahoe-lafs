(* C37: the invariants as Props/C37.v spells them out, histories that go on after
   a rejected call, and what is observed of a state that denotes a given set or map. *)
From Coq Require Import List Arith NArith Bool Lia ZifyBool ZifyNat ZifyN.
From Verif Require Import Model.Spans Proofs.SpansBase Proofs.SpansAdd Proofs.SpansRemove Proofs.SpansOps
     Proofs.SpansDataBase Proofs.SpansDataAdd Proofs.SpansDataOps.
Import ListNotations.
Local Open Scope N_scope.

Definition spans_invariant (l : spans) : Prop :=
  (forall sp, In sp l -> 0 < snd sp) /\
  (forall p x y q, l = p ++ x :: y :: q -> fst x + snd x < fst y).

Definition dataspans_invariant (l : dspans) : Prop :=
  (forall sp, In sp l -> snd sp <> []) /\
  (forall p x y q, l = p ++ x :: y :: q -> fst x + nlen (snd x) < fst y).

Definition op_okb (op : sop) : bool :=
  match op with
  | OpAdd _ n | OpRemove _ n => 0 <? n
  | OpUnion o | OpDiff o | OpInter o | OpIAdd o | OpISub o => forallb (fun sp => 0 <? snd sp) o
  | OpContains _ _ => true
  end.

Lemma all_pos_b o : forallb (fun sp : span => 0 <? snd sp) o = true <-> all_pos o.
Proof.
  unfold all_pos. rewrite forallb_forall, Forall_forall. split; intros H x Hx; specialize (H x Hx); lia.
Qed.

Lemma has_zero_b o : forallb (fun sp : span => 0 <? snd sp) o = false -> has_zero o.
Proof.
  unfold has_zero. induction o as [|sp o IH]; cbn [forallb]; [discriminate|].
  intro H. destruct (0 <? snd sp) eqn:E.
  - apply Exists_cons_tl. apply IH. exact H.
  - apply Exists_cons_hd. lia.
Qed.

Lemma op_okb_true op : op_okb op = true -> op_ok op.
Proof. destruct op; cbn [op_okb op_ok]; try (intro; lia); apply all_pos_b. Qed.

Lemma op_okb_false op : op_okb op = false -> op_rejected op.
Proof. destruct op; cbn [op_okb op_rejected]; try (intro; lia); apply has_zero_b. Qed.

Lemma spans_rejected_iff l op : wf l -> (sp_step l op = None <-> op_rejected op).
Proof.
  intro H. split; [|apply sp_step_rejected].
  intro E. destruct (op_okb op) eqn:B; [|apply op_okb_false; exact B].
  destruct (sp_step_correct l op H (op_okb_true _ B)) as (l' & E' & _). congruence.
Qed.

(* the object after a call, whether it returned or raised AssertionError *)
Definition sp_exec (l : spans) (op : sop) : spans :=
  match sp_step l op with Some l' => l' | None => l end.

Definition set_exec (S : N -> bool) (op : sop) : N -> bool :=
  if op_okb op then set_step S op else S.

Lemma set_exec_ext S S' op : (forall z, S z = S' z) -> forall z, set_exec S op z = set_exec S' op z.
Proof. intros E z. unfold set_exec. destruct (op_okb op); [apply set_step_ext; exact E|apply E]. Qed.

Lemma sp_exec_correct l op : wf l ->
  wf (sp_exec l op) /\ forall z, mem z (sp_exec l op) = set_exec (fun x => mem x l) op z.
Proof.
  intro H. unfold sp_exec, set_exec. destruct (op_okb op) eqn:E.
  - destruct (sp_step_correct l op H (op_okb_true _ E)) as (l' & -> & W & M). split; assumption.
  - rewrite (sp_step_rejected l op (op_okb_false _ E)). split; [exact H|reflexivity].
Qed.

Lemma sp_exec_run_from ops : forall l S, wf l -> (forall z, mem z l = S z) ->
  wf (fold_left sp_exec ops l) /\
  forall z, mem z (fold_left sp_exec ops l) = fold_left set_exec ops S z.
Proof.
  induction ops as [|op ops IH]; intros l S H E; cbn [fold_left]; [split; assumption|].
  destruct (sp_exec_correct l op H) as [W M]. apply IH; [exact W|].
  intro z. rewrite M. apply set_exec_ext. exact E.
Qed.

Lemma sp_exec_run ops :
  wf (fold_left sp_exec ops []) /\
  forall z, mem z (fold_left sp_exec ops []) = fold_left set_exec ops (fun _ => false) z.
Proof. apply sp_exec_run_from; [exact wf_nil|reflexivity]. Qed.

(* on a history in which no call raised, running `sp_step` is running `sp_exec` *)
Lemma sp_run_exec ops : forall l0 l,
  fold_left (fun st op => bind st (fun l => sp_step l op)) ops (Some l0) = Some l ->
  fold_left sp_exec ops l0 = l.
Proof.
  induction ops as [|op ops IH]; intros l0 l R; cbn [fold_left bind] in *.
  - injection R as <-. reflexivity.
  - unfold sp_exec at 2. destruct (sp_step l0 op) as [l1|]; [exact (IH _ _ R)|].
    pose proof (fold_bind_None (fun op l => sp_step l op) ops) as N. cbv beta in N. congruence.
Qed.

Lemma sp_run_wf ops l : sp_run ops = Some l -> wf l.
Proof. intro R. rewrite <- (sp_run_exec ops [] l R). apply sp_exec_run. Qed.

Lemma spans_total ops : Forall op_ok ops -> exists l, sp_run ops = Some l.
Proof. intro P. destruct (sp_run_correct ops P) as (l & E & _). eauto. Qed.

(* what the queries return in a state that denotes the set S *)
Lemma spans_observed l S : wf l -> (forall z, mem z l = S z) ->
  (forall z, mem z l = S z) /\
  (forall s n, spans_contains s n l = true <-> (0 < n /\ forall z, s <= z -> z < s + n -> S z = true)) /\
  NoDup (spans_each l) /\
  (forall z, In z (spans_each l) <-> S z = true) /\
  spans_len l = N.of_nat (length (spans_each l)).
Proof.
  intros W M. split; [exact M|].
  destruct (spans_len_cardinality _ W) as (A & B & C).
  split; [|split; [exact A|split; [|exact C]]].
  - intros s n. rewrite (spans_contains_correct s n _ W). split; intros [Hn All]; (split; [exact Hn|]);
      intros z Z1 Z2; [rewrite <- M|rewrite M]; apply All; assumption.
  - intro z. rewrite B, M. reflexivity.
Qed.

(* the same for DataSpans in a state that denotes the partial map m; the clauses
   are explained at Props/C37.dataspans_refine_partial_map *)
Lemma dataspans_observed l (m : pmap) : dwf l -> (forall z, dget z l = m z) ->
  (forall s n bs, 0 < n ->
     (ds_get s n l = Some bs <-> (nlen bs = n /\ forall k, k < n -> m (s + k) = nget bs k))) /\
  (forall s n, 0 < n ->
     (ds_get s n l = None <-> exists k, k < n /\ m (s + k) = None)) /\
  (forall s, ds_get s 0 l = if is_some (m s) then Some [] else None) /\
  (forall s n, fst (ds_pop s n l) = ds_get s n l /\
               dataspans_invariant (snd (ds_pop s n l)) /\
               forall z, dget z (snd (ds_pop s n l)) = map_step m (DPop s n) z) /\
  NoDup (ds_offsets l) /\
  (forall z, In z (ds_offsets l) <-> m z <> None) /\
  ds_len l = N.of_nat (length (ds_offsets l)) /\
  (exists sp, ds_get_spans l = Some sp /\ spans_invariant sp /\
              forall z, mem z sp = is_some (m z)).
Proof.
  intros W M. split; [|split; [|split; [|split; [|]]]].
  - intros s n bs Hn. rewrite (ds_get_correct s n l W Hn bs).
    split; intros [L A]; (split; [exact L|]); intros k Hk; [rewrite <- M|rewrite M]; apply A; exact Hk.
  - intros s n Hn. rewrite (ds_get_None_iff s n l W Hn).
    split; intros (k & Hk & D); exists k; (split; [exact Hk|]); [rewrite <- M|rewrite M]; exact D.
  - intro s. rewrite (ds_get_zero_length_from s l 0 W), M. reflexivity.
  - intros s n. destruct (ds_pop_correct s n l W) as (P1 & P2 & P3).
    split; [exact P1|]. split; [apply dwf_spelled_out; exact P2|].
    intro z. rewrite P3. cbn [map_step]. rewrite (all_present_ext _ m s n M), M. reflexivity.
  - destruct (ds_len_cardinality l W) as (A & B & C).
    split; [exact A|]. split; [intro z; rewrite B, M; reflexivity|]. split; [exact C|].
    exists (shape l). split; [apply ds_get_spans_shape; exact W|].
    split; [apply wf_spelled_out; apply (proj1 (shape_wf l 0) W)|].
    intro z. rewrite shape_mem, M. reflexivity.
Qed.

Lemma map_run_snoc ops op z : map_run (ops ++ [op]) z = map_step (map_run ops) op z.
Proof. unfold map_run. rewrite fold_left_app. reflexivity. Qed.
