(* Tripwires: the tables and definitions of uri.py, base32.py, unknown.py and
   the node classes, as regenerated into Gen/Uri.v on every run, are the ones
   Model/Uri.v, Model/UriBase32.v and Model/UriNodes.v were written for.

   regex_pins, dispatch_pins (C15) and flags_pins (C16) compare *renderings of
   the model's own tables* (the field formats its parser interprets, its
   dispatch list, its flag functions) with the generated tables, so they tie
   model and source structurally.  code_pins (C15), unknown_pins, nodemaker_pins,
   dirnode_pins, prohibited_node_pins (C16) and identity_pins (C43) compare
   SHA-256 prefixes (or, for the short identity methods, the normalised source
   text) of the Python definitions the models transcribe by hand -- the
   *_code_pins and *_identity_pins tables of Gen/Uri.v -- with the values
   recorded here. *)
From Coq Require Import String List.
Import ListNotations.
Local Open Scope string_scope.

Definition expected_base32_code_pins : list (string * string) := [
    ("base32.b2a", "9b9169aad369feaa");
    ("base32.a2b", "7ecc446c42e33c96");
    ("base32.could_be_base32_encoded", "33117dc66e0ca32b");
    ("base32.get_trailing_chars_without_lsbs", "55f9443ea6840656");
    ("base32._get_trailing_chars_without_lsbs", "4c8cd108abe4df87");
    ("base32.init_s8", "bd2e5cbe5fe3a163");
    ("base32.add_check_array", "2c6435ae48d4fbe8")].

Definition expected_uri_code_pins : list (string * string) := [
    ("CHKFileURI.init_from_string", "31f1b7ae9fa5f728");
    ("CHKFileURI.to_string", "8edfbbedc347e74e");
    ("CHKFileURI.__init__", "c500b8a51648a248");
    ("CHKFileVerifierURI.init_from_string", "f6ca408a5237efb7");
    ("CHKFileVerifierURI.to_string", "154bca90866df9a2");
    ("CHKFileVerifierURI.__init__", "dbd8738d804b74d0");
    ("LiteralFileURI.init_from_string", "9267e66cade5af49");
    ("LiteralFileURI.to_string", "1fd693e3a49bbdc2");
    ("LiteralFileURI.__init__", "87ab2f68c21ea99e");
    ("WriteableSSKFileURI.init_from_string", "d428404a9af209c9");
    ("WriteableSSKFileURI.to_string", "b991c5689039bc17");
    ("WriteableSSKFileURI.__init__", "c4c9e76cce406ebf");
    ("ReadonlySSKFileURI.init_from_string", "d428404a9af209c9");
    ("ReadonlySSKFileURI.to_string", "ab9ae28034e8b018");
    ("ReadonlySSKFileURI.__init__", "8c4004d822004a21");
    ("SSKVerifierURI.init_from_string", "7aa4f180f2ebb63e");
    ("SSKVerifierURI.to_string", "df6607680a528d15");
    ("SSKVerifierURI.__init__", "66fb046c815a5db6");
    ("WriteableMDMFFileURI.init_from_string", "d428404a9af209c9");
    ("WriteableMDMFFileURI.to_string", "4ba6b5656478b927");
    ("WriteableMDMFFileURI.__init__", "c4c9e76cce406ebf");
    ("ReadonlyMDMFFileURI.init_from_string", "d428404a9af209c9");
    ("ReadonlyMDMFFileURI.to_string", "de3882be33749b44");
    ("ReadonlyMDMFFileURI.__init__", "8c4004d822004a21");
    ("MDMFVerifierURI.init_from_string", "7aa4f180f2ebb63e");
    ("MDMFVerifierURI.to_string", "ad895b4aaec56722");
    ("MDMFVerifierURI.__init__", "66fb046c815a5db6");
    ("DirectoryURI.__init__", "01d89bd4138e3605");
    ("ReadonlyDirectoryURI.__init__", "45eb62f7ba6baabe");
    ("MDMFDirectoryURI.__init__", "01d89bd4138e3605");
    ("ReadonlyMDMFDirectoryURI.__init__", "45eb62f7ba6baabe");
    ("MDMFDirectoryURIVerifier.__init__", "c4bc5cf69a4be88d");
    ("DirectoryURIVerifier.__init__", "c4bc5cf69a4be88d");
    ("_DirectoryBaseURI.init_from_string", "cc63584944d2ac1a");
    ("_DirectoryBaseURI.to_string", "9c2ed6176b37e689");
    ("_DirectoryBaseURI.__init__", "c8a7006ebb41a542");
    ("_ImmutableDirectoryBaseURI.__init__", "65b6e066a5bcb2aa");
    ("UnknownURI", "85689816e126a526");
    ("from_string", "4600e3e124a64d5f");
    ("si_b2a", "2635e7581ba5d27e");
    ("si_a2b", "7f48179861485fa2")].

Definition expected_unknown_code_pins : list (string * string) := [
    ("strip_prefix_for_ro", "f7f694e4b95154a4");
    ("UnknownNode.__init__", "4a44149ee09d1c35");
    ("UnknownNode.get_cap", "224d0a843a3ab1c7");
    ("UnknownNode.get_readcap", "9980ac89ac59fecb");
    ("UnknownNode.get_uri", "3737146295384618");
    ("UnknownNode.get_write_uri", "9ad26bec3b922a57");
    ("UnknownNode.get_readonly_uri", "d51f1d682ff704df")].

Definition expected_cap_identity_pins : list (string * string) := [
    ("_BaseURI.__eq__", "def __eq__(self, them): if isinstance(them, _BaseURI): return self.to_string() == them.to_string() else: return False");
    ("_BaseURI.__ne__", "def __ne__(self, them): if isinstance(them, _BaseURI): return self.to_string() != them.to_string() else: return True");
    ("_BaseURI.__hash__", "def __hash__(self): return self.to_string().__hash__()")].

Definition expected_node_identity_pins : list (string * string) := [
    ("CiphertextFileNode.<bases>", "");
    ("CiphertextFileNode.__eq__", "<absent>");
    ("CiphertextFileNode.__ne__", "<absent>");
    ("CiphertextFileNode.__hash__", "<absent>");
    ("ImmutableFileNode.<bases>", "");
    ("ImmutableFileNode.__eq__", "def __eq__(self, other): if isinstance(other, ImmutableFileNode): return self.u.__eq__(other.u) else: return False");
    ("ImmutableFileNode.__ne__", "def __ne__(self, other): if isinstance(other, ImmutableFileNode): return self.u.__ne__(other.u) else: return True");
    ("ImmutableFileNode.__hash__", "def __hash__(self): return self.u.__hash__()");
    ("_ImmutableFileNodeBase.<bases>", "");
    ("_ImmutableFileNodeBase.__eq__", "def __eq__(self, other): if isinstance(other, _ImmutableFileNodeBase): return self.u == other.u else: return False");
    ("_ImmutableFileNodeBase.__ne__", "def __ne__(self, other): return not self == other");
    ("_ImmutableFileNodeBase.__hash__", "def __hash__(self): return self.u.__hash__()");
    ("LiteralFileNode.<bases>", "_ImmutableFileNodeBase");
    ("LiteralFileNode.__eq__", "<absent>");
    ("LiteralFileNode.__ne__", "<absent>");
    ("LiteralFileNode.__hash__", "<absent>");
    ("MutableFileNode.<bases>", "");
    ("MutableFileNode.__eq__", "def __eq__(self, them): if type(self) != type(them): return False return self._uri == them._uri");
    ("MutableFileNode.__ne__", "def __ne__(self, them): return not self == them");
    ("MutableFileNode.__hash__", "def __hash__(self): return hash((self.__class__, self._uri))");
    ("DirectoryNode.<bases>", "");
    ("DirectoryNode.__eq__", "<absent>");
    ("DirectoryNode.__ne__", "<absent>");
    ("DirectoryNode.__hash__", "<absent>");
    ("UnknownNode.<bases>", "");
    ("UnknownNode.__eq__", "def __eq__(self, other): if not isinstance(other, UnknownNode): return False return other.ro_uri == self.ro_uri and other.rw_uri == self.rw_uri");
    ("UnknownNode.__ne__", "def __ne__(self, other): return not self == other");
    ("UnknownNode.__hash__", "<absent>")].

Definition expected_nodemaker_code_pins : list (string * string) := [
    ("NodeMaker.create_from_cap", "28ee450dc16b55c4");
    ("NodeMaker._create_from_single_cap", "0aa8e73854b2d118")].

Definition expected_dirnode_code_pins : list (string * string) := [
    ("_pack_normalized_children", "7a5ccb3ae7ace4e7");
    ("DirectoryNode._unpack_contents", "54b4792b0a8b789c");
    ("DirectoryNode._create_and_validate_node", "aa733bbd375adbc6");
    ("DirectoryNode._pack_contents", "78bff02dc58a87f3");
    ("DirectoryNode._create_readonly_node", "bbdb4eda463c97f3")].

Definition expected_prohibited_code_pins : list (string * string) := [
    ("ProhibitedNode.get_cap", "04c76914b407db5d");
    ("ProhibitedNode.get_readcap", "8245d23a66e02430");
    ("ProhibitedNode.get_uri", "1b8b0f2cfcd4cc6b");
    ("ProhibitedNode.get_write_uri", "453c20b972209a86");
    ("ProhibitedNode.get_readonly_uri", "b52b5c4277f09932");
    ("ProhibitedNode.is_readonly", "c9388039a1c87621");
    ("ProhibitedNode.is_mutable", "e76d62fa04e3eeba");
    ("ProhibitedNode.is_unknown", "bc1846960a62f110");
    ("ProhibitedNode.is_allowed_in_immutable_directory", "c76493f8d71262b5");
    ("ProhibitedNode.raise_error", "370ed14c06a91819");
    ("ProhibitedNode.get_verify_cap", "e042cabe527c171b");
    ("ProhibitedNode.get_storage_index", "27ed201da2fdbb0d")].

