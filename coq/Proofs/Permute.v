(* Proofs about Model/Permute.v (C32). *)
From Coq Require Import List NArith Bool Lia Permutation Sorted Arith PeanoNat.
From Verif Require Import Lib.Hex Lib.SHA256 Lib.ListFacts Gen.Hashutil Model.GridManager Model.Permute.
Import ListNotations.
Local Open Scope N_scope.

Lemma bytes_leb_cons : forall x a y b,
  bytes_leb (x :: a) (y :: b) = true <-> x < y \/ x = y /\ bytes_leb a b = true.
Proof.
  intros x a y b. cbn. destruct (N.ltb_spec x y), (N.ltb_spec y x); intuition (discriminate || lia).
Qed.

Lemma bytes_leb_total : forall a b, bytes_leb a b = true \/ bytes_leb b a = true.
Proof.
  induction a as [|x a IH]; intros [|y b]; auto.
  rewrite !bytes_leb_cons. destruct (IH b), (N.lt_total x y) as [|[|]]; auto.
Qed.

Lemma bytes_leb_trans : forall a b c, bytes_leb a b = true -> bytes_leb b c = true -> bytes_leb a c = true.
Proof.
  induction a as [|x a IH]; intros [|y b] [|z c]; auto; try discriminate.
  rewrite !bytes_leb_cons. intros [L1|[-> H1]] [L2|[-> H2]]; [left; lia|auto|auto|].
  right. split; [reflexivity|]. exact (IH _ _ H1 H2).
Qed.

Lemma bytes_leb_antisym : forall a b, bytes_leb a b = true -> bytes_leb b a = true -> a = b.
Proof.
  induction a as [|x a IH]; intros [|y b]; auto; try discriminate.
  rewrite !bytes_leb_cons. intros [L1|[-> H1]] [L2|[E H2]]; try lia. f_equal. exact (IH _ H1 H2).
Qed.

Lemma key_leb_total : forall a b, key_leb a b = true \/ key_leb b a = true.
Proof. intros [[|] h] [[|] h']; cbn; auto; apply bytes_leb_total. Qed.

Lemma key_leb_refl : forall k, key_leb k k = true.
Proof. intros k. destruct (key_leb_total k k); assumption. Qed.

Lemma key_leb_trans : forall a b c, key_leb a b = true -> key_leb b c = true -> key_leb a c = true.
Proof.
  intros [[|] h] [[|] h'] [[|] h'']; cbn; auto; try discriminate; apply bytes_leb_trans.
Qed.

Lemma key_leb_antisym : forall a b, key_leb a b = true -> key_leb b a = true -> a = b.
Proof.
  intros [[|] h] [[|] h']; cbn; try discriminate; intros H1 H2; f_equal; apply bytes_leb_antisym; assumption.
Qed.

Lemma filter_perm : forall (A : Type) (p : A -> bool) l l', Permutation l l' -> Permutation (filter p l) (filter p l').
Proof.
  intros A p l l' P. induction P; cbn.
  - reflexivity.
  - destruct (p x); [apply perm_skip|]; assumption.
  - destruct (p x), (p y); try reflexivity; apply perm_swap.
  - etransitivity; eassumption.
Qed.

Lemma existsb_perm : forall (A : Type) (p : A -> bool) l l', Permutation l l' -> existsb p l = existsb p l'.
Proof.
  intros A p l l' P. induction P; cbn; try congruence. destruct (p x), (p y); reflexivity.
Qed.

Lemma StronglySorted_before : forall (T : Type) (R : T -> T -> Prop) l1 s l2,
  StronglySorted R (l1 ++ s :: l2) -> Forall (fun t => R t s) l1.
Proof.
  intros T R. induction l1 as [|t l1 IH]; cbn; intros s l2 S; [constructor|].
  apply StronglySorted_inv in S as [S F]. constructor; [|exact (IH _ _ S)].
  apply Forall_app in F as [_ F]. exact (Forall_inv F).
Qed.

Lemma sorted_perm_unique : forall (T : Type) (R : T -> T -> Prop) l1 l2,
  StronglySorted R l1 -> StronglySorted R l2 -> Permutation l1 l2 ->
  (forall a b, In a l1 -> In b l1 -> R a b -> R b a -> a = b) ->
  l1 = l2.
Proof.
  intros T R. induction l1 as [|a l1 IH]; intros l2 S1 S2 P AS.
  - apply Permutation_nil in P. congruence.
  - destruct l2 as [|b l2]; [apply Permutation_sym, Permutation_nil in P; discriminate|].
    apply StronglySorted_inv in S1 as [S1 F1], S2 as [S2 F2]. rewrite Forall_forall in F1, F2.
    assert (a = b) as <-.
    { (* each heads its own list, and occurs in the other *)
      destruct (Permutation_in b (Permutation_sym P) (or_introl eq_refl)) as [E|Ib]; [exact E|].
      destruct (Permutation_in a P (or_introl eq_refl)) as [E|Ia]; [symmetry; exact E|].
      apply AS; cbn; auto. }
    f_equal. apply IH; try assumption.
    + exact (Permutation_cons_inv P).
    + intros x y Ix Iy. apply AS; cbn; auto.
Qed.

Section SortFacts.
  Variables K A : Type.
  Variable leb : K -> K -> bool.
  Hypothesis leb_total : forall a b, leb a b = true \/ leb b a = true.
  Hypothesis leb_trans : forall a b c, leb a b = true -> leb b c = true -> leb a c = true.

  Definition Rk (x y : K * A) : Prop := leb (fst x) (fst y) = true.

  Lemma insert_by_perm : forall (x : K * A) l, Permutation (x :: l) (insert_by leb x l).
  Proof.
    intros x. induction l as [|y r IH]; cbn; [reflexivity|].
    destruct (leb (fst x) (fst y)); [reflexivity|].
    rewrite perm_swap. apply perm_skip. exact IH.
  Qed.

  Lemma sort_by_perm : forall (l : list (K * A)), Permutation l (sort_by leb l).
  Proof.
    induction l as [|x l IH]; cbn; [reflexivity|].
    rewrite <- insert_by_perm. apply perm_skip. exact IH.
  Qed.

  Lemma insert_by_sorted : forall (x : K * A) l, StronglySorted Rk l -> StronglySorted Rk (insert_by leb x l).
  Proof.
    intros x l. induction 1 as [|y r S IH Fy]; cbn; [repeat constructor|].
    destruct (leb (fst x) (fst y)) eqn:E; constructor.
    - constructor; assumption.
    - constructor; [exact E|]. apply (Forall_impl _ (fun z => leb_trans _ _ _ E) Fy).
    - exact IH.
    - rewrite <- insert_by_perm. constructor; [|exact Fy].
      destruct (leb_total (fst x) (fst y)); [congruence|assumption].
  Qed.

  Lemma sort_by_sorted : forall (l : list (K * A)), StronglySorted Rk (sort_by leb l).
  Proof.
    induction l as [|x l IH]; cbn; [constructor|]. apply insert_by_sorted. exact IH.
  Qed.

  Lemma strongly_sorted_before : forall (R : K * A -> K * A -> Prop) l1 s l2,
    StronglySorted R (l1 ++ s :: l2) -> Forall (fun t => R t s) l1.
  Proof. apply StronglySorted_before. Qed.
End SortFacts.

Section ByKey.
  Variables K A : Type.
  Variable leb : K -> K -> bool.
  Variable f : A -> K.
  Hypothesis leb_total : forall a b, leb a b = true \/ leb b a = true.
  Hypothesis leb_trans : forall a b c, leb a b = true -> leb b c = true -> leb a c = true.
  Hypothesis leb_antisym : forall a b, leb a b = true -> leb b a = true -> a = b.

  Notation dec l := (map (fun a => (f a, a)) l).

  Lemma sorted_by_key_perm : forall l, Permutation l (sorted_by_key leb f l).
  Proof.
    intros l. unfold sorted_by_key. rewrite <- sort_by_perm, map_map, map_id. reflexivity.
  Qed.

  (* sorted for every relation that the comparison of keys implies *)
  Lemma sorted_by_key_sorted : forall (R : A -> A -> Prop),
    (forall a b, leb (f a) (f b) = true -> R a b) ->
    forall l, StronglySorted R (sorted_by_key leb f l).
  Proof.
    intros R HR l. unfold sorted_by_key.
    assert (D : Forall (fun p => fst p = f (snd p)) (sort_by leb (dec l))).
    { rewrite <- sort_by_perm. apply Forall_forall. intros p I. apply in_map_iff in I as (a & <- & _). reflexivity. }
    induction (sort_by_sorted K A leb leb_total leb_trans (dec l)) as [|p d _ IH F]; cbn; [constructor|].
    apply Forall_cons_iff in D as [Ep D]. constructor; [exact (IH D)|].
    apply Forall_map. rewrite Forall_forall in *. intros q Iq. apply HR.
    rewrite <- Ep, <- (D q Iq). exact (F q Iq).
  Qed.

  Lemma sorted_by_key_unique : forall l1 l2,
    Permutation l1 l2 -> NoDup (map f l1) ->
    sorted_by_key leb f l1 = sorted_by_key leb f l2.
  Proof.
    intros l1 l2 P ND.
    apply (sorted_perm_unique _ (fun a b => leb (f a) (f b) = true)); try (apply sorted_by_key_sorted; auto).
    - rewrite <- !sorted_by_key_perm. exact P.
    - intros a b Ia Ib Rab Rba. rewrite <- sorted_by_key_perm in Ia, Ib.
      exact (NoDup_map_In_inj f l1 a b ND Ia Ib (leb_antisym _ _ Rab Rba)).
  Qed.
End ByKey.

Lemma outcome_eqb_eq : forall a b, outcome_eqb a b = true <-> a = b.
Proof. intros [] []; cbn; split; congruence. Qed.

Section Props.
  Variable server : Type.
  Variable seed : server -> list N.
  Variable preferred : server -> bool.
  Variable permitted : server -> outcome.

  Notation key := (permuted seed preferred).
  Notation gsp := (get_servers_for_psi seed preferred permitted).

  (* s is placed no later than t *)
  Definition before_ok (psi : list N) (s t : server) : Prop :=
    (preferred s = true /\ preferred t = false) \/
    (preferred s = preferred t /\
     bytes_leb (permute_server_hash psi (seed s)) (permute_server_hash psi (seed t)) = true).

  Lemma key_leb_before : forall psi s t, key_leb (key psi s) (key psi t) = true -> before_ok psi s t.
  Proof.
    intros psi s t. unfold before_ok, permuted, key_leb. cbn [fst snd].
    destruct (preferred s), (preferred t); cbn; auto; discriminate.
  Qed.

  Definition candidates_of (connected : list server) (for_upload : bool) : list server :=
    if for_upload then filter (fun s => is_permit (permitted s)) connected else connected.

  Lemma gsp_eq : forall connected psi for_upload,
    gsp connected psi for_upload =
    if for_upload && existsb (fun s => is_raise (permitted s)) connected then None
    else Some (sorted_by_key key_leb (key psi) (candidates_of connected for_upload)).
  Proof.
    intros connected psi [|]; unfold get_servers_for_psi, upload_filter; cbn [andb candidates_of]; [|reflexivity].
    destruct (existsb _ connected); reflexivity.
  Qed.

  Lemma gsp_none : forall connected psi for_upload,
    gsp connected psi for_upload = None <->
    (for_upload = true /\ exists s, In s connected /\ permitted s = Raise).
  Proof.
    intros connected psi fu. rewrite gsp_eq.
    assert (X : existsb (fun s => is_raise (permitted s)) connected = true <->
                exists s, In s connected /\ permitted s = Raise).
    { rewrite existsb_exists. split; intros (s & I & H); exists s; split; auto; apply outcome_eqb_eq; exact H. }
    rewrite <- X. destruct fu, (existsb _ connected); cbn; intuition discriminate.
  Qed.

  Lemma order_is_sorted_permutation_ok : forall connected psi for_upload l,
    gsp connected psi for_upload = Some l ->
    Permutation (candidates_of connected for_upload) l /\
    StronglySorted (before_ok psi) l.
  Proof.
    intros connected psi fu l H. rewrite gsp_eq in H.
    destruct (fu && _); [discriminate|]. injection H as <-. split.
    - apply sorted_by_key_perm.
    - apply (sorted_by_key_sorted _ _ _ _ key_leb_total key_leb_trans), key_leb_before.
  Qed.

  Lemma order_input_independent_ok : forall c1 c2 psi for_upload,
    Permutation c1 c2 ->
    NoDup (map (key psi) c1) ->
    gsp c1 psi for_upload = gsp c2 psi for_upload.
  Proof.
    intros c1 c2 psi fu P ND. rewrite !gsp_eq, (existsb_perm _ _ c1 c2 P).
    destruct (fu && _); [reflexivity|]. f_equal.
    apply (sorted_by_key_unique _ _ _ _ key_leb_total key_leb_trans key_leb_antisym); destruct fu; cbn [candidates_of].
    - apply filter_perm. exact P.
    - exact P.
    - apply NoDup_map_filter. exact ND.
    - exact ND.
  Qed.

  Lemma preferred_first_ok : forall connected psi for_upload l l1 s l2,
    gsp connected psi for_upload = Some l ->
    l = l1 ++ s :: l2 ->
    Forall (fun t => before_ok psi t s) l1 /\
    (preferred s = true -> Forall (fun t => preferred t = true) l1).
  Proof.
    intros connected psi fu l l1 s l2 H ->.
    apply order_is_sorted_permutation_ok, proj2, StronglySorted_before in H.
    split; [exact H|]. intros Ps. apply (Forall_impl _ (P := fun t => before_ok psi t s)); [|exact H].
    intros t [[Pt _]|[Pt _]]; congruence.
  Qed.

  (* the upload list is exactly the connected servers whose upload_permitted() returned True *)
  Lemma upload_list_in : forall connected psi l s,
    gsp connected psi true = Some l ->
    (In s l <-> In s connected /\ permitted s = Permit).
  Proof.
    intros connected psi l s H. apply order_is_sorted_permutation_ok in H as [P _].
    rewrite <- P. cbn [candidates_of]. rewrite filter_In. unfold is_permit. rewrite outcome_eqb_eq. reflexivity.
  Qed.

  Lemma upload_candidates_permitted_ok : forall connected si total l s,
    upload_candidates seed preferred permitted connected si total = CServers l -> In s l ->
    In s connected /\ permitted s = Permit.
  Proof.
    intros connected si total l s H I. unfold upload_candidates in H.
    destruct (gsp connected si true) as [[|a r]|] eqn:G; try discriminate.
    injection H as <-. apply (upload_list_in _ _ _ _ G).
    rewrite <- (firstn_skipn (2 * total) (a :: r)). apply in_or_app. left. exact I.
  Qed.

  Lemma upload_candidates_complete_ok : forall connected si total,
    (forall s, In s connected -> permitted s <> Raise) ->
    (upload_candidates seed preferred permitted connected si total = CNoServers <->
     forall s, In s connected -> permitted s <> Permit).
  Proof.
    intros connected si total NR. unfold upload_candidates.
    destruct (gsp connected si true) as [[|a r]|] eqn:G.
    - split; [intros _ s I E|reflexivity]. exact (proj2 (upload_list_in _ _ _ s G) (conj I E)).
    - split; [discriminate|]. intros H.
      destruct (proj1 (upload_list_in _ _ _ a G) (or_introl eq_refl)) as [I E]. destruct (H a I E).
    - apply gsp_none in G as [_ (s & I & E)]. destruct (NR s I E).
  Qed.

  Variable server_eqb : server -> server -> bool.
  Variable bad : server -> bool.
  Notation ug := (update_goal permitted server_eqb bad).
  Notation entries := (goal_entries permitted server_eqb bad).

  (* the enumerate loop lists, in order, the servers that are not bad and permit uploads *)
  Lemma goal_entries_servers : forall g l i e,
    entries g i l = Some e ->
    map snd e = filter (fun s => negb (bad s) && is_permit (permitted s)) l.
  Proof.
    intros g. induction l as [|x l IH]; intros i e H; cbn [goal_entries filter] in *.
    - injection H as <-. reflexivity.
    - destruct (bad x); [exact (IH _ _ H)|]. destruct (permitted x); [|exact (IH _ _ H)|discriminate].
      destruct (entries g (i + 1) l) as [e'|] eqn:T; [|discriminate]. injection H as <-.
      cbn. f_equal. exact (IH _ _ T).
  Qed.

  Lemma place_in : forall (sl : list server) homeless i s sh, In (s, sh) (place sl i homeless) -> In s sl /\ In sh homeless.
  Proof.
    intros sl. induction homeless as [|h r IH]; intros i s sh I; cbn [place] in I; [destruct I|].
    destruct (nth_error sl i) as [x|] eqn:E; [|destruct I].
    destruct I as [[= <- <-]|I].
    - split; [exact (nth_error_In _ _ E)|left; reflexivity].
    - destruct (IH _ _ _ I) as [Is Ih]. split; [exact Is|right; exact Ih].
  Qed.

  Lemma place_covers : forall (sl : list server) homeless i sh, (i < length sl)%nat -> In sh homeless ->
    exists s, In (s, sh) (place sl i homeless).
  Proof.
    intros sl. induction homeless as [|h r IH]; intros i sh L I; [destruct I|].
    cbn [place]. destruct (nth_error sl i) as [x|] eqn:E; [|apply nth_error_None in E; lia].
    destruct I as [->|I]; [exists x; left; reflexivity|].
    destruct (IH (if Nat.leb (length sl) (S i) then O else S i) sh) as [s Hs]; [|exact I|exists s; right; exact Hs].
    destruct (Nat.leb_spec (length sl) (S i)); lia.
  Qed.

  Lemma range_N_in : forall count start x, In x (range_N start count) <-> start <= x < start + N.of_nat count.
  Proof.
    induction count as [|c IH]; intros start x; cbn [range_N In]; [|rewrite IH]; lia.
  Qed.

  (* the two lists update_goal starts from: the assignments it keeps, the shares left without one *)
  Definition kept (g : goal server) : goal server := filter (fun p => negb (bad (fst p))) g.
  Definition homeless (g : goal server) (total : nat) : list N :=
    filter (fun sh => negb (existsb (fun p => snd p =? sh) (kept g))) (range_N 0 total).

  Lemma kept_in : forall g s sh, In (s, sh) (kept g) <-> In (s, sh) g /\ bad s = false.
  Proof. intros g s sh. unfold kept. rewrite filter_In, negb_true_iff. reflexivity. Qed.

  Lemma homeless_not_kept : forall g total sh t, In sh (homeless g total) -> ~ In (t, sh) (kept g).
  Proof.
    intros g total sh t I K. apply filter_In in I as [_ X]. apply negb_true_iff, not_true_iff_false in X.
    apply X, existsb_exists. exists (t, sh). split; [exact K|apply N.eqb_refl].
  Qed.

  Lemma kept_or_homeless : forall g total sh, sh < N.of_nat total ->
    (exists t, In (t, sh) (kept g)) \/ In sh (homeless g total).
  Proof.
    intros g total sh L. destruct (existsb (fun p => snd p =? sh) (kept g)) eqn:X.
    - left. apply existsb_exists in X as ([t sh'] & I & Q). apply N.eqb_eq in Q as <-. exists t. exact I.
    - right. apply filter_In. rewrite X. split; [apply range_N_in; lia|reflexivity].
  Qed.

  (* a goal keeps the old assignments and deals the homeless shares to permitted servers *)
  Lemma update_goal_inv : forall full g total g',
    ug full g total = GGoal g' ->
    exists sl, g' = kept g ++ place sl O (homeless g total) /\
      (homeless g total = [] \/
       sl <> [] /\ forall s, In s sl -> In s full /\ bad s = false /\ permitted s = Permit).
  Proof.
    intros full g total g' H. unfold update_goal in H. fold (kept g) in H. fold (homeless g total) in H.
    destruct (homeless g total) as [|h0 hr].
    - injection H as <-. exists []. rewrite app_nil_r. auto.
    - destruct (entries (kept g) 0 full) as [e|] eqn:E; [|discriminate].
      destruct (map snd (sort_by entry_leb e)) as [|s0 sl] eqn:SL; [discriminate|]. injection H as <-.
      exists (s0 :: sl). split; [reflexivity|]. right. split; [discriminate|].
      intros s Is. rewrite <- SL, <- sort_by_perm, (goal_entries_servers _ _ _ _ E) in Is.
      unfold is_permit in Is. rewrite filter_In, andb_true_iff, negb_true_iff, outcome_eqb_eq in Is. exact Is.
  Qed.

  Lemma update_goal_only_permitted_ok : forall full g total g',
    ug full g total = GGoal g' ->
    forall s sh, In (s, sh) g' ->
      (In (s, sh) g /\ bad s = false) \/
      (In s full /\ bad s = false /\ permitted s = Permit /\ ~ (exists t, In (t, sh) g /\ bad t = false)).
  Proof.
    intros full g total g' H s sh I. apply update_goal_inv in H as (sl & -> & Hs).
    apply in_app_or in I as [I|I]; [left; apply kept_in; exact I|right].
    apply place_in in I as [Is Ih]. destruct Hs as [E|[_ Hs]]; [rewrite E in Ih; destruct Ih|].
    destruct (Hs s Is) as (A & B & C). repeat split; try assumption.
    intros (t & K). apply kept_in in K. exact (homeless_not_kept _ _ _ _ Ih K).
  Qed.

  Lemma update_goal_places_every_share_ok : forall full g total g',
    ug full g total = GGoal g' ->
    forall sh, sh < N.of_nat total -> exists s, In (s, sh) g'.
  Proof.
    intros full g total g' H sh L. apply update_goal_inv in H as (sl & -> & Hs).
    destruct (kept_or_homeless g total sh L) as [[t K]|Ih].
    - exists t. apply in_or_app. left. exact K.
    - destruct Hs as [E|[NE _]]; [rewrite E in Ih; destruct Ih|].
      destruct (place_covers sl (homeless g total) O sh) as [s Hs]; [destruct sl; [congruence|cbn; lia]|exact Ih|].
      exists s. apply in_or_app. right. exact Hs.
  Qed.
End Props.
