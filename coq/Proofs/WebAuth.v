(* C41: the authority argument.  Generic lemmas over scripts, traversal and rendering; the regenerated table
   enters only through Proofs/WebAuthTable.v (all_entries_safe, traversal_mkdir_safe, move_guards_destination,
   write_uri_shapes_ok). *)
From Coq Require Import List NArith Bool String Lia.
From Verif Require Import Gen.WebOps Model.WebAuth Proofs.WebAuthTable.
Import ListNotations.
Local Open Scope string_scope.

(* read-only, and (UnknownNode) without a stored rw_uri *)
Definition no_write (n : node) : Prop := is_readonly n = true /\ n_urw n = None.

Lemma make_node_no_write : forall g c, c_auth c <> AW -> no_write (make_node g None c).
Proof.
  intros g c H. unfold no_write, make_node, is_readonly.
  destruct (c_auth c) eqn:A; [congruence| | |]; try (split; reflexivity).
  destruct (gget g (c_obj c)) as [[m k|m d]|]; cbn [n_cap n_mutable n_urw]; rewrite A;
    split; reflexivity || apply orb_true_r.
Qed.

Lemma root_node_no_write : forall g c, c_auth c <> AW -> no_write (root_node g c).
Proof.
  intros g c H. unfold root_node.
  destruct (c_auth c) eqn:A; try (split; reflexivity); apply make_node_no_write; congruence.
Qed.

Lemma gget_in : forall g i o, gget g i = Some o -> In (i, o) g.
Proof.
  induction g as [|[j o'] r IH]; intros i o H; cbn in H; [discriminate|].
  destruct (N.eqb i j) eqn:E.
  - apply N.eqb_eq in E. inversion H; subst. left. reflexivity.
  - right. apply IH. exact H.
Qed.

Lemma kget_in : forall k x e, kget k x = Some e -> In (x, e) k.
Proof.
  induction k as [|[y e'] r IH]; intros x e H; cbn in H; [discriminate|].
  destruct (N.eqb x y) eqn:E.
  - apply N.eqb_eq in E. inversion H; subst. left. reflexivity.
  - right. apply IH. exact H.
Qed.

Lemma dir_kids_wf : forall g n kids x e,
    grid_wfb g = true -> dir_kids g n = Some kids -> In (x, e) kids -> c_auth (e_ro e) <> AW.
Proof.
  intros g n kids x e W D K. unfold dir_kids in D.
  destruct (n_kind n); try discriminate.
  destruct (gget g (c_obj (n_cap n))) as [[m k|m d]|] eqn:G; try discriminate. inversion D; subst k.
  apply gget_in in G. unfold grid_wfb in W. rewrite forallb_forall in W. specialize (W _ G). cbn in W.
  rewrite forallb_forall in W. specialize (W _ K). cbn in W.
  unfold edge_wfb in W. destruct (c_auth (e_ro e)); cbn in W; congruence.
Qed.

Lemma child_node_no_write : forall g p kids x e,
    grid_wfb g = true -> is_readonly p = true -> dir_kids g p = Some kids -> In (x, e) kids ->
    no_write (child_node g p e).
Proof.
  intros g p kids x e W R D K. unfold child_node. rewrite R.
  apply make_node_no_write. exact (dir_kids_wf g p kids x e W D K).
Qed.

Lemma get_child_no_write : forall g p x c,
    grid_wfb g = true -> is_readonly p = true -> get_child g p x = Some c -> no_write c.
Proof.
  intros g p x c W R H. unfold get_child in H.
  destruct (dir_kids g p) as [kids|] eqn:D; try discriminate.
  destruct (kget kids x) as [e|] eqn:K; try discriminate. inversion H; subst c.
  apply kget_in in K. exact (child_node_no_write g p kids x e W R D K).
Qed.

Lemma walk_preserves : forall g (P : node -> Prop),
    (forall n x c, P n -> get_child g n x = Some c -> P c) ->
    forall path n n', P n -> walk g n path = Some n' -> P n'.
Proof.
  intros g P step. induction path as [|x rest IH]; intros n n' Pn H; cbn in H.
  - inversion H; subst. exact Pn.
  - destruct (get_child g n x) as [c|] eqn:C; try discriminate.
    exact (IH c n' (step n x c Pn C) H).
Qed.

Lemma walk_readonly : forall g path n n',
    grid_wfb g = true -> is_readonly n = true -> walk g n path = Some n' -> is_readonly n' = true.
Proof.
  intros g path n n' W. apply (walk_preserves g (fun n => is_readonly n = true)).
  intros p x c R C. exact (proj1 (get_child_no_write g p x c W R C)).
Qed.

Lemma walk_no_write : forall g path n n', grid_wfb g = true -> no_write n -> walk g n path = Some n' -> no_write n'.
Proof.
  intros g path n n' W. apply (walk_preserves g no_write).
  intros p x c [R _] C. exact (get_child_no_write g p x c W R C).
Qed.

(* node layer: a read-only target refuses when the regenerated flags say so *)
Lemma mfn_refusal_ro : forall m n, is_readonly n = true -> ro_version_refuses m = true -> mfn_refusal m n <> None.
Proof.
  intros m n R F. unfold mfn_refusal. destruct (n_mutable n); cbn [negb]; [|discriminate].
  rewrite R. unfold ro_version_refuses in F. rewrite F. discriminate.
Qed.

Lemma mfv_update_refusal_ro : forall n,
    is_readonly n = true -> flag "update" mfv_asserts = true -> mfv_update_refusal n <> None.
Proof.
  intros n R F. unfold mfv_update_refusal. destruct (n_mutable n); cbn [negb]; [|discriminate].
  rewrite R, F. discriminate.
Qed.

Lemma dn_refusal_ro : forall dn d, is_readonly d = true -> dn_safe dn = true -> dn_refusal dn d <> None.
Proof.
  intros dn d R S. unfold dn_refusal. rewrite R, andb_true_r. unfold dn_safe in S.
  destruct (dn_guards_self dn); [discriminate|]. exact (mfn_refusal_ro "modify" d R S).
Qed.

Lemma dn_call_refusal_ro : forall dn d, is_readonly d = true -> dn_safe_call dn = true -> dn_call_refusal dn d <> None.
Proof.
  intros dn d R S. unfold dn_call_refusal. unfold dn_safe_call in S.
  destruct (String.eqb dn "set_uri" || String.eqb dn "add_file"); [|exact (dn_refusal_ro dn d R S)].
  unfold dn_refusal_via_set_node. rewrite R, andb_true_r.
  destruct (dn_guards_self dn); [discriminate|]. exact (dn_refusal_ro "set_node" d R S).
Qed.

Lemma dn_move_refusal_ro : forall n dest,
    is_readonly n = true -> dn_guards_self "move_child_to" = true -> dn_move_refusal n dest <> None.
Proof. intros n dest R S. unfold dn_move_refusal. rewrite R, S. discriminate. Qed.

(* the web-level guard did not fire on a read-only self.node: the call is not marked as guarded *)
Lemma web_guard_ro : forall c n parent ec,
    web_guard_fires c (mk_env (Some n) parent ec) = false -> is_readonly n = true -> flag c ec = false.
Proof. intros c n parent ec WG R. unfold web_guard_fires in WG. cbn [ev_entry ev_self] in WG. rewrite R, andb_true_r in WG. exact WG. Qed.

Definition ro_opt (o : option node) : Prop := match o with Some n => is_readonly n = true | None => True end.
Definition ro_par (o : option (node * N)) : Prop := match o with Some (p, _) => is_readonly p = true | None => True end.

Lemma refused : forall {A} (o : option refusal) (go_on : refusal + A),
    o <> None -> exists r, match o with Some e => inl e | None => go_on end = inl r.
Proof. intros A [e|] go_on H; [exists e; reflexivity|congruence]. Qed.

Lemma do_call_readonly : forall kd c ec t rq self parent g,
    call_sem c = Some kd -> is_mutating kd = true -> call_safe ec c = true ->
    web_guard_fires c (mk_env self parent ec) = false ->
    ro_opt self -> ro_par parent ->
    exists r, do_call kd t rq (mk_env self parent ec) g = inl r.
Proof.
  intros kd c ec t rq self parent g CS M S WG RS RP.
  unfold call_safe in S. rewrite CS in S.
  destruct kd as [tg dn| | | | | |]; try discriminate M; cbn [do_call ev_self ev_parent].
  - (* KMutDir: the guard of the DirectoryNode mutator, on self.node or on self.parentnode *)
    destruct tg; [destruct self as [n|] | destruct parent as [[p x]|]]; try (eexists; reflexivity);
      apply refused, dn_call_refusal_ro; assumption.
  - destruct self as [n|]; [|eexists; reflexivity].
    destruct (n_kind _); try (eexists; reflexivity).
    apply refused, dn_move_refusal_ro; assumption.
  - destruct self as [n|]; [|eexists; reflexivity].
    rewrite (web_guard_ro _ _ _ _ WG RS) in S.
    apply refused, mfn_refusal_ro; assumption.
  - destruct self as [n|]; [|eexists; reflexivity].
    rewrite (web_guard_ro _ _ _ _ WG RS) in S.
    apply refused, mfv_update_refusal_ro; assumption.
Qed.

(* the grid is as it was and no mutating call was carried out *)
Definition untouched (g : grid) (r : outcome * grid) : Prop := snd r = g /\ fst r <> Performed.

Lemma untouched_refused : forall g r, untouched g (Refused r, g).
Proof. intros g r. split; [reflexivity|discriminate]. Qed.

Lemma run_readonly : forall s ec t rq self parent g acc,
    script_safe ec s = true -> ro_opt self -> ro_par parent -> acc <> Performed ->
    untouched g (run s t rq (mk_env self parent ec) g acc).
Proof.
  induction s as [c k IH|c a IHa b IHb|r|]; intros ec t rq self parent g acc S RS RP NP; cbn [run].
  - cbn [script_safe] in S. apply andb_prop in S. destruct S as [S1 S2].
    destruct (web_guard_fires c (mk_env self parent ec)) eqn:WG; [apply untouched_refused|].
    destruct (call_sem c) as [kd|] eqn:CS; [|apply untouched_refused].
    destruct (is_mutating kd) eqn:M; [|apply IH; assumption].
    destruct (do_call_readonly kd c ec t rq self parent g CS M S1 WG RS RP) as [r E]. rewrite E.
    apply untouched_refused.
  - cbn [script_safe] in S. apply andb_prop in S. destruct S as [S1 S2].
    destruct (cond_holds rq (mk_env self parent ec) c); [apply IHa|apply IHb]; assumption.
  - apply untouched_refused.
  - split; [reflexivity|exact NP].
Qed.

Definition handler_ro (h : handler) : Prop :=
  match h with
  | HNode n par => is_readonly n = true /\ ro_par par
  | HPlaceholder p _ => is_readonly p = true
  | HRefused _ => True
  end.

Lemma traverse_mkdir_readonly : forall rq g d x term,
    is_readonly d = true -> exists r, traverse_mkdir rq g d x term = inl r.
Proof.
  intros rq g d x term R. unfold traverse_mkdir.
  apply refused, dn_refusal_ro; [exact R|exact traversal_mkdir_safe].
Qed.

Lemma resolve_readonly : forall path rq g cur parent acc,
    grid_wfb g = true -> is_readonly cur = true -> ro_par parent ->
    match resolve rq g cur parent path acc with
    | (h, rq', g', acc') => handler_ro h /\ rq' = rq /\ g' = g /\ acc' = acc
    end.
Proof.
  induction path as [|x rest IH]; intros rq g cur parent acc W R RP; cbn [resolve].
  - repeat split; assumption.
  - destruct (n_kind cur); try (repeat split; exact I).
    destruct (get_child g cur x) as [c|] eqn:C.
    + destruct (_ && _ && _); [repeat split; exact I|].
      apply IH; [exact W| |exact R]. exact (proj1 (get_child_no_write g cur x c W R C)).
    + (* no such child: a refusal, a placeholder under cur, or a mkdir in cur, which is refused *)
      destruct (traverse_mkdir_readonly rq g cur x false R) as [r1 E1]. rewrite E1.
      destruct (traverse_mkdir_readonly rq g cur x true R) as [r2 E2]. rewrite E2.
      destruct (match rest with [] => false | _ => true end).
      * destruct (should_create_intermediate rq); repeat split; trivial.
      * destruct (pair_in _ _ getchild_terminal_requests); [|destruct (pair_in _ _ getchild_leaf_requests)];
          repeat split; trivial.
Qed.

Lemma find_op_safe : forall cls m t e,
    find_op cls m t = Some e -> exists s, op_script cls m (wo_t e) = Some s /\ script_safe (wo_calls e) s = true.
Proof.
  intros cls m t e F. unfold find_op in F. apply find_some in F. destruct F as [IN F].
  apply andb_prop in F. destruct F as [F _]. apply andb_prop in F. destruct F as [F1 F2].
  apply String.eqb_eq in F1, F2. subst cls m.
  pose proof (all_entries_safe e IN) as S. unfold entry_safe in S.
  destruct (op_script _ _ _) as [s|]; [exists s; split; [reflexivity|exact S]|discriminate].
Qed.

Lemma render_readonly : forall fuel cls rq self parent g acc,
    grid_wfb g = true -> ro_opt self -> ro_par parent -> acc <> Performed ->
    untouched g (render fuel cls rq self parent g acc).
Proof.
  induction fuel as [|fuel IH]; intros cls rq self parent g acc W RS RP NP; cbn [render].
  all: destruct (negb _); [apply untouched_refused|].
  all: destruct (find_op _ _ _) as [e|] eqn:F; [|destruct (default_refused _ _); apply untouched_refused].
  all: destruct (find_op_safe _ _ _ _ F) as [s [-> S]].
  all: destruct (_ && _ && _); [|apply run_readonly; assumption].
  (* POST t=upload on a directory: the child of the same name, or a placeholder under self *)
  all: destruct self as [d|]; [|apply untouched_refused].
  all: destruct (rq_name rq) as [x|]; [|apply untouched_refused].
  - apply untouched_refused.
  - destruct (get_child g d x) as [c|] eqn:C; apply IH; try assumption; [|exact I].
    exact (proj1 (get_child_no_write g d x c W RS C)).
Qed.

Lemma modifying_request : forall g rq,
    grid_wfb g = true -> c_auth (rq_root rq) <> AW -> untouched g (serve g rq).
Proof.
  intros g rq W A. unfold serve.
  pose proof (resolve_readonly (rq_path rq) rq g (root_node g (rq_root rq)) None Unmodified W
                (proj1 (root_node_no_write g _ A)) I) as R.
  destruct (resolve rq g (root_node g (rq_root rq)) None (rq_path rq) Unmodified) as [[[h rq'] g'] acc'].
  destruct R as [HR [-> [-> ->]]].
  destruct h as [n par|p x|r]; cbn in HR.
  - destruct HR as [RN RPAR]. apply render_readonly; [exact W|exact RN|exact RPAR|discriminate].
  - apply render_readonly; [exact W|exact I|exact HR|discriminate].
  - apply untouched_refused.
Qed.

(* an outcome other than Performed is a refusal or a success that carried out no mutating call:
   `Unmodified` is only produced by a path of the script without mutating calls *)
Fixpoint trace (s : script) (rq : request) (ev : env) : list string :=
  match s with
  | Call c k => c :: trace k rq ev
  | If c a b => if cond_holds rq ev c then trace a rq ev else trace b rq ev
  | _ => []
  end.

Lemma run_not_unmodified : forall s t rq ev g acc, acc <> Unmodified -> fst (run s t rq ev g acc) <> Unmodified.
Proof.
  induction s as [c k IH|c a IHa b IHb|r|]; intros t rq ev g acc NU; cbn [run].
  - destruct (web_guard_fires c ev); [discriminate|].
    destruct (call_sem c) as [kd|]; [|discriminate].
    destruct (is_mutating kd); [|apply IH; exact NU].
    destruct (do_call kd t rq ev g); [discriminate|]. apply IH. destruct acc; discriminate.
  - destruct (cond_holds rq ev c); [apply IHa|apply IHb]; exact NU.
  - discriminate.
  - exact NU.
Qed.

Lemma unmodified_no_mutating_call : forall s t rq ev g g',
    run s t rq ev g Unmodified = (Unmodified, g') ->
    g' = g /\ forall c kd, In c (trace s rq ev) -> call_sem c = Some kd -> is_mutating kd = false.
Proof.
  induction s as [c k IH|c a IHa b IHb|r|]; intros t rq ev g g' H; cbn [run] in H; cbn [trace].
  - destruct (web_guard_fires c ev); [discriminate|].
    destruct (call_sem c) as [kd|] eqn:CS; [|discriminate].
    destruct (is_mutating kd) eqn:M.
    + destruct (do_call kd t rq ev g) as [e|g1]; [discriminate|]. exfalso.
      apply (run_not_unmodified k t rq ev g1 (upgrade Unmodified)); [discriminate|]. rewrite H. reflexivity.
    + apply IH in H. destruct H as [E T]. split; [exact E|].
      intros c' kd' [->|IN] CS'; [congruence|]. exact (T c' kd' IN CS').
  - destruct (cond_holds rq ev c); [eapply IHa|eapply IHb]; exact H.
  - discriminate.
  - inversion H; subst. split; [reflexivity|]. intros c kd [].
Qed.

(* relink / rename into a destination directory that is not writeable: move_child_to refuses on its own
   new_parent check -- the grid is never touched *)
Lemma relink_destination_refused : forall t rq n par ec g c,
    rq_to_dir rq = Some c -> c_auth c <> AW ->
    exists r, do_call KMove t rq (mk_env (Some n) par ec) g = inl r.
Proof.
  intros t rq n par ec g c TD A. cbn [do_call ev_self]. rewrite TD.
  destruct (n_kind (root_node g c)); try (eexists; reflexivity).
  unfold dn_move_refusal. rewrite move_guards_destination, (proj1 (root_node_no_write g c A)).
  destruct (_ && _); eexists; reflexivity.
Qed.

(* a t=json description without rw_uri and with a read cap that is not a write cap *)
Definition ro_desc (d : desc) : Prop := d_rw d = None /\ c_auth (d_ro d) <> AW.

Lemma write_uri_no_write : forall n, no_write n -> get_write_uri n = None.
Proof.
  intros n [R U].
  assert (E : assoc (node_class n) write_uri_sources = Some "unless_readonly"
              \/ assoc (node_class n) write_uri_sources = Some "never"
              \/ assoc (node_class n) write_uri_sources = Some "stored:rw_uri").
  { destruct write_uri_shapes_ok as [S1 [S2 [S3 [_ S5]]]]. unfold node_class.
    destruct (n_kind n); [left; exact S1| |right; right; exact S5].
    destruct (n_mutable n); [left; exact S2|right; left; exact S3]. }
  (* whichever of the three shapes the class has, this node gives None *)
  unfold get_write_uri. destruct E as [->|[->| ->]]; cbv beta iota; [rewrite R; reflexivity|reflexivity|exact U].
Qed.

Lemma ro_form_not_aw : forall c, c_auth (ro_form c) <> AW.
Proof. intros c. unfold ro_form. destruct (c_auth c) eqn:A; cbn; congruence. Qed.

Lemma describe_no_write : forall n, no_write n -> ro_desc (describe n).
Proof. intros n NW. split; [exact (write_uri_no_write n NW)|apply ro_form_not_aw]. Qed.

Lemma readonly_listing : forall g n self kids,
    grid_wfb g = true -> no_write n -> dir_json g n = Some (self, kids) ->
    ro_desc self /\ forall x d, In (x, d) kids -> ro_desc d.
Proof.
  intros g n self kids W NW H. unfold dir_json in H.
  destruct (dir_kids g n) as [ks|] eqn:D; try discriminate. inversion H; subst self kids. clear H.
  split; [exact (describe_no_write n NW)|].
  intros x d IN. apply in_map_iff in IN. destruct IN as [[y e] [E IN]]. inversion E; subst x d.
  apply describe_no_write. exact (child_node_no_write g n ks y e W (proj1 NW) D IN).
Qed.

Lemma readonly_listing_path : forall g c path n self kids,
    grid_wfb g = true -> c_auth c <> AW ->
    walk g (root_node g c) path = Some n -> dir_json g n = Some (self, kids) ->
    ro_desc self /\ forall x d, In (x, d) kids -> ro_desc d.
Proof.
  intros g c path n self kids W A WK. apply readonly_listing; [exact W|].
  exact (walk_no_write g path _ n W (root_node_no_write g c A) WK).
Qed.
