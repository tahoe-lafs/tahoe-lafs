(* Proofs about Model/Announce.v (C34). *)
From Coq Require Import List NArith ZArith Bool Lia.
From Verif Require Import Lib.Sig Model.Announce.
Import ListNotations.
Local Open Scope N_scope.

Lemma seqval_eqb_eq : forall x y, seqval_eqb x y = true <-> x = y.
Proof. intros [|a|a|] [|b|b|]; cbn; rewrite ?Z.eqb_eq; split; congruence. Qed.

Lemma ann_eqb_eq : forall x y, ann_eqb x y = true <-> x = y.
Proof.
  intros [s1 d1 q1 b1] [s2 d2 q2 b2]. unfold ann_eqb. cbn [a_service a_desc_ok a_seq a_body].
  rewrite !andb_true_iff, !N.eqb_eq, seqval_eqb_eq, Bool.eqb_true_iff. split.
  - intros [[[-> ->] ->] ->]. reflexivity.
  - intros [= -> -> -> ->]. auto.
Qed.

Section Proofs.
  Variables pubkey keystr msg sig : Type.
  Variable verify : pubkey -> msg -> sig -> bool.
  Variable parse_key : keystr -> option pubkey.
  Variable canon : pubkey -> keystr.
  Variable decode : msg -> option ann_json.
  Variable keystr_eqb : keystr -> keystr -> bool.
  Hypothesis keystr_eqb_spec : forall a b, keystr_eqb a b = true <-> a = b.
  Variable client : bool.
  Variable subscribed : N -> bool.

  Notation wire := (wire keystr msg sig).
  Notation state := (state keystr).
  Notation unsign := (unsign_from_foolscap verify parse_key canon decode).
  Notation stp := (step verify parse_key canon decode keystr_eqb client subscribed).
  Notation got := (got_announcements verify parse_key canon decode keystr_eqb client subscribed).
  Notation run := (run_stream verify parse_key canon decode keystr_eqb client subscribed).
  Notation look := (lookup keystr_eqb).
  Notation upd := (update keystr_eqb).
  Notation idx := (index keystr).

  Lemma index_eqb_spec (i j : idx) : reflect (i = j) (index_eqb keystr keystr_eqb i j).
  Proof.
    apply iff_reflect. destruct i as [s k], j as [s' k']. unfold index_eqb. cbn [fst snd].
    rewrite andb_true_iff, N.eqb_eq, keystr_eqb_spec. split.
    - intros [= -> ->]. auto.
    - intros [-> ->]. reflexivity.
  Qed.

  Lemma lookup_update st (i j : idx) a :
    look (upd st i a) j = if index_eqb keystr keystr_eqb j i then Some a else look st j.
  Proof.
    induction st as [|[k b] r IH]; cbn [update lookup]; [reflexivity|].
    destruct (index_eqb_spec i k) as [<-|NE]; cbn [lookup].
    - destruct (index_eqb keystr keystr_eqb j i); reflexivity.
    - rewrite IH. destruct (index_eqb_spec j k) as [->|_], (index_eqb_spec k i) as [<-|_]; try reflexivity.
      contradiction.
  Qed.

  Lemma in_update st (i j : idx) a b : In (j, b) (upd st i a) -> (j = i /\ b = a) \/ In (j, b) st.
  Proof.
    induction st as [|[k c] r IH]; cbn [update].
    - intros [[= <- <-]|[]]. auto.
    - destruct (index_eqb_spec i k) as [<-|_]; cbn [In].
      + intros [[= <- <-]|H]; auto.
      + intros [H|H%IH]; tauto.
  Qed.

  Lemma lookup_in : forall st (i : idx) a, look st i = Some a -> In (i, a) st.
  Proof.
    induction st as [|[k c] r IH]; intros i a H; cbn [lookup] in H; [discriminate|].
    destruct (index_eqb_spec i k) as [->|_].
    - injection H as ->. left. reflexivity.
    - right. exact (IH _ _ H).
  Qed.

  Definition genuine (w : wire) (key : pubkey) (a : ann) : Prop :=
    exists m sg ks0, w = WTriple m (SfOk sg) (KfOk ks0) /\ parse_key ks0 = Some key /\
                     verify key m sg = true /\ decode m = Some (AJ a).

  Lemma unsign_inr w a ks : unsign w = inr (AJ a, ks) -> exists key, genuine w key a /\ ks = canon key.
  Proof.
    intros H. destruct w as [|m s k]; cbn in H; [discriminate|].
    destruct s as [| | | |sg], k as [| | |ks0]; try discriminate;
      (destruct (parse_key ks0) as [key|] eqn:P; [|discriminate]); try discriminate.
    destruct (verify key m sg) eqn:V; [|discriminate].
    destruct (decode m) as [j|] eqn:D; [|discriminate].
    injection H as -> <-. exists key. split; [exists m, sg, ks0; auto|reflexivity].
  Qed.

  Lemma step_cases (st : state) w :
    fst (stp st w) = st \/
    exists key a, genuine w key a /\
      stores (process keystr_eqb client subscribed (st_store st) (AJ a) (canon key)) = true /\
      stp st w = ({| st_store := upd (st_store st) (a_service a, canon key) a;
                     st_delivered := st_delivered st ++ [(canon key, a)] |},
                  process keystr_eqb client subscribed (st_store st) (AJ a) (canon key)).
  Proof.
    unfold step. destruct (unsign w) as [r|[[|a] ks]] eqn:U; [left; reflexivity..|].
    destruct (unsign_inr _ _ _ U) as (key & G & ->).
    destruct (stores _) eqn:S; [|left; reflexivity].
    right. exists key, a. auto.
  Qed.

  Lemma not_stored_leaves_state st w : stores (snd (stp st w)) = false -> fst (stp st w) = st.
  Proof.
    destruct (step_cases st w) as [E|(key & a & _ & S & ->)]; [intros _; exact E|].
    cbn [snd]. congruence.
  Qed.

  Lemma got_cons : forall w r st,
    got st (w :: r) = (fst (got (fst (stp st w)) r), snd (stp st w) :: snd (got (fst (stp st w)) r)).
  Proof.
    intros w r st. cbn [got_announcements]. destruct (stp st w) as [st1 v]. cbn [fst snd].
    destruct (got st1 r); reflexivity.
  Qed.

  Lemma got_app : forall b1 b2 st,
    got st (b1 ++ b2) = (fst (got (fst (got st b1)) b2), snd (got st b1) ++ snd (got (fst (got st b1)) b2)).
  Proof.
    induction b1 as [|w r IH]; intros b2 st; cbn [app].
    - cbn. destruct (got st b2); reflexivity.
    - rewrite !got_cons, IH. reflexivity.
  Qed.

  Lemma run_concat : forall batches st, fst (run st batches) = fst (got st (concat batches)).
  Proof.
    induction batches as [|b r IH]; intros st; cbn [run_stream concat]; [reflexivity|].
    destruct (got st b) as [st1 vs] eqn:G. specialize (IH st1).
    destruct (run st1 r) as [st2 vss]. cbn [fst] in *. rewrite got_app, G. cbn [fst]. exact IH.
  Qed.

  Lemma got_invariant (P : state -> Prop) batch :
    (forall st w, In w batch -> P st -> P (fst (stp st w))) -> forall st, P st -> P (fst (got st batch)).
  Proof.
    induction batch as [|w r IH]; intros Hstep st H; [exact H|].
    rewrite got_cons. cbn [fst]. apply IH.
    - intros st' w' I. apply Hstep. right. exact I.
    - apply Hstep; [left; reflexivity|exact H].
  Qed.

  Lemma bad_does_not_stop_batch_ok st pre w post :
    got st (pre ++ w :: post) =
      (fst (got (fst (stp (fst (got st pre)) w)) post),
       snd (got st pre) ++ snd (stp (fst (got st pre)) w) :: snd (got (fst (stp (fst (got st pre)) w)) post))
    /\ (forall r, unsign w = inl r -> forall s, stp s w = (s, r))
    /\ (stores (snd (stp (fst (got st pre)) w)) = false ->
        fst (got st (pre ++ w :: post)) = fst (got st (pre ++ post))).
  Proof.
    split; [|split].
    - rewrite got_app, got_cons. reflexivity.
    - intros r U s. unfold step. rewrite U. reflexivity.
    - intros H. rewrite !got_app, got_cons. cbn [fst]. rewrite (not_stored_leaves_state _ _ H). reflexivity.
  Qed.

  (* authenticity: every stored and every delivered announcement is a genuine element of ws *)
  Definition state_verified (ws : list wire) (st : state) : Prop :=
    (forall svc ks a, In ((svc, ks), a) (st_store st) ->
       exists w key m sg ks0,
         In w ws /\ w = WTriple m (SfOk sg) (KfOk ks0) /\ parse_key ks0 = Some key /\
         verify key m sg = true /\ decode m = Some (AJ a) /\ ks = canon key /\ svc = a_service a) /\
    (forall ks a, In (ks, a) (st_delivered st) ->
       exists w key m sg ks0,
         In w ws /\ w = WTriple m (SfOk sg) (KfOk ks0) /\ parse_key ks0 = Some key /\
         verify key m sg = true /\ decode m = Some (AJ a) /\ ks = canon key).

  Lemma step_verified ws (st : state) w : In w ws -> state_verified ws st -> state_verified ws (fst (stp st w)).
  Proof.
    intros Iw [HS HD].
    destruct (step_cases st w) as [->|(key & a & (m & sg & ks0 & Ew & P & V & D) & _ & ->)]; [split; assumption|].
    split; cbn [fst st_store st_delivered].
    - intros svc ks b [[[= -> ->] ->]|I]%in_update; [|exact (HS _ _ _ I)].
      exists w, key, m, sg, ks0. repeat split; assumption.
    - intros ks b [I|[[= <- <-]|[]]]%in_app_or; [exact (HD _ _ I)|].
      exists w, key, m, sg, ks0. repeat split; assumption.
  Qed.

  Lemma stored_only_if_verified_ok batches : state_verified (concat batches) (fst (run empty_state batches)).
  Proof.
    rewrite run_concat. apply got_invariant.
    - intros st w. apply step_verified.
    - split; cbn; contradiction.
  Qed.

  Lemma attributed_to_signer_ok : forall (signed : pubkey -> msg -> Prop) batches,
    sig_sound verify signed ->
    (forall (i : idx) a, In (i, a) (st_store (fst (run empty_state batches))) ->
       exists key m, snd i = canon key /\ fst i = a_service a /\ signed key m /\ decode m = Some (AJ a)) /\
    (forall ks a, In (ks, a) (st_delivered (fst (run empty_state batches))) ->
       exists key m, ks = canon key /\ signed key m /\ decode m = Some (AJ a)).
  Proof.
    intros signed batches S. destruct (stored_only_if_verified_ok batches) as [HS HD]. split.
    - intros [svc ks] a I. destruct (HS _ _ _ I) as (w & key & m & sg & ks0 & _ & _ & _ & V & D & Ek & Es).
      exists key, m. repeat split; try assumption. exact (S _ _ _ V).
    - intros ks a I. destruct (HD _ _ I) as (w & key & m & sg & ks0 & _ & _ & _ & V & D & Ek).
      exists key, m. repeat split; try assumption. exact (S _ _ _ V).
  Qed.

  (* freshness: what may follow `old` at the same index *)
  Definition advance (old new : ann) : Prop :=
    new = old \/
    match a_seq old with
    | SAbsent => True
    | SInt o | SHalf o => exists n, a_seq new = SInt n /\ (o < n)%Z
    | SOther => False
    end.

  Lemma advance_refl a : advance a a.
  Proof. left. reflexivity. Qed.

  Lemma advance_trans a b c : advance a b -> advance b c -> advance a c.
  Proof.
    intros [->|H1] H2; [exact H2|].
    destruct H2 as [->|H2]; right; [exact H1|].
    destruct (a_seq a) as [|o|o|]; auto;
      destruct H1 as (n & E & L); rewrite E in H2; destruct H2 as (n' & E' & L'); exists n'; (split; [exact E'|lia]).
  Qed.

  Lemma seq_check_stores old new : stores (seq_check old new) = true ->
    match old with
    | SAbsent => True
    | SInt o | SHalf o => exists n, new = SInt n /\ (o < n)%Z
    | SOther => False
    end.
  Proof.
    destruct old as [|o|o|], new as [|n|n|]; cbn [seq_check stores]; try discriminate; auto;
      (destruct (Z.leb_spec n o); [discriminate|eauto]).
  Qed.

  Lemma step_advance (st : state) w (i : idx) old :
    (exists mid, look (st_store st) i = Some mid /\ advance old mid) ->
    exists new, look (st_store (fst (stp st w))) i = Some new /\ advance old new.
  Proof.
    intros (mid & L & A). destruct (step_cases st w) as [->|(key & a & _ & S & ->)]; [exists mid; auto|].
    cbn [fst st_store]. rewrite lookup_update.
    destruct (index_eqb_spec i (a_service a, canon key)) as [->|_]; [|exists mid; auto].
    exists a. split; [reflexivity|]. apply (advance_trans _ _ _ A). right.
    unfold process in S. rewrite L in S.
    destruct (client && negb (subscribed (a_service a))); [discriminate|].
    destruct (client && negb (a_desc_ok a)); [discriminate|].
    destruct (ann_eqb mid a); [discriminate|]. exact (seq_check_stores _ _ S).
  Qed.

  Lemma seqnum_strictly_increases_ok batches1 batches2 (i : idx) old :
    look (st_store (fst (run empty_state batches1))) i = Some old ->
    exists new, look (st_store (fst (run empty_state (batches1 ++ batches2)))) i = Some new /\ advance old new.
  Proof.
    intros L. rewrite run_concat in *. rewrite concat_app, got_app. cbn [fst].
    apply (got_invariant (fun st => exists new, look (st_store st) i = Some new /\ advance old new)).
    - intros st w _. apply step_advance.
    - exists old. split; [exact L|apply advance_refl].
  Qed.

  Lemma advance_int old new o : advance old new -> a_seq old = SInt o ->
    exists n, a_seq new = SInt n /\ (o <= n)%Z /\ (n = o -> new = old).
  Proof.
    intros [->|H] E.
    - exists o. split; [exact E|]. split; [lia|reflexivity].
    - rewrite E in H. destruct H as (n & En & L). exists n. split; [exact En|]. split; lia.
  Qed.

  Lemma seqnum_never_replaced_by_lower_or_equal_ok batches1 batches2 (i : idx) old o :
    look (st_store (fst (run empty_state batches1))) i = Some old ->
    a_seq old = SInt o ->
    exists new n,
      look (st_store (fst (run empty_state (batches1 ++ batches2)))) i = Some new /\
      a_seq new = SInt n /\ (o <= n)%Z /\ (n = o -> new = old).
  Proof.
    intros L E. destruct (seqnum_strictly_increases_ok _ batches2 _ _ L) as (new & L' & A).
    destruct (advance_int _ _ _ A E) as (n & H). exists new, n. split; assumption.
  Qed.

  Lemma run_events_batches : forall evs st,
    run_events verify parse_key canon decode keystr_eqb client subscribed st evs = run st (batches_of evs).
  Proof.
    induction evs as [|[b|] r IH]; intros st; cbn [run_events batches_of run_stream]; [reflexivity| |apply IH].
    destruct (got st b) as [st1 vs]. rewrite IH. reflexivity.
  Qed.

  Lemma batches_of_app : forall (e1 e2 : list (event keystr msg sig)), batches_of (e1 ++ e2) = batches_of e1 ++ batches_of e2.
  Proof.
    induction e1 as [|[b|] r IH]; intros e2; cbn [app batches_of]; [reflexivity| |apply IH]. rewrite IH. reflexivity.
  Qed.

  Lemma seqnum_survives_reconnects_ok : forall evs1 evs2 (i : idx) old,
    look (st_store (fst (run_events verify parse_key canon decode keystr_eqb client subscribed empty_state evs1))) i = Some old ->
    exists new,
      look (st_store (fst (run_events verify parse_key canon decode keystr_eqb client subscribed empty_state (evs1 ++ evs2)))) i = Some new /\
      advance old new.
  Proof.
    intros e1 e2 i old L. rewrite run_events_batches in *. rewrite batches_of_app.
    apply seqnum_strictly_increases_ok. exact L.
  Qed.

  (* late subscribers: no index occurs twice in the store *)
  Lemma update_unique st (i : idx) a : NoDup (map fst st) -> NoDup (map fst (upd st i a)).
  Proof.
    induction st as [|[k c] r IH]; intros ND; cbn [update].
    - repeat constructor. intros [].
    - inversion ND as [|? ? NI ND']; subst.
      destruct (index_eqb_spec i k) as [<-|NE]; [exact ND|].
      constructor; [|exact (IH ND')].
      intros ([j b] & [= ->] & [[-> _]|I]%in_update)%in_map_iff; [contradiction|].
      exact (NI (in_map fst _ _ I)).
  Qed.

  Lemma step_unique (st : state) w :
    NoDup (map fst (st_store st)) -> NoDup (map fst (st_store (fst (stp st w)))).
  Proof.
    intros U. destruct (step_cases st w) as [->|(key & a & _ & _ & ->)]; [exact U|].
    apply update_unique. exact U.
  Qed.

  Lemma in_lookup st (i : idx) a : NoDup (map fst st) -> In (i, a) st -> look st i = Some a.
  Proof.
    induction st as [|[k c] r IH]; intros ND I; [destruct I|].
    inversion ND as [|? ? NI ND']; subst. cbn [lookup].
    destruct (index_eqb_spec i k) as [->|NE].
    - destruct I as [[= ->]|I]; [reflexivity|]. destruct NI. exact (in_map fst _ _ I).
    - destruct I as [[= -> _]|I]; [contradiction|exact (IH ND' I)].
  Qed.

  Lemma backlog_in (st : state) svc ks a : In (ks, a) (backlog st svc) <-> In ((svc, ks), a) (st_store st).
  Proof.
    unfold backlog. rewrite in_map_iff. split.
    - intros ([[s k] b] & [= <- <-] & [I E]%filter_In). apply N.eqb_eq in E. cbn in E. subst s. exact I.
    - intros I. exists ((svc, ks), a). split; [reflexivity|]. apply filter_In. split; [exact I|apply N.eqb_refl].
  Qed.

  Lemma late_subscriber_gets_current_ok : forall evs svc ks a,
    let st := fst (run_events verify parse_key canon decode keystr_eqb client subscribed empty_state evs) in
    In (ks, a) (backlog st svc) <-> look (st_store st) (svc, ks) = Some a.
  Proof.
    intros evs svc ks a st.
    assert (U : NoDup (map fst (st_store st))).
    { unfold st. rewrite run_events_batches, run_concat.
      apply (got_invariant (fun s => NoDup (map fst (st_store s)))); [|constructor].
      intros s w _. apply step_unique. }
    rewrite backlog_in. split; [apply in_lookup; exact U|apply lookup_in].
  Qed.

  Lemma replace_rule_ok : forall st key a old,
    (client = true -> subscribed (a_service a) = true /\ a_desc_ok a = true) ->
    look st (a_service a, canon key) = Some old ->
    forall o, a_seq old = SInt o ->
      process keystr_eqb client subscribed st (AJ a) (canon key) =
        if ann_eqb old a then PDuplicate
        else match a_seq a with
             | SInt n => if (n <=? o)%Z then PTooOld else PUpdate
             | _ => PNoValidSeq
             end.
  Proof.
    intros st key a old Hc L o E. unfold process. rewrite L, E.
    destruct client; [destruct (Hc eq_refl) as [-> ->]|]; cbn [andb negb];
      destruct (ann_eqb old a), (a_seq a); reflexivity.
  Qed.
End Proofs.
