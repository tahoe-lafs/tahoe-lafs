(* residual_network characterised: which edges the residual graph has and the
   residual capacity of each of them. *)
From Coq Require Import List NArith ZArith Bool Arith Lia.
From Verif Require Import Model.Matching Proofs.MatchingLists.
Import ListNotations.

(* the edges of a graph in the order in which the two nested loops of residual_network visit them *)

Fixpoint edges_from (i : nat) (rows : list (list nat)) : list (nat * nat) :=
  match rows with
  | [] => []
  | r :: rest => map (pair i) r ++ edges_from (S i) rest
  end.

Definition res_step (f : matrix) (st : graph * matrix) (e : nat * nat) : graph * matrix :=
  if Z.eqb (mget f (fst e) (snd e)) 1
  then (push_adj (fst st) (snd e) (fst e), mset (mset (snd st) (snd e) (fst e) 1%Z) (fst e) (snd e) (-1)%Z)
  else (push_adj (fst st) (fst e) (snd e), mset (mset (snd st) (fst e) (snd e) 1%Z) (snd e) (fst e) (-1)%Z).

Lemma residual_row_fold : forall i nbrs f ng cf,
  residual_row i nbrs f ng cf = fold_left (res_step f) (map (pair i) nbrs) (ng, cf).
Proof.
  intros i nbrs f. induction nbrs as [|v r IH]; intros ng cf; cbn [residual_row map fold_left]; [reflexivity|].
  unfold res_step at 2. cbn [fst snd]. destruct (Z.eqb (mget f i v) 1); apply IH.
Qed.

Lemma residual_rows_fold : forall rows i f ng cf,
  residual_rows i rows f ng cf = fold_left (res_step f) (edges_from i rows) (ng, cf).
Proof.
  induction rows as [|r rest IH]; intros i f ng cf; cbn [residual_rows edges_from]; [reflexivity|].
  rewrite fold_left_app, <- residual_row_fold.
  destruct (residual_row i r f ng cf) as [ng' cf']. apply IH.
Qed.

Lemma in_edges_from : forall rows i u v,
  In (u, v) (edges_from i rows) <-> i <= u /\ In v (nth (u - i) rows []).
Proof.
  induction rows as [|r rest IH]; intros i u v; cbn [edges_from].
  - split; [intros [] | intros [_ H]; destruct (u - i); destruct H].
  - rewrite in_app_iff, in_map_iff, IH. split.
    + intros [[x [E H]]|[H1 H2]].
      * inversion E; subst. split; [lia|]. rewrite Nat.sub_diag. exact H.
      * split; [lia|]. replace (u - i) with (S (u - S i)) by lia. exact H2.
    + intros [H1 H2]. destruct (Nat.eq_dec u i) as [->|Hne].
      * left. rewrite Nat.sub_diag in H2. exists v. split; [reflexivity | exact H2].
      * right. split; [lia|]. replace (u - i) with (S (u - S i)) in H2 by lia. exact H2.
Qed.

Lemma in_edges_graph : forall (g : graph) u v, In (u, v) (edges_from 0 g) <-> In v (adj g u).
Proof.
  intros g u v. rewrite in_edges_from, Nat.sub_0_r. unfold adj. split; [tauto | intros H; split; [lia | exact H]].
Qed.

(* the residual edge a graph edge gives rise to: its reverse when it carries a unit of flow *)
Definition target (f : matrix) (e : nat * nat) : nat * nat :=
  if Z.eqb (mget f (fst e) (snd e)) 1 then (snd e, fst e) else e.

Definition in_dim (dim : nat) (L : list (nat * nat)) : Prop :=
  forall e, In e L -> fst e < dim /\ snd e < dim.

Lemma res_step_target : forall f st e,
  res_step f st e =
  (push_adj (fst st) (fst (target f e)) (snd (target f e)),
   mset (mset (snd st) (fst (target f e)) (snd (target f e)) 1%Z) (snd (target f e)) (fst (target f e)) (-1)%Z).
Proof. intros f st e. unfold res_step, target. destruct (Z.eqb (mget f (fst e) (snd e)) 1); reflexivity. Qed.

Lemma target_ends : forall f e,
  (fst (target f e) = fst e /\ snd (target f e) = snd e) \/
  (fst (target f e) = snd e /\ snd (target f e) = fst e).
Proof. intros f e. unfold target. destruct (Z.eqb (mget f (fst e) (snd e)) 1); cbn [fst snd]; tauto. Qed.

Lemma in_dim_cons : forall f dim e L, in_dim dim (e :: L) ->
  fst (target f e) < dim /\ snd (target f e) < dim /\ in_dim dim L.
Proof.
  intros f dim e L H. destruct (H e (or_introl eq_refl)) as [H1 H2].
  assert (Hr : in_dim dim L) by (intros e' He'; apply H; right; exact He').
  destruct (target_ends f e) as [[-> ->]|[-> ->]]; auto.
Qed.

Lemma res_fold_adj : forall f dim L ng cf ng' cf',
  in_dim dim L -> length ng = dim ->
  fold_left (res_step f) L (ng, cf) = (ng', cf') ->
  length ng' = dim /\
  forall x y, In y (adj ng' x) <-> In y (adj ng x) \/ In (x, y) (map (target f) L).
Proof.
  intros f dim. induction L as [|e r IH]; intros ng cf ng' cf' Hd Hl H; cbn [fold_left map In] in *.
  - injection H as <- <-. split; [exact Hl | tauto].
  - rewrite res_step_target in H. cbn [fst snd] in H.
    destruct (in_dim_cons f _ _ _ Hd) as [Hx [_ Hd']]. destruct (target f e) as [tx ty]. cbn [fst snd] in *.
    destruct (IH _ _ _ _ Hd' (eq_trans (length_push_adj _ _ _) Hl) H) as [HL HA]. split; [exact HL|].
    intros x y. rewrite HA, adj_push_adj by lia.
    destruct (Nat.eqb_spec tx x) as [->|Hne]; [rewrite in_app_iff; cbn [In]|]; intuition congruence.
Qed.

Lemma res_fold_shape : forall f dim L ng cf ng' cf',
  in_dim dim L -> shape dim cf ->
  fold_left (res_step f) L (ng, cf) = (ng', cf') -> shape dim cf'.
Proof.
  intros f dim. induction L as [|e r IH]; intros ng cf ng' cf' Hd Hs H; cbn [fold_left] in H.
  - injection H as _ <-. exact Hs.
  - rewrite res_step_target in H. cbn [fst snd] in H. destruct (in_dim_cons f _ _ _ Hd) as [_ [_ Hd']].
    refine (IH _ _ _ _ Hd' _ H). apply shape_mset, shape_mset, Hs.
Qed.

(* an entry is not written while no edge between its two vertices is processed *)
Lemma res_fold_untouched : forall f dim L ng cf ng' cf' a b,
  in_dim dim L -> shape dim cf ->
  (forall e, In e L -> (fst e <> a \/ snd e <> b) /\ (fst e <> b \/ snd e <> a)) ->
  fold_left (res_step f) L (ng, cf) = (ng', cf') -> mget cf' a b = mget cf a b.
Proof.
  intros f dim. induction L as [|e r IH]; intros ng cf ng' cf' a b Hd Hs Hn H; cbn [fold_left] in H.
  - injection H as _ <-. reflexivity.
  - rewrite res_step_target in H. cbn [fst snd] in H.
    destruct (in_dim_cons f _ _ _ Hd) as [Hx [Hy Hd']].
    pose proof (Hn e (or_introl eq_refl)) as He. pose proof (target_ends f e) as Ht.
    rewrite (IH _ _ _ _ a b Hd' (shape_mset _ _ _ _ _ (shape_mset _ _ _ _ _ Hs)) (fun e' He' => Hn e' (or_intror He')) H).
    rewrite !(mget_mset_other dim) by (try apply shape_mset; first [assumption | lia]). reflexivity.
Qed.

(* edges go upwards and none is repeated, so the entry written for an edge is not written again *)
Lemma res_fold_cf : forall f dim L ng cf ng' cf',
  in_dim dim L -> shape dim cf -> NoDup L -> (forall e, In e L -> fst e < snd e) ->
  fold_left (res_step f) L (ng, cf) = (ng', cf') ->
  forall e, In e L -> mget cf' (fst (target f e)) (snd (target f e)) = 1%Z.
Proof.
  intros f dim. induction L as [|e0 r IH]; intros ng cf ng' cf' Hd Hs Hnd Hlt H e He; [destruct He|].
  cbn [fold_left] in H. rewrite res_step_target in H. cbn [fst snd] in H.
  destruct (in_dim_cons f _ _ _ Hd) as [Hx [Hy Hd']]. apply NoDup_cons_iff in Hnd. destruct Hnd as [Hnotin Hnd'].
  pose proof (shape_mset _ _ (snd (target f e0)) (fst (target f e0)) (-1)%Z
                (shape_mset _ _ (fst (target f e0)) (snd (target f e0)) 1%Z Hs)) as Hs'.
  destruct He as [<-|He].
  - pose proof (Hlt e0 (or_introl eq_refl)) as Hl. pose proof (target_ends f e0) as Ht.
    assert (Hun : forall e', In e' r ->
              (fst e' <> fst (target f e0) \/ snd e' <> snd (target f e0)) /\
              (fst e' <> snd (target f e0) \/ snd e' <> fst (target f e0))).
    { intros e' He'. pose proof (Hlt e' (or_intror He')).
      assert (fst e' <> fst e0 \/ snd e' <> snd e0); [|lia].
      destruct e' as [u v], e0 as [u0 v0]; cbn [fst snd]. destruct (Nat.eq_dec u u0) as [->|]; [|tauto].
      right. intros ->. contradiction. }
    rewrite (res_fold_untouched f dim r _ _ _ _ _ _ Hd' Hs' Hun H).
    rewrite (mget_mset_other dim) by (try apply shape_mset; first [assumption | lia]).
    apply (mget_mset_same dim); assumption.
  - exact (IH _ _ _ _ Hd' Hs' Hnd' (fun e' He' => Hlt e' (or_intror He')) H e He).
Qed.

Definition upward (g : graph) : Prop :=
  (forall u v, In v (adj g u) -> u < v /\ v < length g) /\ (forall u, NoDup (adj g u)).

Lemma NoDup_edges_from : forall rows i, (forall r, In r rows -> NoDup r) -> NoDup (edges_from i rows).
Proof.
  induction rows as [|r rest IH]; intros i H; cbn [edges_from]; [constructor|].
  apply NoDup_app_intro.
  - apply NoDup_map_inj; [apply H; left; reflexivity|]. intros x y _ _ [= E]. exact E.
  - apply IH. intros r' Hr'. apply H. right. exact Hr'.
  - intros [u v] H1 H2. apply in_map_iff in H1. destruct H1 as [y [E _]]. inversion E; subst.
    apply in_edges_from in H2. lia.
Qed.

Lemma upward_edges : forall g, upward g ->
  NoDup (edges_from 0 g) /\ in_dim (length g) (edges_from 0 g) /\
  (forall e, In e (edges_from 0 g) -> fst e < snd e).
Proof.
  intros g [H1 H2]. split; [|split].
  - apply NoDup_edges_from. intros r Hr. apply In_nth with (d := []) in Hr. destruct Hr as [n [_ E]].
    rewrite <- E. apply (H2 n).
  - intros [u v] He. apply in_edges_graph in He. destruct (H1 _ _ He). cbn [fst snd]. lia.
  - intros [u v] He. apply in_edges_graph in He. destruct (H1 _ _ He). cbn [fst snd]. lia.
Qed.

Definition residual_edge (g : graph) (f : matrix) (x y : nat) : Prop :=
  (In y (adj g x) /\ mget f x y <> 1%Z) \/ (In x (adj g y) /\ mget f y x = 1%Z).

Lemma in_targets : forall (g : graph) f x y,
  In (x, y) (map (target f) (edges_from 0 g)) <-> residual_edge g f x y.
Proof.
  intros g f x y. unfold residual_edge. rewrite in_map_iff. split.
  - intros [[u v] [Et He]]. apply in_edges_graph in He. unfold target in Et. cbn [fst snd] in Et.
    destruct (Z.eqb_spec (mget f u v) 1) as [Ef|Ef]; injection Et as <- <-; [right | left]; split; assumption.
  - intros [[He Hf]|[He Hf]].
    + exists (x, y). split; [|apply in_edges_graph; exact He]. unfold target. cbn [fst snd].
      apply Z.eqb_neq in Hf. rewrite Hf. reflexivity.
    + exists (y, x). split; [|apply in_edges_graph; exact He]. unfold target. cbn [fst snd].
      apply Z.eqb_eq in Hf. rewrite Hf. reflexivity.
Qed.

(* adjacency of the residual graph needs only that the graph's edges stay in range *)
Theorem residual_network_adj : forall g f rg cf,
  (forall u v, In v (adj g u) -> v < length g) -> residual_network g f = (rg, cf) ->
  length rg = length g /\ (forall x y, In y (adj rg x) <-> residual_edge g f x y).
Proof.
  intros g f rg cf Hr H. unfold residual_network in H. rewrite residual_rows_fold in H.
  assert (Hdim : in_dim (length g) (edges_from 0 g)).
  { intros [u v] He. apply in_edges_graph in He. cbn [fst snd]. split; [|apply (Hr u v He)].
    destruct (Nat.lt_ge_cases u (length g)) as [Hu|Hu]; [exact Hu|].
    unfold adj in He. rewrite nth_overflow in He by exact Hu. destruct He. }
  destruct (res_fold_adj f (length g) _ _ _ _ _ Hdim (repeat_length _ _) H) as [HL HA].
  split; [exact HL|]. intros x y. rewrite HA, adj_repeat_nil, in_targets. cbn [In]. tauto.
Qed.

Theorem residual_network_spec : forall g f rg cf,
  upward g -> residual_network g f = (rg, cf) ->
  length rg = length g /\
  (forall x y, In y (adj rg x) <-> residual_edge g f x y) /\
  (forall x y, residual_edge g f x y -> mget cf x y = 1%Z).
Proof.
  intros g f rg cf Hup H.
  destruct (residual_network_adj g f rg cf (fun u v Hv => proj2 (proj1 Hup u v Hv)) H) as [HL HA].
  split; [exact HL|]. split; [exact HA|].
  intros x y Hr. apply in_targets, in_map_iff in Hr. destruct Hr as [e [Et He]].
  unfold residual_network in H. rewrite residual_rows_fold in H.
  destruct (upward_edges g Hup) as [Hnd [Hdim Hlt]].
  pose proof (res_fold_cf f (length g) _ _ _ _ _ Hdim (shape_zero _) Hnd Hlt H e He) as Hc.
  rewrite Et in Hc. exact Hc.
Qed.
