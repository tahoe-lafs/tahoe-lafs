(* C25: the statements about container files, as lemmas over `layout_ok` / `imm_layout_ok`. *)
From Coq Require Import List NArith Arith Bool Lia.
From Verif Require Import Lib.Hex Gen.MutConsts Model.MutContainer Model.Lease
  Proofs.MutContainerBytes Proofs.MutContainer
  Proofs.LeaseList Proofs.LeaseMutable Proofs.LeaseImmutable Proofs.Lease.
Import ListNotations.
Local Open Scope N_scope.

(* `grows` and `igrows`, read on the files *)
Lemma grows_file maxsz f E (op : file -> outcome) :
  layout_ok maxsz f = true -> mut_enumerate f = Ok E -> (forall c, wf maxsz c -> grows maxsz c (op (flat c))) ->
  layout_ok maxsz (out_file (op f)) = true /\ abs_data (out_file (op f)) = abs_data f /\
  exists E', mut_enumerate (out_file (op f)) = Ok E' /\ never_shorter E E'.
Proof.
  intros Hl He Hg. apply layout_ok_iff in Hl. destruct Hl as (c & Hw & ->).
  rewrite (mut_enumerate_flat maxsz c Hw) in He. injection He as <-.
  destruct (Hg c Hw) as (c' & -> & Hw' & Hsd & Hns).
  split; [apply flat_layout_ok; exact Hw'|]. split; [apply (same_data_abs maxsz); assumption|].
  exists (enum c'). split; [apply (mut_enumerate_flat maxsz); exact Hw'|exact Hns].
Qed.

Lemma igrows_file f ls (op : version -> N -> file -> outcome) :
  imm_layout_ok f = true -> immfile_get_leases f = Ok ls ->
  (forall v c, iwf v c -> igrows v c (op v (i_lo c) (iflat c))) ->
  let o := match imm_open f with Err e => Raised f e | Ok (v, lo) => op v lo f end in
  imm_layout_ok (out_file o) = true /\ imm_data (out_file o) = imm_data f /\
  exists ls', immfile_get_leases (out_file o) = Ok ls' /\ never_shorter_list ls ls'.
Proof.
  intros Hl Hg Hop. apply imm_layout_ok_iff in Hl. destruct Hl as (v & c & Hw & ->).
  rewrite (immfile_get_leases_flat v c Hw) in Hg. injection Hg as <-.
  rewrite (imm_open_flat v c Hw). cbv zeta. destruct (Hop v c Hw) as (c' & -> & Hw' & Hd & Hns).
  split; [apply (iflat_layout_ok v); exact Hw'|].
  split; [rewrite (imm_data_flat v c' Hw'), (imm_data_flat v c Hw); exact Hd|].
  exists (ileases c'). split; [apply (immfile_get_leases_flat v); exact Hw'|exact Hns].
Qed.

Section WithHash.
Variable H : list N -> list N.

Lemma mut_get_leases_flat maxsz c : wf maxsz c -> mut_get_leases (flat c) = Ok (map snd (enum c)).
Proof. intro Hw. unfold mut_get_leases. rewrite (mut_enumerate_flat maxsz c Hw). reflexivity. Qed.

Lemma renew_not_duplicate_mut_proof maxsz f v avail li ls ls' :
  layout_ok maxsz f = true -> bytes_ok f -> l_owner li <> 0 -> l_expire li < 2 ^ 32 ->
  mut_get_leases f = Ok ls -> renew_first H v ls (l_renew li) (l_expire li) = Some ls' ->
  exists f', mut_add_or_renew H v f avail li = Done f' /\ mut_get_leases f' = Ok ls' /\
             length ls' = length ls /\ layout_ok maxsz f' = true /\ abs_data f' = abs_data f.
Proof.
  intros Hl Hb Ho Ht Hg Hr. pose proof (renew_first_length H v ls _ _ ls' Hr) as Hlen.
  apply layout_ok_iff in Hl. destruct Hl as (c & Hw & ->).
  rewrite (mut_get_leases_flat maxsz c Hw) in Hg. injection Hg as <-.
  pose proof (mut_renew_cases H maxsz v c (l_renew li) (l_expire li) Hw) as Hc. cbv zeta in Hc. rewrite Hr in Hc.
  destruct Hc as [[_ Hn]|(c' & E & Hw' & Hsd & _ & El)]; [destruct Hn; auto|].
  unfold mut_add_or_renew. destruct (N.eqb_spec (l_owner li) 0); [congruence|]. rewrite E.
  exists (flat c'). split; [reflexivity|]. split; [rewrite (mut_get_leases_flat maxsz c' Hw'), El; reflexivity|].
  split; [exact Hlen|]. split; [apply flat_layout_ok; exact Hw'|apply (same_data_abs maxsz); assumption].
Qed.

Lemma never_shortens_mut_proof maxsz f v avail li E :
  layout_ok maxsz f = true -> lease_wf (stored_form H v li) -> l_owner li <> 0 ->
  mut_enumerate f = Ok E ->
  layout_ok maxsz (out_file (mut_add_or_renew H v f avail li)) = true /\
  abs_data (out_file (mut_add_or_renew H v f avail li)) = abs_data f /\
  exists E', mut_enumerate (out_file (mut_add_or_renew H v f avail li)) = Ok E' /\ never_shorter E E'.
Proof.
  intros Hl Hlw Ho He. apply (grows_file maxsz f E (fun f => mut_add_or_renew H v f avail li) Hl He).
  intros c Hw. apply mut_add_or_renew_grows; assumption.
Qed.

Lemma renew_scan_no_match v f E s t : no_match H v (map snd E) s = true -> renew_scan H v f E s t = Raised f EIndex.
Proof. intro Hn. apply (first_match_none H) in Hn. rewrite renew_scan_find, Hn. reflexivity. Qed.

Lemma imm_renew_scan_no_match v f lo i ls s t : no_match H v ls s = true -> imm_renew_scan H v f lo i ls s t = Raised f EIndex.
Proof.
  unfold no_match. revert i. induction ls as [|l r IH]; intros i Hn; [reflexivity|].
  cbn [forallb] in Hn. apply andb_prop in Hn. destruct Hn as [H1 H2].
  cbn [imm_renew_scan]. destruct (is_renew_secret H v l s); [discriminate|]. apply IH. exact H2.
Qed.

Lemma leases_survive_writes_proof maxsz f dv nl :
  468 + maxsz < 2 ^ 64 -> layout_ok maxsz f = true ->
  mut_enumerate (out_file (writev maxsz f dv nl)) = mut_enumerate f /\
  mut_get_leases (out_file (writev maxsz f dv nl)) = mut_get_leases f.
Proof.
  intros Hm Hl. apply layout_ok_iff in Hl. destruct Hl as (c & Hw & ->).
  destruct (writev_flat maxsz c dv nl Hw Hm) as (c' & Ef & Hw' & Hs & _ & _).
  assert (Een : mut_enumerate (flat c') = mut_enumerate (flat c)).
  { rewrite (mut_enumerate_flat maxsz c' Hw'), (mut_enumerate_flat maxsz c Hw).
    destruct Hs as (_ & Hsl & Hnx & Hex). unfold enum, slot, rec_of, c_nx. rewrite Hsl, Hnx, Hex. reflexivity. }
  rewrite Ef. split; [exact Een|]. unfold mut_get_leases. rewrite Een. reflexivity.
Qed.

Lemma cancel_lease_proof maxsz v f cs E :
  layout_ok maxsz f = true -> mut_enumerate f = Ok E ->
  let kept := filter (fun il => negb (cancels H v cs il)) E in
  let gone := filter (cancels H v cs) E in
  match gone, kept with
  | [], _ => mut_cancel_lease H v f cs = (Some f, Some EIndex)
  | _ :: _, [] => mut_cancel_lease H v f cs = (None, None)
  | _ :: _, _ :: _ =>
      exists f', mut_cancel_lease H v f cs = (Some f', None) /\ layout_ok maxsz f' = true /\
                 abs_data f' = abs_data f /\ mut_enumerate f' = Ok kept
  end.
Proof.
  intros Hl He. apply layout_ok_iff in Hl. destruct Hl as (c & Hw & ->).
  assert (EE : E = enum c) by (rewrite (mut_enumerate_flat maxsz c Hw) in He; congruence).
  cbn zeta. unfold mut_cancel_lease. rewrite He.
  destruct (cancel_scan_spec H maxsz v cs E c 0 0 Hw) as (c' & Es & Hw' & Hsd & Enx & Hs & Hsame).
  { intros i l Hin. rewrite EE in Hin. apply in_enum in Hin. tauto. }
  rewrite Es. rewrite !N.add_0_l.
  destruct (filter (cancels H v cs) E) as [|g gs] eqn:Eg.
  - rewrite (Hsame eq_refl). reflexivity.
  - assert (Hm : (N.of_nat (length (g :: gs)) =? 0) = false) by (cbn [length]; apply N.eqb_neq; lia).
    rewrite Hm. destruct (filter (fun il => negb (cancels H v cs il)) E) as [|k ks] eqn:Ek.
    + reflexivity.
    + assert (Hr : (N.of_nat (length (k :: ks)) =? 0) = false) by (cbn [length]; apply N.eqb_neq; lia).
      rewrite Hr. exists (flat c'). split; [reflexivity|]. split; [apply flat_layout_ok; exact Hw'|].
      split; [apply (same_data_abs maxsz); assumption|].
      rewrite (mut_enumerate_flat maxsz c' Hw'). unfold enum. rewrite Enx. f_equal. rewrite <- Ek, EE.
      apply enumL_filter. intros j Hj. rewrite (Hs j), EE.
      unfold enum. rewrite (hit_enumL H v cs (slot c) _ j Hj).
      destruct (slot c j) as [l|]; [destruct (is_cancel_secret H v l cs); reflexivity|reflexivity].
Qed.

(* v2: only the hashes of the secrets reach the file *)
Lemma renew_scan_hash f ls s s' t : H s = H s' -> renew_scan H V2 f ls s t = renew_scan H V2 f ls s' t.
Proof.
  intro Hh. induction ls as [|[i l] r IH]; [reflexivity|]. cbn [renew_scan]. unfold is_renew_secret. rewrite Hh, IH. reflexivity.
Qed.

Lemma v2_renew_only_hash f s s' t : H s = H s' -> mut_renew_lease H V2 f s t = mut_renew_lease H V2 f s' t.
Proof. intro Hh. unfold mut_renew_lease. destruct (mut_enumerate f); [apply renew_scan_hash; exact Hh|reflexivity]. Qed.

Lemma v2_mut_only_hash f avail li li' : hash_lease H li = hash_lease H li' ->
  mut_add_or_renew H V2 f avail li = mut_add_or_renew H V2 f avail li'.
Proof.
  intro Hh. assert (Ho : l_owner li = l_owner li') by (injection Hh; auto).
  assert (Hr : H (l_renew li) = H (l_renew li')) by (injection Hh; auto).
  assert (He : l_expire li = l_expire li') by (injection Hh; auto).
  unfold mut_add_or_renew, mut_add_lease. cbn [stored_form]. rewrite Ho, He, Hh, (v2_renew_only_hash f _ _ _ Hr). reflexivity.
Qed.

Lemma imm_renew_scan_hash f lo i ls s s' t : H s = H s' ->
  imm_renew_scan H V2 f lo i ls s t = imm_renew_scan H V2 f lo i ls s' t.
Proof.
  intro Hh. revert i. induction ls as [|l r IH]; intro i; [reflexivity|]. cbn [imm_renew_scan]. unfold is_renew_secret. rewrite Hh, IH. reflexivity.
Qed.

Lemma v2_imm_only_hash f lo avail li li' : hash_lease H li = hash_lease H li' ->
  imm_add_or_renew H V2 f lo avail li = imm_add_or_renew H V2 f lo avail li'.
Proof.
  intro Hh. assert (Hr : H (l_renew li) = H (l_renew li')) by (injection Hh; auto).
  assert (He : l_expire li = l_expire li') by (injection Hh; auto).
  unfold imm_add_or_renew, imm_add_lease, imm_renew_lease. cbn [stored_form]. rewrite He, Hh.
  destruct (imm_get_leases f lo); [rewrite (imm_renew_scan_hash f lo 0 _ _ _ _ Hr)|]; reflexivity.
Qed.

Lemma renew_not_duplicate_imm_proof f v lo avail li ls ls' :
  imm_layout_ok f = true -> bytes_ok f -> l_expire li < 2 ^ 32 -> imm_open f = Ok (v, lo) ->
  immfile_get_leases f = Ok ls -> renew_first H v ls (l_renew li) (l_expire li) = Some ls' ->
  exists f', immfile_add_or_renew H f avail li = Done f' /\ immfile_get_leases f' = Ok ls' /\
             length ls' = length ls /\ imm_layout_ok f' = true /\ imm_data f' = imm_data f.
Proof.
  intros Hl Hb Ht Ho Hg Hr. pose proof (renew_first_length H v ls _ _ ls' Hr) as Hlen.
  apply imm_layout_ok_iff in Hl. destruct Hl as (v0 & c & Hw & ->).
  rewrite (imm_open_flat v0 c Hw) in Ho. injection Ho as <- <-.
  rewrite (immfile_get_leases_flat v0 c Hw) in Hg. injection Hg as <-.
  pose proof (imm_renew_cases H v0 c (l_renew li) (l_expire li) Hw) as Hc. cbv zeta in Hc. rewrite Hr in Hc.
  destruct Hc as [[_ Hn]|(c' & E & Hw' & Hd & El)]; [destruct Hn; auto|].
  unfold immfile_add_or_renew. rewrite (imm_open_flat v0 c Hw). unfold imm_add_or_renew. rewrite E.
  exists (iflat c'). split; [reflexivity|]. split; [rewrite (immfile_get_leases_flat v0 c' Hw'), El; reflexivity|].
  split; [exact Hlen|]. split; [apply (iflat_layout_ok v0); exact Hw'|].
  rewrite (imm_data_flat v0 c' Hw'), (imm_data_flat v0 c Hw). exact Hd.
Qed.

End WithHash.
