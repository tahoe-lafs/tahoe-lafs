(* C12: what happens to a write that WAS applied.  For every interleaving in which a publish
   surveys once: a cell that writer j's write was applied to either still holds j's version, or
   was overwritten by a writer whose own survey had seen j's version there -- an informed
   successor, never a writer that did not know about j. *)
From Coq Require Import List NArith Bool Lia Arith.
From Verif Require Import Model.TestAndSet Proofs.TestAndSet Proofs.TestAndSetTrace.
Import ListNotations.
Local Open Scope N_scope.

Definition informed_successor (s : sys) (j i : nat) : Prop :=
  exists o wo snap, o <> j /\ nth_error (ws s) o = Some wo /\ In i (acked wo) /\
                    snapshot wo = Some snap /\ nth_error snap i = Some (new_version j).

Definition wrote (s : sys) (j i : nat) : Prop :=
  exists w, nth_error (ws s) j = Some w /\ In i (acked w).

Definition HInv (s : sys) : Prop :=
  forall j i, wrote s j i -> nth_error (cells s) i = Some (new_version j) \/ informed_successor s j i.

Lemma hinv_init ncells n : HInv (init ncells n).
Proof. intros j i (w & ->%nth_error_In%repeat_spec & []). Qed.

(* a successor stays one while its snapshot is kept and its acknowledgements only grow *)
Lemma informed_successor_upd s c j0 w0 w' j i :
  nth_error (ws s) j0 = Some w0 ->
  (forall snap, snapshot w0 = Some snap -> snapshot w' = Some snap) -> incl (acked w0) (acked w') ->
  informed_successor s j i -> informed_successor (upd s c j0 w') j i.
Proof.
  intros Hw0 Hs Ha (o & wo & snap & Ho & Hwo & Hin & Hso & Hn).
  destruct (writer_upd (fun w => In i (acked w) /\ snapshot w = Some snap) s c j0 w0 w' o Hw0)
    as (wo' & Hwo' & Hin' & Hso'); [intros [A B]; auto|eauto|].
  exists o, wo', snap. auto.
Qed.

Lemma informed_successor_step s e j i :
  survey_ok s e -> informed_successor s j i -> informed_successor (step s e) j i.
Proof.
  destruct (step_cases s e) as [e|j0 w0 Hw0|j0 i0 w0 snap0 v Hw0 Hs0 _ _|j0 i0 w0 snap0 cur seen Hw0 Hs0 _ _ _];
    intro Hok; [auto|apply (informed_successor_upd _ _ _ w0 _ _ _ Hw0)..].
  - (* survey: j0 had no snapshot to lose *)
    intros snap E. rewrite (Hok w0 Hw0) in E. discriminate.
  - apply incl_refl.
  - intros snap E. cbn. congruence.
  - apply incl_tl, incl_refl.
  - intros snap E. cbn. congruence.
  - apply incl_refl.
Qed.

(* writer j0 becomes w': an acknowledged write in the new state was one before, unless w' brought it *)
Lemma wrote_upd s c j0 w0 w' j i :
  nth_error (ws s) j0 = Some w0 -> (j = j0 -> In i (acked w') -> In i (acked w0)) ->
  wrote (upd s c j0 w') j i -> wrote s j i.
Proof.
  intros Hw0 Hacks (w & Hw & Hin).
  apply nth_error_set_nth_inv in Hw as [[-> ->]|[_ Hw]]; [exists w0|exists w]; auto.
Qed.

Lemma hinv_step s e : HInv s -> survey_ok s e -> HInv (step s e).
Proof.
  intros HI Hok j i. pose proof (informed_successor_step s e j i Hok) as Keep. revert Keep. clear Hok.
  destruct (step_cases s e) as [e|j0 w0 Hw0|j0 i0 w0 snap0 v Hw0 Hs0 Hc0 Hn0|j0 i0 w0 snap0 cur seen Hw0 Hs0 _ _ _];
    intros Keep Hwr; [exact (HI j i Hwr)|..].
  - (* survey: neither the cells nor the acknowledgements change *)
    apply (wrote_upd _ _ _ w0) in Hwr; [|exact Hw0|auto].
    destruct (HI j i Hwr) as [L|R]; [left; exact L|right; exact (Keep R)].
  - (* applied *)
    cbn [upd cells]. destruct (Nat.eq_dec i i0) as [->|Hi].
    + (* the written cell: it now holds j0's version, in place of a version j0 had seen *)
      destruct (Nat.eq_dec j j0) as [->|Hj]; [left; exact (nth_error_set_nth_same i0 _ v _ Hc0)|right].
      apply (wrote_upd _ _ _ w0) in Hwr; [|exact Hw0|contradiction].
      destruct (HI j i0 Hwr) as [L|R]; [|exact (Keep R)].
      exists j0. eexists. exists snap0. rewrite (nth_error_upd_same _ _ _ _ _ Hw0).
      split; [congruence|]. split; [reflexivity|]. split; [left; reflexivity|]. split; [reflexivity|congruence].
    + apply (wrote_upd _ _ _ w0) in Hwr; [|exact Hw0|intros _ [E|H]; [congruence|exact H]].
      destruct (HI j i Hwr) as [L|R]; [left|right; exact (Keep R)].
      rewrite nth_error_set_nth_other by congruence. exact L.
  - (* refused: only the surprised flag of j0 changes *)
    apply (wrote_upd _ _ _ w0) in Hwr; [|exact Hw0|auto].
    destruct (HI j i Hwr) as [L|R]; [left; exact L|right; exact (Keep R)].
Qed.

Lemma hinv_run ncells n evs : single_survey ncells n evs -> HInv (run ncells n evs).
Proof.
  intro Hss. rewrite <- grun_gs.
  apply (single_survey_fold (fun g => HInv (gs g))); [|apply hinv_init|exact Hss].
  intros g e. rewrite gstep_gs. apply hinv_step.
Qed.
