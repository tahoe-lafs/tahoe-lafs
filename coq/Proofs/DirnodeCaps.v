(* Facts about the cap-level model: uri.from_string, UnknownNode, NodeMaker.create_from_cap. *)
From Coq Require Import List NArith ZArith Bool Lia.
From Verif Require Import Lib.Hex Model.Dirnode Proofs.DirnodeBase.
Import ListNotations.
Local Open Scope N_scope.

Section CapFacts.
  Variable classify : bytes -> capclass.
  Local Notation from_string := (from_string classify).
  Local Notation unknown_node := (unknown_node classify).
  Local Notation create_from_cap := (create_from_cap classify).

  Definition body_of (u : bytes) : bytes :=
    if starts_with IMM_PREFIX u then skipn 4 u else if starts_with RO_PREFIX u then skipn 3 u else u.

  Lemma from_string_known u di n :
    from_string u di = FKnown n ->
    n_err n = None /\ is_unknown n = false /\
    ( (exists d c r, classify (body_of u) = KWrite d c r /\ prefixed u = false /\ di = false /\
                     n = {| n_kind := kind_of d; n_rw := Some c; n_ro := Some r; n_mut := true; n_err := None |})
      \/ (exists d c, classify (body_of u) = KRead d c /\ starts_with IMM_PREFIX u = false /\ di = false /\
                      n = {| n_kind := kind_of d; n_rw := None; n_ro := Some c; n_mut := true; n_err := None |})
      \/ (exists d c, classify (body_of u) = KImm d c /\
                      n = {| n_kind := kind_of d; n_rw := None; n_ro := Some c; n_mut := false; n_err := None |}) ).
  Proof.
    unfold Dirnode.from_string, body_of, prefixed.
    destruct (starts_with IMM_PREFIX u) eqn:Ei; [|destruct (starts_with RO_PREFIX u) eqn:Er];
      destruct (classify _) as [d c r|d c|d c|[]| | |] eqn:Ec; destruct di; cbn;
      intro H; inversion H; subst; clear H;
      (split; [reflexivity|split; [destruct d; reflexivity|]]);
      eauto 12.
  Qed.

  Lemma unknown_node_shape w r di :
    n_kind (unknown_node w r di) = NUnknown /\ n_mut (unknown_node w r di) = false /\
    if di then n_rw (unknown_node w r di) = None else True.
  Proof.
    unfold Dirnode.unknown_node, opaque_node.
    repeat match goal with |- context [match ?x with _ => _ end] => destruct x eqn:? end; cbn; auto.
  Qed.

  Lemma truthy_some (x : bytes) : x <> [] -> truthy (Some x) = Some x.
  Proof. destruct x; [congruence|reflexivity]. Qed.

  Lemma nonempty_some (x y : bytes) : nonempty x = Some y -> x = y /\ y <> [].
  Proof. destruct x; cbn; [discriminate|]. intro H. inversion H. split; [reflexivity|discriminate]. Qed.

  Lemma nonempty_none (x : bytes) : nonempty x = None -> x = [].
  Proof. destruct x; cbn; [reflexivity|discriminate]. Qed.

  Definition unknown_plain (rw : option bytes) (x : bytes) : node :=
    {| n_kind := NUnknown; n_rw := rw; n_ro := (if prefixed x then Some x else Some (RO_PREFIX ++ x)); n_mut := false; n_err := None |}.

  (* UnknownNode(None, x) in a mutable context *)
  Lemma unknown_node_ro_only (x : bytes) :
    x <> [] ->
    unknown_node None (Some x) false
    = match from_string x false with
      | FUnknown (Some e) => opaque_node (Some e)
      | _ => unknown_plain None x
      end.
  Proof.
    intro H. unfold Dirnode.unknown_node. rewrite (truthy_some _ H). cbn [truthy].
    destruct (from_string x false) as [n|[e|]]; reflexivity.
  Qed.

  (* UnknownNode(w, x) in a mutable context *)
  Lemma unknown_node_both (w x : bytes) :
    w <> [] -> x <> [] ->
    unknown_node (Some w) (Some x) false
    = if starts_with IMM_PREFIX x then opaque_node (Some EMustBeDeepImmutable)
      else match from_string x false with
           | FUnknown (Some e) => opaque_node (Some e)
           | _ => unknown_plain (Some w) x
           end.
  Proof.
    intros Hw Hx. unfold Dirnode.unknown_node. cbv zeta. rewrite !(truthy_some _ Hw), !(truthy_some _ Hx).
    destruct (starts_with IMM_PREFIX x); [reflexivity|].
    destruct (from_string x false) as [n|[e|]]; reflexivity.
  Qed.

  (* UnknownNode(w, None): a single cap given in the write slot *)
  Lemma unknown_node_rw_only (w : bytes) :
    w <> [] ->
    unknown_node (Some w) None false
    = if prefixed w
      then match from_string w false with
           | FUnknown (Some e) => opaque_node (Some e)
           | _ => unknown_plain None w
           end
      else opaque_node (Some EMustNotBeUnknownRW).
  Proof.
    intro H. unfold Dirnode.unknown_node. cbv zeta. rewrite !(truthy_some _ H). cbn [truthy].
    destruct (prefixed w); [|reflexivity].
    destruct (from_string w false) as [n|[e|]]; reflexivity.
  Qed.

  Lemma cfc_none_some di (x : bytes) :
    x <> [] ->
    create_from_cap di None (Some x)
    = match from_string x di with FKnown n => n | FUnknown _ => unknown_node None (Some x) di end.
  Proof. intro H. unfold Dirnode.create_from_cap. rewrite (truthy_some _ H). reflexivity. Qed.

  Lemma cfc_some di (w : bytes) r :
    w <> [] ->
    create_from_cap di (Some w) r
    = match from_string w di with FKnown n => n | FUnknown _ => unknown_node (Some w) r di end.
  Proof. intro H. unfold Dirnode.create_from_cap. rewrite (truthy_some _ H). reflexivity. Qed.

  Lemma cfc_none_none di : create_from_cap di None None = opaque_node None.
  Proof. reflexivity. Qed.

  (* known write-capable nodes are mutable; unknown nodes are never flagged mutable *)
  Definition shape_ok (n : node) : bool := is_unknown n || negb (has_rw n) || n_mut n.

  Lemma cfc_shape_ok di w r : shape_ok (create_from_cap di w r) = true.
  Proof.
    unfold Dirnode.create_from_cap.
    destruct (match truthy w with Some w0 => Some w0 | None => truthy r end) as [b|]; [|reflexivity].
    destruct (from_string b di) as [n|e] eqn:F.
    - destruct (from_string_known _ _ _ F) as (_ & _ & [H|[H|H]]).
      + destruct H as (d & c & r0 & _ & _ & _ & ->). unfold shape_ok. cbn. apply orb_true_r.
      + destruct H as (d & c & _ & _ & _ & ->). unfold shape_ok, has_rw. cbn. destruct (is_unknown _); reflexivity.
      + destruct H as (d & c & _ & ->). unfold shape_ok, has_rw. cbn. destruct (is_unknown _); reflexivity.
    - unfold shape_ok, is_unknown. rewrite (proj1 (unknown_node_shape w r di)). reflexivity.
  Qed.

  Lemma cfc_deep_immutable_no_rw w r : n_rw (create_from_cap true w r) = None.
  Proof.
    unfold Dirnode.create_from_cap.
    destruct (match truthy w with Some w0 => Some w0 | None => truthy r end) as [b|]; [|reflexivity].
    destruct (from_string b true) as [n|e] eqn:F.
    - destruct (from_string_known _ _ _ F) as (_ & _ & [H|[H|H]]).
      + destruct H as (d & c & r0 & _ & _ & Hdi & _). discriminate.
      + destruct H as (d & c & _ & _ & Hdi & _). discriminate.
      + destruct H as (d & c & _ & ->). reflexivity.
    - exact (proj2 (proj2 (unknown_node_shape w r true))).
  Qed.

  (* a cap string in canonical print: non-empty, no trailing space, no alleged prefix *)
  Definition tidy (c : bytes) : Prop := nonempty (rstrip_sp c) = Some c /\ prefixed c = false.

  (* assumed of uri.py's classification of cap strings: the two fields of a write cap are tidy, and
     its read cap classifies as a read cap.  caps_coherent_full below asks more and implies this. *)
  Definition caps_coherent : Prop :=
    forall s d c r, classify s = KWrite d c r -> tidy c /\ tidy r /\ classify r = KRead d r.

  Lemma nonempty_tidy c : tidy c -> nonempty (rstrip_sp c) = Some c.
  Proof. intros [H _]. exact H. Qed.

  Lemma tidy_nonempty c : tidy c -> c <> [].
  Proof. intros [H _] E. subst. discriminate. Qed.

  Lemma tidy_body c : tidy c -> body_of c = c /\ starts_with IMM_PREFIX c = false /\ starts_with RO_PREFIX c = false.
  Proof.
    intros [_ H]. unfold prefixed in H. apply orb_false_iff in H. destruct H as [Hr Hi].
    unfold body_of. rewrite Hi, Hr. auto.
  Qed.

  Lemma tidy_strip c di : tidy c -> strip_prefix_for_ro c di = c.
  Proof. intro H. destruct (tidy_body _ H) as (_ & Hi & Hr). unfold strip_prefix_for_ro. rewrite Hi, Hr. reflexivity. Qed.

  Lemma from_string_tidy_read d r : tidy r -> classify r = KRead d r ->
    from_string r false = FKnown {| n_kind := kind_of d; n_rw := None; n_ro := Some r; n_mut := true; n_err := None |}.
  Proof.
    intros Ht Hc. destruct (tidy_body _ Ht) as (_ & Hi & Hr).
    unfold Dirnode.from_string. rewrite Hi, Hr, Hc. reflexivity.
  Qed.

  Lemma stable_inv n : stableb classify n = true -> n_err n = None /\ reread classify n = n.
  Proof.
    unfold stableb. destruct (n_err n); [discriminate|]. intro H. apply node_eqb_eq in H. auto.
  Qed.

  (* a node that equals what its write slot parses to as a known cap is that cap's write node: its
     read-cap field is the tidy read cap, which on its own parses as a read cap *)
  Lemma known_rw_slot n w :
    caps_coherent -> nonempty (rstrip_sp (or_empty (n_rw n))) = Some w -> from_string w false = FKnown n ->
    n_err (reread_ro classify n) = None /\ n_rw (reread_ro classify n) = None.
  Proof.
    intros Hco Hrw Fw. destruct (from_string_known _ _ _ Fw) as (_ & _ & [H|[H|H]]).
    - destruct H as (d & c & r & Hc & _ & _ & Hn). destruct (Hco _ _ _ _ Hc) as (_ & Htr & Hcr).
      unfold reread_ro, stored_ro. rewrite Hn. cbn [n_ro or_empty].
      rewrite (tidy_strip _ _ Htr), (nonempty_tidy _ Htr), (cfc_none_some false r (tidy_nonempty _ Htr)),
        (from_string_tidy_read _ _ Htr Hcr).
      split; reflexivity.
    - destruct H as (d & c & _ & _ & _ & Hn). rewrite Hn in Hrw. discriminate.
    - destruct H as (d & c & _ & ->). discriminate.
  Qed.

  (* a write cap that the node maker finds in a lone read-cap field is a known one, hence tidy *)
  Lemma cfc_ro_rw_tidy x c :
    caps_coherent -> n_rw (create_from_cap false None (nonempty x)) = Some c -> tidy c.
  Proof.
    intro Hco. destruct (nonempty x) as [x'|] eqn:Ex; [|discriminate].
    destruct (nonempty_some _ _ Ex) as [<- Hx]. rewrite (cfc_none_some false x Hx).
    destruct (from_string x false) as [n|e] eqn:F.
    - destruct (from_string_known _ _ _ F) as (_ & _ & [H|[H|H]]).
      + destruct H as (d & c' & r & Hc & _ & _ & ->). intro E. inversion E. subst c'. exact (proj1 (Hco _ _ _ _ Hc)).
      + destruct H as (d & c' & _ & _ & _ & ->). discriminate.
      + destruct H as (d & c' & _ & ->). discriminate.
    - rewrite (unknown_node_ro_only x Hx), F. destruct e as [e|]; discriminate.
  Qed.

  (* C18 for one child: what a read-only reader rebuilds from it *)
  Theorem reread_ro_readonly n :
    caps_coherent -> stableb classify n = true -> ro_slot_okb classify n = true ->
    n_err (reread_ro classify n) = None /\ n_rw (reread_ro classify n) = None.
  Proof.
    intros Hco Hst Hslot. destruct (stable_inv _ Hst) as [Herr Hre]. unfold reread in Hre.
    destruct (nonempty (rstrip_sp (or_empty (n_rw n)))) as [w|] eqn:Hrw.
    - destruct (nonempty_some _ _ Hrw) as [_ Hw]. rewrite (cfc_some false w _ Hw) in Hre.
      destruct (from_string w false) as [nw|ew] eqn:Fw.
      + (* n is the known node of its write cap *)
        subst nw. exact (known_rw_slot n w Hco Hrw Fw).
      + (* n is an UnknownNode holding a write cap and the read cap x *)
        unfold ro_slot_okb in Hslot. unfold reread_ro in *.
        destruct (nonempty (rstrip_sp (stored_ro false n))) as [x|] eqn:Ex; [|split; reflexivity].
        destruct (nonempty_some _ _ Ex) as [_ Hx]. clear Ex.
        rewrite (unknown_node_both w x Hw Hx) in Hre. rewrite (cfc_none_some false x Hx) in *.
        destruct (starts_with IMM_PREFIX x); [rewrite <- Hre in Herr; discriminate|].
        destruct (from_string x false) as [n'|[e|]] eqn:F.
        * (* x alone is a known cap: the excluded class unless that cap is read-only *)
          rewrite <- Hre in Hslot. cbn in Hslot. apply negb_true_iff in Hslot. unfold has_rw in Hslot.
          destruct (from_string_known _ _ _ F) as (E' & _). destruct (n_rw n'); [discriminate|]. auto.
        * rewrite <- Hre in Herr. discriminate.
        * rewrite (unknown_node_ro_only x Hx), F. split; reflexivity.
    - (* no write cap: n is what the read-only reader builds *)
      unfold reread_ro. rewrite Hre. split; [exact Herr|].
      destruct (n_rw n) as [c|] eqn:E; [|reflexivity]. rewrite <- Hre in E.
      apply (cfc_ro_rw_tidy _ _ Hco), nonempty_tidy in E. cbn [or_empty] in Hrw. congruence.
  Qed.

  Lemma starts_with_split p s : starts_with p s = true -> s = p ++ skipn (List.length p) s.
  Proof.
    revert s. induction p as [|x p IH]; intros s H; [reflexivity|].
    destruct s as [|y s]; [discriminate|]. cbn in H. apply andb_prop in H. destruct H as [E H].
    apply N.eqb_eq in E. subst y. cbn. f_equal. apply IH. exact H.
  Qed.

  Lemma rstrip_suffix (a b : bytes) : rstrip_sp (a ++ b) = a ++ b -> b <> [] -> rstrip_sp b = b.
  Proof.
    induction a as [|x a IH]; intros H Hb; [exact H|].
    cbn [app rstrip_sp] in H. destruct (rstrip_sp (a ++ b)) as [|y r'] eqn:E.
    - exfalso. destruct (x =? 32); [discriminate|]. inversion H as [H1]. symmetry in H1. apply app_eq_nil in H1. tauto.
    - inversion H as [H1]. apply IH; [|exact Hb]. rewrite H1. reflexivity.
  Qed.

  (* a cap string as a caller may hand it over: no trailing space; an alleged prefix is followed by a
     non-empty body that is not prefixed again *)
  Definition cap_ok (u : bytes) : Prop :=
    rstrip_sp u = u /\ (prefixed u = true -> body_of u <> [] /\ prefixed (body_of u) = false).
  Definition ocap_ok (o : option bytes) : Prop := match o with Some u => cap_ok u | None => True end.

  (* assumed of uri.py's classification: the fields of every known cap are tidy and classify again
     to the same class (instantiated at a write cap, this is caps_coherent) *)
  Definition caps_coherent_full : Prop :=
    forall s, match classify s with
              | KWrite d c r => tidy c /\ tidy r /\ classify c = KWrite d c r /\ classify r = KRead d r
              | KRead d c => tidy c /\ classify c = KRead d c
              | KImm d c => tidy c /\ classify c = KImm d c
              | _ => True
              end.

  (* a node is reread as itself when its read-cap field is tidy and its first cap, tidy too, parses to it *)
  Lemma reread_known n c ro :
    n_ro n = Some ro -> tidy ro -> tidy c -> from_string c false = FKnown n ->
    n_rw n = Some c \/ (n_rw n = None /\ ro = c) ->
    reread classify n = n.
  Proof.
    intros Hro Htr Htc F Hrw. unfold reread, stored_ro. rewrite Hro. cbn [or_empty].
    rewrite (tidy_strip _ _ Htr), (nonempty_tidy _ Htr).
    destruct Hrw as [->|[-> ->]]; cbn [or_empty rstrip_sp nonempty].
    - rewrite (nonempty_tidy _ Htc), (cfc_some false c _ (tidy_nonempty _ Htc)), F. reflexivity.
    - rewrite (cfc_none_some false c (tidy_nonempty _ Htc)), F. reflexivity.
  Qed.

  Lemma unknown_node_truthy w r di : unknown_node w r di = unknown_node (truthy w) (truthy r) di.
  Proof.
    unfold Dirnode.unknown_node.
    assert (T : forall o, truthy (truthy o) = truthy o) by (intros [[|? ?]|]; reflexivity).
    rewrite !T. reflexivity.
  Qed.

  Lemma nonempty_rstrip_fixed (u : bytes) : rstrip_sp u = u -> u <> [] -> nonempty (rstrip_sp u) = Some u.
  Proof. intros -> H. destruct u; [congruence|reflexivity]. Qed.

  Lemma from_string_plain u :
    prefixed u = false ->
    from_string u false
    = match classify u with
      | KWrite d c r => FKnown {| n_kind := kind_of d; n_rw := Some c; n_ro := Some r; n_mut := true; n_err := None |}
      | KRead d c => FKnown {| n_kind := kind_of d; n_rw := None; n_ro := Some c; n_mut := true; n_err := None |}
      | KImm d c => FKnown {| n_kind := kind_of d; n_rw := None; n_ro := Some c; n_mut := false; n_err := None |}
      | KBad _ => FUnknown (Some EBadURI)
      | _ => FUnknown None
      end.
  Proof.
    intro H. unfold prefixed in H. apply orb_false_iff in H. destruct H as [Hr Hi].
    unfold Dirnode.from_string. rewrite Hi, Hr. cbn [negb].
    destruct (classify u) as [d c r|d c|d c|[]| | |]; reflexivity.
  Qed.

  Lemma from_string_ro body :
    from_string (RO_PREFIX ++ body) false
    = match classify body with
      | KWrite _ _ _ => FUnknown (Some EMustBeReadonly)
      | KRead d c => FKnown {| n_kind := kind_of d; n_rw := None; n_ro := Some c; n_mut := true; n_err := None |}
      | KImm d c => FKnown {| n_kind := kind_of d; n_rw := None; n_ro := Some c; n_mut := false; n_err := None |}
      | KBad GWrite => FUnknown (Some EMustBeReadonly)
      | KBad _ => FUnknown (Some EBadURI)
      | KFutureW => FUnknown (Some EMustBeReadonly)
      | _ => FUnknown None
      end.
  Proof.
    unfold Dirnode.from_string.
    change (starts_with IMM_PREFIX (RO_PREFIX ++ body)) with false.
    change (starts_with RO_PREFIX (RO_PREFIX ++ body)) with true.
    change (skipn 3 (RO_PREFIX ++ body)) with body. cbn [negb].
    destruct (classify body) as [d c r|d c|d c|[]| | |]; reflexivity.
  Qed.

  (* the read-cap field written for an UnknownNode whose read cap came from the caller's string x *)
  Definition ro_field (x : bytes) : bytes :=
    if starts_with IMM_PREFIX x then x else if starts_with RO_PREFIX x then skipn 3 x else x.

  Lemma stored_ro_unknown_plain rw x : stored_ro false (unknown_plain rw x) = ro_field x.
  Proof.
    unfold stored_ro, unknown_plain, ro_field, prefixed. cbn [n_ro].
    destruct (starts_with IMM_PREFIX x) eqn:Ei.
    - rewrite orb_true_r. cbn [or_empty]. unfold strip_prefix_for_ro. rewrite Ei. reflexivity.
    - destruct (starts_with RO_PREFIX x) eqn:Er; cbn [orb or_empty].
      + unfold strip_prefix_for_ro. rewrite Ei, Er. reflexivity.
      + reflexivity.
  Qed.

  (* reading the field back gives the same UnknownNode read cap, and no error *)
  Lemma ro_field_back x :
    cap_ok x -> x <> [] ->
    (forall e, from_string x false <> FUnknown (Some e)) ->
    let y := ro_field x in
    y <> [] /\ rstrip_sp y = y /\
    (forall e, from_string y false <> FUnknown (Some e)) /\
    starts_with IMM_PREFIX y = starts_with IMM_PREFIX x /\
    (if prefixed y then Some y else Some (RO_PREFIX ++ y)) = (if prefixed x then Some x else Some (RO_PREFIX ++ x)) /\
    (from_string x false = FUnknown None -> from_string y false = FUnknown None).
  Proof.
    intros [Hrs Hpre] Hne Herr. unfold ro_field. cbv zeta.
    destruct (starts_with IMM_PREFIX x) eqn:Ei.
    - repeat split; auto.
    - destruct (starts_with RO_PREFIX x) eqn:Er.
      + assert (Hp : prefixed x = true) by (unfold prefixed; rewrite Er; reflexivity).
        destruct (Hpre Hp) as [Hb Hbp]. unfold body_of in Hb, Hbp. rewrite Ei, Er in Hb, Hbp.
        pose proof (starts_with_split _ _ Er) as Hx. change (List.length RO_PREFIX) with 3%nat in Hx.
        set (body := skipn 3 x) in *.
        assert (Hrb : rstrip_sp body = body) by (apply (rstrip_suffix RO_PREFIX body); [rewrite <- Hx; exact Hrs|exact Hb]).
        assert (Hfs : from_string x false = from_string (RO_PREFIX ++ body) false) by (rewrite <- Hx; reflexivity).
        rewrite from_string_ro in Hfs.
        pose proof (from_string_plain body Hbp) as Hfb.
        unfold prefixed in Hbp. apply orb_false_iff in Hbp. destruct Hbp as [Hbr Hbi].
        split; [exact Hb|]. split; [exact Hrb|]. split; [|split; [exact Hbi|split]].
        * intros e He. rewrite Hfb in He.
          destruct (classify body) as [d c r|d c|d c|g| | |]; try discriminate.
          destruct g; eapply Herr; rewrite Hfs; reflexivity.
        * unfold prefixed. rewrite Hbr, Hbi, Er. cbn [orb]. rewrite <- Hx. reflexivity.
        * rewrite Hfs, Hfb.
          destruct (classify body) as [d c r|d c|d c|g| | |]; intro F0; try discriminate F0; try reflexivity.
          destruct g; discriminate F0.
      + repeat split; auto.
  Qed.

  Lemma reread_unknown_plain x :
    cap_ok x -> x <> [] -> from_string x false = FUnknown None ->
    reread classify (unknown_plain None x) = unknown_plain None x.
  Proof.
    intros Hok Hne F.
    assert (Hnoerr : forall e, from_string x false <> FUnknown (Some e)) by (intros e He; rewrite He in F; discriminate).
    destruct (ro_field_back x Hok Hne Hnoerr) as (Hy & Hry & _ & _ & Hroy & Hun).
    unfold reread. rewrite stored_ro_unknown_plain. cbn [n_rw unknown_plain or_empty rstrip_sp nonempty].
    rewrite (nonempty_rstrip_fixed _ Hry Hy), (cfc_none_some false _ Hy), (Hun F), (unknown_node_ro_only _ Hy), (Hun F).
    unfold unknown_plain. rewrite Hroy. reflexivity.
  Qed.

  Lemma plain_if_no_err rw x :
    (forall e, from_string x false <> FUnknown (Some e)) ->
    match from_string x false with FUnknown (Some e) => opaque_node (Some e) | _ => unknown_plain rw x end
    = unknown_plain rw x.
  Proof. intro H. destruct (from_string x false) as [?|[e'|]]; try reflexivity. destruct (H e' eq_refl). Qed.

  Lemma truthy_cap_ok o x : ocap_ok o -> truthy o = Some x -> cap_ok x /\ x <> [].
  Proof. destruct o as [[|b o]|]; try discriminate. intros H E. inversion E; subst. split; [exact H|discriminate]. Qed.

  (* C19: the nodes the node maker builds are stable *)
  Theorem cfc_stable w r :
    caps_coherent_full -> ocap_ok w -> ocap_ok r ->
    n_err (create_from_cap false w r) = None ->
    stableb classify (create_from_cap false w r) = true.
  Proof.
    intros Hco Hw Hr Herr. unfold stableb. rewrite Herr. apply node_eqb_eq.
    unfold Dirnode.create_from_cap in *.
    destruct (match truthy w with Some w0 => Some w0 | None => truthy r end) as [b|] eqn:Eb.
    2:{ reflexivity. }
    destruct (from_string b false) as [n|e0] eqn:F.
    - (* a known node: its caps are canonical, reading them back classifies the same way *)
      specialize (Hco (body_of b)). destruct (from_string_known _ _ _ F) as (_ & _ & [H|[H|H]]).
      + destruct H as (d & c & r0 & Hc & _ & _ & ->). rewrite Hc in Hco.
        destruct Hco as (Htc & Htr & Hcc & _).
        apply (reread_known _ c r0); auto. rewrite (from_string_plain c (proj2 Htc)), Hcc. reflexivity.
      + destruct H as (d & c & Hc & _ & _ & ->). rewrite Hc in Hco. destruct Hco as (Htc & Hcc).
        apply (reread_known _ c c); auto. rewrite (from_string_plain c (proj2 Htc)), Hcc. reflexivity.
      + destruct H as (d & c & Hc & ->). rewrite Hc in Hco. destruct Hco as (Htc & Hcc).
        apply (reread_known _ c c); auto. rewrite (from_string_plain c (proj2 Htc)), Hcc. reflexivity.
    - (* an UnknownNode *)
      rewrite unknown_node_truthy in *.
      destruct (truthy w) as [w1|] eqn:Ew.
      + (* a cap in the write slot *)
        inversion Eb; subst b. clear Eb.
        destruct (truthy_cap_ok w w1 Hw Ew) as [Hokw Hnew].
        destruct (truthy r) as [r1|] eqn:Er.
        * destruct (truthy_cap_ok r r1 Hr Er) as [Hokr Hner].
          rewrite (unknown_node_both w1 r1 Hnew Hner) in *.
          destruct (starts_with IMM_PREFIX r1) eqn:Ei; [discriminate|].
          assert (Hnoerr : forall e, from_string r1 false <> FUnknown (Some e)).
          { intros e He. rewrite He in Herr. discriminate. }
          rewrite (plain_if_no_err (Some w1) r1 Hnoerr). clear Herr.
          destruct (ro_field_back r1 Hokr Hner Hnoerr) as (Hy & Hry & Hey & Hiy & Hroy & _).
          unfold reread. rewrite stored_ro_unknown_plain. cbn [n_rw unknown_plain or_empty].
          destruct Hokw as [Hrw _].
          rewrite (nonempty_rstrip_fixed w1 Hrw Hnew), (nonempty_rstrip_fixed _ Hry Hy).
          rewrite (cfc_some false w1 _ Hnew), F.
          rewrite (unknown_node_both w1 (ro_field r1) Hnew Hy), Hiy, Ei, (plain_if_no_err (Some w1) _ Hey).
          unfold unknown_plain. rewrite Hroy. reflexivity.
        * (* only a write-slot cap: accepted when it carries an alleged prefix; it then is the read cap *)
          rewrite (unknown_node_rw_only w1 Hnew) in *.
          destruct (prefixed w1); [|discriminate].
          rewrite F in *. destruct e0 as [e|]; [discriminate|]. exact (reread_unknown_plain w1 Hokw Hnew F).
      + (* only a read-slot cap *)
        destruct (truthy r) as [r1|] eqn:Er; [|discriminate]. inversion Eb; subst b. clear Eb.
        destruct (truthy_cap_ok r r1 Hr Er) as [Hokr Hner].
        rewrite (unknown_node_ro_only r1 Hner), F in *.
        destruct e0 as [e|]; [discriminate|]. exact (reread_unknown_plain r1 Hokr Hner F).
  Qed.
End CapFacts.
