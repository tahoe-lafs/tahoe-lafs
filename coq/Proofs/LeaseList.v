(* C25, whatever the container: a lease against the lease a renewal makes of it (`extends`),
   and the reference `renew_first` read on a list of numbered leases.  The scans of both
   container kinds (`renew_scan`, `imm_renew_scan`) are a `first_match` on such a list
   (renew_scan_find in Proofs/LeaseMutable.v, imm_renew_scan_find in Proofs/LeaseImmutable.v). *)
From Coq Require Import List NArith Bool Lia.
From Verif Require Import Lib.Hex Model.MutContainer Model.Lease.
Import ListNotations.
Local Open Scope N_scope.

(* what `never_shorter` and `never_shorter_list` ask of each lease *)
Definition extends (l l' : lease) : Prop := same_lease l l' /\ l_expire l <= l_expire l'.

Lemma extends_refl l : extends l l.
Proof. split; [destruct l; reflexivity|apply N.le_refl]. Qed.

Lemma extends_set_expire l t : l_expire l <= t -> extends l (set_expire l t).
Proof. intro Ht. split; [destruct l; reflexivity|exact Ht]. Qed.

Lemma never_shorter_refl {A} (E : list (A * lease)) : never_shorter E E.
Proof. intros i l Hin. exists l. split; [exact Hin|apply extends_refl]. Qed.

Lemma never_shorter_list_refl ls : never_shorter_list ls ls.
Proof. intros k l Hk. exists l. split; [exact Hk|apply extends_refl]. Qed.

(* struct.pack(">L") refuses what does not fit 4 bytes; both record formats hold the owner and the
   expiry that way *)
Lemma ser_err l : 2 ^ 32 <= l_owner l \/ 2 ^ 32 <= l_expire l ->
  ser_mutable l = Err EStruct /\ ser_immutable l = Err EStruct.
Proof.
  intro Hb. unfold ser_mutable, ser_immutable, pack_be. change (256 ^ N.of_nat 4) with (2 ^ 32).
  destruct (N.ltb_spec (l_owner l) (2 ^ 32)); [destruct (N.ltb_spec (l_expire l) (2 ^ 32)); [lia|]|]; split; reflexivity.
Qed.

Lemma fit4_cases a b : a < 2 ^ 32 /\ b < 2 ^ 32 \/ (2 ^ 32 <= a \/ 2 ^ 32 <= b).
Proof. lia. Qed.

(* a numbered list with the lease numbered i replaced by l' *)
Definition set_at (i : N) (l' : lease) (il : N * lease) : N * lease := if fst il =? i then (i, l') else il.

Lemma set_at_id (E : list (N * lease)) i l : (forall x, In (i, x) E -> x = l) -> map (set_at i l) E = E.
Proof.
  intro Hf. rewrite <- (map_id E) at 2. apply map_ext_in. intros [j x] Hin. unfold set_at. cbn [fst].
  destruct (N.eqb_spec j i) as [->|]; [|reflexivity]. rewrite (Hf x Hin). reflexivity.
Qed.

Section WithHash.
Variable H : list N -> list N.

Lemma extends_renewed l t : extends l (renewed l t).
Proof.
  unfold renewed. destruct (N.ltb_spec (l_expire l) t); [apply extends_set_expire, N.lt_le_incl; assumption|apply extends_refl].
Qed.

Lemma first_match_in {A} v (ls : list (A * lease)) s i l :
  first_match H v ls s = Some (i, l) -> In (i, l) ls /\ is_renew_secret H v l s = true.
Proof. apply find_some. Qed.

Lemma first_match_none {A} v (ls : list (A * lease)) s :
  first_match H v ls s = None <-> no_match H v (map snd ls) s = true.
Proof.
  unfold first_match, no_match. induction ls as [|[i l] r IH]; [cbn; tauto|].
  cbn [find map forallb snd]. destruct (is_renew_secret H v l s); cbn [negb andb]; [split; discriminate|exact IH].
Qed.

Lemma renew_first_none v ls s t : renew_first H v ls s t = None <-> no_match H v ls s = true.
Proof.
  unfold no_match. induction ls as [|l r IH]; [cbn; tauto|]. cbn [renew_first forallb].
  destruct (is_renew_secret H v l s); cbn [negb andb]; [split; discriminate|].
  rewrite <- IH. destruct (renew_first H v r s t); cbn [option_map]; split; congruence.
Qed.

Lemma renew_first_length v ls s t ls' : renew_first H v ls s t = Some ls' -> length ls' = length ls.
Proof.
  revert ls'; induction ls as [|l r IH]; intros ls' Hr; [discriminate|]. cbn [renew_first] in Hr.
  destruct (is_renew_secret H v l s); [inversion Hr; reflexivity|].
  destruct (renew_first H v r s t) as [x|]; [|discriminate]. inversion Hr. cbn. f_equal. apply IH. reflexivity.
Qed.

Lemma renew_first_never_shorter v ls s t ls' : renew_first H v ls s t = Some ls' -> never_shorter_list ls ls'.
Proof.
  revert ls'; induction ls as [|l r IH]; intros ls' Hr; [discriminate|]. cbn [renew_first] in Hr.
  destruct (is_renew_secret H v l s).
  - inversion Hr; subst. intros [|k] x Hk; cbn [nth_error] in *.
    + inversion Hk; subst. exists (renewed x t). split; [reflexivity|apply extends_renewed].
    + exists x. split; [exact Hk|apply extends_refl].
  - destruct (renew_first H v r s t) as [r'|]; [|discriminate]. inversion Hr; subst.
    intros [|k] x Hk; cbn [nth_error] in *.
    + exists x. split; [exact Hk|apply extends_refl].
    + apply (IH r' eq_refl k x Hk).
Qed.

(* on a list numbered without repetition, `renew_first` renews the lease `first_match` finds *)
Lemma renew_first_numbered v (E : list (N * lease)) s t : NoDup (map fst E) ->
  renew_first H v (map snd E) s t =
  match first_match H v E s with
  | None => None
  | Some (i, l) => Some (map snd (map (set_at i (renewed l t)) E))
  end.
Proof.
  destruct (first_match H v E s) as [[i l]|] eqn:Ef; [|intros _; apply renew_first_none, first_match_none, Ef].
  revert Ef. unfold first_match. induction E as [|[j x] r IH]; intros Hf Hnd; [discriminate|].
  cbn [map fst] in Hnd. apply NoDup_cons_iff in Hnd. destruct Hnd as [Hnin Hnd].
  cbn [find snd] in Hf. cbn [map snd renew_first]. unfold set_at at 1. cbn [fst].
  destruct (is_renew_secret H v x s).
  - inversion Hf; subst. rewrite N.eqb_refl, set_at_id; [reflexivity|].
    intros x' Hin. destruct Hnin. exact (in_map fst _ _ Hin).
  - rewrite (IH Hf Hnd). destruct (N.eqb_spec j i) as [->|]; [|reflexivity].
    destruct Hnin. apply find_some in Hf. exact (in_map fst _ _ (proj1 Hf)).
Qed.

End WithHash.
