(* C09: every operation keeps the version a representation of the reference byte string;
   histories by induction. *)
From Coq Require Import List Arith NArith Bool Lia.
From Verif Require Import Lib.Hex Model.MutFile Proofs.MutFileLists Proofs.MutFileRead Proofs.MutFileTU Proofs.MutFileUpdate.
Import ListNotations.

Lemma do_overwrite_represents sdmf maxseg k (Hk : 0 < k) f old new :
  represents sdmf maxseg k f old ->
  exists f', do_overwrite maxseg f new = Some f' /\ represents sdmf maxseg k f' new.
Proof.
  intros (Hs & Hk' & _). unfold do_overwrite. rewrite Hs, Hk'. apply publish_represents; assumption.
Qed.

Lemma do_modify_represents sdmf maxseg k (Hk : 0 < k) (Hm : sdmf = false -> 0 < maxseg) f old m :
  represents sdmf maxseg k f old ->
  exists f', do_modify maxseg f m = Some f' /\
             represents sdmf maxseg k f' (match m old with Some new => new | None => old end).
Proof.
  intros R. unfold do_modify. rewrite (read_all_represents sdmf maxseg k f old R Hk Hm).
  destruct (m old) as [new|]; [|exists f; split; [reflexivity|exact R]].
  destruct (list_N_eqb new old) eqn:E.
  - apply list_N_eqb_eq in E. subst new. exists f. split; [reflexivity|exact R].
  - destruct R as (Hs & Hk' & _). rewrite Hs, Hk'. apply publish_represents; assumption.
Qed.

Lemma do_update_represents sdmf maxseg k (Hk : 0 < k) (Hm : sdmf = false -> 0 < maxseg) f old data off :
  represents sdmf maxseg k f old -> off <= length old ->
  exists f', do_update maxseg f data off = Some f' /\ represents sdmf maxseg k f' (splice old data off).
Proof.
  intros R Hoff. unfold do_update.
  pose proof (do_modify_represents sdmf maxseg k Hk Hm f old (fun o => Some (splice o data off)) R) as Hmod.
  pose proof R as (Hs & _ & _ & Hlen & _). rewrite Hs.
  destruct sdmf; [exact Hmod|].
  pose proof (represents_seg_pos _ _ _ _ _ R Hk Hm ltac:(discriminate)) as NZ.
  destruct (Nat.eqb_spec (mf_segsize f) 0) as [|_]; [contradiction|]. rewrite Hlen.
  destruct ((off =? length old) && (off / mf_segsize f =? div_ceil (length old) (mf_segsize f))) eqn:Ec;
    [exact Hmod|].
  apply update_in_place_represents; try assumption; [apply Hm; reflexivity|].
  (* not the re-encoding branch: off is inside the last segment or before it *)
  apply div_ceil_lt_iff; [exact NZ|].
  pose proof (Nat.mul_div_le off (mf_segsize f) NZ).
  destruct (Nat.eq_dec (off / mf_segsize f * mf_segsize f) (length old)) as [E|E]; [exfalso|lia].
  apply andb_false_iff in Ec. destruct Ec as [Ec|Ec]; apply Nat.eqb_neq in Ec; apply Ec; [lia|].
  rewrite <- E, Nat.mul_comm. symmetry. apply div_ceil_mul. exact NZ.
Qed.

Lemma apply_impl_represents sdmf maxseg k (Hk : 0 < k) (Hm : sdmf = false -> 0 < maxseg) f cur o :
  represents sdmf maxseg k f cur -> op_ok cur o ->
  exists f', apply_impl maxseg f o = Some f' /\ represents sdmf maxseg k f' (apply_spec cur o).
Proof.
  intros R Hok. destruct o as [new|m|data off]; cbn [apply_impl apply_spec].
  - exact (do_overwrite_represents sdmf maxseg k Hk f cur new R).
  - exact (do_modify_represents sdmf maxseg k Hk Hm f cur m R).
  - exact (do_update_represents sdmf maxseg k Hk Hm f cur data off R Hok).
Qed.

Lemma run_impl_represents sdmf maxseg k (Hk : 0 < k) (Hm : sdmf = false -> 0 < maxseg) ops : forall f cur,
  represents sdmf maxseg k f cur -> history_ok cur ops ->
  exists f', run_impl maxseg f ops = Some f' /\ represents sdmf maxseg k f' (run_spec cur ops).
Proof.
  induction ops as [|o r IH]; intros f cur R Hh.
  - exists f. split; [reflexivity|exact R].
  - destruct Hh as [Hok Hr].
    destruct (apply_impl_represents sdmf maxseg k Hk Hm f cur o R Hok) as (f1 & H1 & R1).
    cbn [run_impl]. rewrite H1. exact (IH f1 (apply_spec cur o) R1 Hr).
Qed.

Lemma history_represents sdmf maxseg k (Hk : 0 < k) (Hm : sdmf = false -> 0 < maxseg) init ops : history_ok init ops ->
  exists f0 f, publish sdmf maxseg k init = Some f0 /\ run_impl maxseg f0 ops = Some f /\
               represents sdmf maxseg k f (run_spec init ops).
Proof.
  intros Hh. destruct (publish_represents sdmf maxseg k init Hk) as (f0 & H0 & R0).
  destruct (run_impl_represents sdmf maxseg k Hk Hm ops f0 init R0 Hh) as (f & H1 & R1).
  exists f0, f. exact (conj H0 (conj H1 R1)).
Qed.

Lemma history_ok_app cur a b : history_ok cur (a ++ b) -> history_ok cur a.
Proof.
  revert cur. induction a as [|o r IH]; intros cur H; [exact I|].
  destruct H as [H1 H2]. split; [exact H1|]. apply IH. exact H2.
Qed.

(* offset > size on an MDMF file: neither the append test nor update_in_place's assert lets it through *)
Lemma do_update_rejects maxseg f data off :
  mf_sdmf f = false -> mf_len f < off -> do_update maxseg f data off = None.
Proof.
  intros Hs Hoff. unfold do_update. rewrite Hs. destruct (mf_segsize f =? 0); [reflexivity|].
  rewrite (proj2 (Nat.eqb_neq off (mf_len f))) by lia. cbn [andb].
  unfold update_in_place. rewrite (proj2 (Nat.leb_gt off (mf_len f))) by lia. reflexivity.
Qed.

Lemma do_update_past_eof_rejected maxseg k f old data off :
  0 < k -> 0 < maxseg -> represents false maxseg k f old -> length old < off ->
  do_update maxseg f data off = None.
Proof. intros _ _ (Hs & _ & _ & Hl & _) H. apply do_update_rejects; [exact Hs|rewrite Hl; exact H]. Qed.
