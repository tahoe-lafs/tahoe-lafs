(* C39: the byte-list operations of Model/Overwrite.v (temporary-file writes and
   truncation, the reference operations), characterised index by index. *)
From Coq Require Import List NArith Bool Lia.
From Verif Require Import Lib.ListFacts Model.Overwrite.
Import ListNotations.
Local Open Scope N_scope.

Lemma range_spec a b i : BoolSpec (a <= i < b) (~ a <= i < b) ((a <=? i) && (i <? b)).
Proof. destruct (N.leb_spec a i), (N.ltb_spec i b); constructor; lia. Qed.

Section Lists.
Context {A : Type}.
Implicit Types l a b : list A.

Lemma len_nil : len (@nil A) = 0.
Proof. reflexivity. Qed.

Lemma len_cons x l : len (x :: l) = len l + 1.
Proof. unfold len. simpl length. lia. Qed.

Lemma len_app a b : len (a ++ b) = len a + len b.
Proof. unfold len. rewrite app_length. lia. Qed.

Lemma len_take n l : len (take n l) = N.min n (len l).
Proof. unfold len, take. rewrite firstn_length. lia. Qed.

Lemma len_drop n l : len (drop n l) = len l - n.
Proof. unfold len, drop. rewrite skipn_length. lia. Qed.

Lemma len_zero_nil l : len l = 0 -> l = [].
Proof. destruct l; [reflexivity|]. rewrite len_cons. lia. Qed.

Lemma get_some l i : i < len l -> exists x, get l i = Some x.
Proof.
  unfold get, len. intro H.
  destruct (nth_error l (N.to_nat i)) eqn:E; [eauto|].
  apply nth_error_None in E. lia.
Qed.

Lemma get_none l i : len l <= i -> get l i = None.
Proof. unfold get, len. intro H. apply nth_error_None. lia. Qed.

Lemma get_lt l i x : get l i = Some x -> i < len l.
Proof.
  unfold get, len. intro H.
  assert (nth_error l (N.to_nat i) <> None) as H1 by congruence.
  apply nth_error_Some in H1. lia.
Qed.

Lemma get_app a b i : get (a ++ b) i = if i <? len a then get a i else get b (i - len a).
Proof.
  unfold get, len. destruct (N.ltb_spec i (N.of_nat (length a))).
  - apply nth_error_app1. lia.
  - rewrite nth_error_app2 by lia. f_equal. lia.
Qed.

Lemma get_take n l i : get (take n l) i = if i <? n then get l i else None.
Proof.
  unfold get, take. destruct (N.ltb_spec i n).
  - apply nth_error_firstn. lia.
  - apply nth_error_None. rewrite firstn_length. lia.
Qed.

Lemma get_drop n l i : get (drop n l) i = get l (n + i).
Proof. unfold get, drop. rewrite nth_error_skipn. f_equal. lia. Qed.

Lemma get_ext a b : (forall i, get a i = get b i) -> a = b.
Proof.
  intro H. apply nth_error_ext. intro n.
  specialize (H (N.of_nat n)). unfold get in H. rewrite Nat2N.id in H. exact H.
Qed.

Lemma take_drop_ext a b off n :
  (forall j, j < n -> get a (off + j) = get b (off + j)) ->
  take n (drop off a) = take n (drop off b).
Proof.
  intro H. apply get_ext. intro i. rewrite !get_take, !get_drop.
  destruct (N.ltb_spec i n); auto.
Qed.

Lemma take_all n l : len l <= n -> take n l = l.
Proof. unfold take, len. intro H. apply firstn_all2. lia. Qed.

Lemma drop_all n l : len l <= n -> drop n l = [].
Proof. unfold drop, len. intro H. apply skipn_all2. lia. Qed.

End Lists.

Lemma len_gap g s n : len (gap g s n) = n.
Proof. unfold len, gap. rewrite map_length, seq_length. lia. Qed.

Lemma get_gap g s n i : get (gap g s n) i = if i <? n then Some (g (s + i)) else None.
Proof.
  unfold get, gap. destruct (N.ltb_spec i n).
  - rewrite nth_error_map, nth_error_seq by lia. simpl. do 2 f_equal. lia.
  - apply nth_error_None. rewrite map_length, seq_length. lia.
Qed.

Lemma gap_zeros s n : gap (fun _ => 0) s n = zeros n.
Proof.
  unfold gap, zeros. generalize 0%nat.
  induction (N.to_nat n) as [|k IH]; intro b; simpl; [|rewrite IH]; reflexivity.
Qed.

Lemma len_zeros n : len (zeros n) = n.
Proof. rewrite <- (gap_zeros 0). apply len_gap. Qed.

Lemma get_zeros n i : get (zeros n) i = if i <? n then Some 0 else None.
Proof. rewrite <- (gap_zeros 0). apply get_gap. Qed.

(* Every write and extension of the file and of the reference is made of two
   operations: [pad] extends a list to length n by a hole, [splice] replaces the
   bytes from pos on by data.  A truncation is [take] of the padded list. *)
Definition pad (g : N -> N) (l : list N) (n : N) : list N :=
  if len l <? n then l ++ gap g (len l) (n - len l) else l.

Definition splice (l : list N) (pos : N) (data : list N) : list N :=
  take pos l ++ data ++ drop (pos + len data) l.

Lemma len_pad g l n : len (pad g l n) = N.max (len l) n.
Proof.
  unfold pad. destruct (N.ltb_spec (len l) n); [|lia].
  rewrite len_app, len_gap. lia.
Qed.

Lemma pad_le g l n : n <= len (pad g l n).
Proof. rewrite len_pad. lia. Qed.

Lemma get_pad g l n i :
  get (pad g l n) i = if i <? len l then get l i else if i <? n then Some (g i) else None.
Proof.
  unfold pad. destruct (N.ltb_spec (len l) n).
  - rewrite get_app, get_gap. destruct (N.ltb_spec i (len l)); [reflexivity|].
    destruct (N.ltb_spec i n), (N.ltb_spec (i - len l) (n - len l)); try lia; [|reflexivity].
    do 2 f_equal. lia.
  - destruct (N.ltb_spec i (len l)); [reflexivity|].
    destruct (N.ltb_spec i n); [lia|]. apply get_none. assumption.
Qed.

Lemma len_splice l pos data :
  pos <= len l -> len (splice l pos data) = N.max (len l) (pos + len data).
Proof. intro H. unfold splice. rewrite !len_app, len_take, len_drop. lia. Qed.

Lemma get_splice l pos data i :
  pos <= len l ->
  get (splice l pos data) i =
    if (pos <=? i) && (i <? pos + len data) then get data (i - pos) else get l i.
Proof.
  intro H. unfold splice. rewrite !get_app, len_take, get_take, get_drop, N.min_l by exact H.
  destruct (range_spec pos (pos + len data) i), (N.ltb_spec i pos); try lia; [|reflexivity|].
  - destruct (N.ltb_spec (i - pos) (len data)); [reflexivity | lia].
  - destruct (N.ltb_spec (i - pos) (len data)); [lia|]. f_equal. lia.
Qed.

Lemma fwrite_nil g f pos : fwrite g f pos [] = f.
Proof. reflexivity. Qed.

Lemma fwrite_len0 g f pos data : len data = 0 -> fwrite g f pos data = f.
Proof. intro H. apply len_zero_nil in H. subst. reflexivity. Qed.

Lemma fwrite_splice g f pos data :
  len data <> 0 -> fwrite g f pos data = splice (pad g f pos) pos data.
Proof.
  intro H. destruct data as [|x d]; [destruct H; reflexivity|].
  unfold fwrite, splice, pad. destruct (N.ltb_spec (len f) pos); [|reflexivity].
  rewrite take_all, drop_all, app_nil_r by (rewrite len_app, len_gap; lia).
  apply app_assoc.
Qed.

Lemma ftrunc_pad g f size : ftrunc g f size = take size (pad g f size).
Proof.
  unfold ftrunc, pad. destruct (N.leb_spec size (len f)) as [H | H].
  - apply N.ltb_ge in H. rewrite H. reflexivity.
  - pose proof H as H'. apply N.ltb_lt in H'. rewrite H'. symmetry. apply take_all.
    rewrite len_app, len_gap. lia.
Qed.

(* the reference is a file whose holes read as zeros *)
Lemma ref_write_splice r off data :
  ref_write r off data = splice (pad (fun _ => 0) r off) off data.
Proof. unfold ref_write, pad. rewrite gap_zeros. reflexivity. Qed.

Lemma ref_resize_ftrunc r size : ref_resize r size = ftrunc (fun _ => 0) r size.
Proof. unfold ref_resize, ftrunc. rewrite gap_zeros. reflexivity. Qed.

Lemma len_fwrite g f pos data :
  len (fwrite g f pos data) = if len data =? 0 then len f else N.max (len f) (pos + len data).
Proof.
  destruct (N.eqb_spec (len data) 0) as [E | E].
  - rewrite fwrite_len0 by exact E. reflexivity.
  - rewrite fwrite_splice, len_splice, len_pad by (exact E || apply pad_le). lia.
Qed.

Lemma get_fwrite g f pos data i :
  get (fwrite g f pos data) i =
    if (pos <=? i) && (i <? pos + len data) then get data (i - pos)
    else if i <? len f then get f i
    else if (i <? pos) && negb (len data =? 0) then Some (g i) else None.
Proof.
  destruct (N.eqb_spec (len data) 0) as [E | E].
  - (* nothing is written, whatever pos is *)
    rewrite fwrite_len0, andb_false_r by exact E.
    destruct (range_spec pos (pos + len data) i); [lia|].
    destruct (N.ltb_spec i (len f)); [reflexivity | apply get_none; assumption].
  - rewrite fwrite_splice, get_splice, get_pad, andb_true_r by (exact E || apply pad_le).
    reflexivity.
Qed.

Lemma get_fwrite_in g f pos data i :
  pos <= i < pos + len data -> get (fwrite g f pos data) i = get data (i - pos).
Proof.
  intro H. rewrite get_fwrite. destruct (range_spec pos (pos + len data) i); [reflexivity | tauto].
Qed.

Lemma get_fwrite_out g f pos data i :
  i < len f -> ~ (pos <= i < pos + len data) -> get (fwrite g f pos data) i = get f i.
Proof.
  intros H1 H2. rewrite get_fwrite. destruct (range_spec pos (pos + len data) i); [tauto|].
  apply N.ltb_lt in H1. rewrite H1. reflexivity.
Qed.

Lemma len_ftrunc g f size : len (ftrunc g f size) = size.
Proof. rewrite ftrunc_pad, len_take, len_pad. lia. Qed.

Lemma get_ftrunc g f size i :
  get (ftrunc g f size) i =
    if i <? size then (if i <? len f then get f i else Some (g i)) else None.
Proof. rewrite ftrunc_pad, get_take, get_pad. destruct (N.ltb_spec i size); reflexivity. Qed.

Lemma len_ref_write r off data : len (ref_write r off data) = N.max (len r) (off + len data).
Proof. rewrite ref_write_splice, len_splice, len_pad by apply pad_le. lia. Qed.

Lemma get_ref_write r off data i :
  get (ref_write r off data) i =
    if (off <=? i) && (i <? off + len data) then get data (i - off)
    else if i <? len r then get r i
    else if i <? off then Some 0 else None.
Proof. rewrite ref_write_splice, get_splice, get_pad by apply pad_le. reflexivity. Qed.

Lemma get_ref_write_in r off data i :
  off <= i < off + len data -> get (ref_write r off data) i = get data (i - off).
Proof.
  intro H. rewrite get_ref_write. destruct (range_spec off (off + len data) i); [reflexivity | tauto].
Qed.

Lemma get_ref_write_out r off data i :
  ~ (off <= i < off + len data) ->
  get (ref_write r off data) i = if i <? len r then get r i else if i <? off then Some 0 else None.
Proof.
  intro H. rewrite get_ref_write. destruct (range_spec off (off + len data) i); [tauto | reflexivity].
Qed.

Lemma len_ref_resize r size : len (ref_resize r size) = size.
Proof. rewrite ref_resize_ftrunc. apply len_ftrunc. Qed.

Lemma get_ref_resize r size i :
  get (ref_resize r size) i =
    if i <? size then (if i <? len r then get r i else Some 0) else None.
Proof. rewrite ref_resize_ftrunc. apply get_ftrunc. Qed.
