(* The regenerated derivations (Gen/Hashutil.v, from hashutil.py) equal the
   hand-written specification (Model/HashSpec.v), for all inputs. *)
From Coq Require Import List NArith Bool String Lia ZifyBool ZifyN.
From Verif Require Import Lib.Hex Lib.Decimal Lib.Netstring Lib.SHA256 Lib.HashPrim Gen.Hashutil Model.HashSpec.
Import ListNotations.
Local Open Scope N_scope.

Local Opaque sha256 sha1 netstring dec.

(* hashutil.py builds every derivation but the server permutation from two
   functions, tagged_hash and tagged_pair_hash, each either untruncated or
   truncated to 16 bytes; each is the specification's digest.  A derivation then
   matches its specification as an instance of one of the four lemmas below (the
   tag constants unfold to the same strings). *)
Lemma tagged_hash_spec tag val t : tagged_hash tag val t = truncate t (tagged tag val).
Proof. reflexivity. Qed.

Lemma tagged_pair_hash_spec tag a b t : tagged_pair_hash tag a b t = truncate t (tagged_pair tag a b).
Proof.
  unfold tagged_pair_hash, tagged_pair, hasher_digest, hasher_update, mk_hasher. cbn [h_trunc h_acc].
  rewrite app_nil_l, <- app_assoc. reflexivity.
Qed.

Lemma tagged_hash_full tag val : tagged_hash tag val None = tagged tag val.
Proof. exact (tagged_hash_spec tag val None). Qed.

Lemma tagged_hash_16 tag val : tagged_hash tag val (Some 16) = first 16 (tagged tag val).
Proof. exact (tagged_hash_spec tag val (Some 16)). Qed.

Lemma tagged_pair_hash_full tag a b : tagged_pair_hash tag a b None = tagged_pair tag a b.
Proof. exact (tagged_pair_hash_spec tag a b None). Qed.

Lemma tagged_pair_hash_16 tag a b : tagged_pair_hash tag a b (Some 16) = first 16 (tagged_pair tag a b).
Proof. exact (tagged_pair_hash_spec tag a b (Some 16)). Qed.

Lemma convergence_tag_ok k n segsize secret :
  _convergence_hasher_tag k n segsize secret = spec_convergence_tag k n segsize secret.
Proof. unfold _convergence_hasher_tag, spec_convergence_tag. rewrite <- app_assoc. reflexivity. Qed.

Lemma convergence_hash_ok k n segsize data secret :
  convergence_hash k n segsize data secret = spec_convergence_key k n segsize data secret.
Proof. unfold spec_convergence_key. rewrite <- convergence_tag_ok. apply tagged_hash_16. Qed.

Lemma convergence_pre_ok k n :
  _convergence_hasher_tag_pre k n = spec_convergence_params_ok k n.
Proof. unfold _convergence_hasher_tag_pre, spec_convergence_params_ok. lia. Qed.

Lemma permute_ok a b : permute_server_hash a b = spec_permuted_position a b.
Proof. reflexivity. Qed.

Lemma write_enabler_ok wk p : ssk_write_enabler_hash wk p = spec_write_enabler wk p.
Proof.
  unfold ssk_write_enabler_hash, ssk_write_enabler_master_hash.
  rewrite tagged_pair_hash_full, tagged_hash_full. reflexivity.
Qed.

(* Composed chains as the call sites build them *)
Lemma lease_renewal_chain_ok ls si peer :
  bucket_renewal_secret_hash (file_renewal_secret_hash (my_renewal_secret_hash ls) si) peer
  = spec_renewal_secret_chain ls si peer.
Proof.
  unfold bucket_renewal_secret_hash, file_renewal_secret_hash, my_renewal_secret_hash.
  rewrite !tagged_pair_hash_full, tagged_hash_full. reflexivity.
Qed.
Lemma lease_cancel_chain_ok ls si peer :
  bucket_cancel_secret_hash (file_cancel_secret_hash (my_cancel_secret_hash ls) si) peer
  = spec_cancel_secret_chain ls si peer.
Proof.
  unfold bucket_cancel_secret_hash, file_cancel_secret_hash, my_cancel_secret_hash.
  rewrite !tagged_pair_hash_full, tagged_hash_full. reflexivity.
Qed.
Lemma mutable_key_chain_ok pk :
  (ssk_writekey_hash pk, ssk_readkey_hash (ssk_writekey_hash pk),
   ssk_storage_index_hash (ssk_readkey_hash (ssk_writekey_hash pk))) = spec_mutable_key_chain pk.
Proof.
  unfold ssk_storage_index_hash, ssk_readkey_hash, ssk_writekey_hash.
  rewrite !tagged_hash_16. reflexivity.
Qed.

Definition all_tags : list (list N) :=
  [STORAGE_INDEX_TAG; BLOCK_TAG; UEB_TAG; PLAINTEXT_TAG; CIPHERTEXT_TAG; CIPHERTEXT_SEGMENT_TAG;
   PLAINTEXT_SEGMENT_TAG; CONVERGENT_ENCRYPTION_TAG; CLIENT_RENEWAL_TAG; CLIENT_CANCEL_TAG;
   FILE_RENEWAL_TAG; FILE_CANCEL_TAG; BUCKET_RENEWAL_TAG; BUCKET_CANCEL_TAG; MUTABLE_WRITEKEY_TAG;
   MUTABLE_WRITE_ENABLER_MASTER_TAG; MUTABLE_WRITE_ENABLER_TAG; MUTABLE_PUBKEY_TAG;
   MUTABLE_READKEY_TAG; MUTABLE_DATAKEY_TAG; MUTABLE_STORAGEINDEX_TAG; DIRNODE_CHILD_WRITECAP_TAG;
   DIRNODE_CHILD_SALT_TAG; BACKUPDB_DIRHASH_TAG].

Fixpoint distinctb (l : list (list N)) : bool :=
  match l with
  | [] => true
  | x :: r => negb (existsb (list_N_eqb x) r) && distinctb r
  end.

Lemma distinctb_NoDup : forall l, distinctb l = true -> NoDup l.
Proof.
  induction l as [|x r IH]; cbn [distinctb]; [constructor|].
  rewrite andb_true_iff, negb_true_iff. intros [H1 H2]. constructor; [|exact (IH H2)].
  intro Hin. rewrite (proj2 (existsb_exists _ _)) in H1; [discriminate|].
  exists x. split; [exact Hin|apply list_N_eqb_refl].
Qed.

Lemma tags_distinct_ok : distinctb all_tags = true.
Proof. vm_compute. reflexivity. Qed.

Lemma pins_ok :
  (pin_SHA256d_Hasher, pin_xor, pin_hmac, pin_byteschr, pin_random_key, pin_timing_safe_compare)
  = ("ae444d4361db491e", "a141caf1ee705d02", "d13bb564934984ae", "4c594682cc2e1993",
     "0d5317a3265e56a2", "f0e6cd0f78646430")%string.
Proof. reflexivity. Qed.
