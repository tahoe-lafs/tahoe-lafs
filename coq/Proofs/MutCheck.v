From Coq Require Import List NArith Bool Lia.
From Verif Require Import Model.ServerMap Model.MutCheck Proofs.ServerMap.
Import ListNotations.
Local Open Scope N_scope.

Lemma filter_negb_nil {A} (f : A -> bool) l : filter (fun x => negb (f x)) l = [] -> filter f l = l.
Proof.
  induction l as [|x r IH]; [reflexivity|]. cbn.
  destruct (f x); cbn; [intro H; f_equal; exact (IH H)|discriminate].
Qed.

Lemma single_version m v :
  versions m = [v] /\ In v (recoverable_versions m) <->
  recoverable_versions m = [v] /\ unrecoverable_versions m = [].
Proof.
  unfold recoverable_versions, unrecoverable_versions. split.
  - intros [-> [_ Hr]%filter_In]. cbn. rewrite Hr. auto.
  - intros [R U]. apply filter_negb_nil in U. rewrite U in *. rewrite R. cbn. auto.
Qed.

Section Check.
  Variable nOf : version -> N.

  Lemma healthy_iff_ok m :
    healthy nOf m = true <->
    exists v, versions m = [v] /\ In v (recoverable_versions m) /\ nOf v <= count_shares m v.
  Proof.
    unfold healthy, best_recoverable_version. split.
    - destruct (unrecoverable_versions m) eqn:U; [|discriminate].
      destruct (recoverable_versions m) as [|v [|w r]] eqn:R; try discriminate. cbn.
      rewrite negb_true_iff, N.ltb_ge. intro Hn.
      destruct (proj2 (single_version m v) (conj R U)) as [V _].
      exists v. cbn. auto.
    - intros [v [V [Hr Hn]]]. destruct (proj1 (single_version m v) (conj V Hr)) as [-> ->]. cbn.
      apply negb_true_iff, N.ltb_ge, Hn.
  Qed.
End Check.

Lemma repair_refuses m wk :
  unrecoverable_newer_versions m <> [] \/ needs_merge m = true ->
  repair_decision m false wk = Unsuccessful \/ repair_decision m false wk = MustForce.
Proof.
  intro H. unfold repair_decision. destruct (best_recoverable_version m); [right|left; reflexivity].
  destruct (unrecoverable_newer_versions m); [|reflexivity].
  destruct H as [H| ->]; [contradiction|reflexivity].
Qed.

Lemma repair_republishes_best_ok m force wk v :
  repair_decision m force wk = Republish v ->
  best_recoverable_version m = Some v /\ wk = true /\
  (force = true \/ (unrecoverable_newer_versions m = [] /\ needs_merge m = false)).
Proof.
  unfold repair_decision. destruct (best_recoverable_version m) as [b|]; [|discriminate].
  destruct (unrecoverable_newer_versions m) as [|x xs]; destruct force, (needs_merge m), wk; cbn;
    intro H; try discriminate; inversion H; subst; repeat split; auto.
Qed.

Lemma versions_published m v' placement w :
  In w (versions (published m v' placement)) -> w = v' \/ In w (versions m).
Proof.
  rewrite !versions_In. intros [s [[Hs|Hs]%in_app_or <-]]; [left|right; eauto].
  apply in_map_iff in Hs. destruct Hs as [p [<- _]]. reflexivity.
Qed.

Lemma repair_result_is_best_ok m v' placement :
  seq v' = new_seqnum m ->
  NoDup (map snd placement) ->
  1 <= vk v' ->
  vk v' <= N.of_nat (length placement) ->
  best_recoverable_version (published m v' placement) = Some v'.
Proof.
  intros Hs Hnd Hk1 Hk. apply (publish_then_read_ok m); [exact Hs| |].
  - apply recoverable_intro; [exact Hk1|].
    rewrite <- (map_length snd) in Hk. apply (N.le_trans _ _ _ Hk), count_shares_ge; [exact Hnd|].
    intros n [p [<- Hp]]%in_map_iff. apply shnums_of_In.
    exists {| srv := fst p; shnum := snd p; ver := v' |}. split; [|auto].
    apply in_or_app. left. apply in_map_iff. exists p. auto.
  - intros w Hw Hne. destruct (versions_published _ _ _ _ Hw); [contradiction|assumption].
Qed.
