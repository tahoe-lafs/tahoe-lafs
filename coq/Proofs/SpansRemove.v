(* C37: Spans.remove.  The scan, which passes absolute indices and the first/last
   accumulators down the list, is rewritten as the same recursion returning indices
   relative to the head of the list (`rscan`; no invariant needed); under the
   representation invariant the whole operation (in-place trims, the append+sort
   of the "middle" case, the final `del`) equals  flat_map piece l. *)
From Coq Require Import List Arith NArith Bool Lia ZifyBool ZifyNat ZifyN Permutation Btauto.
From Verif Require Import Model.Spans Proofs.SpansBase.
Import ListNotations.
Local Open Scope N_scope.

(* `del self._spans[f : la+1]`, when both indices are set *)
Definition delrange (f la : option nat) (l : spans) : spans :=
  match f, la with
  | Some f, Some la => firstn f l ++ skipn (S la) l
  | _, _ => l
  end.

Section Remove.
Variables s n : N.

(* what is left of one span after removing [s, s+n) *)
Definition piece (sp : span) : spans :=
  (if fst sp <? s then [(fst sp, N.min (fst sp + snd sp) s - fst sp)] else []) ++
  (if s + n <? fst sp + snd sp
   then [(N.max (fst sp) (s + n), fst sp + snd sp - N.max (fst sp) (s + n))] else []).

Fixpoint rscan (l : spans) : (spans * bool) * (option nat * option nat) :=
  match l with
  | [] => (([], false), (None, None))
  | (ss, sl) :: r =>
      let se := ss + sl in
      match overlap ss sl s n with
      | None =>
          let '((r', m), (f, la)) := rscan r in
          (((ss, sl) :: r', m), (option_map S f, option_map S la))
      | Some (os, ol) =>
          let oe := os + ol in
          if (os =? ss) && (oe =? se) then
            let '((r', m), (f, la)) := rscan r in
            (((ss, sl) :: r', m),
             (Some O, match la with Some k => Some (S k) | None => Some O end))
          else if os =? ss then
            let '((r', m), (f, la)) := rscan r in
            (((oe, se - oe) :: r', m), (option_map S f, option_map S la))
          else if oe =? se then
            let '((r', m), (f, la)) := rscan r in
            (((ss, os - ss) :: r', m), (option_map S f, option_map S la))
          else
            (((ss, os - ss) :: r ++ [(oe, se - oe)], true), (None, None))
      end
  end.

Lemma remove_scan_rscan l : forall i fc lc,
  remove_scan s n l i fc lc =
  let '((l1, m), (f, la)) := rscan l in
  ((l1, m),
   (match fc with Some _ => fc | None => option_map (Nat.add i) f end,
    match la with Some k => Some (i + k)%nat | None => lc end)).
Proof.
  induction l as [|[a b] r IH]; intros i fc lc.
  - cbn [remove_scan rscan option_map]. destruct fc; reflexivity.
  - cbn [remove_scan rscan].
    (* except in the middle case, which stops, the scan goes on and the indices
       found in the rest are shifted by one *)
    destruct (overlap a b s n) as [[os ol]|]; cbv zeta;
      [destruct ((os =? a) && (os + ol =? a + b));
         [|destruct (os =? a); [|destruct (os + ol =? a + b); [|destruct fc; reflexivity]]]|];
      rewrite IH; destruct (rscan r) as [[r' m] [f la]];
      destruct fc, f, la; cbn [option_map Nat.add]; rewrite ?Nat.add_succ_r, ?Nat.add_0_r; reflexivity.
Qed.

Lemma spans_remove_raw_rscan l :
  spans_remove_raw s n l =
  let '((l1, m), (f, la)) := rscan l in
  delrange f la (if m then psort l1 else l1).
Proof.
  unfold spans_remove_raw. rewrite remove_scan_rscan.
  destruct (rscan l) as [[l1 m] [f la]]. unfold delrange.
  destruct f, la; cbn [option_map Nat.add]; reflexivity.
Qed.

Hypothesis Hn : 0 < n.

(* the pieces of one span, by where it lies relative to [s, s+n); each case is
   read off the two tests in `piece` *)
Local Ltac by_piece :=
  intros; unfold piece; cbn [fst snd];
  destruct (_ <? s) eqn:C1, (s + n <? _) eqn:C2; try (exfalso; lia);
  cbn [app]; repeat (f_equal; try lia).

Lemma piece_outside a b : 0 < b -> a + b <= s \/ s + n <= a -> piece (a, b) = [(a, b)].
Proof. by_piece. Qed.

Lemma piece_inside a b : s <= a -> a + b <= s + n -> piece (a, b) = [].
Proof. by_piece. Qed.

Lemma piece_right a b : s <= a -> a < s + n -> s + n < a + b ->
  piece (a, b) = [(s + n, a + b - (s + n))].
Proof. by_piece. Qed.

Lemma piece_left a b : a < s -> s < a + b -> a + b <= s + n -> piece (a, b) = [(a, s - a)].
Proof. by_piece. Qed.

Lemma piece_around a b : a < s -> s + n < a + b ->
  piece (a, b) = [(a, s - a); (s + n, a + b - (s + n))].
Proof. by_piece. Qed.

Lemma rscan_after l : forall e, wf_from e l -> s + n <= e ->
  rscan l = ((l, false), (None, None)) /\ flat_map piece l = l.
Proof.
  induction l as [|[a b] r IH]; intros e H He; [split; reflexivity|].
  cbn [wf_from fst snd] in H. destruct H as (H1 & H2 & H3).
  destruct (IH _ H3 ltac:(lia)) as [R P].
  split.
  - cbn [rscan]. destruct (overlap a b s n) as [[os ol]|] eqn:Ov; [apply overlap_some in Ov; exfalso; lia|].
    rewrite R. reflexivity.
  - cbn [flat_map]. rewrite P, piece_outside by lia. reflexivity.
Qed.

(* the (first, last) pair of k complete overlaps at the head of the list *)
Definition kidx (k : nat) : option nat * option nat :=
  match k with O => (None, None) | S j => (Some O, Some j) end.

(* spans starting at or after s: a run of complete overlaps, then at most one
   left trim, then untouched spans *)
Lemma rscan_from l : forall e, wf_from e l -> s <= e ->
  exists k l1, rscan l = ((l1, false), kidx k) /\ skipn k l1 = flat_map piece l.
Proof.
  induction l as [|[a b] r IH]; intros e H He.
  - exists O, []. split; reflexivity.
  - pose proof H as Hall. cbn [wf_from fst snd] in H. destruct H as (H1 & H2 & H3).
    destruct (N.le_gt_cases (s + n) a) as [L2|L2].
    + destruct (rscan_after _ a (wf_from_head _ a _ _ Hall (N.le_refl _)) L2) as [R P].
      exists O, ((a, b) :: r). split; [exact R|]. symmetry. exact P.
    + cbn [rscan flat_map].
      destruct (overlap a b s n) as [[os ol]|] eqn:Ov;
        [apply overlap_some in Ov|apply overlap_none in Ov; exfalso; lia]. cbv zeta.
      destruct (N.leb_spec (a + b) (s + n)) as [L1|L1].
      * (* complete overlap *)
        destruct (IH _ H3 ltac:(lia)) as (k & l1 & R & P).
        exists (S k), ((a, b) :: l1). rewrite R, piece_inside by lia.
        destruct ((os =? a) && (os + ol =? a + b)) eqn:C; [|exfalso; lia].
        split; [destruct k; reflexivity|exact P].
      * (* left trim, then nothing more *)
        destruct (rscan_after r _ H3 ltac:(lia)) as [R P].
        exists O. eexists. rewrite R, P, piece_right by lia.
        destruct ((os =? a) && (os + ol =? a + b)) eqn:C; [exfalso; lia|].
        destruct (os =? a) eqn:C2; [|exfalso; lia].
        split; [reflexivity|]. cbn [skipn app]. do 2 f_equal; lia.
Qed.

Lemma delrange_kidx k l1 : (let '(f, la) := kidx k in delrange f la l1) = skipn k l1.
Proof. destruct k; reflexivity. Qed.

Lemma delrange_shift f la x l1 :
  delrange (option_map S f) (option_map S la) (x :: l1) = x :: delrange f la l1.
Proof. destruct f, la; reflexivity. Qed.

(* a span that the scan leaves in place (whole or trimmed) in front of the rest *)
Lemma rscan_keep x r' (m : bool) f la rest :
  (if m then f = None /\ la = None /\ Permutation r' rest else delrange f la r' = rest) ->
  if m then option_map S f = None /\ option_map S la = None /\ Permutation (x :: r') (x :: rest)
  else delrange (option_map S f) (option_map S la) (x :: r') = x :: rest.
Proof.
  destruct m; [intros (-> & -> & P); repeat split; apply perm_skip, P|].
  intros <-. apply delrange_shift.
Qed.

Lemma rscan_general l : forall e, wf_from e l ->
  let '((l1, m), (f, la)) := rscan l in
  if m then f = None /\ la = None /\ Permutation l1 (flat_map piece l)
  else delrange f la l1 = flat_map piece l.
Proof.
  induction l as [|[a b] r IH]; intros e H; [reflexivity|].
  pose proof H as Hall. cbn [wf_from fst snd] in H. destruct H as (H1 & H2 & H3).
  destruct (N.leb_spec s a) as [L0|L0].
  - (* starts at or after s *)
    destruct (rscan_from _ s (wf_from_head _ s _ _ Hall L0) (N.le_refl _)) as (k & l1 & R & P).
    rewrite R. pose proof (delrange_kidx k l1) as D. destruct (kidx k) as [f la]. congruence.
  - specialize (IH _ H3). cbn [rscan flat_map].
    destruct (overlap a b s n) as [[os ol]|] eqn:Ov; [apply overlap_some in Ov|apply overlap_none in Ov].
    + cbv zeta. destruct ((os =? a) && (os + ol =? a + b)) eqn:C1; [exfalso; lia|].
      destruct (os =? a) eqn:C2; [exfalso; lia|].
      replace (os - a) with (s - a) by lia.
      destruct (N.eqb_spec (os + ol) (a + b)) as [C3|C3].
      * (* right trim *)
        rewrite piece_left by lia. destruct (rscan r) as [[r' m] [f la]]. apply rscan_keep, IH.
      * (* middle *)
        destruct (rscan_after r _ H3 ltac:(lia)) as [_ P].
        rewrite P, piece_around by lia. replace (os + ol) with (s + n) by lia.
        repeat split. cbn [app]. apply perm_skip, Permutation_sym, Permutation_cons_append.
    + (* entirely before *)
      rewrite piece_outside by lia. destruct (rscan r) as [[r' m] [f la]]. apply rscan_keep, IH.
Qed.

Lemma piece_correct l : forall e, wf_from e l ->
  wf_from e (flat_map piece l) /\
  forall z, mem z (flat_map piece l) = mem z l && negb (in_iv s n z).
Proof.
  induction l as [|[a b] r IH]; intros e H.
  - split; [exact I|]. intro z. reflexivity.
  - cbn [wf_from fst snd] in H. destruct H as (H1 & H2 & H3).
    destruct (IH _ H3) as [W M]. cbn [flat_map]. unfold piece. cbn [fst snd].
    split.
    + destruct (a <? s) eqn:C1, (s + n <? a + b) eqn:C2; cbn [app wf_from fst snd];
        repeat split; try lia;
        try (eapply wf_from_weaken; [|exact W]; lia).
    + intro z. rewrite mem_app, mem_cons, M.
      destruct (a <? s) eqn:C1, (s + n <? a + b) eqn:C2; cbn [app mem existsb fst snd];
        unfold in_iv; lia.
Qed.

Theorem spans_remove_raw_correct l : wf l ->
  spans_remove_raw s n l = flat_map piece l.
Proof.
  intro H. rewrite spans_remove_raw_rscan.
  pose proof (rscan_general l 0 H) as G.
  destruct (rscan l) as [[l1 m] [f la]]. destruct m.
  - destruct G as (-> & -> & P). cbn [delrange].
    apply (psort_perm_wf 0 _ _ P). apply (piece_correct l 0 H).
  - exact G.
Qed.

Theorem spans_remove_correct l : wf l ->
  exists l', spans_remove s n l = Some l' /\ wf l' /\
             forall z, mem z l' = mem z l && negb (in_iv s n z).
Proof.
  intro H. destruct (piece_correct l 0 H) as [W M].
  exists (flat_map piece l). unfold spans_remove.
  assert (E : (n =? 0) = false) by lia.
  rewrite E, (spans_remove_raw_correct l H), (spans_check_wf _ W). auto.
Qed.

End Remove.

Lemma spans_remove_zero s l : spans_remove s 0 l = None.
Proof. reflexivity. Qed.
