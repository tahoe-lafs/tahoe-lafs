(* C16: alleged prefixes survive being stored in a directory
   (dirnode._pack_normalized_children / strip_prefix_for_ro, then
   DirectoryNode._unpack_contents / NodeMaker.create_from_cap / UnknownNode). *)
From Coq Require Import String List NArith ZArith PeanoNat Bool Lia.
From Verif Require Import Lib.Hex Lib.Bytes Lib.Decimal Gen.Hashutil Gen.Uri Model.UriBase32 Model.Uri Model.UriNodes
  Proofs.UriBase32 Proofs.UriParse Proofs.UriAtten.
Import ListNotations.
Local Open Scope N_scope.

(* what _pack_normalized_children stores, by strength of the allegation *)
Lemma strip_prefix_for_ro_spec r di :
  match strength r with
  | 2%nat => if di then imm_prefix ++ strip_prefix_for_ro r di = r else strip_prefix_for_ro r di = r
  | 1%nat => ro_prefix ++ strip_prefix_for_ro r di = r
  | _ => strip_prefix_for_ro r di = r
  end.
Proof.
  unfold strip_prefix_for_ro.
  destruct (strength_cases r) as [[-> I]|[(-> & I & R)|(-> & I & R)]].
  - destruct (starts_with_strip _ _ I) as (t & -> & E). destruct di; [symmetry; exact E|reflexivity].
  - rewrite (starts_with_false_strip _ _ I). destruct (starts_with_strip _ _ R) as (t & -> & E). symmetry. exact E.
  - rewrite (starts_with_false_strip _ _ I), (starts_with_false_strip _ _ R). reflexivity.
Qed.

Lemma or_none_some o s : or_none o = Some s -> o = Some s.
Proof. destruct o as [[|]|]; [discriminate|auto..]. Qed.

Lemma drop_spaces_id s : match s with c :: _ => c <> 32 | [] => True end -> drop_spaces s = s.
Proof. destruct s as [|c s]; [reflexivity|]. intro H. cbn. apply N.eqb_neq in H. rewrite H. reflexivity. Qed.

Lemma rstrip_spaces_id s : (s = [] \/ last s 0 <> 32) -> rstrip_spaces s = s.
Proof.
  intro H. unfold rstrip_spaces. destruct (list_eq_dec N.eq_dec s []) as [->|Hne]; [reflexivity|].
  destruct H as [->|H]; [reflexivity|]. destruct (exists_last Hne) as (l & x & ->).
  rewrite last_last in H. rewrite rev_app_distr. cbn [rev app]. rewrite drop_spaces_id by exact H.
  cbn [rev]. rewrite rev_involutive. reflexivity.
Qed.

Lemma last_app_nonempty (a b : bytes) : b <> [] -> last (a ++ b) 0 = last b 0.
Proof.
  intro H. destruct (exists_last H) as (l & x & ->). rewrite app_assoc, !last_last. reflexivity.
Qed.

(* what is stored is the end of the read cap *)
Lemma strip_prefix_for_ro_suffix r di : exists p, p ++ strip_prefix_for_ro r di = r.
Proof.
  pose proof (strip_prefix_for_ro_spec r di) as S.
  destruct (strength r) as [|[|[|k]]]; [exists []|eexists|destruct di; [eexists|exists []]|exists []]; exact S.
Qed.

(* an UnknownNode child is read back only if UnknownNode raised no error *)
Lemma dir_store_read_unknown m di view n : dir_store_read m di view = Some (MUnknown (UOk n)) ->
  create_fresh (if view then or_none (Some (rstrip_spaces (from_opt (made_write_uri m)))) else None)
    (or_none (Some (rstrip_spaces (strip_prefix_for_ro (from_opt (made_readonly_uri m)) di)))) di = MUnknown (UOk n)
  /\ un_error n = ENone.
Proof.
  unfold dir_store_read. cbv zeta. destruct (create_fresh _ _ di) as [c|[n'| |]|]; try discriminate.
  - destruct (di && _); discriminate.
  - destruct (un_error n') eqn:Ee; try discriminate. destruct (di && _); [discriminate|].
    intro H. injection H as <-. split; [reflexivity|exact Ee].
Qed.

Theorem allegation_survives_directory_ok n di view n' r :
  un_ro n = Some r -> last r 0 <> 32 -> strip_prefix_for_ro r di <> [] ->
  dir_store_read (MUnknown (UOk n)) di view = Some (MUnknown (UOk n')) ->
  (forall r', un_ro n' = Some r' -> (strength r <= strength r')%nat /\ (1 <= strength r')%nat /\ (di = true -> strength r' = 2%nat))
  /\ (forall w', un_rw n' = Some w' -> exists w, un_rw n = Some w /\ w' = rstrip_spaces w /\ view = true).
Proof.
  intros Hr Hl Hne H. apply dir_store_read_unknown in H. destruct H as [H He].
  cbn [made_write_uri made_readonly_uri] in H. rewrite Hr in H. cbn [from_opt] in H.
  pose proof (strip_prefix_for_ro_spec r di) as S. destruct (strip_prefix_for_ro_suffix r di) as [p Ep].
  remember (strip_prefix_for_ro r di) as x eqn:Ex.
  (* x ends as r does, so rstrip leaves it alone, and it is not empty *)
  rewrite <- Ep, last_app_nonempty in Hl by exact Hne.
  rewrite (rstrip_spaces_id x) in H by (right; exact Hl).
  assert (Eo : or_none (Some x) = Some x) by (destruct x; [contradiction|reflexivity]).
  rewrite Eo in H. apply create_fresh_unknown in H. destruct H as [H|[H _]].
  2: { unfold bigcap in H. rewrite Eo in H. destruct (or_none (if view then _ else _)); discriminate H. }
  split.
  - intros r' Hr'. destruct (unknown_node_strength _ _ _ _ _ _ H He Eo Hr') as (A & B & C).
    repeat split; try assumption.
    destruct (strength_cases r) as [[E I]|[(E & I & R)|(E & I & R)]]; rewrite E in S |- *; [|exact B|apply Nat.le_0_l].
    destruct di; [rewrite (C eq_refl); apply le_n|]. rewrite S, E in A. exact A.
  - intros w' Hw'. destruct (unknown_node_rules_ok _ _ _ _ H) as (_ & _ & _ & _ & R).
    destruct (R w' Hw') as [Q _].
    destruct view; [|discriminate Q]. destruct (un_rw n) as [w|]; [|discriminate Q].
    exists w. do 2 apply or_none_some in Q. injection Q as <-. repeat split.
Qed.

(* the second hypothesis: r was acceptable when it was attached, i.e. from_string gave a known
   cap or a plain UnknownURI, no constraint error *)
Theorem stored_readcap_never_upgrades_ok r di c0 c :
  from_string di r = Ok c0 -> (known c0 = true \/ exists s, c0 = CUnknown s ENone) ->
  from_string di (strip_prefix_for_ro r di) = Ok c ->
  ((1 <= strength r)%nat -> is_readonly c <> Some false)
  /\ (strength r = 2%nat -> is_mutable c <> Some true)
  /\ (di = true -> is_readonly c <> Some false /\ is_mutable c <> Some true).
Proof.
  intros H0 Hc0 H.
  destruct di; [destruct (deep_never_upgrades _ c H); repeat split; auto|].
  pose proof (strip_prefix_for_ro_spec r false) as S.
  split; [|split; [|discriminate]].
  - intro Hs. destruct (strength_cases r) as [[E I]|[(E & I & R)|(E & I & R)]]; rewrite E in S; [| |lia].
    + rewrite S in H. exact (proj1 (strength_never_upgrades false r c H) Hs).
    + (* r = "ro." ++ x with x stored: were x a write cap, r would have been refused *)
      remember (strip_prefix_for_ro r false) as x eqn:Ex. intro W.
      assert (K : known c = true) by (destruct c; [reflexivity|reflexivity|discriminate W]).
      destruct (from_string_known_by_own_parser false x c H K) as (cbm & cbw & s & dir & f & Ea & -> & Ei).
      destruct (from_string_respects_context _ _ _ _ _ _ Ea H) as [Cw _]. specialize (Cw W). subst cbw.
      apply strip_alleged_spec in Ea. destruct Ea as [(_ & _ & E')|[(_ & _ & E' & _)|(<- & _)]]; try discriminate E'.
      destruct (strip_alleged_ro false x) as [cbm' Ea']. rewrite S in Ea'.
      destruct (from_string_never_misread false r cbm' false x dir (kind_of f) f Ea' Ei) as (g & Hin & F).
      unfold is_readonly in W. rewrite inner_mk_cap in W. injection W as W.
      destruct (dispatch_guards dir (kind_of f) g Hin) as [Gw _]. rewrite (Gw W) in F. cbn [guard_ok] in F.
      rewrite F in H0. injection H0 as <-. destruct Hc0 as [Kc|[s' Es]]; [discriminate Kc|].
      injection Es as _ Ee. destruct cbm'; discriminate Ee.
  - intro Hs. rewrite Hs in S. rewrite S in H. exact (proj2 (strength_never_upgrades false r c H) Hs).
Qed.

Lemma ro_kind_readonly k : is_readonly_k (ro_kind k) = true.
Proof. destruct k; reflexivity. Qed.

Lemma known_mk c : known c = true -> exists dir f, c = mk_cap dir f.
Proof. destruct c as [f|f|s e]; intro K; [exists false, f|exists true, f|discriminate]; reflexivity. Qed.

Lemma parse_of_readonly_string_is_readonly dir f c' :
  from_string false (to_string (mk_cap dir (get_readonly_f f))) = Ok c' -> is_readonly c' <> Some false.
Proof.
  intro H. destruct (known c') eqn:K; [|destruct c'; try discriminate K; cbn; discriminate].
  destruct (strip_alleged false (to_string (mk_cap dir (get_readonly_f f)))) as [[cbm cbw] s] eqn:Ea.
  destruct (from_string_known _ _ c' _ _ _ Ea H K) as (dir' & f' & g & ext & -> & _ & _ & _ & Hs & _).
  rewrite to_string_prefix in Ea, Hs.
  unfold strip_alleged in Ea. destruct (alleged_none dir (kind_of (get_readonly_f f)) (file_body (get_readonly_f f))) as [E1 E2].
  rewrite E1, E2 in Ea. injection Ea as _ _ <-.
  rewrite <- app_assoc in Hs.
  destruct (dispatch_prefix_unique _ _ _ _ _ _ _ eq_refl Hs) as [_ Hk].
  unfold is_readonly. rewrite inner_mk_cap. cbn [option_map]. unfold is_readonly_f.
  rewrite <- Hk, kind_of_get_readonly, ro_kind_readonly. discriminate.
Qed.

Theorem no_write_link_has_no_write_cap_ok m :
  (forall n r, m = MUnknown (UOk n) -> un_ro n = Some r -> (1 <= strength r)%nat) ->
  made_write_uri (create_readonly_node m) = None.
Proof.
  intro Hn.
  assert (Fresh : forall ro, (forall s c', or_none ro = Some s -> from_string false s = Ok c' -> is_readonly c' <> Some false) ->
                  made_write_uri (create_fresh None ro false) = None).
  { intros ro Hro. destruct (create_fresh None ro false) as [c'|[n'| |]|] eqn:E; try reflexivity; cbn [made_write_uri].
    - destruct (create_fresh_node _ _ _ _ E) as (s & Es & F). specialize (Hro s c' Es F).
      destruct (is_readonly c') as [[|]|]; try reflexivity. exfalso. apply Hro. reflexivity.
    - destruct (un_rw n') as [w|] eqn:W; [|reflexivity].
      destruct (create_fresh_unknown _ _ _ _ E) as [U|[_ U]];
        destruct (unknown_node_rules_ok _ _ _ _ U) as (_ & _ & _ & _ & R); destruct (R w W) as [R1 _]; discriminate R1. }
  unfold create_readonly_node. destruct m as [c|u|].
  - destruct (is_readonly c) as [[|]|] eqn:Er.
    + cbn [made_write_uri]. rewrite Er. reflexivity.
    + apply Fresh. intros s c' Es F. cbn [made_readonly_uri] in Es.
      destruct c as [f|f|x e]; cbn [get_readonly option_map] in Es; try discriminate Er.
      * apply or_none_some in Es. injection Es as <-. exact (parse_of_readonly_string_is_readonly false f c' F).
      * apply or_none_some in Es. injection Es as <-. exact (parse_of_readonly_string_is_readonly true f c' F).
    + destruct c as [f|f|x e]; try discriminate Er. apply Fresh. intros s c' Es. discriminate Es.
  - apply Fresh. intros s c' Es F. destruct u as [n| |]; cbn [made_readonly_uri] in Es; try discriminate Es.
    apply or_none_some in Es. exact (proj1 (strength_never_upgrades false s c' F) (Hn n s eq_refl Es)).
  - apply Fresh. intros s c' Es. discriminate Es.
Qed.
