(* C09: the MDMF in-place update stores exactly the segments of the spliced byte string. *)
From Coq Require Import List Arith NArith Bool Lia.
From Verif Require Import Lib.Hex Lib.ListFacts Model.MutFile Proofs.MutFileLists Proofs.MutFileRead Proofs.MutFileTU.
Import ListNotations.

Lemma firstn_splice old data off a : a <= off -> off <= length old ->
  firstn a (splice old data off) = firstn a old.
Proof.
  intros Ha H. unfold splice.
  rewrite firstn_app, firstn_firstn, firstn_length, (Nat.min_l a off), (Nat.min_l off) by lia.
  replace (a - off) with 0 by lia. apply app_nil_r.
Qed.

Lemma skipn_splice old data off a : off <= length old -> off + length data <= a ->
  skipn a (splice old data off) = skipn a old.
Proof.
  intros H Ha. unfold splice. rewrite !skipn_app, firstn_length, Nat.min_l by exact H.
  rewrite (skipn_all2 (firstn off old)) by (rewrite firstn_length; lia).
  rewrite (skipn_all2 data) by lia. rewrite skipn_add. cbn [app]. f_equal. lia.
Qed.

(* the rewritten region: old[B:off] ++ data ++ old[off+L:E] *)
Lemma slice_splice_region old data off B E : off <= length old -> B <= off -> off + length data <= E ->
  slice B E (splice old data off) = slice B off old ++ data ++ slice (off + length data) E old.
Proof.
  intros H HB HE. unfold splice. rewrite slice_app, firstn_length, Nat.min_l by exact H.
  rewrite slice_firstn. replace (Nat.min E off) with off by lia. f_equal.
  rewrite slice_app. replace (B - off) with 0 by lia. rewrite slice_0.
  rewrite firstn_all2 by lia. f_equal.
  rewrite slice_skipn. unfold slice. f_equal; [lia|]. f_equal. lia.
Qed.

(* replacing segments st .. c-1 by those of the new contents gives the segments of the new
   contents, when the written range lies inside them *)
Lemma chunks_splice old data off seg st c :
  seg <> 0 -> off <= length old -> st * seg <= off -> off + length data <= c * seg ->
  c <= div_ceil (length (splice old data off)) seg ->
  firstn st (chunks seg old) ++ chunks_n (c - st) seg (skipn (st * seg) (splice old data off))
    ++ skipn c (chunks seg old)
  = chunks seg (splice old data off).
Proof.
  intros NZ Hoff Hst Hc Hcn.
  pose proof (splice_length old data off Hoff) as Hnl.
  set (new := splice old data off) in *.
  assert (Hsc : st <= c) by (apply (Nat.mul_le_mono_pos_r _ _ seg); lia).
  unfold chunks. destruct (Nat.eqb_spec seg 0) as [|_]; [contradiction|].
  set (no := div_ceil (length old) seg). set (nn := div_ceil (length new) seg) in *.
  assert (Hso : st <= no).
  { apply (Nat.mul_le_mono_pos_r _ _ seg); [lia|].
    pose proof (proj1 (div_ceil_le_iff (length old) seg no NZ) (le_n _)). lia. }
  assert (Hon : no <= nn) by (apply div_ceil_le_mono; [exact NZ|lia]).
  replace nn with (st + ((c - st) + (nn - c))) by lia. rewrite !chunks_n_app.
  f_equal; [|f_equal].
  - rewrite firstn_chunks_n by exact Hso.
    rewrite <- (chunks_n_firstn st seg old (st * seg)), <- (chunks_n_firstn st seg new (st * seg)) by lia.
    unfold new. rewrite firstn_splice by lia. reflexivity.
  - rewrite skipn_chunks_n, skipn_add, <- Nat.mul_add_distr_r. replace (st + (c - st)) with c by lia.
    destruct (Nat.le_gt_cases nn c) as [G|G].
    + replace (no - c) with 0 by lia. replace (nn - c) with 0 by lia. reflexivity.
    + (* segments remain after the written ones: the file has not grown *)
      apply div_ceil_lt_iff in G; [|exact NZ].
      assert (E : length new = length old) by lia.
      unfold nn. rewrite E. unfold new. rewrite skipn_splice by lia. reflexivity.
Qed.

Lemma seg_size_mdmf maxseg k a b : seg_size_of false maxseg k a = seg_size_of false maxseg k b.
Proof. reflexivity. Qed.

Lemma tu_size_init d o sg a b : tu_size (tu_init d o sg a b) = o + length d.
Proof. reflexivity. Qed.

(* The old end segment supplies the bytes from the end of the new data to the end of the last
   pushed segment (or of the file).  They are needed only when the new data ends inside the old
   contents and off a segment boundary, and then update_end_segment is the segment it ends in. *)
Lemma old_end_data (old e : bytes) seg off L :
  let es := update_end_segment (length old) seg off L in
  let x := off + L in
  seg <> 0 ->
  (es * seg < length old -> e = slice (es * seg) (es * seg + seg) old) ->
  firstn (Nat.min (div_ceil x seg * seg) (Nat.max (length old) x) - x) (skipn (x mod seg) e)
  = slice x (div_ceil x seg * seg) old.
Proof.
  cbv zeta. unfold update_end_segment. set (x := off + L). clearbody x. intros NZ He.
  destruct (Nat.ltb_spec x (length old)) as [G|G].
  2:{ rewrite (slice_past x) by exact G. replace (Nat.min _ _ - x) with 0 by lia. reflexivity. }
  destruct (divmod_eq x seg NZ) as [D1 D2].
  destruct (Nat.eq_dec (x mod seg) 0) as [Z|Z].
  - assert (Hc : div_ceil x seg * seg <= x).
    { transitivity (x / seg * seg); [apply Nat.mul_le_mono_r, div_ceil_le_iff; [exact NZ|] |]; lia. }
    rewrite slice_nil by exact Hc. replace (Nat.min _ _ - x) with 0 by lia. reflexivity.
  - assert (Hc : div_ceil x seg = x / seg + 1) by (apply (div_ceil_qr x seg (x / seg) (x mod seg)); lia).
    rewrite div_pred_ceil, Hc, Nat.add_sub in He by lia. rewrite He by lia.
    rewrite skipn_slice, firstn_slice, Hc, <- (slice_clip _ ((x / seg + 1) * seg)). f_equal; lia.
Qed.

(* Publish.update pushes segments off/seg .. div_ceil (off + L) seg - 1: the TransformingUploadable
   serves that window of the new contents *)
Lemma update_push (old data s e : bytes) off seg p :
  let L := length data in
  let new := splice old data off in
  let st := off / seg in
  let c := div_ceil (off + L) seg in
  let es := update_end_segment (length old) seg off L in
  seg <> 0 -> off <= length old ->
  s = slice (st * seg) (st * seg + seg) old ->
  (es * seg < length old -> e = slice (es * seg) (es * seg + seg) old) ->
  e_seg p = seg -> e_num p = div_ceil (length new) seg -> e_tail p = tail_of (length new) seg ->
  push_tu (c - st) st p (tu_init data off seg s e) = Some (chunks_n (c - st) seg (skipn (st * seg) new)).
Proof.
  intros L new st c es NZ Hoff Hs He Hpseg Hpnum Hptail.
  pose proof (splice_length old data off Hoff) as Hnl. fold new L in Hnl.
  destruct (divmod_eq off seg NZ) as [O1 O2]. fold st in O1.
  assert (Hxc : off + L <= c * seg) by (apply div_ceil_le_iff; [exact NZ|apply le_n]).
  assert (Hcn : c <= div_ceil (length new) seg) by (apply div_ceil_le_mono; [exact NZ|lia]).
  set (m := Nat.min (c * seg) (length new) - (off + L)).
  assert (Hreg : tu_region data s e off seg m = slice (st * seg) (c * seg) new).
  { unfold tu_region, new. rewrite slice_splice_region by (fold L; lia). fold L.
    f_equal; [|f_equal].
    - rewrite Hs, firstn_slice. f_equal. lia.
    - rewrite Nat.add_mod_idemp_l by exact NZ. unfold m. rewrite Hnl. apply old_end_data; assumption. }
  assert (Hfs : off mod seg <= length s) by (rewrite Hs, slice_length; lia).
  assert (Hnew : (c - st - 1) * seg <= off mod seg + L).
  { rewrite !Nat.mul_sub_distr_r, Nat.mul_1_l.
    destruct (Nat.eq_dec c 0) as [C0|C0]; [rewrite C0; cbn; lia|].
    assert (Hc1 : (c - 1) * seg < off + L) by (apply div_ceil_lt_iff; [exact NZ|lia]).
    rewrite Nat.mul_sub_distr_r, Nat.mul_1_l in Hc1. lia. }
  pose proof (push_tu_chunks data s e off seg m NZ Hfs p st (c - st) Hnew) as PT. rewrite Hreg in PT.
  rewrite <- (chunks_n_firstn (c - st) seg (skipn (st * seg) new) ((c - st) * seg)) by apply le_n.
  rewrite Nat.mul_sub_distr_r. fold (slice (st * seg) (c * seg) new).
  rewrite <- (Nat.add_0_r st) at 2. apply PT; [|apply le_n].
  (* every read asks for the length of its segment of the new contents *)
  intros j Hj. rewrite slice_slice.
  assert ((st + j + 1) * seg <= c * seg) by (apply Nat.mul_le_mono_r; lia).
  rewrite (seg_read_size_chunk p new (st + j)); rewrite ?Hpseg;
    [ | exact NZ | exact Hpnum | exact Hptail | lia ].
  f_equal. f_equal; lia.
Qed.

Lemma update_in_place_represents maxseg k f (old data : bytes) off :
  0 < k -> 0 < maxseg -> represents false maxseg k f old -> off <= length old ->
  off / mf_segsize f < div_ceil (length old) (mf_segsize f) ->
  exists f', update_in_place maxseg f data off = Some f' /\ represents false maxseg k f' (splice old data off).
Proof.
  intros Hk Hm R Hoff Hst.
  assert (Hm' : false = false -> 0 < maxseg) by (intros _; exact Hm).
  pose proof (represents_seg_pos _ _ _ _ _ R Hk Hm' ltac:(discriminate)) as NZ.
  assert (Hn : 0 < length old) by (destruct (length old); [rewrite div_ceil_0 in Hst by exact NZ|]; lia).
  pose proof (represents_retr_num _ _ _ _ _ R Hk Hm' Hn) as Hrn.
  pose proof (fun i => decoded_segment_represents false maxseg k f old i R Hk Hm') as Hdec.
  destruct R as (_ & Hkf & Hsegv & Hlen & Hsegs).
  set (seg := mf_segsize f) in *. rewrite Hrn in Hdec.
  assert (He : update_end_segment (length old) seg off (length data) * seg < length old ->
               update_end_segment (length old) seg off (length data) < div_ceil (length old) seg)
    by (apply div_ceil_lt_iff; exact NZ).
  set (p := mk_enc seg (div_ceil (length (splice old data off)) seg) (off / seg)
                   (tail_of (length (splice old data off)) seg) (div_ceil (off + length data) seg)).
  pose proof (update_push old data _ _ off seg p NZ Hoff (Hdec _ Hst) (fun H => Hdec _ (He H))
                eq_refl eq_refl eq_refl) as Hpush.
  cbv zeta in Hpush.
  unfold update_in_place. cbv zeta. rewrite !tu_size_init, Hlen, Hrn, Hkf. fold seg.
  rewrite (proj2 (Nat.leb_le _ _) Hoff), (proj2 (Nat.ltb_lt _ _) Hst). cbn [negb].
  replace (if length old <? off + length data then off + length data else length old)
    with (length (splice old data off))
    by (rewrite splice_length by exact Hoff; destruct (Nat.ltb_spec (length old) (off + length data)); lia).
  rewrite (sep_eq false maxseg k (length (splice old data off)) _ _ seg Hsegv NZ). cbn [e_seg e_start e_end1].
  fold p. rewrite Hpush.
  eexists. split; [reflexivity|].
  unfold represents. cbn [mf_sdmf mf_k mf_segsize mf_len mf_segs].
  split; [reflexivity|]. split; [reflexivity|]. split; [exact Hsegv|]. split; [reflexivity|].
  rewrite Hsegs, firstn_map, skipn_map, <- !map_app. f_equal.
  apply chunks_splice; try assumption.
  - rewrite Nat.mul_comm. apply Nat.mul_div_le. exact NZ.
  - apply div_ceil_le_iff; [exact NZ|apply le_n].
  - apply div_ceil_le_mono; [exact NZ|]. rewrite splice_length by exact Hoff. lia.
Qed.
