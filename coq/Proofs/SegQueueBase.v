(* C46 / C04: structural facts about Model/SegQueue.v and the node-level invariant
   (no_stuck_state for the request queue). *)
From Coq Require Import List NArith Bool Arith Lia.
From Verif Require Import Lib.ListFacts Model.SegQueue.
Import ListNotations.

Lemma set_nth_length {A} i (x : A) l : length (set_nth i x l) = length l.
Proof. revert i. induction l as [|y r IH]; intros [|i]; cbn [set_nth length]; auto. Qed.

Lemma nth_error_set_nth_eq {A} i (x : A) l : i < length l -> nth_error (set_nth i x l) i = Some x.
Proof.
  revert i. induction l as [|y r IH]; intros [|i] H; cbn [set_nth nth_error length] in *; try lia; auto.
  apply IH. lia.
Qed.

Lemma nth_error_set_nth_neq {A} i j (x : A) l : i <> j -> nth_error (set_nth i x l) j = nth_error l j.
Proof.
  revert i j. induction l as [|y r IH]; intros [|i] [|j] H; cbn [set_nth nth_error]; auto; try congruence.
Qed.

Lemma nth_error_set_nth {A} i j (x : A) l y :
  nth_error (set_nth i x l) j = Some y -> (i = j /\ y = x) \/ (i <> j /\ nth_error l j = Some y).
Proof.
  intros H. destruct (Nat.eq_dec i j) as [<-|ne].
  - left. assert (i < length l) by (rewrite <- (set_nth_length i x l); apply nth_error_Some; congruence).
    rewrite nth_error_set_nth_eq in H by assumption. now injection H.
  - right. split; [exact ne|]. now rewrite nth_error_set_nth_neq in H.
Qed.

Lemma Forall_set_nth {A} (P : A -> Prop) i x l : Forall P l -> P x -> Forall P (set_nth i x l).
Proof.
  intros H Hx. revert i. induction H as [|y r Hy Hr IH]; intros [|i]; cbn [set_nth]; constructor; auto.
Qed.

Lemma map_set_nth_same {A B} (f : A -> B) i x l :
  (forall y, nth_error l i = Some y -> f y = f x) -> map f (set_nth i x l) = map f l.
Proof.
  revert i. induction l as [|z r IH]; intros [|i] H; cbn [set_nth map]; auto.
  - now rewrite (H z eq_refl).
  - f_equal. apply IH. exact H.
Qed.

Lemma nth_error_snoc {A} (l : list A) x j y :
  nth_error (l ++ [x]) j = Some y -> nth_error l j = Some y \/ (j = length l /\ y = x).
Proof.
  intros H. destruct (Nat.lt_ge_cases j (length l)) as [L|G].
  - left. now rewrite nth_error_app1 in H.
  - right. rewrite nth_error_app2 in H by exact G.
    destruct (j - length l) as [|m] eqn:E; cbn in H; [|destruct m; discriminate].
    inversion H. split; [lia|reflexivity].
Qed.

(* the state after an operation that passes on its callee's state and adds to its output *)
Lemma fst_let {A B C D} (p : A * B) (f : A -> C) (g : B -> D) : fst (let (a, b) := p in (f a, g b)) = f (fst p).
Proof. now destruct p. Qed.

Lemma nmem_In x l : nmem x l = true <-> In x l.
Proof. exact (existsb_eqb_In N.eqb N.eqb_eq x l). Qed.

Definition segs (s : sys) : list N := map r_seg (s_reqs s).

(* the queue part of no_stuck_state: an active fetcher serves a requested segment, and
   there is one whenever requests are pending *)
Definition queue_ok (s : sys) : Prop :=
  match s_active s with
  | Some (_, seg) => In seg (segs s)
  | None => s_reqs s = []
  end.

Lemma start_new_fields s :
  let s' := fst (start_new s) in
  s_reqs s' = s_reqs s /\ s_next_rid s' = s_next_rid s /\ s_inactive s' = s_inactive s /\
  s_deliveries s' = s_deliveries s /\ s_known s' = s_known s /\ s_readers s' = s_readers s.
Proof.
  unfold start_new. destruct (s_active s) as [[? ?]|] eqn:A; [cbn; repeat split; reflexivity|].
  destruct (s_reqs s) eqn:R; cbn; repeat split; try reflexivity; now rewrite R.
Qed.

Lemma start_new_queue_ok s :
  (match s_active s with Some (_, seg) => In seg (segs s) | None => True end) -> queue_ok (fst (start_new s)).
Proof.
  unfold start_new, queue_ok, segs. destruct (s_active s) as [[fid seg]|] eqn:A; [cbn; rewrite A; auto|].
  destruct (s_reqs s) as [|r rest] eqn:R; cbn; [rewrite A; auto|]. rewrite ?R. cbn. auto.
Qed.

Lemma get_segment_queue_ok s seg : queue_ok s -> queue_ok (fst (fst (get_segment s seg))).
Proof.
  intros Q. unfold get_segment. rewrite (fst_let _ (fun s2 => (s2, s_next_rid s))). apply start_new_queue_ok.
  unfold queue_ok, segs in *. cbn [upd_node s_active s_reqs]. destruct (s_active s) as [[fid sg]|]; [|exact I].
  rewrite map_app. apply in_or_app. now left.
Qed.

Lemma get_segment_fields s seg :
  let s' := fst (fst (get_segment s seg)) in
  s_reqs s' = s_reqs s ++ [mk_req seg (s_next_rid s)] /\ s_next_rid s' = (s_next_rid s + 1)%N /\
  s_inactive s' = s_inactive s /\ s_deliveries s' = s_deliveries s /\ s_known s' = s_known s /\
  s_readers s' = s_readers s /\ snd (fst (get_segment s seg)) = s_next_rid s.
Proof.
  unfold get_segment. set (s1 := upd_node _ _ _ _ _ _ _). pose proof (start_new_fields s1) as F.
  destruct (start_new s1) as [s2 o]. cbn [fst snd] in *. tauto.
Qed.

Lemma extract_fields s seg res :
  let s' := extract s seg res in
  s_active s' = s_active s /\ s_next_rid s' = s_next_rid s /\ s_inactive s' = s_inactive s /\
  s_known s' = s_known s /\ s_readers s' = s_readers s /\
  s_reqs s' = filter (fun r => negb (N.eqb (r_seg r) seg)) (s_reqs s) /\
  s_deliveries s' = s_deliveries s ++ map (fun r => (r_id r, res)) (filter (fun r => N.eqb (r_seg r) seg) (s_reqs s)).
Proof. unfold extract. cbn. repeat split; reflexivity. Qed.

Lemma cancel_queue_ok s rid : queue_ok s -> queue_ok (fst (cancel s rid)).
Proof.
  intros Q. unfold cancel. destruct (nmem rid (s_inactive s)); [exact Q|].
  cbn [upd_node s_active]. destruct (s_active s) as [[fid seg]|] eqn:A.
  - destruct (nmem seg _) eqn:M.
    + cbn [fst]. unfold queue_ok, segs. cbn [upd_node s_active s_reqs]. rewrite ?A. now apply nmem_In.
    + rewrite (fst_let _ (fun s2 => s2)). apply start_new_queue_ok. cbn. exact I.
  - cbn [fst]. unfold queue_ok in *. cbn [upd_node s_active s_reqs]. rewrite ?A in *. now rewrite Q.
Qed.

Lemma finish_readers s seg res : s_readers (fst (start_new (extract s seg res))) = s_readers s.
Proof. now destruct (start_new_fields (extract s seg res)) as (_ & _ & _ & _ & _ & ->). Qed.

Lemma cancel_fields s rid :
  let s' := fst (cancel s rid) in
  s_next_rid s' = s_next_rid s /\ s_deliveries s' = s_deliveries s /\ s_known s' = s_known s /\ s_readers s' = s_readers s /\
  (s_inactive s' = s_inactive s /\ s_reqs s' = s_reqs s /\ In rid (s_inactive s) \/
   s_inactive s' = rid :: s_inactive s /\ s_reqs s' = filter (fun r => negb (r_id r =? rid)%N) (s_reqs s)).
Proof.
  cbn zeta. unfold cancel. destruct (nmem rid (s_inactive s)) eqn:M.
  { apply nmem_In in M. cbn [fst]. tauto. }
  cbn [upd_node s_active]. destruct (s_active s) as [[fid seg]|]; [|cbn; tauto].
  destruct (nmem seg _); [cbn; tauto|].
  set (s1 := clear_active _). pose proof (start_new_fields s1) as F.
  destruct (start_new s1) as [s2 o]. cbn in F |- *. destruct F as (-> & -> & -> & -> & -> & ->). tauto.
Qed.

Lemma find_reader_some rid : forall l i0 i r k,
  find_reader rid l i0 = Some (i, r, k) ->
  exists j sg, i = i0 + j /\ nth_error l j = Some r /\ rd_active r = Some (sg, rid, k).
Proof.
  induction l as [|x rest IH]; intros i0 i r k H; cbn [find_reader] in H; [discriminate|].
  assert (Next : find_reader rid rest (S i0) = Some (i, r, k) ->
                 exists j sg, i = i0 + j /\ nth_error (x :: rest) j = Some r /\ rd_active r = Some (sg, rid, k)).
  { intros H'. destruct (IH _ _ _ _ H') as (j & sg & -> & Nth & Ea). exists (S j), sg. split; [lia|now split]. }
  destruct (rd_active x) as [[[sg rid'] k']|] eqn:A; [|now apply Next].
  destruct (N.eqb_spec rid' rid) as [->|_]; [|now apply Next].
  inversion H; subst. exists 0, sg. split; [lia|now split].
Qed.

Lemma find_reader_none rid : forall l i0,
  find_reader rid l i0 = None -> forall j r sg k, nth_error l j = Some r -> rd_active r <> Some (sg, rid, k).
Proof.
  induction l as [|x rest IH]; intros i0 H j r sg k Hn; [destruct j; discriminate|].
  cbn [find_reader] in H. destruct j as [|j]; cbn [nth_error] in Hn.
  - inversion Hn; subst. intros E. rewrite E in H. rewrite N.eqb_refl in H. discriminate.
  - destruct (rd_active x) as [[[sg' rid'] k']|]; [destruct (N.eqb rid' rid); [discriminate|]|]; eapply IH; eauto.
Qed.

Lemma set_reader_queue s i r : queue_ok (set_reader s i r) <-> queue_ok s.
Proof. unfold queue_ok, segs, set_reader. cbn. tauto. Qed.

(* the node part after the oldest queued delivery was taken off *)
Definition pop (s : sys) (inact : list N) (rest : list (N * segres)) : sys :=
  upd_node s (s_reqs s) (s_active s) (s_next_fid s) (s_next_rid s) inact rest.

Section Fixed.
  Variable clear_on_failure : bool.
  Variable ct : list N.
  Variables segsize guess : N.

  Notation mfn := (maybe_fetch_next segsize guess).
  Notation fired := (reader_fired ct segsize guess).
  Notation step := (sstep clear_on_failure ct segsize guess).
  Notation run := (srun clear_on_failure ct segsize guess).

  Lemma run_cons_fst s e r : fst (run s (e :: r)) = fst (run (fst (step s e)) r).
  Proof. cbn [srun]. destruct (step s e) as [s1 o1]. cbn [fst]. now destruct (run s1 r). Qed.

  Lemma run_app_fst : forall a b s, fst (run s (a ++ b)) = fst (run (fst (run s a)) b).
  Proof. induction a as [|e a IH]; intros b s; [reflexivity|]. cbn [app]. rewrite !run_cons_fst. apply IH. Qed.

  (* the three ways _maybe_fetch_next can go *)
  Inductive mfn_shape (s : sys) (i : nat) (r : reader) : sys * list sout -> Prop :=
  | mfn_idle : (rd_alive r = false \/ rd_hungry r = false \/ rd_active r <> None) ->
               mfn_shape s i r (set_reader s i r, [])
  | mfn_done : rd_alive r = true -> rd_hungry r = true -> rd_active r = None -> rd_size r = 0%N ->
               mfn_shape s i r (set_reader s i (rd_finish r RDone), [OFinish i RDone])
  | mfn_issue : forall w,
               rd_alive r = true -> rd_hungry r = true -> rd_active r = None -> rd_size r <> 0%N ->
               mfn_shape s i r (set_reader (fst (fst (get_segment s w))) i (rd_set_active r (Some (w, s_next_rid s, s_known s))),
                                snd (get_segment s w)).

  Lemma mfn_cases s i r : mfn_shape s i r (mfn s i r).
  Proof.
    unfold maybe_fetch_next. destruct (rd_alive r) eqn:A; cbn [negb orb]; [|apply mfn_idle; auto].
    destruct (rd_hungry r) eqn:H; cbn [negb]; [|apply mfn_idle; auto].
    destruct (rd_active r) as [a|] eqn:Ac; [apply mfn_idle; right; right; congruence|].
    destruct (N.eqb_spec (rd_size r) 0) as [Z|NZ]; [now apply mfn_done|].
    set (w := if (rd_offset r =? 0)%N then 0%N else (rd_offset r / (if s_known s then segsize else guess))%N).
    pose proof (get_segment_fields s w) as F. cbn zeta in F. destruct F as (_ & _ & _ & _ & _ & _ & Frid).
    destruct (get_segment s w) as [[s1 rid] o] eqn:G. cbn [fst snd] in *. subst rid.
    replace s1 with (fst (fst (get_segment s w))) by now rewrite G.
    replace o with (snd (get_segment s w)) by now rewrite G.
    now apply mfn_issue.
  Qed.

  Lemma mfn_queue_ok s i r : queue_ok s -> queue_ok (fst (mfn s i r)).
  Proof.
    intros Q. destruct (mfn_cases s i r); cbn [fst]; apply set_reader_queue; auto.
    now apply get_segment_queue_ok.
  Qed.

  (* the record after _got_segment has written `data` *)
  Definition rd_write (r : reader) (data : list N) : reader :=
    mk_reader (rd_offset r + N.of_nat (length data)) (rd_size r - N.of_nat (length data)) (rd_hungry r) (rd_alive r) None
              (rd_written r ++ [data]) (rd_result r) (rd_mfn r) (rd_off0 r) (rd_size0 r).

  (* `res` is a segment that starts at or before the reader's offset and overlaps its
     range; `data` is the part _got_segment writes *)
  Definition got_data (r : reader) (res : segres) (data : list N) : Prop :=
    exists segnum o1, res = SegData segnum /\
      overlap (segnum * segsize) (N.of_nat (length (seg_data ct segsize segnum))) (rd_offset r) (rd_size r) = Some (rd_offset r, o1) /\
      data = slice (N.to_nat (rd_offset r - segnum * segsize)) (N.to_nat o1) (seg_data ct segsize segnum).

  (* the ways a fired get_segment Deferred can leave the system: the data are written and
     the consumer stays quiet, pauses or stops; the read fails; the request is retried *)
  Inductive fired_shape (s : sys) (i : nat) (r : reader) (k : bool) (res : segres) : sys -> Prop :=
  | fired_quiet data : got_data r res data -> fired_shape s i r k res (fst (mfn s i (rd_write r data)))
  | fired_pause data : got_data r res data ->
                       fired_shape s i r k res (set_reader s i (rd_set_flags (rd_write r data) false (rd_alive r)))
  | fired_stop data : got_data r res data -> fired_shape s i r k res (set_reader s i (rd_finish (rd_write r data) RStopped))
  | fired_fail x : x <> RDone -> fired_shape s i r k res (set_reader s i (rd_finish (rd_set_active r None) x))
  | fired_retry : k = false -> (exists n, res = SegData n) \/ res = SegErr EBadSegNum ->
                  fired_shape s i r k res (fst (mfn s i (rd_set_active r None))).

  Lemma fired_cases s i r k res react : fired_shape s i r k res (fst (fired s i r k res react)).
  Proof.
    unfold reader_fired, rd_error. destruct res as [segnum|e].
    - assert (Miss : fired_shape s i r k (SegData segnum)
                       (fst (if k then (set_reader s i (rd_finish (rd_set_active r None) RWrongSegment), [OFinish i RWrongSegment])
                             else mfn s i (rd_set_active r None)))).
      { destruct k; [apply fired_fail; discriminate|apply fired_retry; eauto]. }
      destruct (overlap _ _ _ _) as [[o0 o1]|] eqn:Ho; [|exact Miss].
      cbn [rd_set_active rd_offset rd_size] in Ho |- *.
      destruct (N.eqb_spec o0 (rd_offset r)) as [->|_]; [|exact Miss].
      set (data := slice _ _ _).
      assert (G : got_data r (SegData segnum) data) by (exists segnum, o1; auto).
      clear Miss. destruct react; cbn [fst].
      + rewrite (fst_let _ (fun s2 => s2)). exact (fired_quiet _ _ _ _ _ data G).
      + exact (fired_pause _ _ _ _ _ data G).
      + exact (fired_stop _ _ _ _ _ data G).
    - destruct e; [destruct k; [|apply fired_retry; auto]|..]; apply fired_fail; discriminate.
  Qed.

  Lemma fired_queue_ok s i r k res react : queue_ok s -> queue_ok (fst (fired s i r k res react)).
  Proof.
    intros Q. destruct (fired_cases s i r k res react); try apply set_reader_queue; auto using mfn_queue_ok.
  Qed.

  (* what a queued _deliver does: nothing is queued; the handle was cancelled meanwhile; no
     reader waits for it; the reader that waits for it is fired *)
  Inductive deliver_shape (s : sys) (react : reaction) : sys -> Prop :=
  | del_none : s_deliveries s = [] -> deliver_shape s react s
  | del_dead rid res rest : s_deliveries s = (rid, res) :: rest -> In rid (s_inactive s) ->
                            deliver_shape s react (pop s (s_inactive s) rest)
  | del_other rid res rest : s_deliveries s = (rid, res) :: rest -> ~ In rid (s_inactive s) ->
                             (forall j r sg k, nth_error (s_readers s) j = Some r -> rd_active r <> Some (sg, rid, k)) ->
                             deliver_shape s react (pop s (rid :: s_inactive s) rest)
  | del_fire rid res rest i r sg k : s_deliveries s = (rid, res) :: rest -> ~ In rid (s_inactive s) ->
                             nth_error (s_readers s) i = Some r -> rd_active r = Some (sg, rid, k) ->
                             deliver_shape s react (fst (fired (pop s (rid :: s_inactive s) rest) i r k res react)).

  Lemma deliver_cases s react : deliver_shape s react (fst (step s (SDeliver react))).
  Proof.
    cbn [sstep]. destruct (s_deliveries s) as [|[rid res] rest] eqn:D; [exact (del_none s react D)|].
    cbn [upd_node s_inactive s_reqs s_active s_next_fid s_next_rid s_readers].
    destruct (nmem rid (s_inactive s)) eqn:M; [apply nmem_In in M; exact (del_dead s react rid res rest D M)|].
    assert (NM : ~ In rid (s_inactive s)) by (rewrite <- nmem_In, M; discriminate).
    destruct (find_reader rid (s_readers s) 0) as [[[i' r] k]|] eqn:F.
    - destruct (find_reader_some _ _ _ _ _ _ F) as (i & sg & -> & Nth & Ea). cbn [Nat.add].
      rewrite (fst_let _ (fun s3 => s3)). exact (del_fire s react rid res rest i r sg k D NM Nth Ea).
    - exact (del_other s react rid res rest D NM (find_reader_none rid _ _ F)).
  Qed.

  Lemma finish_queue_ok s seg res :
    queue_ok (fst (start_new (extract (clear_active s) seg res))).
  Proof. apply start_new_queue_ok. cbn. exact I. Qed.

  (* no_stuck_state, queue part: holds in every state, whatever the events, for the
     repaired failure branch *)
  Lemma step_queue_ok s e : clear_on_failure = true -> queue_ok s -> queue_ok (fst (step s e)).
  Proof.
    (* a state with the active fetcher and the requests of s has the queue_ok of s, by computation *)
    intros CF Q. destruct e as [off sz|i|i|i|i| |e|ok e|react]; cbn [sstep].
    - destruct (N.eqb _ 0); [exact Q|]. apply mfn_queue_ok. exact Q.
    - destruct (nth_error _ i) as [r|]; [|exact Q]. destruct (rd_result r); exact Q.
    - destruct (nth_error _ i) as [r|]; [|exact Q]. destruct (rd_result r); exact Q.
    - destruct (nth_error _ i) as [r|]; [|exact Q]. destruct (rd_result r); [exact Q|].
      destruct (rd_active r) as [[[sg rid] k]|]; [|exact Q].
      pose proof (cancel_queue_ok s rid Q) as C. destruct (cancel s rid) as [s1 o]. exact C.
    - destruct (nth_error _ i) as [r|]; [|exact Q]. destruct (rd_mfn r); [exact Q|]. now apply mfn_queue_ok.
    - exact Q.
    - destruct (s_active s) as [[fid seg]|] eqn:A; [|exact Q]. apply finish_queue_ok.
    - destruct (s_active s) as [[fid seg]|] eqn:A; [|exact Q]. rewrite CF. destruct ok; apply finish_queue_ok.
    - pose proof (deliver_cases s react) as C. cbn [sstep] in C. destruct C; try exact Q. now apply fired_queue_ok.
  Qed.
End Fixed.
