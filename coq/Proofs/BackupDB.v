(* C42  Proofs about Model/BackupDB.v: association lists, the invariant that
   ties the tables to the history, the file-reuse lemma. *)
From Coq Require Import List NArith ZArith Bool Lia.
From Verif Require Import Lib.Hex Lib.Netstring Lib.NetstringFacts Model.BackupDB.
Import ListNotations.
Local Open Scope N_scope.
Local Open Scope bool_scope.

Section AssocFacts.
  Context {K V : Type}.
  Variable keqb : K -> K -> bool.
  Hypothesis keqb_eq : forall a b, keqb a b = true <-> a = b.

  Lemma keqb_refl a : keqb a a = true.
  Proof. apply keqb_eq. reflexivity. Qed.

  Lemma keqb_neq a b : a <> b -> keqb a b = false.
  Proof. intro H. destruct (keqb a b) eqn:E; [|reflexivity]. apply keqb_eq in E. contradiction. Qed.

  Lemma alookup_aset k k' (v : V) l :
    alookup keqb k (aset keqb k' v l) = if keqb k k' then Some v else alookup keqb k l.
  Proof.
    induction l as [|[k2 v2] l IH]; simpl; [reflexivity|].
    destruct (keqb k' k2) eqn:E; simpl.
    - apply keqb_eq in E. subst k2. destruct (keqb k k'); reflexivity.
    - rewrite IH. destruct (keqb k k') eqn:E1, (keqb k k2) eqn:E2; try reflexivity.
      apply keqb_eq in E1, E2. subst. rewrite keqb_refl in E. discriminate.
  Qed.

  Lemma alookup_adel_same k (l : list (K * V)) : alookup keqb k (adel keqb k l) = None.
  Proof.
    induction l as [|[k2 v2] l IH]; simpl; [reflexivity|].
    destruct (keqb k k2) eqn:E; [exact IH|]. simpl. rewrite E. exact IH.
  Qed.

  Lemma alookup_adel k k' (x : V) l : alookup keqb k (adel keqb k' l) = Some x -> alookup keqb k l = Some x.
  Proof.
    induction l as [|[k2 v2] l IH]; simpl; [discriminate|].
    destruct (keqb k' k2) eqn:E.
    - intro H. destruct (keqb k k2) eqn:E2; [|exact (IH H)].
      (* k = k2 = k': every row of that key was deleted *)
      apply keqb_eq in E, E2. subst. rewrite alookup_adel_same in H. discriminate.
    - simpl. destruct (keqb k k2); [auto|exact IH].
  Qed.

  Lemma alookup_app_some k (v : V) l r : alookup keqb k l = Some v -> alookup keqb k (l ++ r) = Some v.
  Proof.
    induction l as [|[k2 v2] l IH]; simpl; [discriminate|].
    destruct (keqb k k2); auto.
  Qed.

  Lemma alookup_app_none k l (r : list (K * V)) : alookup keqb k l = None -> alookup keqb k (l ++ r) = alookup keqb k r.
  Proof.
    induction l as [|[k2 v2] l IH]; simpl; [reflexivity|].
    destruct (keqb k k2); [discriminate|auto].
  Qed.
End AssocFacts.

Lemma N_eqb_iff a b : N.eqb a b = true <-> a = b.
Proof. apply N.eqb_eq. Qed.

Lemma bytes_eqb_iff (a b : bytes) : list_N_eqb a b = true <-> a = b.
Proof. apply list_N_eqb_eq. Qed.

Lemma find_fileid_app c l n c0 :
  find_fileid c (l ++ [(n, c0)]) =
  match find_fileid c l with
  | Some i => Some i
  | None => if list_N_eqb c c0 then Some n else None
  end.
Proof.
  induction l as [|[i ci] l IH]; simpl; [reflexivity|].
  destruct (list_N_eqb c ci); [reflexivity|exact IH].
Qed.

Definition caps_ok (d : db) : Prop :=
  (forall c i, find_fileid c (caps d) = Some i -> alookup N.eqb i (caps d) = Some c) /\
  (forall i c, alookup N.eqb i (caps d) = Some c -> i < next_fileid d).

Lemma get_or_allocate_spec d filecap d1 fid :
  caps_ok d -> get_or_allocate_fileid_for_cap d filecap = (d1, fid) ->
  caps_ok d1 /\ local_files d1 = local_files d /\ last_upload d1 = last_upload d /\ directories d1 = directories d /\
  alookup N.eqb fid (caps d1) = Some filecap /\
  (forall i c, alookup N.eqb i (caps d) = Some c -> alookup N.eqb i (caps d1) = Some c).
Proof.
  intros [C1 C2] G. unfold get_or_allocate_fileid_for_cap in G.
  destruct (find_fileid filecap (caps d)) as [i|] eqn:Ef; inversion G; subst d1 fid; unfold caps_ok; simpl.
  - repeat split; auto.
  - assert (Hnone : alookup N.eqb (next_fileid d) (caps d) = None).
    { destruct (alookup N.eqb (next_fileid d) (caps d)) as [c|] eqn:E; [|reflexivity].
      apply C2 in E. lia. }
    repeat split; auto.
    + intros c i H. rewrite find_fileid_app in H.
      destruct (find_fileid c (caps d)) as [i'|] eqn:E.
      * inversion H; subst. apply alookup_app_some. apply C1. exact E.
      * destruct (list_N_eqb c filecap) eqn:Ec; [|discriminate]. inversion H; subst.
        apply list_N_eqb_eq in Ec. subst.
        rewrite (alookup_app_none N.eqb _ _ _ Hnone). simpl. rewrite N.eqb_refl. reflexivity.
    + intros i c H.
      destruct (alookup N.eqb i (caps d)) as [c'|] eqn:E.
      * apply C2 in E. lia.
      * rewrite (alookup_app_none N.eqb _ _ _ E) in H. simpl in H.
        destruct (i =? next_fileid d) eqn:E2; [|discriminate]. apply N.eqb_eq in E2. lia.
    + rewrite (alookup_app_none N.eqb _ _ _ Hnone). simpl. rewrite N.eqb_refl. reflexivity.
    + intros i c H. apply alookup_app_some. exact H.
Qed.

Section History.
  Variable dirkey : bytes -> bytes.

  (* the dircap most recently recorded under a given directories key *)
  Definition upd_dir_create (key : bytes) (acc : option bytes) (o : op) : option bytes :=
    match o with
    | ODidCreateDir dircap c' _ => if list_N_eqb (dirkey (dir_data c')) key then Some dircap else acc
    | ODidCreateDirRaw dircap dh _ => if list_N_eqb dh key then Some dircap else acc
    | _ => acc
    end.
  Definition last_dir_create (h : list op) (key : bytes) : option bytes :=
    fold_left (upd_dir_create key) h None.

  Lemma last_upload_of_snoc h o path :
    last_upload_of (h ++ [o]) path = upd_last_upload path (last_upload_of h path) o.
  Proof. unfold last_upload_of. rewrite fold_left_app. reflexivity. Qed.

  Lemma last_dir_create_snoc h o key :
    last_dir_create (h ++ [o]) key = upd_dir_create key (last_dir_create h key) o.
  Proof. unfold last_dir_create. rewrite fold_left_app. reflexivity. Qed.

  Lemma run_snoc : forall h d o, run dirkey d (h ++ [o]) = fst (step dirkey (run dirkey d h) o).
  Proof.
    induction h as [|x h IH]; intros d o; simpl; [reflexivity|]. apply IH.
  Qed.

  Definition dircap_of (r : option dir_row) : option bytes := option_map (fun x : dir_row => fst (fst x)) r.

  Record inv (h : list op) (d : db) : Prop := mkInv {
    inv_caps : caps_ok d;
    inv_files : forall path sz mt ct fid,
        alookup list_N_eqb path (local_files d) = Some (sz, mt, ct, fid) ->
        exists cap, last_upload_of h path = Some (cap, sz, mt, ct) /\ alookup N.eqb fid (caps d) = Some cap;
    inv_dirs : forall key, dircap_of (alookup list_N_eqb key (directories d)) = last_dir_create h key
  }.

  Lemma inv_empty : inv [] empty_db.
  Proof.
    constructor.
    - split; simpl; intros; discriminate.
    - simpl. intros; discriminate.
    - intro key. reflexivity.
  Qed.

  (* an operation that records no upload and no directory, leaves caps and next_fileid
     alone and may delete local_files rows *)
  Lemma inv_quiet_op h d o d' :
    inv h d ->
    (forall path, upd_last_upload path (last_upload_of h path) o = last_upload_of h path) ->
    (forall key, upd_dir_create key (last_dir_create h key) o = last_dir_create h key) ->
    caps d' = caps d -> next_fileid d' = next_fileid d ->
    (forall path x, alookup list_N_eqb path (local_files d') = Some x -> alookup list_N_eqb path (local_files d) = Some x) ->
    (forall key, dircap_of (alookup list_N_eqb key (directories d')) = dircap_of (alookup list_N_eqb key (directories d))) ->
    inv (h ++ [o]) d'.
  Proof.
    intros I Hu Hd Hc Hn Hf Hdirs. constructor.
    - unfold caps_ok. rewrite Hc, Hn. apply (inv_caps h d I).
    - intros path sz mt ct fid H. rewrite last_upload_of_snoc, Hu, Hc. apply (inv_files h d I). apply Hf. exact H.
    - intro key. rewrite last_dir_create_snoc, Hd, Hdirs. apply (inv_dirs h d I).
  Qed.

  (* allocating a fileid extends caps and touches nothing else *)
  Lemma inv_get_or_allocate h d filecap d1 fid :
    inv h d -> get_or_allocate_fileid_for_cap d filecap = (d1, fid) ->
    inv h d1 /\ alookup N.eqb fid (caps d1) = Some filecap.
  Proof.
    intros I E. destruct (get_or_allocate_spec d filecap d1 fid (inv_caps h d I) E) as (G1 & G2 & _ & G4 & G5 & G6).
    split; [|exact G5]. constructor.
    - exact G1.
    - intros p sz mt ct f H. rewrite G2 in H.
      destruct (inv_files h d I p sz mt ct f H) as (cap & H1 & H2).
      exists cap. split; [exact H1|]. apply G6. exact H2.
    - intro key. rewrite G4. apply (inv_dirs h d I).
  Qed.

  (* check_file either finds the row of an unchanged file whose cap and upload
     record are still there, and hands the cap back without touching the
     database; or it reports no cap, and at most forgets the row.  The clock and
     the random draw only enter should_check. *)
  Lemma check_file_spec d path ts sz mt ct :
    (exists fid cap lu lc,
       ts = true /\ alookup list_N_eqb path (local_files d) = Some (sz, mt, ct, fid) /\
       alookup N.eqb fid (caps d) = Some cap /\ alookup N.eqb fid (last_upload d) = Some (lu, lc) /\
       forall now rnd, check_file d path ts sz mt ct now rnd
                       = (d, mkFR (Some cap) (should_check now lc rnd) path mt ct sz)) \/
    (exists d', (d' = d \/ d' = set_local_files d (adel list_N_eqb path (local_files d))) /\
       forall now rnd, check_file d path ts sz mt ct now rnd = (d', mkFR None false path mt ct sz)).
  Proof.
    unfold check_file. set (forgotten := set_local_files d (adel list_N_eqb path (local_files d))).
    destruct (alookup list_N_eqb path (local_files d)) as [[[[ls lm] lc] lf]|]; [|right; exists d; auto].
    destruct (alookup N.eqb lf (caps d)) as [fc|] eqn:Ec; [|right; exists forgotten; auto].
    destruct (alookup N.eqb lf (last_upload d)) as [[lu lch]|] eqn:Eu; [|right; exists forgotten; auto].
    destruct (negb (ls =? sz) || negb ts || negb (lm =? mt) || negb (lc =? ct)) eqn:E; [right; exists forgotten; auto|].
    apply orb_false_iff in E as [E E4]. apply orb_false_iff in E as [E E3]. apply orb_false_iff in E as [E1 E2].
    apply negb_false_iff in E1, E2, E3, E4. apply N.eqb_eq in E1, E3, E4. subst.
    left. exists lf, fc, lu, lch. auto.
  Qed.

  Lemma alookup_dirs_healthy key dircap now l :
    dircap_of (alookup list_N_eqb key
      (map (fun '(h, (c, lu, lc)) => if list_N_eqb c dircap then (h, (c, lu, now)) else (h, (c, lu, lc))) l))
    = dircap_of (alookup list_N_eqb key l).
  Proof.
    induction l as [|[k [[c lu] lc]] l IH]; simpl; [reflexivity|].
    destruct (list_N_eqb c dircap); simpl; destruct (list_N_eqb key k); simpl; auto.
  Qed.

  (* REPLACE INTO directories, by either entry point *)
  Lemma inv_create_dir h d o dircap key now :
    inv h d ->
    (forall path, upd_last_upload path (last_upload_of h path) o = last_upload_of h path) ->
    (forall k, upd_dir_create k (last_dir_create h k) o = if list_N_eqb key k then Some dircap else last_dir_create h k) ->
    inv (h ++ [o]) (did_create_directory d dircap key now).
  Proof.
    intros I Hu Hd. constructor.
    - apply (inv_caps h d I).
    - simpl. intros p sz' mt' ct' fid' H. rewrite last_upload_of_snoc, Hu. apply (inv_files h d I). exact H.
    - simpl. intro k. rewrite last_dir_create_snoc, Hd, (alookup_aset list_N_eqb bytes_eqb_iff), list_N_eqb_sym.
      destruct (list_N_eqb key k); [reflexivity|apply (inv_dirs h d I)].
  Qed.

  Lemma inv_step h d o : inv h d -> inv (h ++ [o]) (fst (step dirkey d o)).
  Proof.
    intro I. destruct o as [path ts sz mt ct now rnd | filecap path mt ct sz now | filecap now
                            | contents now rnd | dircap contents now | dircap dh now | dircap now ]; simpl.
    - (* check_file *)
      destruct (check_file_spec d path ts sz mt ct) as [(fid & cap & lu & lc & _ & _ & _ & _ & E)|(d' & [->| ->] & E)];
        rewrite E; simpl; apply (inv_quiet_op h d _ _ I); auto.
      simpl. intros p x H. eapply alookup_adel; [apply bytes_eqb_iff|exact H].
    - (* did_upload_file *)
      unfold did_upload_file. destruct (get_or_allocate_fileid_for_cap d filecap) as [d1 fid] eqn:G.
      destruct (inv_get_or_allocate h d filecap d1 fid I G) as [I1 Hfid].
      constructor.
      + apply (inv_caps h d1 I1).
      + simpl. intros p sz' mt' ct' fid' H. rewrite last_upload_of_snoc. simpl.
        rewrite (alookup_aset list_N_eqb bytes_eqb_iff), list_N_eqb_sym in H.
        destruct (list_N_eqb path p).
        * inversion H; subst. exists filecap. split; [reflexivity|exact Hfid].
        * apply (inv_files h d1 I1). exact H.
      + simpl. intro key. rewrite last_dir_create_snoc. apply (inv_dirs h d1 I1).
    - (* did_check_file_healthy: with or without a last_upload row to stamp, only last_upload changes *)
      unfold did_check_file_healthy. destruct (get_or_allocate_fileid_for_cap d filecap) as [d1 fid] eqn:G.
      destruct (inv_get_or_allocate h d filecap d1 fid I G) as [I1 _].
      destruct (alookup N.eqb fid (last_upload d1)) as [[lu lc]|];
        apply (inv_quiet_op h d1 _ _ I1); auto.
    - (* check_directory: no change *)
      apply (inv_quiet_op h d _ d I); auto.
    - (* r.did_create(dircap) for r = check_directory(contents) *)
      apply inv_create_dir; [exact I|reflexivity|reflexivity].
    - (* did_create_directory called directly *)
      apply inv_create_dir; [exact I|reflexivity|reflexivity].
    - (* did_check_directory_healthy *)
      apply (inv_quiet_op h d _ _ I); auto. simpl. intro key. apply alookup_dirs_healthy.
  Qed.

  Lemma inv_run : forall h, inv h (run dirkey empty_db h).
  Proof.
    intro h. induction h as [|o h IH] using rev_ind.
    - apply inv_empty.
    - rewrite run_snoc. apply inv_step. exact IH.
  Qed.

  Lemma truthy_cap_some c cap : truthy_cap c = Some cap -> c = Some cap.
  Proof. destruct c as [[|x l]|]; simpl; intro H; try discriminate; exact H. Qed.

  Lemma reuse_only_if_unchanged_lem :
    forall (h : list op) path use_timestamps size mtime ctime now rnd cap,
      was_uploaded (snd (check_file (run dirkey empty_db h) path use_timestamps size mtime ctime now rnd)) = Some cap ->
      use_timestamps = true /\ last_upload_of h path = Some (cap, size, mtime, ctime).
  Proof.
    intros h path ts sz mt ct now rnd cap H.
    pose proof (inv_run h) as I. set (d := run dirkey empty_db h) in *.
    destruct (check_file_spec d path ts sz mt ct) as [(fid & cap' & lu & lc & Hts & Hrow & Hcap & _ & E)|(d' & _ & E)];
      rewrite E in H; [|discriminate].
    apply truthy_cap_some in H. injection H as ->.
    destruct (inv_files h d I path sz mt ct fid Hrow) as (cap' & H1 & H2).
    split; [exact Hts|]. congruence.
  Qed.

  Lemma reuse_independent_of_clock_lem d path ts sz mt ct now rnd now' rnd' :
    was_uploaded (snd (check_file d path ts sz mt ct now rnd)) = was_uploaded (snd (check_file d path ts sz mt ct now' rnd'))
    /\ fst (check_file d path ts sz mt ct now rnd) = fst (check_file d path ts sz mt ct now' rnd').
  Proof.
    destruct (check_file_spec d path ts sz mt ct) as [(fid & cap & lu & lc & _ & _ & _ & _ & E)|(d' & _ & E)];
      rewrite !E; split; reflexivity.
  Qed.

  Lemma should_check_only_with_cap_lem d path ts sz mt ct now rnd :
    fr_should_check (snd (check_file d path ts sz mt ct now rnd)) = true ->
    fr_filecap (snd (check_file d path ts sz mt ct now rnd)) <> None.
  Proof.
    destruct (check_file_spec d path ts sz mt ct) as [(fid & cap & lu & lc & _ & _ & _ & _ & E)|(d' & _ & E)];
      rewrite E; simpl; discriminate.
  Qed.

  Lemma dir_reuse_key_lem :
    forall (h : list op) contents now rnd cap,
      was_created (check_directory dirkey (run dirkey empty_db h) contents now rnd) = Some cap ->
      last_dir_create h (dirkey (dir_data contents)) = Some cap.
  Proof.
    intros h contents now rnd cap H.
    pose proof (inv_run h) as I. set (d := run dirkey empty_db h) in *.
    rewrite <- (inv_dirs h d I).
    unfold check_directory in H.
    destruct (alookup list_N_eqb (dirkey (dir_data contents)) (directories d)) as [[[dc lu] lc]|]; [|discriminate].
    unfold was_created in H. cbn [dr_dircap] in H. apply truthy_cap_some in H. inversion H. reflexivity.
  Qed.
End History.
