(* Proofs about Model/Crawler.v: what one time slice visits, and the invariants
   of whole runs (with and without kills). *)
From Coq Require Import List NArith Bool Arith Lia Sorting.Sorted FinFun.
From Verif Require Import Lib.ListFacts Model.Crawler Proofs.CrawlerOrder.
Import ListNotations.

(* the event of processing bucket b of prefix directory i in cycle c *)
Definition pe (c : N) (ib : nat * name) : event := EProc c (fst ib) (snd ib).

Definition procs (evs : list event) : list event := filter is_proc evs.

Lemma procs_app a b : procs (a ++ b) = procs a ++ procs b.
Proof. apply filter_app. Qed.

Lemma procs_map_pe c l : procs (map (pe c) l) = map (pe c) l.
Proof. induction l as [|x l IH]; cbn; [reflexivity|]. f_equal. exact IH. Qed.

Lemma pe_inj c c' x y : pe c x = pe c' y -> c = c' /\ x = y.
Proof. destruct x, y. unfold pe; cbn. intros H; inversion H; split; reflexivity. Qed.

Lemma in_procs e l : In e (procs l) <-> In e l /\ is_proc e = true.
Proof. apply filter_In. Qed.

Lemma procs_firstn k l : exists j, procs (firstn k l) = firstn j (procs l).
Proof.
  revert k; induction l as [|e l IH]; intros [|k]; cbn; try (exists 0; reflexivity).
  destruct (IH k) as (j & Hj). destruct (is_proc e).
  - exists (S j). cbn. f_equal. exact Hj.
  - exists j. exact Hj.
Qed.

(* the events of cycle c that neither save nor finish: what a slice emits before its closing
   EFinished and ESave events *)
Definition front_ev (c : N) (e : event) : Prop :=
  match e with
  | EStarted c' => c' = c
  | EProc c' _ _ => c' = c
  | EPrefixDone c' _ => c' = c
  | _ => False
  end.

(* l is a stretch of the log of cycle c without saves and finishes in which
   exactly the buckets `done` are processed, in that order *)
Definition logs (c : N) (l : list event) (done : list (nat * name)) : Prop :=
  Forall (front_ev c) l /\ procs l = map (pe c) done.

Lemma logs_quiet c l done : logs c l done ->
  (forall d, last_save l d = d) /\ finished_cycles l = [] /\ saved_states l = [].
Proof.
  intros [F _]. induction F as [|e l He _ IH]; [repeat split|].
  destruct e; cbn in He |- *; try contradiction; exact IH.
Qed.

Lemma logs_app c a da b db : logs c a da -> logs c b db -> logs c (a ++ b) (da ++ db).
Proof.
  intros [F1 P1] [F2 P2]. split; [apply Forall_app; split; assumption|].
  rewrite procs_app, map_app, P1, P2. reflexivity.
Qed.

Lemma logs_procs c i l : logs c (map (EProc c i) l) (map (pair i) l).
Proof.
  split; [apply Forall_forall; intros e I; apply in_map_iff in I as (b & <- & _); reflexivity|].
  rewrite <- procs_map_pe, map_map. reflexivity.
Qed.

Lemma logs_nil c : logs c [] [].
Proof. split; [constructor|reflexivity]. Qed.

Lemma logs_cons_silent c e l done :
  front_ev c e -> is_proc e = false -> logs c l done -> logs c (e :: l) done.
Proof. intros F E [Fl Pl]. split; [constructor; assumption|]. unfold procs in *; cbn. rewrite E. exact Pl. Qed.

Lemma logs_firstn c l done k : logs c l done -> exists j, logs c (firstn k l) (firstn j done).
Proof.
  intros [F Pf]. destruct (procs_firstn k l) as (j & Hj). exists j.
  split; [apply Forall_firstn; exact F|]. rewrite Hj, Pf. apply firstn_map.
Qed.

Lemma in_logs c l done ib : logs c l done -> In ib done <-> In (pe c ib) l.
Proof.
  intros [F Pf]. split; intros I.
  - apply (in_map (pe c)) in I. rewrite <- Pf in I. apply in_procs in I. tauto.
  - assert (I2 : In (pe c ib) (procs l)) by (apply in_procs; split; [exact I|reflexivity]).
    rewrite Pf in I2. apply in_map_iff in I2 as (ib' & E & I2). apply pe_inj in E as (_ & ->). exact I2.
Qed.

Lemma last_save_app a b d : last_save (a ++ b) d = last_save b (last_save a d).
Proof.
  revert d; induction a as [|e a IH]; intros d; cbn; [reflexivity|].
  destruct e; apply IH.
Qed.

Lemma finished_app a b : finished_cycles (a ++ b) = finished_cycles a ++ finished_cycles b.
Proof.
  induction a as [|e a IH]; cbn; [reflexivity|]. destruct e; cbn; rewrite ?IH; reflexivity.
Qed.

Lemma saved_app a b : saved_states (a ++ b) = saved_states a ++ saved_states b.
Proof.
  induction a as [|e a IH]; cbn; [reflexivity|]. destruct e; cbn; rewrite ?IH; reflexivity.
Qed.

Lemma split_app_cases {A} (tr new pre post : list A) x :
  tr ++ new = pre ++ x :: post ->
  (exists post1, tr = pre ++ x :: post1) \/ (exists pre2, pre = tr ++ pre2 /\ new = pre2 ++ x :: post).
Proof.
  intros H. apply app_eq_app in H as (l & [[H1 H2]|[H1 H2]]).
  - destruct l as [|y l]; cbn in H2.
    + right. exists []. rewrite app_nil_r in H1. subst. split; [symmetry; apply app_nil_r|reflexivity].
    + inversion H2; subst. left. exists l. reflexivity.
  - right. exists l. split; assumption.
Qed.

(* the crawler sits between two cycles; its listing cache, if any, is not the
   entry of prefix 0 (it does not depend on any directory contents) *)
Definition idle_ok (m : mstate) : Prop :=
  ps_current (ms_p m) = None /\ ps_next (ms_p m) = 0 /\ ps_lcb (ms_p m) = None /\
  forall j, fst (ms_cache m) = Some j -> 0 < j.

Lemma idle_ok_init : idle_ok (load init_pstate).
Proof. repeat split; try reflexivity. intros j H; discriminate. Qed.

Lemma last_save_cases evs d : last_save evs d = d \/ In (ESave (last_save evs d)) evs.
Proof.
  revert d; induction evs as [|e evs IH]; intros d; cbn; [left; reflexivity|].
  destruct e; try (destruct (IH d) as [H|H]; [left; exact H|right; right; exact H]).
  destruct (IH p) as [H|H]; [right; left; rewrite H; reflexivity|right; right; exact H].
Qed.

(* A restarted process starts from the state the slice began with or from a
   state written by a save_state call of that slice, never from anything else
   (in particular never from scratch once something was saved). *)
Lemma restart_state_ok dirs m s evs m' k :
  sl_kill s = Some k -> do_slice dirs m s = (evs, m') ->
  m' = load (ms_p m) \/ exists p, In (ESave p) evs /\ m' = load p.
Proof.
  intros K H. unfold do_slice in H. destruct (run_slice dirs m (sl_ticks s)) as [evs0 m0]. rewrite K in H.
  injection H as <- <-. destruct (last_save_cases (firstn k evs0) (ms_p m)) as [E|E].
  - left. rewrite E. reflexivity.
  - right. eexists. split; [exact E|reflexivity].
Qed.

(* What every slice preserves, a run preserves. *)
Lemma run_invariant dirs (Q : slice_spec -> Prop) (I : list event -> mstate -> Prop) :
  (forall tr m s evs m', Q s -> I tr m -> do_slice dirs m s = (evs, m') -> I (tr ++ evs) m') ->
  forall specs tr m evs m', (forall s, In s specs -> Q s) -> I tr m ->
    run dirs m specs = (evs, m') -> I (tr ++ evs) m'.
Proof.
  intros Step. induction specs as [|s r IH]; intros tr m evs m' HQ HI H; cbn in H.
  - injection H as <- <-. rewrite app_nil_r. exact HI.
  - destruct (do_slice dirs m s) as [e1 m1] eqn:D. destruct (run dirs m1 r) as [e2 m2] eqn:R.
    injection H as <- <-. rewrite app_assoc.
    apply (IH _ m1); [intros s' I'; apply HQ; right; exact I'| |exact R].
    exact (Step _ m _ _ _ (HQ s (or_introl eq_refl)) HI D).
Qed.

Section Dirs.
  Variable dirs : list (list name).

  (* number of prefix directories *)
  Definition P := length dirs.
  Definition sdir (i : nat) : list name := isort (listing dirs i).

  (* Each directory's sorted listing is strictly increasing (no duplicate
     names), names in a later prefix directory are greater than names in an
     earlier one, and there are at least two prefix directories (so that the
     listing cache left by a finished cycle, that of the last prefix, is not
     that of prefix 0). *)
  Definition ordered : Prop :=
    (forall i, StronglySorted nlt (sdir i)) /\
    (forall i j a b, i < j -> In a (sdir i) -> In b (sdir j) -> nlt a b) /\
    2 <= P.
  Hypothesis HO : ordered.

  Definition enum_range (n k : nat) : list (nat * name) :=
    flat_map (fun j => map (pair j) (sdir j)) (seq n k).

  Definition all_buckets : list (nat * name) := enum_range 0 P.

  Definition todoL (n : nat) (lcb : option name) : list (nat * name) :=
    filter (fun ib => notskip lcb (snd ib)) (enum_range n (P - n)).

  Lemma in_enum_range n k j b : In (j, b) (enum_range n k) <-> (n <= j < n + k) /\ In b (sdir j).
  Proof.
    unfold enum_range. rewrite in_flat_map. split.
    - intros (j' & I1 & I2). apply in_seq in I1. apply in_map_iff in I2 as (b' & E & I3).
      inversion E; subst. split; [lia|exact I3].
    - intros (R & I). exists j. split; [apply in_seq; lia|]. apply in_map_iff. exists b. split; [reflexivity|exact I].
  Qed.

  Lemma sdir_out i : P <= i -> sdir i = [].
  Proof. intros H. unfold sdir, listing. rewrite nth_overflow; [reflexivity|exact H]. Qed.

  Lemma in_all j b : In (j, b) all_buckets <-> In b (sdir j).
  Proof.
    unfold all_buckets. rewrite in_enum_range. split; [tauto|]. intros I. split; [|exact I].
    destruct (le_lt_dec P j) as [L|L]; [|lia]. rewrite (sdir_out j L) in I. contradiction.
  Qed.

  Lemma in_all_nth j b : In (j, b) all_buckets <-> In b (nth j dirs []).
  Proof. rewrite in_all. apply isort_In. Qed.

  Lemma NoDup_enum_range n k : NoDup (enum_range n k).
  Proof.
    revert n; induction k as [|k IH]; intros n; cbn; [constructor|].
    unfold enum_range in *. cbn. apply NoDup_app_intro.
    - apply FinFun.Injective_map_NoDup; [intros x y E; inversion E; reflexivity|].
      apply sorted_NoDup. apply (proj1 HO).
    - apply IH.
    - intros [j b] I1 I2. apply in_map_iff in I1 as (b' & E & _). inversion E; subst.
      apply (in_enum_range (S j) k j b) in I2. lia.
  Qed.

  Lemma enum_range_S n k : enum_range n (S k) = map (pair n) (sdir n) ++ enum_range (S n) k.
  Proof. reflexivity. Qed.

  Lemma filter_map_pair (g : name -> bool) n d :
    filter (fun ib : nat * name => g (snd ib)) (map (pair n) d) = map (pair n) (filter g d).
  Proof.
    induction d as [|b d IH]; cbn; [reflexivity|]. destruct (g b); cbn; rewrite IH; reflexivity.
  Qed.

  (* buckets of later prefix directories are not skipped *)
  Definition Pre (n : nat) (lcb : option name) : Prop :=
    forall j b, n < j -> In b (sdir j) -> skips lcb b = false.

  Lemma todoL_later n lcb : Pre n lcb -> n < P ->
    todoL n lcb = map (pair n) (filter (notskip lcb) (sdir n)) ++ enum_range (S n) (P - S n).
  Proof.
    intros HP L. unfold todoL. replace (P - n) with (S (P - S n)) by lia.
    rewrite enum_range_S, filter_app, filter_map_pair. f_equal.
    apply filter_all_true. intros [j b] I. apply in_enum_range in I as (R & I). cbn.
    unfold notskip. rewrite (HP j b); [reflexivity|lia|exact I].
  Qed.

  Lemma todoL_all_later n lcb : Pre n lcb -> todoL (S n) lcb = enum_range (S n) (P - S n).
  Proof.
    intros HP. unfold todoL. apply filter_all_true. intros [j b] I.
    apply in_enum_range in I as (R & I). cbn. unfold notskip. rewrite (HP j b); [reflexivity|lia|exact I].
  Qed.

  Lemma todoL_end lcb : todoL P lcb = [].
  Proof. unfold todoL. rewrite Nat.sub_diag. reflexivity. Qed.

  (* The one-entry listing cache.  It may be stale (left over from an earlier
     cycle, possibly over other directory contents) as long as its prefix index
     lies ahead of a prefix that will be listed first: listing a prefix always
     replaces the entry. *)
  Definition cache_okw (n : nat) (cache : option nat * list name) : Prop :=
    forall j, fst cache = Some j -> snd cache = sdir j \/ n < j.

  Definition cache_at (j : nat) (cache : option nat * list name) : Prop :=
    fst cache = Some j /\ snd cache = sdir j.

  Lemma Pre_step n lcb lcb1 :
    Pre n lcb -> (lcb1 = lcb \/ exists b, lcb1 = Some b /\ In b (sdir n)) -> Pre n lcb1.
  Proof.
    intros HP [->|(b & -> & I)]; [exact HP|].
    intros j d L Id. cbn. exact (proj1 (proj2 HO) n j b d L I Id).
  Qed.

  Lemma Pre_weaken n m lcb : Pre n lcb -> n <= m -> Pre m lcb.
  Proof. intros HP L j b Lj I. apply (HP j b); [lia|exact I]. Qed.


  Lemma cache_at_okw j n cache : cache_at j cache -> cache_okw n cache.
  Proof. intros (A & B) j' Ej. left. rewrite A in Ej. injection Ej as <-. exact B. Qed.

  (* With a cache that is true or stale-but-ahead, entering prefix n works on
     the true listing and leaves it in the cache. *)
  Lemma prefix_loop_cons c n rest next lcb cache o : cache_okw n cache ->
    exists cache1, cache_at n cache1 /\
      prefix_loop dirs c (n :: rest) next lcb cache o =
      let '(ev, lcb1, o1, x) := process_prefixdir c n (sdir n) lcb o in
      if x then (ev, next, lcb1, cache1, true)
      else
        let '(up, o2) := tick o1 in
        if up then (ev ++ [EPrefixDone c n], S n, lcb1, cache1, true)
        else
          let '(ev2, next2, lcb2, cache2, x2) := prefix_loop dirs c rest (S n) lcb1 cache1 o2 in
          (ev ++ EPrefixDone c n :: ev2, next2, lcb2, cache2, x2).
  Proof.
    intros HC. cbn [prefix_loop]. fold (sdir n). destruct (cache_hit cache n) eqn:E.
    - unfold cache_hit in E. destruct (fst cache) as [j|] eqn:Ej; [|discriminate].
      apply Nat.eqb_eq in E. subst j. destruct (HC n Ej) as [X|X]; [|lia].
      exists cache. split; [split; assumption|]. rewrite X. reflexivity.
    - exists (Some n, sdir n). split; [split; reflexivity|reflexivity].
  Qed.

  (* The loop processes an initial stretch of the to-do list; when its time is
     up, what remains is the to-do list of the state it leaves. *)
  Lemma prefix_loop_spec c : forall k n lcb cache o evs next' lcb' cache' x,
    k = P - n -> n <= P -> Pre n lcb -> cache_okw n cache ->
    prefix_loop dirs c (seq n k) n lcb cache o = (evs, next', lcb', cache', x) ->
    exists done,
      logs c evs done /\
      todoL n lcb = done ++ (if x then todoL next' lcb' else []) /\
      if x then next' <= P /\ Pre next' lcb' /\ exists j, cache_at j cache' /\ next' <= S j
      else (k = 0 /\ cache' = cache) \/ cache_at (P - 1) cache'.
  Proof.
    induction k as [|k IH]; intros n lcb cache o evs next' lcb' cache' x Hk Hn HP HC H; cbn [seq] in H.
    - injection H as <- <- <- <- <-. replace n with P by lia. exists [].
      split; [split; [constructor|reflexivity]|]. split; [apply todoL_end|left; split; reflexivity].
    - assert (Ln : n < P) by lia.
      destruct (prefix_loop_cons c n (seq (S n) k) n lcb cache o HC) as (cache1 & HC1 & E).
      rewrite E in H; clear E.
      destruct (process_prefixdir c n (sdir n) lcb o) as [[[ev lcb1] o1] x1] eqn:PP.
      destruct (ppd_spec c n (sdir n) (proj1 HO n) _ _ _ _ _ _ PP) as (Prov & done1 & -> & F1).
      pose proof (Pre_step n lcb lcb1 HP Prov) as HP1.
      pose proof (logs_procs c n done1) as L1.
      rewrite (todoL_later n lcb HP Ln), F1, map_app, <- app_assoc.
      destruct x1.
      + injection H as <- <- <- <- <-. exists (map (pair n) done1).
        split; [exact L1|]. split; [rewrite (todoL_later n lcb1 HP1 Ln); reflexivity|].
        split; [lia|]. split; [exact HP1|]. exists n. split; [exact HC1|lia].
      + pose proof (logs_app c _ _ _ _ L1 (logs_cons_silent c (EPrefixDone c n) _ _ eq_refl eq_refl (logs_nil c))) as L2.
        rewrite app_nil_r in L2. cbn [map app]. destruct (tick o1) as [[] o2].
        * injection H as <- <- <- <- <-. exists (map (pair n) done1).
          split; [exact L2|]. split; [rewrite (todoL_all_later n lcb1 HP1); reflexivity|].
          split; [lia|]. split; [apply (Pre_weaken n); [exact HP1|lia]|]. exists n. split; [exact HC1|lia].
        * destruct (prefix_loop dirs c (seq (S n) k) (S n) lcb1 cache1 o2) as [[[[ev2 next2] lcb2] cache2] x2] eqn:PL.
          injection H as <- <- <- <- <-.
          destruct (IH (S n) lcb1 cache1 o2 ev2 next2 lcb2 cache2 x2) as (done2 & L3 & G1 & G2);
            [lia|lia|apply (Pre_weaken n); [exact HP1|lia]|exact (cache_at_okw n _ _ HC1)|exact PL|].
          rewrite (todoL_all_later n lcb1 HP1) in G1.
          exists (map (pair n) done1 ++ done2).
          split; [apply (logs_app c _ _ _ _ L1), logs_cons_silent; [reflexivity|reflexivity|exact L3]|]. split; [rewrite G1, app_assoc; reflexivity|].
          destruct x2; [exact G2|]. right. destruct G2 as [(K0 & ->)|Y]; [|exact Y].
          replace (P - 1) with n by lia. exact HC1.
  Qed.

  (* the resume point is in range and last-complete-bucket skips no bucket of a later prefix *)
  Definition J (p : pstate) : Prop := ps_next p <= P /\ Pre (ps_next p) (ps_lcb p).
  (* between cycles the resume point and last-complete-bucket are reset *)
  Definition idle_shape (p : pstate) : Prop := ps_current p = None -> ps_next p = 0 /\ ps_lcb p = None.
  Definition todo (p : pstate) : list (nat * name) := todoL (ps_next p) (ps_lcb p).
  Local Notation ncomp := completed_cycles (only parsing).
  (* the cycle a slice started from p works on: the one in progress, else the one after the
     last finished *)
  Definition cycle_of (p : pstate) : N := match ps_current p with Some c => c | None => ncomp p end.
  Definition pfin (c : N) : pstate := mk_pstate (Some c) None 0 None.

  Lemma todoL_start : todoL 0 None = all_buckets.
  Proof.
    unfold todoL, all_buckets. rewrite Nat.sub_0_r. apply filter_all_true. intros; reflexivity.
  Qed.

  Lemma todo_pfin c : todo (pfin c) = all_buckets.
  Proof. apply todoL_start. Qed.

  Lemma J_pfin c : J (pfin c).
  Proof. split; cbn; [lia|]. intros j b _ _. reflexivity. Qed.

  Lemma cycle_of_current p c : ps_current p = Some c -> cycle_of p = c.
  Proof. unfold cycle_of. intros ->. reflexivity. Qed.

  (* what is known about the listing cache between slices: while a cycle is in
     progress the entry is the true listing of its prefix j, and the resume point
     is at most j + 1 (which is what makes the entry a finished cycle leaves not
     that of prefix 0); between cycles only that it is not the entry of prefix 0 *)
  Definition CI (m : mstate) : Prop :=
    forall j, fst (ms_cache m) = Some j ->
      match ps_current (ms_p m) with
      | None => 0 < j
      | Some _ => snd (ms_cache m) = sdir j /\ ps_next (ms_p m) <= S j
      end.

  Lemma CI_load p : CI (load p).
  Proof. intros j H. discriminate. Qed.

  Lemma CI_okw m : CI m -> idle_shape (ms_p m) -> cache_okw (ps_next (ms_p m)) (ms_cache m).
  Proof.
    intros HC HI j Ej. specialize (HC j Ej). destruct (ps_current (ms_p m)) eqn:E.
    - left. tauto.
    - right. destruct (HI E) as (-> & _). exact HC.
  Qed.

  Definition started (p : pstate) : list event :=
    match ps_current p with Some _ => [] | None => [EStarted (cycle_of p)] end.

  Lemma run_slice_eq m o :
    run_slice dirs m o =
    let p := ms_p m in
    let c := cycle_of p in
    let '(evs, next', lcb', cache', x) :=
      prefix_loop dirs c (seq (ps_next p) (P - ps_next p)) (ps_next p) (ps_lcb p) (ms_cache m) o in
    if x then
      let p' := mk_pstate (ps_last_finished p) (Some c) next' lcb' in
      (started p ++ evs ++ [ESave p'], mk_mstate p' cache')
    else (started p ++ evs ++ [EFinished c; ESave (pfin c); ESave (pfin c)], mk_mstate (pfin c) cache').
  Proof.
    unfold run_slice, started, cycle_of, completed_cycles, P. destruct (ps_current (ms_p m)); reflexivity.
  Qed.

  (* An undisturbed slice: it works through an initial stretch of the to-do
     list and then either finishes the cycle or saves a state whose to-do list
     is the remainder. *)
  Lemma run_slice_spec m o evs m' :
    J (ms_p m) -> idle_shape (ms_p m) -> CI m -> run_slice dirs m o = (evs, m') ->
    exists front done,
      logs (cycle_of (ms_p m)) front done /\ CI m' /\
      ((evs = front ++ [EFinished (cycle_of (ms_p m)); ESave (ms_p m'); ESave (ms_p m')] /\
        ms_p m' = pfin (cycle_of (ms_p m)) /\ todo (ms_p m) = done) \/
       (evs = front ++ [ESave (ms_p m')] /\ ps_current (ms_p m') = Some (cycle_of (ms_p m)) /\
        ps_last_finished (ms_p m') = ps_last_finished (ms_p m) /\
        todo (ms_p m) = done ++ todo (ms_p m') /\ J (ms_p m'))).
  Proof.
    intros [HJ1 HJ2] HI HC0 H. rewrite run_slice_eq in H. cbn zeta in H.
    set (p := ms_p m) in *. set (c := cycle_of p) in *.
    destruct (prefix_loop dirs c _ _ _ _ o) as [[[[ev next'] lcb'] cache'] x] eqn:PL.
    destruct (prefix_loop_spec c _ _ _ _ _ _ _ _ _ _ eq_refl HJ1 HJ2 (CI_okw m HC0 HI) PL) as (done & L & T & G).
    assert (L0 : logs c (started p ++ ev) done).
    { unfold started. destruct (ps_current p); [exact L|].
      apply logs_cons_silent; [reflexivity|reflexivity|exact L]. }
    exists (started p ++ ev), done. split; [exact L0|].
    destruct x; injection H as <- <-; rewrite app_assoc; cbn [ms_p ms_cache].
    - destruct G as (G1 & G2 & j0 & (A & B) & G3). split.
      + intros j Ej. cbn in *. rewrite A in Ej. injection Ej as <-. split; [exact B|exact G3].
      + right. repeat split; [exact T|exact G1|exact G2].
    - rewrite app_nil_r in T. split.
      + intros j Ej. cbn in *. pose proof (proj2 (proj2 HO)) as HP2. destruct G as [(K0 & ->)|(A & _)].
        * specialize (HC0 j Ej). fold p in HC0. destruct (ps_current p).
          -- destruct HC0 as (_ & X). unfold P in *. lia.
          -- exact HC0.
        * rewrite A in Ej. injection Ej as <-. unfold P in *. lia.
      + left. repeat split. exact T.
  Qed.

  Definition fin_saves (c : N) (saves : list event) : Prop :=
    saves = [ESave (pfin c)] \/ saves = [ESave (pfin c); ESave (pfin c)].

  Lemma fin_saves_quiet c saves : fin_saves c saves -> procs saves = [] /\ finished_cycles saves = [].
  Proof. intros [->| ->]; split; reflexivity. Qed.

  (* Outcome of one scheduled slice (possibly killed), in four shapes. *)
  Inductive outcome (p : pstate) (s : slice_spec) (evs : list event) (m' : mstate) : Prop :=
  | OutEarly done :                     (* killed before any save: nothing persisted *)
      sl_kill s <> None -> logs (cycle_of p) evs done -> m' = load p -> outcome p s evs m'
  | OutSaved front done :               (* slice used up its time and saved *)
      logs (cycle_of p) front done -> evs = front ++ [ESave (ms_p m')] ->
      todo p = done ++ todo (ms_p m') -> CI m' -> J (ms_p m') ->
      ps_current (ms_p m') = Some (cycle_of p) -> ps_last_finished (ms_p m') = ps_last_finished p ->
      outcome p s evs m'
  | OutFinishedLost front :             (* cycle finished, killed before save_state *)
      sl_kill s <> None -> logs (cycle_of p) front (todo p) ->
      evs = front ++ [EFinished (cycle_of p)] -> m' = load p -> outcome p s evs m'
  | OutFinished front saves :           (* cycle finished and saved *)
      logs (cycle_of p) front (todo p) -> evs = front ++ EFinished (cycle_of p) :: saves ->
      fin_saves (cycle_of p) saves -> ms_p m' = pfin (cycle_of p) -> CI m' -> outcome p s evs m'.

  Lemma do_slice_outcome m s evs m' :
    J (ms_p m) -> idle_shape (ms_p m) -> CI m ->
    do_slice dirs m s = (evs, m') -> outcome (ms_p m) s evs m'.
  Proof.
    intros HJ HI HC H. unfold do_slice in H.
    destruct (run_slice dirs m (sl_ticks s)) as [evs0 m0] eqn:R.
    destruct (run_slice_spec m _ _ _ HJ HI HC R) as (front & done & L & C0 & Cases).
    destruct (logs_quiet _ _ _ L) as (Ql & _).
    destruct (sl_kill s) as [k|] eqn:Kl; injection H as <- <-.
    - assert (NK : sl_kill s <> None) by (rewrite Kl; discriminate).
      destruct (le_lt_dec k (length front)) as [Lk|Lk].
      + (* killed inside the front part *)
        assert (E : firstn k evs0 = firstn k front).
        { destruct Cases as [(-> & _)|(-> & _)]; rewrite firstn_app; replace (k - length front) with 0 by lia;
            apply app_nil_r. }
        rewrite E. destruct (logs_firstn _ _ _ k L) as (j & Lj).
        rewrite (proj1 (logs_quiet _ _ _ Lj)).
        exact (OutEarly _ _ _ _ (firstn j done) NK Lj eq_refl).
      + (* killed in the tail: after front and 1 + k' further events *)
        destruct (k - length front) as [|k'] eqn:Ek; [lia|].
        destruct Cases as [(-> & Pm & <-)|(-> & Q1 & Q2 & T & Q4)];
          rewrite firstn_app, (firstn_all2 front), Ek, last_save_app, Ql by lia.
        * rewrite Pm. destruct k' as [|[|k']]; cbn.
          -- apply (OutFinishedLost _ _ _ _ front); [exact NK|exact L|reflexivity|reflexivity].
          -- apply (OutFinished _ _ _ _ front [ESave (pfin (cycle_of (ms_p m)))]);
               [exact L|reflexivity|left; reflexivity|reflexivity|apply CI_load].
          -- rewrite firstn_nil. apply (OutFinished _ _ _ _ front [ESave (pfin (cycle_of (ms_p m))); ESave (pfin (cycle_of (ms_p m)))]);
               [exact L|reflexivity|right; reflexivity|reflexivity|apply CI_load].
        * cbn. rewrite firstn_nil.
          apply (OutSaved _ _ _ _ front done); [exact L|reflexivity|exact T|apply CI_load|exact Q4|exact Q1|exact Q2].
    - destruct Cases as [(-> & Pm & <-)|(-> & Q1 & Q2 & T & Q4)].
      + rewrite Pm. apply (OutFinished _ _ _ _ front [ESave (pfin (cycle_of (ms_p m))); ESave (pfin (cycle_of (ms_p m)))]);
          [exact L|reflexivity|right; reflexivity|exact Pm|exact C0].
      + apply (OutSaved _ _ _ _ front done); [exact L|reflexivity|exact T|exact C0|exact Q4|exact Q1|exact Q2].
  Qed.

  Definition covered (tr : list event) (p : pstate) : Prop :=
    forall ib, In ib all_buckets -> In (pe (cycle_of p) ib) tr \/ In ib (todo p).

  Definition fincov (tr : list event) : Prop :=
    forall pre c post, tr = pre ++ EFinished c :: post ->
    forall ib, In ib all_buckets -> In (pe c ib) pre.

  Definition Inv (tr : list event) (m : mstate) : Prop :=
    J (ms_p m) /\ idle_shape (ms_p m) /\ CI m /\ covered tr (ms_p m) /\ fincov tr /\
    cycle_of (ms_p m) = ncomp (ms_p m).

  Lemma covered_app tr new p : covered tr p -> covered (tr ++ new) p.
  Proof.
    intros H ib I. destruct (H ib I) as [X|X]; [left; apply in_app_iff; left; exact X|right; exact X].
  Qed.

  Lemma fincov_quiet tr new : fincov tr -> finished_cycles new = [] -> fincov (tr ++ new).
  Proof.
    intros F Q pre c post E. apply split_app_cases in E as [(post1 & E)|(pre2 & _ & E)].
    - exact (F pre c post1 E).
    - rewrite E, finished_app in Q. destruct (finished_cycles pre2); discriminate.
  Qed.

  Lemma fincov_snoc tr c :
    fincov tr -> (forall ib, In ib all_buckets -> In (pe c ib) tr) -> fincov (tr ++ [EFinished c]).
  Proof.
    intros F H pre c' post E. apply split_app_cases in E as [(post1 & E)|(pre2 & -> & E)].
    - exact (F pre c' post1 E).
    - destruct pre2 as [|e [|e' pre2]]; inversion E. subst c'. rewrite app_nil_r. exact H.
  Qed.

  (* once the rest of the to-do list is logged, every bucket is, and the cycle may finish *)
  Lemma fincov_finish tr p front :
    covered tr p -> fincov tr -> logs (cycle_of p) front (todo p) ->
    fincov ((tr ++ front) ++ [EFinished (cycle_of p)]).
  Proof.
    intros HCov HF L. apply fincov_snoc.
    - apply fincov_quiet; [exact HF|exact (proj1 (proj2 (logs_quiet _ _ _ L)))].
    - intros ib I. apply in_app_iff.
      destruct (HCov ib I) as [X|X]; [left; exact X|right; apply (in_logs _ _ _ _ L); exact X].
  Qed.

  (* a slice killed before it saved leaves the state it started from *)
  Lemma Inv_load tr m new : Inv tr m -> fincov (tr ++ new) -> Inv (tr ++ new) (load (ms_p m)).
  Proof.
    intros (HJ & HI & _ & HCov & _ & HK) F.
    exact (conj HJ (conj HI (conj (CI_load _) (conj (covered_app _ _ _ HCov) (conj F HK))))).
  Qed.

  Lemma Inv_step tr m s evs m' :
    Inv tr m -> do_slice dirs m s = (evs, m') -> Inv (tr ++ evs) m'.
  Proof.
    intros HInv H. pose proof HInv as (HJ & HI & HC & HCov & HF & HK).
    destruct (do_slice_outcome m s evs m' HJ HI HC H)
      as [done _ L ->|front done L -> T Cm Q4 Q1 Q2|front _ L -> ->|front saves L -> Sv Em Cm].
    - apply Inv_load; [exact HInv|].
      apply fincov_quiet; [exact HF|exact (proj1 (proj2 (logs_quiet _ _ _ L)))].
    - (* saved *)
      assert (Ec : cycle_of (ms_p m') = cycle_of (ms_p m)) by (apply cycle_of_current; exact Q1).
      refine (conj Q4 (conj _ (conj Cm (conj _ (conj _ _))))).
      + intros X. rewrite X in Q1. discriminate.
      + intros ib I. rewrite Ec. destruct (HCov ib I) as [X|X]; [left; apply in_app_iff; left; exact X|].
        rewrite T in X. apply in_app_iff in X as [X|X]; [left|right; exact X].
        apply in_app_iff. right. apply in_app_iff. left. apply (in_logs _ _ _ _ L). exact X.
      + apply fincov_quiet; [exact HF|].
        rewrite finished_app, (proj1 (proj2 (logs_quiet _ _ _ L))). reflexivity.
      + rewrite Ec. unfold completed_cycles. rewrite Q2. exact HK.
    - apply Inv_load; [exact HInv|]. rewrite app_assoc. exact (fincov_finish _ _ _ HCov HF L).
    - (* finished and saved *)
      unfold Inv. rewrite Em.
      refine (conj (J_pfin _) (conj (fun _ => conj eq_refl eq_refl) (conj Cm (conj _ (conj _ eq_refl))))).
      + intros ib I. right. rewrite todo_pfin. exact I.
      + change (EFinished (cycle_of (ms_p m)) :: saves) with ([EFinished (cycle_of (ms_p m))] ++ saves).
        rewrite !app_assoc. apply fincov_quiet; [|exact (proj2 (fin_saves_quiet _ _ Sv))].
        exact (fincov_finish _ _ _ HCov HF L).
  Qed.

  Lemma run_inv specs tr m evs m' :
    Inv tr m -> run dirs m specs = (evs, m') -> Inv (tr ++ evs) m'.
  Proof.
    apply (run_invariant dirs (fun _ => True)); [intros ? ? ? ? ? _; apply Inv_step|intros; exact I].
  Qed.

  (* Without kills the processing log is: every finished cycle in full, then
     the part of the current cycle that is no longer on the to-do list. *)
  Definition cycle_logs (cs : list N) : list event := flat_map (fun c => map (pe c) all_buckets) cs.

  Definition EInv (tr : list event) (p : pstate) : Prop :=
    finished_cycles tr = map N.of_nat (seq 0 (N.to_nat (ncomp p))) /\
    exists doneC, all_buckets = doneC ++ todo p /\
      procs tr = cycle_logs (finished_cycles tr) ++ map (pe (cycle_of p)) doneC.

  Lemma e_step tr m s evs m' :
    sl_kill s = None ->
    Inv tr m -> EInv tr (ms_p m) -> do_slice dirs m s = (evs, m') -> EInv (tr ++ evs) (ms_p m').
  Proof.
    intros NK (HJ & HI & HC & _ & _ & E5) (E3 & doneC & HA & HP) H. unfold EInv.
    destruct (do_slice_outcome m s evs m' HJ HI HC H)
      as [done K _ _|front done L -> T _ _ Q1 Q2|front K _ _ _|front saves L -> Sv Em _];
      try (exfalso; exact (K NK));
      destruct (logs_quiet _ _ _ L) as (_ & Qf & _); rewrite !finished_app, Qf, !procs_app, (proj2 L).
    - (* saved *)
      assert (NC : ncomp (ms_p m') = ncomp (ms_p m)) by (unfold completed_cycles; rewrite Q2; reflexivity).
      cbn [finished_cycles procs filter is_proc]. rewrite !app_nil_r.
      split; [rewrite NC; exact E3|]. exists (doneC ++ done).
      split; [rewrite <- app_assoc, <- T; exact HA|].
      rewrite (cycle_of_current _ _ Q1), HP, map_app, app_assoc. reflexivity.
    - (* finished *)
      destruct (fin_saves_quiet _ _ Sv) as (Ps & Fs). rewrite Em.
      set (c := cycle_of (ms_p m)) in *. rewrite <- E5 in E3.
      change (procs (EFinished c :: saves)) with (procs saves).
      change (finished_cycles (EFinished c :: saves)) with (c :: finished_cycles saves).
      rewrite Ps, Fs, app_nil_r. cbn [app]. split.
      + replace (N.to_nat (ncomp (pfin c))) with (S (N.to_nat c)) by (cbn; lia).
        rewrite seq_S, map_app, E3. cbn. rewrite N2Nat.id. reflexivity.
      + exists []. split; [rewrite todo_pfin; reflexivity|].
        unfold cycle_logs in *. rewrite flat_map_app. cbn [flat_map map].
        rewrite !app_nil_r, HP, <- app_assoc, <- map_app, <- HA. reflexivity.
  Qed.

  Lemma EInv_init : EInv [] init_pstate.
  Proof. split; [reflexivity|]. exists []. split; [symmetry; apply todoL_start|reflexivity]. Qed.

  Lemma run_einv specs tr m evs m' :
    (forall s, In s specs -> sl_kill s = None) ->
    Inv tr m /\ EInv tr (ms_p m) -> run dirs m specs = (evs, m') ->
    Inv (tr ++ evs) m' /\ EInv (tr ++ evs) (ms_p m').
  Proof.
    apply (run_invariant dirs (fun s => sl_kill s = None) (fun tr m => Inv tr m /\ EInv tr (ms_p m))).
    intros ? ? ? ? ? NK [HI HE] D. split; [exact (Inv_step _ _ _ _ _ HI D)|exact (e_step _ _ _ _ _ NK HI HE D)].
  Qed.

  Lemma NoDup_cycle_logs cs c doneC :
    NoDup cs -> ~ In c cs -> NoDup doneC -> NoDup (cycle_logs cs ++ map (pe c) doneC).
  Proof.
    assert (Inj : forall c, Injective (pe c)) by (intros c0 x y E; exact (proj2 (pe_inj _ _ _ _ E))).
    intros Hcs Hc Hd. induction Hcs as [|a cs Na _ IH]; cbn.
    - apply Injective_map_NoDup; [apply Inj|exact Hd].
    - rewrite <- app_assoc. apply NoDup_app_intro.
      + apply Injective_map_NoDup; [apply Inj|apply NoDup_enum_range].
      + apply IH. intros I; apply Hc; right; exact I.
      + (* a log entry of cycle a is none of another cycle *)
        intros x I1 I2. apply in_map_iff in I1 as (ib & <- & _). apply in_app_iff in I2 as [I2|I2].
        * apply in_flat_map in I2 as (c' & Ic' & I2). apply in_map_iff in I2 as (ib' & E & _).
          apply pe_inj in E as (-> & _). exact (Na Ic').
        * apply in_map_iff in I2 as (ib' & E & _). apply pe_inj in E as (-> & _). apply Hc. left; reflexivity.
  Qed.

  Lemma EInv_NoDup tr p : EInv tr p -> cycle_of p = ncomp p -> NoDup (procs tr).
  Proof.
    intros (E3 & doneC & HA & ->) E5. apply NoDup_cycle_logs.
    - rewrite E3. apply Injective_map_NoDup; [exact Nat2N.inj|apply seq_NoDup].
    - rewrite E3, E5. intros I. apply in_map_iff in I as (x & E & I). apply in_seq in I. lia.
    - pose proof (NoDup_enum_range 0 P) as ND. fold all_buckets in ND. rewrite HA in ND.
      exact (proj1 (proj1 (NoDup_app_iff _ _) ND)).
  Qed.

  Lemma EInv_in tr p c i b : EInv tr p -> In (EProc c i b) tr -> In (i, b) all_buckets.
  Proof.
    intros (_ & doneC & HA & HP) I.
    assert (I2 : In (pe c (i, b)) (procs tr)) by (apply in_procs; split; [exact I|reflexivity]).
    rewrite HP in I2. apply in_app_iff in I2 as [I2|I2].
    - apply in_flat_map in I2 as (c' & _ & I2). apply in_map_iff in I2 as (ib & E & I2).
      apply pe_inj in E as (_ & ->). exact I2.
    - apply in_map_iff in I2 as (ib & E & I2). apply pe_inj in E as (_ & ->).
      rewrite HA. apply in_app_iff. left. exact I2.
  Qed.

  (* Cycle numbers, any kills: the finished numbers followed by the number the
     state would finish next form an admissible sequence; the completed-cycle
     counts of the saved states go up by 0 or 1 from 0, and the last of them is
     the count of the current state. *)
  Definition KInv (tr : list event) (p : pstate) : Prop :=
    cycle_numbers_ok (finished_cycles tr ++ [ncomp p]) /\
    steps_by_0_or_1 0 (map completed_cycles (saved_states tr)) /\
    last_or (map completed_cycles (saved_states tr)) 0 = ncomp p.

  Lemma last_or_app a b d : last_or (a ++ b) d = last_or b (last_or a d).
  Proof. revert d; induction a as [|x a IH]; intros d; cbn; [reflexivity|apply IH]. Qed.

  Lemma steps_app prev a b :
    steps_by_0_or_1 prev (a ++ b) <-> steps_by_0_or_1 prev a /\ steps_by_0_or_1 (last_or a prev) b.
  Proof.
    revert prev; induction a as [|x a IH]; intros prev; cbn; [tauto|]. rewrite IH. tauto.
  Qed.

  Lemma cycle_numbers_next l c d :
    cycle_numbers_ok (l ++ [c]) -> d = c \/ d = (c + 1)%N -> cycle_numbers_ok ((l ++ [c]) ++ [d]).
  Proof.
    intros H Hd. destruct l as [|x r]; cbn in *; [tauto|].
    destruct H as (E & S). split; [exact E|]. apply steps_app. split; [exact S|].
    rewrite last_or_app. cbn. tauto.
  Qed.

  Lemma cycle_numbers_prefix l c : cycle_numbers_ok (l ++ [c]) -> cycle_numbers_ok l.
  Proof. destruct l as [|x r]; cbn; [trivial|]. rewrite steps_app. tauto. Qed.

  Lemma k_step tr m s evs m' :
    Inv tr m -> KInv tr (ms_p m) -> do_slice dirs m s = (evs, m') -> KInv (tr ++ evs) (ms_p m').
  Proof.
    intros (HJ & HI & HC & _ & _ & K4) (K1 & K5 & K6) H. unfold KInv.
    destruct (do_slice_outcome m s evs m' HJ HI HC H)
      as [done _ L ->|front done L -> _ _ _ _ Q2|front _ L -> ->|front saves L -> Sv Em _];
      destruct (logs_quiet _ _ _ L) as (_ & Qf & Qs); rewrite !finished_app, !saved_app, Qf, Qs.
    - rewrite !app_nil_r. exact (conj K1 (conj K5 K6)).
    - assert (NC : ncomp (ms_p m') = ncomp (ms_p m)) by (unfold completed_cycles; rewrite Q2; reflexivity).
      cbn [finished_cycles saved_states app]. rewrite app_nil_r, map_app, last_or_app. cbn [map last_or].
      rewrite NC. split; [exact K1|]. split; [|reflexivity].
      apply steps_app. split; [exact K5|]. cbn. rewrite K6. tauto.
    - cbn [finished_cycles saved_states app ms_p load]. rewrite app_nil_r, K4.
      split; [apply cycle_numbers_next; [exact K1|left; reflexivity]|exact (conj K5 K6)].
    - rewrite Em. set (c := cycle_of (ms_p m)) in *.
      change (finished_cycles (EFinished c :: saves)) with (c :: finished_cycles saves).
      change (saved_states (EFinished c :: saves)) with (saved_states saves).
      rewrite (proj2 (fin_saves_quiet _ _ Sv)), map_app, last_or_app. cbn [app].
      split; [rewrite K4; apply cycle_numbers_next; [exact K1|right; reflexivity]|].
      (* one or two saves of the finished state: the count goes up by one, then stays *)
      destruct Sv as [->| ->]; cbn [saved_states map last_or]; (split; [|reflexivity]);
        apply steps_app; (split; [exact K5|]); rewrite K6, <- K4; cbn; tauto.
  Qed.

  Lemma KInv_init : KInv [] init_pstate.
  Proof. repeat split; exact I. Qed.

  Lemma run_kinv specs tr m evs m' :
    Inv tr m /\ KInv tr (ms_p m) -> run dirs m specs = (evs, m') ->
    Inv (tr ++ evs) m' /\ KInv (tr ++ evs) (ms_p m').
  Proof.
    apply (run_invariant dirs (fun _ => True) (fun tr m => Inv tr m /\ KInv tr (ms_p m))); [|intros; exact I].
    intros ? ? ? ? ? _ [HI HK] D. split; [exact (Inv_step _ _ _ _ _ HI D)|exact (k_step _ _ _ _ _ HI HK D)].
  Qed.

  (* Starting from any idle state (the bucket set may have changed between cycles). *)
  Lemma Inv_idle m : idle_ok m -> Inv [] m.
  Proof.
    intros (E1 & E2 & E3 & E4). unfold Inv.
    split; [split; [rewrite E2; lia|rewrite E2, E3; intros j b _ _; reflexivity]|].
    split; [intros _; split; assumption|].
    split; [intros j Ej; rewrite E1; apply E4; exact Ej|]. split; [|split].
    - intros ib I. right. unfold todo. rewrite E2, E3, todoL_start. exact I.
    - intros pre c post E. destruct pre; discriminate.
    - unfold cycle_of. rewrite E1. reflexivity.
  Qed.

  Lemma idle_ok_of_Inv tr m : Inv tr m -> ps_current (ms_p m) = None -> idle_ok m.
  Proof.
    intros (_ & HI & HC & _) E. destruct (HI E) as (A & B).
    split; [exact E|]. split; [exact A|]. split; [exact B|].
    intros j Ej. specialize (HC j Ej). rewrite E in HC. exact HC.
  Qed.

  Lemma coverage_from_idle specs m tr m' :
    idle_ok m -> run dirs m specs = (tr, m') ->
    fincov tr /\ (ps_current (ms_p m') = None -> idle_ok m').
  Proof.
    intros HI H. pose proof (run_inv specs [] _ _ _ (Inv_idle m HI) H) as HInv. cbn [app] in HInv.
    split; [destruct HInv as (_ & _ & _ & _ & F & _); exact F|]. intros E. eapply idle_ok_of_Inv; eauto.
  Qed.

End Dirs.

Lemma StronglySorted_nth {A} (R : A -> A -> Prop) (l : list A) d :
  StronglySorted R l -> forall i j, i < j -> j < length l -> R (nth i l d) (nth j l d).
Proof.
  induction 1 as [|x l S IH F]; intros i j Lij Lj; cbn in Lj; [lia|].
  destruct j as [|j]; [lia|]. destruct i as [|i]; cbn.
  - rewrite Forall_forall in F. apply F. apply nth_In. lia.
  - apply IH; lia.
Qed.

Fixpoint sortedb (l : list name) : bool :=
  match l with
  | [] => true
  | x :: r => match r with [] => true | y :: _ => name_ltb x y && sortedb r end
  end.

Lemma sortedb_sound l : sortedb l = true -> StronglySorted nlt l.
Proof.
  intros H. apply Sorted_StronglySorted; [intros a b c; apply nlt_trans|].
  induction l as [|x r IH]; [constructor|].
  cbn in H. destruct r as [|y r'].
  - constructor; constructor.
  - apply andb_true_iff in H as [H1 H2]. constructor; [apply IH; exact H2|].
    constructor. unfold name_ltb in H1. apply negb_true_iff in H1. exact H1.
Qed.

Lemma lengths_sound n l : forallb (fun p : name => Nat.eqb (length p) n) l = true ->
  forall p q, In p l -> In q l -> length p = length q.
Proof.
  intros H p q Ip Iq. rewrite forallb_forall in H.
  pose proof (H p Ip) as Hp. pose proof (H q Iq) as Hq. apply Nat.eqb_eq in Hp, Hq. congruence.
Qed.

Definition event_eq_dec : forall a b : event, {a = b} + {a <> b}.
Proof. repeat decide equality. Defined.

Lemma count_procs e tr : is_proc e = true ->
  count_occ event_eq_dec tr e = count_occ event_eq_dec (procs tr) e.
Proof.
  intros He. induction tr as [|x tr IH]; cbn; [reflexivity|].
  destruct (event_eq_dec x e) as [->|Ne].
  - rewrite He. cbn. destruct (event_eq_dec e e); [|contradiction]. f_equal. exact IH.
  - destruct (is_proc x); cbn; [|exact IH]. destruct (event_eq_dec x e); [contradiction|exact IH].
Qed.

(* The statements for any prefix table that is strictly sorted, with names of
   equal length. *)
Section Final.
  Variable prefixes : list name.
  Hypothesis prefixes_sorted : StronglySorted nlt prefixes.
  Hypothesis prefixes_len : forall p q, In p prefixes -> In q prefixes -> length p = length q.
  Hypothesis prefixes_two : 2 <= length prefixes.

  Lemma wf_ordered dirs : wf_dirs prefixes dirs -> ordered dirs.
  Proof.
    intros (L & ND & PF). split; [intros i; apply isort_sorted, ND|]. split; [|unfold P; rewrite L; exact prefixes_two].
    intros i j a b Lij Ia Ib. unfold sdir, listing in *. rewrite isort_In in Ia, Ib.
    assert (Lj : j < length dirs).
    { destruct (le_lt_dec (length dirs) j) as [X|X]; [|exact X]. rewrite nth_overflow in Ib by exact X. contradiction. }
    rewrite L in Lj.
    eapply (prefix_order (nth i prefixes []) (nth j prefixes [])).
    - apply prefixes_len; apply nth_In; lia.
    - apply StronglySorted_nth; [exact prefixes_sorted|exact Lij|exact Lj].
    - apply PF; exact Ia.
    - apply PF; exact Ib.
  Qed.

  Lemma epochs_idle_ok : forall eps m tr m',
    idle_ok m -> (forall e, In e eps -> wf_dirs prefixes (fst e)) -> epochs_end_idle m eps ->
    run_epochs m eps = (tr, m') -> idle_ok m'.
  Proof.
    induction eps as [|[dirs specs] r IH]; intros m tr m' HI W HE H; cbn in H.
    - injection H as <- <-. exact HI.
    - cbn in HE. destruct (run dirs m specs) as [e1 m1] eqn:R.
      destruct (run_epochs m1 r) as [e2 m2] eqn:RE. injection H as <- <-.
      cbn in HE. destruct HE as (Hid & HE').
      pose proof (W (dirs, specs) (or_introl eq_refl)) as Wd. cbn in Wd.
      destruct (coverage_from_idle dirs (wf_ordered dirs Wd) specs m e1 m1 HI R) as (_ & Hnext).
      eapply IH; [exact (Hnext Hid)| |exact HE'|exact RE].
      intros e Ie. apply W. right. exact Ie.
  Qed.

  (* Bucket sets that change while the crawler is idle: whatever happened in
     earlier epochs (other directory contents, any interruptions and kills, the
     same crawler object with its listing cache), a cycle that finishes in the
     current epoch has processed every bucket of the current contents. *)
  Lemma covers_all_epochs_gen eps dirs specs tr1 m1 tr2 m2 pre c post :
    (forall e, In e eps -> wf_dirs prefixes (fst e)) -> wf_dirs prefixes dirs ->
    epochs_end_idle (load init_pstate) eps ->
    run_epochs (load init_pstate) eps = (tr1, m1) ->
    run dirs m1 specs = (tr2, m2) ->
    tr2 = pre ++ EFinished c :: post ->
    forall i b, In b (nth i dirs []) -> In (EProc c i b) pre.
  Proof.
    intros W Wd HE R1 R2 E i b I.
    pose proof (epochs_idle_ok eps _ _ _ idle_ok_init W HE R1) as HI.
    destruct (coverage_from_idle dirs (wf_ordered dirs Wd) specs m1 tr2 m2 HI R2) as (F & _).
    apply (F pre c post E (i, b)). apply in_all_nth. exact I.
  Qed.

  Lemma covers_all_gen dirs specs tr m pre c post :
    wf_dirs prefixes dirs ->
    run dirs (load init_pstate) specs = (tr, m) ->
    tr = pre ++ EFinished c :: post ->
    forall i b, In b (nth i dirs []) -> In (EProc c i b) pre.
  Proof.
    intros W R.
    exact (covers_all_epochs_gen [] dirs specs [] _ tr m pre c post (fun _ F => match F with end) W I eq_refl R).
  Qed.

  Lemma exactly_once_gen dirs specs tr m :
    wf_dirs prefixes dirs ->
    (forall s, In s specs -> sl_kill s = None) ->
    run dirs (load init_pstate) specs = (tr, m) ->
    (forall c i b, count_occ event_eq_dec tr (EProc c i b) <= 1) /\
    (forall c i b, In (EProc c i b) tr -> In b (nth i dirs [])) /\
    (forall c, In (EFinished c) tr -> forall i b, In b (nth i dirs []) ->
       count_occ event_eq_dec tr (EProc c i b) = 1) /\
    finished_cycles tr = map N.of_nat (seq 0 (N.to_nat (completed_cycles (ms_p m)))).
  Proof.
    intros W NK R.
    destruct (run_einv dirs (wf_ordered dirs W) specs [] _ _ _ NK (conj (Inv_idle dirs _ idle_ok_init) (EInv_init dirs)) R)
      as ((_ & _ & _ & _ & HF & E5) & HE).
    cbn [app] in *.
    assert (C1 : forall c i b, count_occ event_eq_dec tr (EProc c i b) <= 1).
    { intros c i b. rewrite count_procs by reflexivity.
      apply NoDup_count_occ. exact (EInv_NoDup dirs (wf_ordered dirs W) _ _ HE E5). }
    split; [exact C1|]. split.
    - intros c i b I. apply in_all_nth. exact (EInv_in dirs _ _ c i b HE I).
    - split; [|exact (proj1 HE)]. intros c I i b Ib.
      apply in_split in I as (pre & post & E).
      assert (A : In (i, b) (all_buckets dirs)) by (apply in_all_nth; exact Ib).
      assert (X : In (EProc c i b) tr) by (rewrite E; apply in_app_iff; left; exact (HF pre c post E (i, b) A)).
      apply (count_occ_In event_eq_dec) in X. specialize (C1 c i b). lia.
  Qed.

  Lemma cycle_numbers_gen dirs specs tr m :
    wf_dirs prefixes dirs ->
    run dirs (load init_pstate) specs = (tr, m) ->
    cycle_numbers_ok (finished_cycles tr) /\
    steps_by_0_or_1 0 (map completed_cycles (saved_states tr)) /\
    last_or (map completed_cycles (saved_states tr)) 0 = completed_cycles (ms_p m).
  Proof.
    intros W R.
    pose proof (run_kinv dirs (wf_ordered dirs W) specs [] _ _ _ (conj (Inv_idle dirs _ idle_ok_init) KInv_init) R) as (_ & K1 & K56).
    cbn [app] in *. split; [exact (cycle_numbers_prefix _ _ K1)|exact K56].
  Qed.
End Final.
