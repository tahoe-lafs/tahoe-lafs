(* Proofs for C05 (Model/Convergence.v): chunking independence of the
   convergent key, injectivity of the convergence tag, parameter changes vs
   key / storage index (relative to collision freedom of truncated SHA-256d),
   the literal threshold and the base32 round trip of literal caps. *)
From Coq Require Import String List NArith ZArith Bool Lia.
From Verif Require Import Lib.Hex Lib.Decimal Lib.DecimalFacts Lib.ListFacts Lib.Netstring Lib.NetstringFacts
  Lib.SHA256 Lib.HashPrim Gen.Hashutil Gen.ImmConsts Model.Convergence Proofs.HashDeriv.
Import ListNotations.
Local Open Scope N_scope.

Local Opaque sha256 sha1.

(* the hasher accumulates: any chunking gives the hash of the whole *)

Lemma fold_hasher_update : forall chunks h,
  fold_left hasher_update chunks h = hasher_update h (concat chunks).
Proof.
  induction chunks as [|c r IH]; intro h.
  - destruct h as [t a]. cbn. unfold hasher_update. cbn. rewrite app_nil_r. reflexivity.
  - cbn [fold_left concat]. rewrite IH. destruct h as [t a]. unfold hasher_update. cbn.
    rewrite app_assoc. reflexivity.
Qed.

Lemma key_chunking_independent_ok k n segsize secret chunks :
  convergent_key_chunked k n segsize secret chunks
  = convergent_key k n segsize secret (concat chunks).
Proof.
  unfold convergent_key_chunked, convergent_key, convergence_hash.
  rewrite fold_hasher_update. reflexivity.
Qed.

(* the read loop returns a chunking of the whole file when every read returns
   at least one byte until the end of the file *)
Lemma read_chunks_concat bs : 1 <= bs ->
  forall fuel sched data,
  Forall (fun s => 1 <= s) sched -> (List.length data < fuel)%nat ->
  concat (read_chunks fuel bs sched data) = data.
Proof.
  intros Hbs. induction fuel as [|f IH]; intros sched data Hs Hl; [lia|].
  cbn [read_chunks].
  set (want := match sched with [] => bs | s :: _ => N.min bs s end).
  assert (Hw : 1 <= want).
  { subst want. destruct sched as [|s r]; [assumption|]. inversion Hs; subst. lia. }
  destruct data as [|y d]; [rewrite firstn_nil; reflexivity|].
  (* a non-empty file and want >= 1: the chunk is not empty *)
  destruct (N.to_nat want) as [|m] eqn:W; [lia|]. cbn [firstn skipn concat].
  rewrite IH.
  - cbn [app]. f_equal. apply firstn_skipn.
  - destruct sched; [constructor|]. inversion Hs; assumption.
  - rewrite skipn_length. cbn [List.length] in Hl. lia.
Qed.

Lemma file_chunks_concat sched data :
  Forall (fun s => 1 <= s) sched -> concat (file_chunks sched data) = data.
Proof.
  intro H. unfold file_chunks. apply read_chunks_concat; [|assumption|lia].
  unfold CONVERGENCE_READ_BLOCKSIZE. lia.
Qed.

Lemma key_read_loop_independent_ok k n segsize secret sched data :
  Forall (fun s => 1 <= s) sched ->
  convergent_key_read k n segsize secret sched data = convergent_key k n segsize secret data.
Proof.
  intro H. unfold convergent_key_read. rewrite key_chunking_independent_ok, file_chunks_concat by assumption.
  reflexivity.
Qed.

Lemma upload_source_independent_ok max_seg k n secret sched data :
  Forall (fun s => 1 <= s) sched ->
  upload_convergent_read max_seg k n secret sched data = upload_convergent max_seg k n secret data.
Proof.
  intro H. unfold upload_convergent_read, upload_convergent, convergent_cap_fields, uploadable_key.
  rewrite key_read_loop_independent_ok by assumption. reflexivity.
Qed.

Lemma comma_not_in_dec n : ~ In 44 (dec n).
Proof. apply dec_no_byte. reflexivity. Qed.

Lemma params_string_inj k n seg k' n' seg' :
  dec k ++ [44] ++ dec n ++ [44] ++ dec seg = dec k' ++ [44] ++ dec n' ++ [44] ++ dec seg' ->
  k = k' /\ n = n' /\ seg = seg'.
Proof.
  cbn [app]. intro H.
  apply split_at_sep_unique in H; try apply comma_not_in_dec. destruct H as [Hk H].
  apply split_at_sep_unique in H; try apply comma_not_in_dec. destruct H as [Hn Hs].
  apply dec_inj in Hk, Hn, Hs. auto.
Qed.

Lemma tag_injective_ok k n seg s k' n' seg' s' :
  _convergence_hasher_tag k n seg s = _convergence_hasher_tag k' n' seg' s' ->
  k = k' /\ n = n' /\ seg = seg' /\ s = s'.
Proof.
  unfold _convergence_hasher_tag. rewrite <- !app_assoc. intro H.
  apply app_inv_head in H.
  apply netstring_prefix_free in H. destruct H as [Hs H].
  apply netstring_inj in H.
  change (bytes_of_string ","%string) with [44] in H.
  apply params_string_inj in H. tauto.
Qed.

(* the SHA-256d input determines tag and data; the tag determines the parameters *)
Lemma key_message_inj k n seg s d k' n' seg' s' d' :
  key_message k n seg s d = key_message k' n' seg' s' d' ->
  k = k' /\ n = n' /\ seg = seg' /\ s = s' /\ d = d'.
Proof.
  unfold key_message. intro H. apply netstring_prefix_free in H. destruct H as [Ht Hd].
  apply tag_injective_ok in Ht. tauto.
Qed.

Lemma si_message_inj a b : si_message a = si_message b -> a = b.
Proof. unfold si_message. apply app_inv_head. Qed.

Lemma convergent_key_unfold k n seg s d :
  convergent_key k n seg s d = trunc16 (sha256d (key_message k n seg s d)).
Proof. reflexivity. Qed.

Lemma chk_storage_index_unfold key :
  chk_storage_index key = trunc16 (sha256d (si_message key)).
Proof. reflexivity. Qed.

(* Unconditional form: equal keys for different (parameters, secret, data), or
   equal storage indexes for different keys, exhibit a collision of SHA-256d
   truncated to 128 bits. *)
Lemma tuple_neq_message_neq k n seg s d k' n' seg' s' d' :
  (k, n, seg, s, d) <> (k', n', seg', s', d') ->
  key_message k n seg s d <> key_message k' n' seg' s' d'.
Proof.
  intros Hne H. apply key_message_inj in H. destruct H as (-> & -> & -> & -> & ->). apply Hne. reflexivity.
Qed.

Lemma same_key_is_collision_ok k n seg s d k' n' seg' s' d' :
  (k, n, seg, s, d) <> (k', n', seg', s', d') ->
  convergent_key k n seg s d = convergent_key k' n' seg' s' d' ->
  trunc_collision (key_message k n seg s d) (key_message k' n' seg' s' d').
Proof.
  intros Hne H. split; [apply tuple_neq_message_neq; assumption|].
  rewrite <- !convergent_key_unfold. assumption.
Qed.

Lemma same_si_is_collision_ok key key' :
  key <> key' -> chk_storage_index key = chk_storage_index key' ->
  trunc_collision (si_message key) (si_message key').
Proof.
  intros Hne H. split.
  - intro E. apply si_message_inj in E. contradiction.
  - rewrite <- !chk_storage_index_unfold. assumption.
Qed.

(* Relative form.  `Msgs` is the set of byte strings SHA-256d is applied to in
   the uploads under consideration; collision resistance of the truncated hash
   is idealised as injectivity ON THAT SET (injectivity on all byte strings is
   impossible for a 128-bit digest, so it is not assumed). *)
Section CollisionFree.
  Variable Msgs : list N -> Prop.
  Hypothesis trunc_sha256d_inj_on :
    forall a b, Msgs a -> Msgs b -> trunc16 (sha256d a) = trunc16 (sha256d b) -> a = b.

  Lemma param_change_changes_key_ok k n seg s d k' n' seg' s' d' :
    Msgs (key_message k n seg s d) -> Msgs (key_message k' n' seg' s' d') ->
    (k, n, seg, s, d) <> (k', n', seg', s', d') ->
    convergent_key k n seg s d <> convergent_key k' n' seg' s' d'.
  Proof.
    intros M1 M2 Hne H. rewrite !convergent_key_unfold in H.
    apply trunc_sha256d_inj_on in H; try assumption.
    revert H. apply tuple_neq_message_neq. assumption.
  Qed.

  Lemma key_change_changes_si_ok key key' :
    Msgs (si_message key) -> Msgs (si_message key') ->
    key <> key' -> chk_storage_index key <> chk_storage_index key'.
  Proof.
    intros M1 M2 Hne H. rewrite !chk_storage_index_unfold in H.
    apply trunc_sha256d_inj_on in H; try assumption.
    apply si_message_inj in H. contradiction.
  Qed.

  Lemma param_change_changes_key_and_si_ok k n seg s d k' n' seg' s' d' :
    Msgs (key_message k n seg s d) -> Msgs (key_message k' n' seg' s' d') ->
    Msgs (si_message (convergent_key k n seg s d)) -> Msgs (si_message (convergent_key k' n' seg' s' d')) ->
    (k <> k' \/ n <> n' \/ seg <> seg' \/ s <> s' \/ d <> d') ->
    convergent_key k n seg s d <> convergent_key k' n' seg' s' d' /\
    chk_storage_index (convergent_key k n seg s d) <> chk_storage_index (convergent_key k' n' seg' s' d').
  Proof.
    intros M1 M2 M3 M4 Hne.
    assert (Hk : convergent_key k n seg s d <> convergent_key k' n' seg' s' d').
    { apply param_change_changes_key_ok; try assumption.
      intro E. injection E as -> -> -> -> ->. intuition congruence. }
    split; [assumption|]. apply key_change_changes_si_ok; assumption.
  Qed.
End CollisionFree.

(* The hypothesis of the section is satisfiable: a concrete set of messages (two
   uploads of the same 56 bytes that differ in k only, hence also in the segment
   size 57 / 56) on which the truncated hash is injective.  The four digests are
   computed once each; the first three are also the known answers of Props/C05.v
   (hashutil.convergence_hash(3, 10, 57, b"x"*56, b"secret"), ... computed with
   the real code). *)
Definition ex_secret : list N := bytes_of_string "secret".
Definition ex_data : list N := repeat 120 56.
Definition ex_msgs : list (list N) :=
  [ key_message 3 10 57 ex_secret ex_data; key_message 4 10 56 ex_secret ex_data;
    si_message (convergent_key 3 10 57 ex_secret ex_data);
    si_message (convergent_key 4 10 56 ex_secret ex_data) ].

Lemma ex_key_k3 : convergent_key 3 10 57 ex_secret ex_data = unhex "898f230bb7695cee00b148557ab918ba".
Proof. vm_compute. reflexivity. Qed.

Lemma ex_key_k4 : convergent_key 4 10 56 ex_secret ex_data = unhex "d29ae9d9f21756683cd1eadfdae8ea0d".
Proof. vm_compute. reflexivity. Qed.

Lemma ex_si_k3 : chk_storage_index (unhex "898f230bb7695cee00b148557ab918ba") = unhex "788a3dae323b0e4c47be5d53e3e43d2e".
Proof. vm_compute. reflexivity. Qed.

Lemma ex_si_k4 : chk_storage_index (unhex "d29ae9d9f21756683cd1eadfdae8ea0d") = unhex "5a8cd0a0996b8e23bcd96e6a256e4928".
Proof. vm_compute. reflexivity. Qed.

Lemma ex_upload_si_k3 :
  convergent_storage_index 1048576 3 10 ex_secret ex_data = unhex "788a3dae323b0e4c47be5d53e3e43d2e".
Proof.
  unfold convergent_storage_index, convergent_cap_fields. cbn [cf_key].
  change (cv_upload_segsize 1048576 (blen ex_data) 3) with 57. rewrite ex_key_k3. exact ex_si_k3.
Qed.

Lemma ex_msgs_collision_free :
  forall a b, In a ex_msgs -> In b ex_msgs -> trunc16 (sha256d a) = trunc16 (sha256d b) -> a = b.
Proof.
  intros a b. apply (NoDup_map_In_inj (fun m => trunc16 (sha256d m))). unfold ex_msgs. cbn [map].
  rewrite <- !convergent_key_unfold, ex_key_k3, ex_key_k4.
  rewrite <- !chk_storage_index_unfold, ex_si_k3, ex_si_k4.
  apply distinctb_NoDup. vm_compute. reflexivity.
Qed.

Lemma param_change_nonvacuous_ok :
  convergent_key 3 10 57 ex_secret ex_data <> convergent_key 4 10 56 ex_secret ex_data /\
  chk_storage_index (convergent_key 3 10 57 ex_secret ex_data)
    <> chk_storage_index (convergent_key 4 10 56 ex_secret ex_data).
Proof.
  apply (param_change_changes_key_and_si_ok (fun m => In m ex_msgs) ex_msgs_collision_free).
  - left; reflexivity.
  - right; left; reflexivity.
  - right; right; left; reflexivity.
  - right; right; right; left; reflexivity.
  - left. discriminate.
Qed.

Lemma literal_iff_le_55_ok size : upload_kind size = Literal <-> size <= 55.
Proof.
  unfold upload_kind, is_literal, URI_LIT_SIZE_THRESHOLD.
  destruct (N.leb_spec size 55); split; intro; (reflexivity || discriminate || lia).
Qed.

Lemma chk_iff_ge_56_ok size : upload_kind size = CHK <-> 56 <= size.
Proof.
  unfold upload_kind, is_literal, URI_LIT_SIZE_THRESHOLD.
  destruct (N.leb_spec size 55); split; intro; (reflexivity || discriminate || lia).
Qed.

Lemma upload_literal_ok max_seg k n secret data :
  blen data <= 55 -> upload_convergent max_seg k n secret data = ULiteral (literal_cap data).
Proof.
  intro H. unfold upload_convergent. apply literal_iff_le_55_ok in H. rewrite H. reflexivity.
Qed.

Lemma upload_chk_ok max_seg k n secret data :
  56 <= blen data ->
  upload_convergent max_seg k n secret data = UCHK (convergent_cap_fields max_seg k n secret data).
Proof.
  intro H. unfold upload_convergent. apply chk_iff_ge_56_ok in H. rewrite H. reflexivity.
Qed.

Lemma b32_val_chr q : q < 32 -> b32_val (b32_chr q) = Some q.
Proof.
  intro H. rewrite <- (N2Nat.id q). assert (Hn : (N.to_nat q < 32)%nat) by lia.
  revert Hn. generalize (N.to_nat q). intros m Hm.
  do 32 (destruct m as [|m]; [vm_compute; reflexivity|]). lia.
Qed.

Lemma map_opt_val_chr : forall qs,
  Forall (fun q => q < 32) qs -> cv_map_opt b32_val (map b32_chr qs) = Some qs.
Proof.
  induction qs as [|q r IH]; intro H; [reflexivity|].
  inversion H; subst. cbn [map cv_map_opt]. rewrite b32_val_chr by assumption.
  rewrite IH by assumption. reflexivity.
Qed.

(* a quintet or octet assembled from two bit fields is taken apart by / and mod *)
Lemma pack_div x y p : y < p -> (x * p + y) / p = x.
Proof. intro H. rewrite N.div_add_l, N.div_small by lia. lia. Qed.

Lemma pack_mod x y p : y < p -> (x * p + y) mod p = y.
Proof. intro H. rewrite N.add_comm, N.mod_add, N.mod_small by lia. reflexivity. Qed.

(* an octet is the sum of its bit fields: two (cut at p), or three (cut at p and at p * q) *)
Lemma join2 x p : x / p * p + x mod p = x.
Proof. rewrite N.mul_comm. symmetry. apply N.div_mod'. Qed.

Lemma join3 x p q : p <> 0 -> q <> 0 -> x / (p * q) * (p * q) + (x / p) mod q * p + x mod p = x.
Proof.
  intros Hp Hq. rewrite <- N.div_div by assumption.
  rewrite <- (join2 x p) at 4. rewrite <- (join2 (x / p) q) at 3. ring.
Qed.

Lemma div_lt x p q : x < p * q -> x / p < q.
Proof. intro H. apply N.div_lt_upper_bound; lia. Qed.

Lemma pack_lt x y p q : q <> 0 -> y < p -> x mod q * p + y < q * p.
Proof.
  intros Hq Hy. pose proof (N.mod_lt x q Hq).
  apply N.lt_le_trans with ((x mod q + 1) * p); [lia|]. apply N.mul_le_mono_r. lia.
Qed.

Lemma enc5_lt32 a b c d e :
  a < 256 -> b < 256 -> c < 256 -> d < 256 -> e < 256 ->
  Forall (fun q => q < 32) (enc5 a b c d e).
Proof.
  intros Ha Hb Hc Hd He. unfold enc5. repeat constructor.
  - apply div_lt. assumption.
  - apply (pack_lt a (b / 64) 4 8); [discriminate|]. apply div_lt. assumption.
  - apply N.mod_lt. discriminate.
  - apply (pack_lt b (c / 16) 16 2); [discriminate|]. apply div_lt. assumption.
  - apply (pack_lt c (d / 128) 2 16); [discriminate|]. apply div_lt. assumption.
  - apply N.mod_lt. discriminate.
  - apply (pack_lt d (e / 32) 8 4); [discriminate|]. apply div_lt. assumption.
  - apply N.mod_lt. discriminate.
Qed.

Lemma dec8_enc5 a b c d e :
  a < 256 -> b < 256 -> c < 256 -> d < 256 -> e < 256 ->
  match enc5 a b c d e with
  | [q1; q2; q3; q4; q5; q6; q7; q8] => dec8 q1 q2 q3 q4 q5 q6 q7 q8
  | _ => []
  end = [a; b; c; d; e].
Proof.
  intros Ha Hb Hc Hd He. unfold enc5, dec8.
  rewrite !pack_div, !pack_mod by (apply div_lt; assumption).
  repeat f_equal.
  - apply join2.
  - exact (join3 b 2 32 ltac:(discriminate) ltac:(discriminate)).
  - apply join2.
  - exact (join3 d 4 32 ltac:(discriminate) ltac:(discriminate)).
  - apply join2.
Qed.

Lemma bytes_ok_cons b l : cv_bytes_ok (b :: l) = true <-> b < 256 /\ cv_bytes_ok l = true.
Proof. unfold cv_bytes_ok. cbn [forallb]. rewrite andb_true_iff, N.ltb_lt. reflexivity. Qed.

Lemma list_ind5 {A} (P : list A -> Prop) :
  P [] -> (forall a, P [a]) -> (forall a b, P [a; b]) -> (forall a b c, P [a; b; c]) ->
  (forall a b c d, P [a; b; c; d]) ->
  (forall a b c d e r, P r -> P (a :: b :: c :: d :: e :: r)) ->
  forall l, P l.
Proof.
  intros H0 H1 H2 H3 H4 H5.
  fix IH 1. intro l.
  destruct l as [|a [|b [|c [|d [|e r]]]]].
  - exact H0.
  - apply H1.
  - apply H2.
  - apply H3.
  - apply H4.
  - apply H5. apply IH.
Qed.

Lemma quintets_lt32 : forall l, cv_bytes_ok l = true -> Forall (fun q => q < 32) (b32_quintets l).
Proof.
  induction l as [| a | a b | a b c | a b c d | a b c d e r IH] using list_ind5;
    rewrite ?bytes_ok_cons; intro H; cbn [b32_quintets].
  1: constructor.
  5: { apply Forall_app. split; [apply enc5_lt32|apply IH]; tauto. }
  all: apply Forall_firstn, enc5_lt32; lia.
Qed.

Lemma tail_octets_le nq nb : b32_tail_octets nq = Some nb -> (nq <= 7)%nat.
Proof. do 8 (destruct nq as [|nq]; [lia|]). discriminate. Qed.

(* A tail group is a full group cut short: when the octets beyond the first nb
   are zero, so are the quintets beyond the first nq (hypothesis Hpad, true by
   computation in each of the four cases), and the group decodes as a whole. *)
Lemma dec_tail_enc5 nq nb a b c d e :
  a < 256 -> b < 256 -> c < 256 -> d < 256 -> e < 256 ->
  b32_tail_octets nq = Some nb ->
  firstn nq (enc5 a b c d e) ++ repeat 0 (8 - nq) = enc5 a b c d e ->
  forallb (N.eqb 0) (skipn nb [a; b; c; d; e]) = true ->
  b32_dec_tail (firstn nq (enc5 a b c d e)) = Some (firstn nb [a; b; c; d; e]).
Proof.
  intros Ha Hb Hc Hd He Hn Hpad Hz. unfold b32_dec_tail.
  apply tail_octets_le in Hn as Hle.
  replace (List.length (firstn nq (enc5 a b c d e))) with nq
    by (rewrite firstn_length; cbn [enc5 List.length]; lia).
  rewrite Hn, Hpad.
  pose proof (dec8_enc5 a b c d e Ha Hb Hc Hd He) as D. unfold enc5 in *.
  cbv zeta. rewrite D, Hz. reflexivity.
Qed.

Lemma unquintets_quintets : forall l, cv_bytes_ok l = true -> b32_unquintets (b32_quintets l) = Some l.
Proof.
  induction l as [| a | a b | a b c | a b c d | a b c d e r IH] using list_ind5;
    rewrite ?bytes_ok_cons; intro H.
  - reflexivity.
  - apply (dec_tail_enc5 2 1 a 0 0 0 0); try reflexivity; tauto.
  - apply (dec_tail_enc5 4 2 a b 0 0 0); try reflexivity; tauto.
  - apply (dec_tail_enc5 5 3 a b c 0 0); try reflexivity; tauto.
  - apply (dec_tail_enc5 7 4 a b c d 0); try reflexivity; tauto.
  - destruct H as (Ha & Hb & Hc & Hd & He & H).
    pose proof (dec8_enc5 a b c d e Ha Hb Hc Hd He) as D. unfold enc5 in D.
    cbn [b32_quintets enc5 app b32_unquintets]. rewrite (IH H), D. reflexivity.
Qed.

Lemma b32_decode_encode data : cv_bytes_ok data = true -> b32_decode (b32_encode data) = Some data.
Proof.
  intro H. unfold b32_decode, b32_encode.
  rewrite map_opt_val_chr by (apply quintets_lt32; assumption).
  apply unquintets_quintets; assumption.
Qed.

Lemma strip_prefix_app : forall p l, strip_prefix p (p ++ l) = Some l.
Proof.
  induction p as [|x p IH]; intro l; [reflexivity|].
  cbn [app strip_prefix]. rewrite N.eqb_refl. apply IH.
Qed.

Lemma literal_cap_embeds_data_ok data :
  cv_bytes_ok data = true -> literal_cap_data (literal_cap data) = Some data.
Proof.
  intro H. unfold literal_cap_data, literal_cap. rewrite strip_prefix_app.
  apply b32_decode_encode; assumption.
Qed.

Lemma literal_read_whole_ok data :
  cv_bytes_ok data = true -> literal_read (literal_cap data) 0 (blen data) = Some data.
Proof.
  intro H. unfold literal_read. rewrite literal_cap_embeds_data_ok by assumption.
  cbn [N.to_nat skipn]. unfold blen. rewrite Nat2N.id, firstn_all. reflexivity.
Qed.

(* a literal upload followed by reading the cap back, for every file of at most 55 bytes *)
Lemma literal_upload_round_trip_ok max_seg k n secret data :
  cv_bytes_ok data = true -> blen data <= 55 ->
  exists cap, upload_convergent max_seg k n secret data = ULiteral cap /\
              literal_read cap 0 (blen data) = Some data.
Proof.
  intros Hb Hs. exists (literal_cap data). split.
  - apply upload_literal_ok; assumption.
  - apply literal_read_whole_ok; assumption.
Qed.

Lemma upload_segsize_spec_ok max_seg size k :
  1 <= k ->
  let s := cv_upload_segsize max_seg size k in
  s mod k = 0 /\ N.min max_seg size <= s /\ s < N.min max_seg size + k.
Proof.
  intros Hk. cbv zeta. unfold cv_upload_segsize, cv_next_multiple, cv_div_ceil.
  set (m := N.min max_seg size). clearbody m.
  pose proof (N.div_mod m k ltac:(lia)) as D. pose proof (N.mod_lt m k ltac:(lia)) as L.
  split; [apply N.mod_mul; lia|].
  destruct (m mod k =? 0) eqn:E; [apply N.eqb_eq in E|apply N.eqb_neq in E]; nia.
Qed.

Lemma pins_ok :
  (pin_FileHandle_get_encryption_key_convergent, pin_FileHandle_get_encryption_key_random,
   pin_FileHandle_get_encryption_key, pin_Uploader_upload, pin_LiteralUploader_start,
   pin_BaseUploadable_get_all_encoding_parameters, pin_EncryptAnUploadable_read_encrypted,
   pin_EncryptAnUploadable_hash_and_encrypt_plaintext)
  = ("15432aac02ca8169", "a98a6d5d41ba3347", "372b8d3c74308cb9", "c648ad5e8214dfbe",
     "8a0958199e46be77", "e74fad7b74b26da8", "561735b5c46b4fc9", "c875f08b14f62c92")%string.
Proof. reflexivity. Qed.
