From Coq Require Import List NArith Bool.
From Verif Require Import Model.Publish Proofs.Publish Model.SlotAnswer.
Import ListNotations.
Local Open Scope N_scope.

Lemma known_on_server_In ws srv c :
  mem_N c (known_on_server ws srv) = true <-> exists w, In w ws /\ w_server w = srv /\ w_shnum w = c.
Proof.
  unfold known_on_server. rewrite mem_N_In, in_map_iff.
  split; intros [w H]; exists w; rewrite filter_In, N.eqb_eq in *; tauto.
Qed.

Lemma known_on_server_mono A B srv c :
  incl A B -> mem_N c (known_on_server B srv) = false -> mem_N c (known_on_server A srv) = false.
Proof.
  intros H HB. apply not_true_is_false. intro HA. apply known_on_server_In in HA as (x & Hx & E).
  rewrite (proj2 (known_on_server_In B srv c)) in HB; [discriminate|]. exists x. auto.
Qed.

(* the surprise test of _got_write_answer, on what the server reports: it fires on a held share that is
   not this writer's, not one we are writing to this server, and of another version *)
Lemma surprise_test_report w known mine held :
  existsb (fun r => negb (r_shnum r =? w_shnum w) && negb (mem_N (r_shnum r) known) && negb (r_is_our_checkstring r))
          (report mine held) = true
  <-> exists c v, In (c, v) held /\ c <> w_shnum w /\ mem_N c known = false /\ v <> mine.
Proof.
  unfold report. rewrite existsb_exists. split.
  - intros [r [Hr Hb]]. apply in_map_iff in Hr as [[c v] [<- Hin]]. cbn in Hb.
    apply andb_prop in Hb as [[Hc Hk]%andb_prop Hv]. apply negb_true_iff in Hc, Hk, Hv.
    apply N.eqb_neq in Hc, Hv. exists c, v. auto.
  - intros (c & v & Hin & Hc & Hk & Hv). exists {| r_shnum := c; r_is_our_checkstring := v =? mine |}.
    split; [exact (in_map _ _ _ Hin)|]. cbn. apply N.eqb_neq in Hc, Hv. rewrite Hc, Hk, Hv. reflexivity.
Qed.

Lemma foreign_share_surprises s w wrote held named mine c v :
  In (c, v) held -> c <> w_shnum w ->
  mem_N c (known_on_server (writers s) (w_server w)) = false -> v <> mine ->
  surprised (handle_answer s w (answer_of mine wrote held named)) = true.
Proof.
  intros Hin Hc Hk Hv. unfold answer_of, server_read_data, handle_answer.
  rewrite (proj2 (surprise_test_report _ _ _ _)) by (exists c, v; auto). destruct wrote; reflexivity.
Qed.

Lemma foreign_share_gives_ucwe_ok k ws pre post w wrote held named mine c v :
  In (c, v) held -> c <> w_shnum w ->
  mem_N c (known_on_server ws (w_server w)) = false -> v <> mine ->
  publish_outcome k ws (pre ++ (w, answer_of mine wrote held named) :: post) = UncoordinatedWrite.
Proof.
  intros Hin Hc Hk Hv. unfold publish_outcome, handle_all. rewrite fold_left_app. cbn [fold_left fst snd].
  apply decide_ucwe, all_surprised_mono, foreign_share_surprises with c v; auto.
  exact (known_on_server_mono _ _ _ _ (all_writers_subset pre (start ws)) Hk).
Qed.

Lemma own_version_tolerated_ok s w held named mine :
  (forall c v, In (c, v) held -> v = mine) ->
  surprised (handle_answer s w (answer_of mine true held named)) = surprised s.
Proof.
  intros H. unfold answer_of, server_read_data, handle_answer.
  destruct (existsb _ (report mine held)) eqn:E; [|reflexivity].
  apply surprise_test_report in E as (c & v & Hin & _ & _ & Hv). destruct (Hv (H c v Hin)).
Qed.
