(* Proofs about Model/Expirer.v.  One share: which leases process_share removes and when it
   deletes the share, for leases with distinct cancel secrets (the expiry rule is monotone in
   the clock).  One crawl: a share all of whose leases have expired is gone when a cycle
   finishes (deleted_in_cycle_ok).  Then the configuration flags and worked examples. *)
From Coq Require Import List ZArith NArith Bool Arith Lia.
From Verif Require Import Lib.ListFacts Gen.CrawlConsts Model.Crawler Model.Expirer Proofs.Crawler Proofs.CrawlerFinal.
Import ListNotations.
Local Open Scope Z_scope.

Lemma lease_expired_rule pol now t l :
  lease_expired pol now t l = true <-> type_enabled pol t = true /\ expired_by_rule (p_mode pol) now l.
Proof.
  unfold lease_expired, expired_by_rule, lease_age, renewal_time, nominal_duration.
  rewrite andb_true_iff.
  destruct (p_mode pol) as [[d|]|d]; rewrite Z.ltb_lt; intuition lia.
Qed.

Lemma expired_by_ruleb_ok m now l : expired_by_ruleb m now l = true <-> expired_by_rule m now l.
Proof. unfold expired_by_ruleb, expired_by_rule. destruct m as [[d|]|d]; apply Z.ltb_lt. Qed.

Lemma rule_monotone m now0 now l : expired_by_rule m now0 l -> now0 <= now -> expired_by_rule m now l.
Proof. unfold expired_by_rule. destruct m as [[d|]|d]; lia. Qed.

(* a lease granted or renewed by the storage server at time t0 *)
Lemma server_lease_times_ok t0 s :
  renewal_time (mk_lease (t0 + default_renewal_time) s) = t0 /\
  nominal_duration (mk_lease (t0 + default_renewal_time) s) = default_renewal_time.
Proof.
  unfold nominal_duration, renewal_time, grant_renew_time. cbn [l_expiration].
  change grant_renew_offset with default_renewal_time. lia.
Qed.

Definition notin (ss : list N) (l : lease) : bool := negb (existsb (N.eqb (l_cancel l)) ss).
Definition norm (l : list lease) : file_state := match l with [] => Gone | _ => Present l end.

Lemma cancel_lease_present s cur :
  In s (map l_cancel cur) ->
  cancel_lease s (Present cur) = Some (norm (filter (fun l => negb (N.eqb (l_cancel l) s)) cur)).
Proof.
  intros I. cbn.
  assert (E : existsb (fun l => N.eqb (l_cancel l) s) cur = true).
  { apply in_map_iff in I as (l & E & Il). apply existsb_exists. exists l. split; [exact Il|]. apply N.eqb_eq. exact E. }
  rewrite E. destruct (filter (fun l => negb (N.eqb (l_cancel l) s)) cur); reflexivity.
Qed.

Lemma filter_filter {A} (f g : A -> bool) l : filter f (filter g l) = filter (fun x => g x && f x) l.
Proof.
  induction l as [|x l IH]; cbn; [reflexivity|]. destruct (g x); cbn; [destruct (f x)|]; rewrite ?IH; reflexivity.
Qed.

Lemma filter_none {A} (f : A -> bool) l : (forall x, In x l -> f x = true) -> filter (fun x => negb (f x)) l = [].
Proof.
  induction l as [|x l IH]; cbn; intros H; [reflexivity|].
  rewrite (H x (or_introl eq_refl)). cbn. apply IH. intros; apply H; right; assumption.
Qed.

Lemma cancel_all_nodup : forall ss cur,
  NoDup ss -> NoDup (map l_cancel cur) -> (forall s, In s ss -> In s (map l_cancel cur)) ->
  cancel_all ss (Present cur) = (match ss with [] => Present cur | _ => norm (filter (notin ss) cur) end, false).
Proof.
  induction ss as [|s r IH]; intros cur Hs Hc Hin; cbn [cancel_all]; [reflexivity|].
  rewrite (cancel_lease_present s cur (Hin s (or_introl eq_refl))).
  inversion Hs as [|? ? Ns Hr]; subst.
  set (rest := filter (fun l => negb (N.eqb (l_cancel l) s)) cur).
  assert (Hrest : forall s', In s' r -> In s' (map l_cancel rest)).
  { intros s' I'. destruct (proj1 (in_map_iff _ _ _) (Hin s' (or_intror I'))) as (l & E & Il).
    apply in_map_iff. exists l. split; [exact E|]. apply filter_In. split; [exact Il|].
    apply negb_true_iff. apply N.eqb_neq. intros X. apply Ns. rewrite <- X, E. exact I'. }
  assert (Efil : filter (notin (s :: r)) cur = filter (notin r) rest).
  { unfold rest. rewrite filter_filter. apply filter_ext. intros l. unfold notin. cbn.
    rewrite negb_orb. reflexivity. }
  destruct rest as [|x rest'] eqn:Er.
  - (* no lease left: no secret may be pending *)
    destruct r as [|s' r'].
    + cbn. rewrite Efil. reflexivity.
    + exfalso. exact (Hrest s' (or_introl eq_refl)).
  - cbn [norm]. rewrite <- Er in *. rewrite (IH rest Hr); [| |exact Hrest].
    + destruct r as [|s' r'].
      * rewrite Efil, (filter_all_true (notin []) rest), Er by reflexivity. reflexivity.
      * rewrite Efil. reflexivity.
    + unfold rest. apply NoDup_map_filter. exact Hc.
Qed.

(* What process_share does to a share whose leases carry distinct cancel secrets. *)
Lemma process_share_nodup pol now t ls :
  NoDup (map l_cancel ls) ->
  sr_raised (process_share pol now t ls) = false /\
  sr_state (process_share pol now t ls) =
    if p_enabled pol then
      match filter (lease_expired pol now t) ls with
      | [] => Present ls
      | _ => norm (filter (fun l => negb (lease_expired pol now t l)) ls)
      end
    else Present ls.
Proof.
  intros ND. unfold process_share.
  destruct (p_enabled pol); [|split; reflexivity].
  set (expired := filter (lease_expired pol now t) ls).
  assert (C : cancel_all (map l_cancel expired) (Present ls) =
              (match map l_cancel expired with [] => Present ls | _ => norm (filter (notin (map l_cancel expired)) ls) end, false)).
  { apply cancel_all_nodup.
    - unfold expired. apply NoDup_map_filter. exact ND.
    - exact ND.
    - intros s I. apply in_map_iff in I as (l & E & Il). apply filter_In in Il as [Il _].
      apply in_map_iff. exists l. split; assumption. }
  rewrite C. cbn [sr_raised sr_state]. split; [reflexivity|].
  assert (F : filter (notin (map l_cancel expired)) ls = filter (fun l => negb (lease_expired pol now t l)) ls).
  { apply filter_ext_in. intros l Il. unfold notin. f_equal.
    destruct (lease_expired pol now t l) eqn:E.
    - apply existsb_exists. exists (l_cancel l). split; [|apply N.eqb_refl].
      apply in_map. apply filter_In. split; assumption.
    - destruct (existsb (N.eqb (l_cancel l)) (map l_cancel expired)) eqn:X; [|reflexivity].
      apply existsb_exists in X as (s & Is & Es). apply N.eqb_eq in Es.
      apply in_map_iff in Is as (l' & E' & Il'). apply filter_In in Il' as [Il' Ex'].
      assert (l' = l) by (eapply (NoDup_map_In_inj l_cancel ls); eauto; congruence).
      subst l'. congruence. }
  rewrite F. destruct expired; reflexivity.
Qed.

Lemma disabled_share pol now t ls :
  p_enabled pol = false ->
  sr_state (process_share pol now t ls) = Present ls /\ sr_raised (process_share pol now t ls) = false.
Proof. intros E. unfold process_share. rewrite E. split; reflexivity. Qed.

Lemma deleted_implies_all_expired_ok pol now t ls :
  NoDup (map l_cancel ls) ->
  sr_state (process_share pol now t ls) = Gone ->
  p_enabled pol = true /\ type_enabled pol t = true /\ ls <> [] /\
  forall l, In l ls -> expired_by_rule (p_mode pol) now l.
Proof.
  intros ND H. destruct (process_share_nodup pol now t ls ND) as (_ & S). rewrite S in H.
  destruct (p_enabled pol); [|discriminate]. split; [reflexivity|].
  destruct (filter (lease_expired pol now t) ls) as [|x xs] eqn:Ef; [discriminate|].
  assert (Ix : In x (filter (lease_expired pol now t) ls)) by (rewrite Ef; left; reflexivity).
  apply filter_In in Ix as [Ix Ex]. apply lease_expired_rule in Ex as [Et _].
  split; [exact Et|]. split; [intros ->; contradiction|].
  intros l Il.
  destruct (filter (fun l0 => negb (lease_expired pol now t l0)) ls) as [|y ys] eqn:En; [|discriminate].
  destruct (lease_expired pol now t l) eqn:El.
  - apply lease_expired_rule in El. tauto.
  - assert (Hx : In l (filter (fun l0 => negb (lease_expired pol now t l0)) ls)) by (apply filter_In; split; [exact Il|rewrite El; reflexivity]).
    rewrite En in Hx. contradiction.
Qed.

Lemma all_expired_implies_deleted_ok pol now t ls :
  p_enabled pol = true -> type_enabled pol t = true -> ls <> [] -> NoDup (map l_cancel ls) ->
  (forall l, In l ls -> expired_by_rule (p_mode pol) now l) ->
  sr_state (process_share pol now t ls) = Gone /\ sr_raised (process_share pol now t ls) = false.
Proof.
  intros En Et Ne ND All. destruct (process_share_nodup pol now t ls ND) as (R & S).
  split; [|exact R]. rewrite S, En.
  assert (A : forall l, In l ls -> lease_expired pol now t l = true).
  { intros l Il. apply lease_expired_rule. split; [exact Et|apply All; exact Il]. }
  assert (F1 : filter (lease_expired pol now t) ls = ls) by (apply filter_all_true; exact A).
  assert (F2 : filter (fun l => negb (lease_expired pol now t l)) ls = []).
  { apply filter_none. exact A. }
  rewrite F1, F2. destruct ls; [contradiction|reflexivity].
Qed.

(* Exactly the expired leases are removed; the others stay, in order. *)
Lemma kept_leases_ok pol now t ls rest :
  NoDup (map l_cancel ls) -> p_enabled pol = true ->
  sr_state (process_share pol now t ls) = Present rest ->
  rest = filter (fun l => negb (lease_expired pol now t l)) ls.
Proof.
  intros ND En H. destruct (process_share_nodup pol now t ls ND) as (_ & S). rewrite S, En in H.
  destruct (filter (lease_expired pol now t) ls) as [|x xs] eqn:Ef.
  - injection H as <-. symmetry. apply filter_all_true. intros l Il.
    destruct (lease_expired pol now t l) eqn:El; [|reflexivity].
    assert (Hx : In l (filter (lease_expired pol now t) ls)) by (apply filter_In; split; assumption).
    rewrite Ef in Hx. contradiction.
  - destruct (filter (fun l => negb (lease_expired pol now t l)) ls); [discriminate|]. inversion H. reflexivity.
Qed.

Definition entry_ok (e : N * sharetype * file_state) : Prop :=
  match e with
  | (_, _, Present ls) => NoDup (map l_cancel ls)
  | _ => True
  end.

Definition bucket_ok (bk : bucket) : Prop := Forall entry_ok bk.

Definition entry_step (pol : policy) (now : Z) (e : N * sharetype * file_state) : N * sharetype * file_state :=
  match e with
  | (n, t, Gone) => (n, t, Gone)
  | (n, t, Unreadable) => (n, t, Unreadable)
  | (n, t, Present ls) => (n, t, sr_state (process_share pol now t ls))
  end.

Lemma process_bucket_map pol now bk :
  bucket_ok bk -> process_bucket pol now bk = (map (entry_step pol now) bk, false).
Proof.
  induction 1 as [|[[n t] st] bk He _ IH]; cbn; [reflexivity|].
  destruct st as [ls| |].
  - cbn in He. destruct (process_share_nodup pol now t ls He) as (R & _). rewrite R, IH. reflexivity.
  - rewrite IH. reflexivity.
  - rewrite IH. reflexivity.
Qed.

Lemma entry_step_ok pol now e : entry_ok e -> entry_ok (entry_step pol now e).
Proof.
  destruct e as [[n t] [ls| |]]; cbn; [|trivial|trivial]. intros ND.
  destruct (process_share_nodup pol now t ls ND) as (_ & S). rewrite S.
  destruct (p_enabled pol); [|exact ND].
  destruct (filter (lease_expired pol now t) ls); [exact ND|].
  destruct (filter (fun l => negb (lease_expired pol now t l)) ls) eqn:E; [cbn; trivial|].
  cbn [norm entry_ok]. rewrite <- E. apply NoDup_map_filter. exact ND.
Qed.

Lemma bucket_step_ok pol now bk : bucket_ok bk -> bucket_ok (map (entry_step pol now) bk).
Proof. induction 1; cbn; constructor; auto using entry_step_ok. Qed.

Lemma disabled_bucket pol now bk : p_enabled pol = false -> process_bucket pol now bk = (bk, false).
Proof.
  intros E. induction bk as [|[[n t] [ls| |]] bk IH]; cbn; [reflexivity| | |].
  - destruct (disabled_share pol now t ls E) as (S & R). rewrite R, S, IH. reflexivity.
  - rewrite IH. reflexivity.
  - rewrite IH. reflexivity.
Qed.

(* Unreadable share files are recorded and skipped: they never make
   process_bucket raise, stay as they are, and are exactly the entries reported
   as corrupt. *)
Lemma unreadable_not_fatal_ok pol now bk :
  bucket_ok bk ->
  snd (process_bucket pol now bk) = false /\
  (forall j n t, nth_error bk j = Some (n, t, Unreadable) ->
     nth_error (fst (process_bucket pol now bk)) j = Some (n, t, Unreadable)) /\
  corrupt_shares pol now bk =
    Some (map (fun e => fst (fst e)) (filter (fun e => match snd e with Unreadable => true | _ => false end) bk)).
Proof.
  intros Ok. rewrite (process_bucket_map pol now bk Ok). split; [reflexivity|]. split.
  - intros j n t H. cbn [fst]. rewrite nth_error_map, H. reflexivity.
  - induction Ok as [|[[n t] [ls| |]] bk He _ IH]; cbn; [reflexivity| | |].
    + cbn in He. destruct (process_share_nodup pol now t ls He) as (R & _). rewrite R. exact IH.
    + exact IH.
    + rewrite IH. reflexivity.
Qed.

(* What every process_bucket call preserves, the crawl preserves. *)
Lemma replay_invariant pol clock i b (Q : bucket -> Prop) :
  (forall k bk, Q bk -> Q (fst (process_bucket pol (clock k) bk))) ->
  forall tr k bk, Q bk -> Q (replay pol clock k i b tr bk).
Proof.
  intros Step. induction tr as [|e tr IH]; intros k bk HQ; cbn; [exact HQ|].
  apply IH. destruct e; try exact HQ.
  destruct (Nat.eqb i i0 && name_eqb b b0); [apply Step|]; exact HQ.
Qed.

Lemma disabled_replay pol clock : p_enabled pol = false ->
  forall tr k i b bk, replay pol clock k i b tr bk = bk.
Proof.
  intros E tr k i b bk. apply (replay_invariant pol clock i b (fun x => x = bk)); [|reflexivity].
  intros k' bk' ->. rewrite (disabled_bucket pol (clock k') bk E). reflexivity.
Qed.

Section Cycle.
  Variable pol : policy.
  Variable clock : nat -> Z.
  Variable now0 : Z.
  Variable i : nat.
  Variable b : name.
  Variable j : nat.         (* position of the share file in the bucket listing *)
  Variable n : N.
  Variable t : sharetype.
  Hypothesis Hen : p_enabled pol = true.
  Hypothesis Hty : type_enabled pol t = true.
  Hypothesis Hclock : forall k, now0 <= clock k.

  (* the share is gone already, or every one of its (at least one) leases had expired at now0 *)
  Definition doomed (st : file_state) : Prop :=
    match st with
    | Gone => True
    | Unreadable => False
    | Present ls => ls <> [] /\ forall l, In l ls -> expired_by_rule (p_mode pol) now0 l
    end.

  (* share (n, t) at position j of the bucket is doomed; G: it is gone.  One visit of the bucket
     takes D to G (step_D), so both hold from then on. *)
  Definition D (bk : bucket) : Prop :=
    bucket_ok bk /\ exists st, nth_error bk j = Some (n, t, st) /\ doomed st.

  Definition G (bk : bucket) : Prop :=
    bucket_ok bk /\ nth_error bk j = Some (n, t, Gone).

  Lemma step_D k bk : D bk -> G (fst (process_bucket pol (clock k) bk)).
  Proof.
    intros (Ok & st & Hn & Hd). rewrite (process_bucket_map _ _ _ Ok). cbn [fst].
    split; [apply bucket_step_ok; exact Ok|].
    rewrite nth_error_map, Hn. cbn. destruct st as [ls| |]; [|reflexivity|contradiction].
    destruct Hd as (Ne & All).
    assert (ND : NoDup (map l_cancel ls)).
    { unfold bucket_ok in Ok. rewrite Forall_forall in Ok. apply (Ok _ (nth_error_In _ _ Hn)). }
    destruct (all_expired_implies_deleted_ok pol (clock k) t ls Hen Hty Ne ND) as (S & _).
    - intros l Il. eapply rule_monotone; [apply All; exact Il|apply Hclock].
    - rewrite S. reflexivity.
  Qed.

  Lemma G_D bk : G bk -> D bk.
  Proof. intros (Ok & Hn). split; [exact Ok|]. exists Gone. split; [exact Hn|exact I]. Qed.

  Lemma replay_D : forall tr k bk, D bk -> D (replay pol clock k i b tr bk).
  Proof. apply replay_invariant. intros k bk HD. apply G_D, step_D, HD. Qed.

  Lemma replay_G : forall tr k bk, G bk -> G (replay pol clock k i b tr bk).
  Proof. apply replay_invariant. intros k bk HG. apply step_D, G_D, HG. Qed.

  Lemma replay_gone : forall tr k bk c, D bk -> In (EProc c i b) tr -> G (replay pol clock k i b tr bk).
  Proof.
    induction tr as [|e tr IH]; intros k bk c HD I; [contradiction|].
    destruct I as [->|I]; cbn.
    - rewrite Nat.eqb_refl. assert (name_eqb b b = true) as -> by (apply name_eqb_eq; reflexivity). cbn.
      apply replay_G, step_D, HD.
    - apply (IH _ _ c); [|exact I]. exact (replay_D [e] k bk HD).
  Qed.
End Cycle.

Lemma deleted_in_cycle_ok :
  forall dirs specs tr m pre c post i b pol clock now0 bk j n t ls,
    wf_dirs prefixes dirs ->
    run dirs (load init_pstate) specs = (tr, m) ->
    tr = pre ++ EFinished c :: post ->
    In b (nth i dirs []) ->
    p_enabled pol = true -> type_enabled pol t = true ->
    (forall k, now0 <= clock k) ->
    bucket_ok bk ->
    nth_error bk j = Some (n, t, Present ls) ->
    ls <> [] ->
    (forall l, In l ls -> expired_by_rule (p_mode pol) now0 l) ->
    nth_error (replay pol clock 0 i b pre bk) j = Some (n, t, Gone).
Proof.
  intros dirs specs tr m pre c post i b pol clock now0 bk j n t ls W R E Ib En Ty Hc Ok Hn Ne All.
  pose proof (covers_all_gen prefixes prefixes_sorted_ok prefixes_len_ok prefixes_two_ok
                dirs specs tr m pre c post W R E i b Ib) as Cov.
  assert (HD : D pol now0 j n t bk).
  { split; [exact Ok|]. exists (Present ls). split; [exact Hn|]. split; assumption. }
  destruct (replay_gone pol clock now0 i b j n t En Ty Hc pre 0%nat bk c HD Cov) as (_ & X). exact X.
Qed.

Lemma default_config_disabled :
  exists pol, policy_of_config (mk_config None None None None None None) = Some pol /\ p_enabled pol = false.
Proof. eexists. split; reflexivity. Qed.

Lemma enabled_requires_mode c :
  c_enabled c = Some true -> c_mode c = None -> policy_of_config c = None.
Proof. intros E M. unfold policy_of_config. rewrite E, M. reflexivity. Qed.

Lemma config_enabled_flag c pol : policy_of_config c = Some pol -> p_enabled pol = dflt false (c_enabled c).
Proof.
  unfold policy_of_config. intros H.
  destruct (c_mode c) as [[| |]|]; try discriminate.
  - inversion H; reflexivity.
  - destruct (c_cutoff c); inversion H; reflexivity.
  - destruct (dflt false (c_enabled c)) eqn:E; [discriminate|]. inversion H. cbn. reflexivity.
Qed.

Definition ex_now : Z := 1700000000.
Definition ex_pol_age : policy := mk_policy true (ModeAge None) true true.

(* one lease renewed 40 days ago, one renewed 32 days ago: both past the 31 days *)
Definition ex_old_leases : list lease :=
  [mk_lease (ex_now - 40 * 86400 + default_renewal_time) 1; mk_lease (ex_now - 32 * 86400 + default_renewal_time) 2].

(* renewed 30 days ago: kept, the older lease is removed *)
Lemma ex_age_mode_keeps :
  sr_state (process_share ex_pol_age ex_now Immutable
              [mk_lease (ex_now - 40 * 86400 + default_renewal_time) 1; mk_lease (ex_now - 30 * 86400 + default_renewal_time) 2])
  = Present [mk_lease (ex_now - 30 * 86400 + default_renewal_time) 2].
Proof. vm_compute. reflexivity. Qed.

(* Two leases with the same cancel secret: cancelling the expired one removes
   the unexpired one too, and the share is deleted. *)
Lemma duplicate_secret_deletes_unexpired :
  exists pol now t ls l,
    sr_state (process_share pol now t ls) = Gone /\ In l ls /\ ~ expired_by_rule (p_mode pol) now l.
Proof.
  exists ex_pol_age, ex_now, Immutable,
    [mk_lease (ex_now - 40 * 86400 + default_renewal_time) 7; mk_lease (ex_now + default_renewal_time) 7],
    (mk_lease (ex_now + default_renewal_time) 7).
  split; [vm_compute; reflexivity|]. split; [right; left; reflexivity|].
  vm_compute. intros H. discriminate H.
Qed.

(* Two expired leases with the same cancel secret: the second cancel_lease
   finds the file gone and process_share raises. *)
Lemma duplicate_secret_raises :
  sr_raised (process_share ex_pol_age ex_now Immutable
               [mk_lease (ex_now - 40 * 86400 + default_renewal_time) 7; mk_lease (ex_now - 41 * 86400 + default_renewal_time) 7]) = true.
Proof. vm_compute. reflexivity. Qed.

(* A share without any lease, under any policy and for either share type: every
   lease on it is expired (vacuously), it is counted as recovered when expiry is
   enabled (keep_actual = false), but nothing unlinks it. *)
Lemma zero_lease_share_kept :
  forall pol now t, sr_state (process_share pol now t []) = Present [] /\
                    (p_enabled pol = true -> sr_keep_actual (process_share pol now t []) = false).
Proof.
  intros pol now t. unfold process_share. cbn. destruct (p_enabled pol); split; try reflexivity; discriminate.
Qed.
