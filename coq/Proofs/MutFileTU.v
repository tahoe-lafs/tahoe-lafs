(* C09: TransformingUploadable.read returns consecutive pieces of the "region"
     R = start[:fso] ++ newdata ++ end[eoff:][:m]
   when it is read the way Publish reads it (segment-aligned reads that stay inside R), and the
   push_segment loop therefore stores the segments of R. *)
From Coq Require Import List Arith NArith Bool Lia.
From Verif Require Import Lib.Hex Lib.ListFacts Model.MutFile Proofs.MutFileLists.
Import ListNotations.

Lemma mod_sub_mul a j d : d <> 0 -> j * d <= a -> (a - j * d) mod d = a mod d.
Proof.
  intros Hd H. replace a with ((a - j * d) + j * d) at 2 by lia.
  rewrite Nat.mod_add by exact Hd. reflexivity.
Qed.

(* one read, without the case distinctions: a bytes of the old start segment, b bytes of new data,
   the rest from the old end segment, which is read from where this read's output so far ends *)
Lemma tu_read_eq t len a b :
  a = Nat.min len (tu_fso t - tu_rm t) ->
  b = Nat.min (len - a) (length (tu_new t) - tu_pos t) ->
  let mid := slice (tu_pos t) (tu_pos t + b) (tu_new t) in
  let out := slice (tu_rm t) (tu_rm t + len) (firstn (tu_fso t) (tu_start t)) ++ mid
             ++ slice ((b + a) mod tu_segsz t) ((b + a) mod tu_segsz t + (len - a - b)) (tu_end t) in
  tu_read t len = (out, mk_tu (tu_new t) (tu_off t) (tu_segsz t) (tu_start t) (tu_end t)
                               (tu_rm t + length out) (tu_pos t + length mid)).
Proof.
  intros Ha Hb mid out. subst mid out. unfold tu_read, md_read.
  assert (E0 : slice (tu_rm t) (tu_rm t + len) (firstn (tu_fso t) (tu_start t)) = slice (tu_rm t) (a + tu_rm t) (tu_start t)).
  { destruct (Nat.le_gt_cases (tu_fso t) (tu_rm t)).
    - rewrite slice_past by (rewrite firstn_length; lia). symmetry. apply slice_nil. lia.
    - rewrite slice_firstn. f_equal. lia. }
  rewrite E0. clear E0.
  assert (E1 : (if tu_rm t <? tu_fso t then if len <? tu_fso t - tu_rm t then len else tu_fso t - tu_rm t else 0) = a).
  { destruct (Nat.ltb_spec (tu_rm t) (tu_fso t)); [destruct (Nat.ltb_spec len (tu_fso t - tu_rm t))|]; lia. }
  destruct (tu_rm t <? tu_fso t); cbv zeta.
  - rewrite E1.
    destruct (Nat.ltb_spec (length (tu_new t) - tu_pos t) (len - a)).
    + replace (len - a - (len - a - (length (tu_new t) - tu_pos t))) with b by lia.
      replace (len - a - (length (tu_new t) - tu_pos t)) with (len - a - b) by lia. reflexivity.
    + replace (len - a) with b by lia. rewrite Nat.sub_diag, (slice_nil _ _ (tu_end t)) by lia. reflexivity.
  - rewrite <- E1, Nat.sub_0_r in *. rewrite (slice_nil _ (0 + _)) by lia.
    destruct (Nat.ltb_spec (length (tu_new t) - tu_pos t) len).
    + replace (len - (len - (length (tu_new t) - tu_pos t))) with b by lia.
      replace (len - (length (tu_new t) - tu_pos t)) with (len - b) by lia. reflexivity.
    + replace len with b by lia. rewrite Nat.sub_diag, (slice_nil _ _ (tu_end t)) by lia. reflexivity.
Qed.

Section Region.
  Variables (data s e : bytes) (off seg m : nat).
  Hypothesis Hseg : seg <> 0.
  Let fso := off mod seg.
  Let L := length data.
  Let eoff := (fso + L) mod seg.
  Hypothesis Hs : fso <= length s.
  Let region := tu_region data s e off seg m.

  (* the state after rm bytes have been read, rm not past the end of the new data *)
  Definition tu_at (rm : nat) : tu := mk_tu data off seg s e rm (rm - fso).

  Lemma region_length : length region = fso + L + Nat.min m (length e - eoff).
  Proof.
    unfold region, tu_region. rewrite !app_length, !firstn_length, skipn_length. fold fso L eoff. lia.
  Qed.

  (* a read that ends inside the new data needs no alignment *)
  Lemma tu_read_inside rm len : rm + len <= fso + L ->
    tu_read (tu_at rm) len = (slice rm (rm + len) region, tu_at (rm + len)).
  Proof.
    intros H.
    assert (Hr : rm + len <= length region)
      by (rewrite region_length; apply (Nat.le_trans _ _ _ H), Nat.le_add_r).
    assert (Hout : slice rm (rm + len) region
                   = slice rm (rm + len) (firstn fso s) ++ slice (rm - fso) (rm + len - fso) data).
    { unfold region, tu_region. fold fso L. rewrite !slice_app, firstn_length, (Nat.min_l _ _ Hs). fold L.
      rewrite (slice_nil _ (rm + len - fso - L)), app_nil_r by (clear - H; lia). reflexivity. }
    set (a := Nat.min len (fso - rm)).
    assert (Hb : len - a = Nat.min (len - a) (L - (rm - fso))) by (clear - H; lia).
    rewrite (tu_read_eq (tu_at rm) len a (len - a) eq_refl Hb). clear Hb.
    unfold tu_at, tu_fso. cbn [tu_rm tu_pos tu_new tu_start tu_end tu_segsz tu_off]. fold fso.
    rewrite Nat.sub_diag, Nat.add_0_r, (slice_nil _ _ e), app_nil_r by apply le_n.
    replace (rm - fso + (len - a)) with (rm + len - fso) by (clear; lia).
    rewrite <- Hout, !slice_length. f_equal. clear - H Hr. f_equal; lia.
  Qed.

  (* an aligned read that passes the end of the new data.  The old end segment is read at
     (bytes of this read so far) mod seg, which is eoff only because the read starts at a
     multiple of seg. *)
  Lemma tu_read_last j len :
    j * seg <= fso + L <= j * seg + len -> j * seg + len <= length region ->
    fst (tu_read (tu_at (j * seg)) len) = slice (j * seg) (j * seg + len) region.
  Proof.
    rewrite region_length. set (rm := j * seg). intros H H3.
    assert (Ha : fso - rm = Nat.min len (fso - rm)) by (clear - H; lia).
    assert (Hb : L - (rm - fso) = Nat.min (len - (fso - rm)) (L - (rm - fso))) by (clear - H; lia).
    rewrite (tu_read_eq (tu_at rm) len _ _ Ha Hb). clear Ha Hb.
    unfold tu_at, tu_fso. cbn [fst tu_rm tu_pos tu_new tu_start tu_end tu_segsz tu_off]. fold fso.
    replace (L - (rm - fso) + (fso - rm)) with (fso + L - j * seg) by (fold rm; clear - H; lia).
    replace (len - (fso - rm) - (L - (rm - fso))) with (rm + len - (fso + L)) by (clear - H; lia).
    rewrite mod_sub_mul by (exact Hseg || exact (proj1 H)). fold eoff.
    unfold region, tu_region. fold fso L eoff.
    rewrite !slice_app, firstn_length, (Nat.min_l _ _ Hs), (slice_firstn _ _ m), slice_skipn. fold L.
    clearbody eoff rm. clear - H H3. f_equal. f_equal.
    - rewrite !slice_to_end by lia. reflexivity.
    - rewrite <- !Nat.sub_add_distr, Nat.min_l by lia. f_equal. lia.
  Qed.

  Lemma tu_read_region j len :
    let rm := j * seg in
    rm <= fso + L -> rm + len <= length region ->
    exists t', tu_read (tu_at rm) len = (slice rm (rm + len) region, t') /\
               (rm + len <= fso + L -> t' = tu_at (rm + len)).
  Proof.
    intros rm Hrm Hlen. subst rm. destruct (Nat.le_gt_cases (j * seg + len) (fso + L)) as [G|G].
    - exists (tu_at (j * seg + len)). split; [apply tu_read_inside; exact G|reflexivity].
    - exists (snd (tu_read (tu_at (j * seg)) len)). split; [|lia].
      rewrite <- (tu_read_last j len) by lia. apply surjective_pairing.
  Qed.

  Lemma tu_reads_region lastlen : forall a j,
    (j + a) * seg <= fso + L -> (j + a) * seg + lastlen <= length region ->
    concat (tu_reads (tu_at (j * seg)) (repeat seg a ++ [lastlen])) = slice (j * seg) ((j + a) * seg + lastlen) region.
  Proof.
    induction a as [|a IH]; intros j H1 H2; cbn [repeat app tu_reads].
    - rewrite Nat.add_0_r in *.
      destruct (tu_read_region j lastlen) as (t' & -> & _); [lia|lia|].
      cbn [tu_reads concat]. apply app_nil_r.
    - assert ((j + 1) * seg <= (j + S a) * seg) by (apply Nat.mul_le_mono_r; lia).
      destruct (tu_read_region j seg) as (t' & -> & Ht'); [lia|lia|]. rewrite Ht' by lia.
      cbn [concat]. replace (j * seg + seg) with (S j * seg) by lia.
      rewrite IH by (replace (S j + a) with (j + S a) by lia; assumption).
      replace (S j + a) with (j + S a) by lia.
      apply slice_adj; lia.
  Qed.

  (* the push_segment loop stores the segments of the region, provided every read asks for the
     length of the segment it is to get and only the last one passes the end of the new data *)
  Variables (p : enc) (st n0 : nat).
  Hypothesis Hnew : (n0 - 1) * seg <= fso + L.
  Hypothesis Hsizes : forall j, j < n0 ->
    seg_read_size p (st + j) = length (slice (j * seg) (j * seg + seg) region).

  Lemma push_tu_chunks : forall n j, j + n <= n0 ->
    push_tu n (st + j) p (tu_at (j * seg)) = Some (chunks_n n seg (skipn (j * seg) region)).
  Proof.
    induction n as [|n IH]; intros j Hj; [reflexivity|].
    cbn [push_tu chunks_n]. rewrite (Hsizes j) by lia.
    assert (Hjs : j * seg <= (n0 - 1) * seg) by (apply Nat.mul_le_mono_r; lia).
    pose proof region_length as RL.
    destruct (tu_read_region j (length (slice (j * seg) (j * seg + seg) region))) as (t' & -> & Ht');
      [lia | rewrite slice_length; lia |].
    rewrite slice_exact, Nat.eqb_refl, slice_add, skipn_add.
    destruct n as [|n]; [reflexivity|].
    (* more segments follow, so this one is full and ends inside the new data *)
    assert ((j + 1) * seg <= (n0 - 1) * seg) by (apply Nat.mul_le_mono_r; lia).
    assert (Hfull : length (slice (j * seg) (j * seg + seg) region) = seg) by (rewrite slice_length; lia).
    rewrite Hfull in Ht'. rewrite Ht' by lia.
    replace (S (st + j)) with (st + S j) by lia. replace (j * seg + seg) with (S j * seg) by lia.
    rewrite IH by lia. reflexivity.
  Qed.
End Region.
