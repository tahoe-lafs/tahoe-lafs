(* Repair: the repairer reads the whole ciphertext through the validating downloader and
   encodes it again with the cap's k and N and the segment size of the validated UEB.  The
   encoder is a function, so the new shares are the uploader's shares: the same blocks, the
   same hash trees, the same UEB, hence the same capability. *)
From Coq Require Import List ZArith NArith Bool.
From Verif Require Import Gen.ImmConsts Model.HashTree Model.ImmFile Model.ImmVerify Model.ImmCheck
  Proofs.ImmFileArith Proofs.ImmFileRead Proofs.ImmVerifyTree Proofs.ImmVerify Proofs.ImmVerifyComplete Proofs.ImmVerifyRead Proofs.ImmCheck.
Import ListNotations.
Local Open Scope N_scope.

Section Repair.
  Variable H : Type.
  Variable H_eqb : H -> H -> bool.
  Variable pair_hash : H -> H -> H.
  Variable truthy : H -> bool.
  Variable empty_leaf : Z -> H.
  Variable block_hash : list N -> H.
  Variable seg_hash : list N -> H.
  Variable UB : Type.
  Variable ueb_hash : UB -> H.
  Variable parse_ueb : UB -> option (ueb H).
  Variable dec : N -> N -> list (N * list N) -> list (list N).
  Variable ser_ueb : ueb H -> UB.
  Variable enc : N -> N -> list (list N) -> list (list N).

  Hypothesis H_eqb_spec : forall a b, H_eqb a b = true <-> a = b.
  Hypothesis all_truthy_H : forall h, truthy h = true.
  Hypothesis pair_inj : forall a b c d, pair_hash a b = pair_hash c d -> a = c /\ b = d.
  Hypothesis block_inj : forall a b, block_hash a = block_hash b -> a = b.
  Hypothesis seg_inj : forall a b, seg_hash a = seg_hash b -> a = b.
  Hypothesis ueb_inj : forall a b, ueb_hash a = ueb_hash b -> a = b.
  Hypothesis parse_ser : forall u, parse_ueb (ser_ueb u) = Some u.

  Notation g_cap := (g_cap H pair_hash empty_leaf block_hash seg_hash UB ueb_hash ser_ueb).
  Notation g_share := (g_share H pair_hash empty_leaf block_hash seg_hash UB ser_ueb).
  Notation serve := (serve H H_eqb pair_hash truthy block_hash seg_hash UB ueb_hash parse_ueb dec).
  Notation fetch_segment := (fetch_segment H H_eqb pair_hash truthy block_hash seg_hash UB ueb_hash parse_ueb dec).

  (* the segment size the repairer obtains (DownloadNode.get_segsize: fetch segment 0, then
     node.segment_size) is the uploader's *)
  Lemma repair_segsize_ok : forall (f : efile) key tries ord dn r ss,
    ef_wf f ->
    fetch_segment (g_cap key f) (node_init H (g_cap key f)) 0%Z tries ord = (dn, r) ->
    dn_segsize dn = Some ss -> ss = ef_segsize f.
  Proof.
    intros f key tries ord dn r ss Hwf Hf Hss.
    destruct (fetch_segment_sound H H_eqb pair_hash truthy empty_leaf block_hash seg_hash UB ueb_hash parse_ueb dec ser_ueb
                H_eqb_spec all_truthy_H pair_inj block_inj seg_inj ueb_inj parse_ser f key Hwf _ _ _ _ _ _
                (node_init_inv H pair_hash empty_leaf block_hash seg_hash UB ueb_hash ser_ueb f key) Hf) as [Hinv _].
    unfold node_inv in Hinv. rewrite Hss in Hinv. destruct Hinv as [E _]. exact E.
  Qed.

  Theorem repair_equals_original : forall (k n segsize guess : N) (ct key : list N)
      (script : N -> list (Z * share H UB * (nat -> list Z)) * list Z) tries ord,
    1 <= N.of_nat (length ct) -> 1 <= k -> 1 <= segsize -> segsize mod k = 0 -> 1 <= guess ->
    let f := encode_file enc k n segsize ct in
    let c := g_cap key f in
    forall dn0 r0 ss ws chunks,
      (* get_segment_size *)
      fetch_segment c (node_init H c) 0%Z tries ord = (dn0, r0) -> dn_segsize dn0 = Some ss ->
      (* read_encrypted: the whole file, completed without error *)
      read_plan (N.of_nat (length ct)) segsize guess 0 None = SegDone ws ->
      serve c (node_init H c) ws script = (chunks, None) ->
      let f' := repair_encode enc (c_k c) (c_n c) ss (concat chunks) in
      f' = f /\ g_cap key f' = c /\ (forall ver o i, g_share f' ver o i = g_share f ver o i) /\
      (* ... and a download that starts fresh accepts every block of every share the repair wrote *)
      (forall ver o i j ords,
         check_offsets H UB (g_share f' ver o i) = None -> (0 <= i < Z.of_N n)%Z -> (0 <= j < nseg f)%Z ->
         exists dn', get_block H H_eqb pair_hash truthy block_hash UB ueb_hash parse_ueb c (node_init H c) i j (g_share f' ver o i) ords
                     = (dn', GBlock (gblock f i j))).
  Proof.
    intros k n segsize guess ct key script tries ord Hct Hk Hs Hm Hg f c dn0 r0 ss ws chunks Hf Hss Hplan Hsv f'.
    pose proof (encode_file_wf enc k n segsize ct Hk Hs Hm) as Hwf. fold f in Hwf.
    pose proof (repair_segsize_ok f key tries ord dn0 r0 ss Hwf Hf Hss) as Ess.
    destruct (delivered_prefix_ok H H_eqb pair_hash truthy empty_leaf block_hash seg_hash UB ueb_hash parse_ueb dec ser_ueb enc
                H_eqb_spec all_truthy_H pair_inj block_inj seg_inj ueb_inj parse_ser
                k n segsize guess 0 None ct key script Hct Hk Hs Hm Hg) as [ws' [Hplan' Hall]].
    rewrite Hplan in Hplan'. inversion Hplan'. subst ws'.
    destruct (Hall chunks None Hsv) as [_ Hok]. specialize (Hok eq_refl).
    assert (Hct' : concat chunks = ct) by (rewrite Hok; reflexivity).
    assert (Ef : f' = f).
    { unfold f', repair_encode. rewrite Hct', Ess. reflexivity. }
    split; [exact Ef|]. rewrite Ef. split; [reflexivity|]. split; [intros; reflexivity|].
    intros ver o i j ords Hoff Hi Hj.
    apply (new_node_accepts_genuine_block H H_eqb pair_hash truthy empty_leaf block_hash seg_hash UB ueb_hash parse_ueb ser_ueb
             H_eqb_spec all_truthy_H parse_ser f key Hwf ver o i j ords Hoff Hi Hj).
  Qed.
End Repair.

(* The instance runs: f3 is read from shares 1 and 2 while share 0 is corrupted. *)
From Verif Require Import Proofs.ImmVerifySym.
Local Open Scope Z_scope.

(* a decoder for the example file: the two blocks of shares (1,2) or (0,1) or (0,2) of f3 map back
   to the segment (table lookup: the validation does not depend on what the decoder is) *)
Definition f3_dec (k n : N) (blocks : list (N * list N)) : list (list N) :=
  match map snd blocks with
  | [[2]; [9]] | [[1]; [2]] | [[1]; [9]] => [[1; 2]]
  | [[4]; [8]] | [[3]; [4]] | [[3]; [8]] => [[3; 4]]
  | [[0]; [7]] | [[5]; [0]] | [[5]; [7]] => [[5; 0]]
  | _ => [[99; 99]]
  end%N.

Definition f3_bad0 : share hs ub :=
  let s := f3_share 0 in
  mkShare (s_version s) (s_off s) (s_ueb s) (s_share_hashes s) (s_block_hashes s) (s_ct_hashes s)
          [(0, [77%N]); (1, [3%N]); (2, [5%N])].

Definition f3_script (j : N) : list (Z * share hs ub * (nat -> list Z)) * list Z :=
  ([(0, f3_bad0, no_ord); (1, f3_share 1, no_ord); (2, f3_share 2, no_ord)], []).

Lemma f3_download_runs :
  sym_serve f3_dec f3_cap (sym_node_init f3_cap) [mk_write 0 0 2; mk_write 1 0 2; mk_write 2 0 1] f3_script
  = ([[1; 2]; [3; 4]; [5]]%N, None).
Proof. vm_compute. reflexivity. Qed.
