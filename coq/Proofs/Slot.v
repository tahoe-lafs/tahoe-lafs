(* C24: slot_testv_and_readv_and_writev is atomic and guarded by the write enabler. *)
From Coq Require Import List NArith Arith Bool Lia.
From Verif Require Import Lib.Hex Gen.MutConsts Model.MutContainer Model.Lease Model.Slot
  Proofs.MutContainerBytes Proofs.MutContainer Proofs.MutContainerRefine
  Proofs.LeaseMutable Proofs.Lease.
Import ListNotations.
Local Open Scope N_scope.

Lemma blookup_in b n f : blookup b n = Some f -> In (n, f) b.
Proof.
  induction b as [|[m g] r IH]; [discriminate|]. cbn [blookup]. destruct (N.eqb_spec n m) as [->|].
  - intro Hx. inversion Hx. left. reflexivity.
  - intro Hx. right. apply IH. exact Hx.
Qed.

Lemma blookup_bset b n f m : blookup (bset b n f) m = if m =? n then Some f else blookup b m.
Proof.
  induction b as [|[k g] r IH]; cbn [bset blookup].
  - destruct (N.eqb_spec m n); reflexivity.
  - destruct (N.eqb_spec n k) as [->|Hnk].
    + cbn [blookup]. destruct (N.eqb_spec m k); reflexivity.
    + destruct (N.ltb_spec n k).
      * cbn [blookup]. destruct (N.eqb_spec m n); reflexivity.
      * cbn [blookup]. rewrite IH. destruct (N.eqb_spec m k) as [->|]; [|reflexivity].
        destruct (N.eqb_spec k n); [congruence|reflexivity].
Qed.

Lemma blookup_bremove b n m : blookup (bremove b n) m = if m =? n then None else blookup b m.
Proof.
  induction b as [|[k g] r IH]; cbn [bremove blookup].
  - destruct (m =? n); reflexivity.
  - destruct (N.eqb_spec n k) as [->|Hnk].
    + rewrite IH. destruct (N.eqb_spec m k); reflexivity.
    + cbn [blookup]. rewrite IH. destruct (N.eqb_spec m k) as [->|]; [|reflexivity].
      destruct (N.eqb_spec k n); [congruence|reflexivity].
Qed.

Lemma blookup_bput b n s m : blookup (bput b n s) m = if m =? n then s else blookup b m.
Proof. destruct s; cbn [bput]; [apply blookup_bset|apply blookup_bremove]. Qed.

Lemma in_bset b n f m g : In (m, g) (bset b n f) -> (m, g) = (n, f) \/ In (m, g) b.
Proof.
  induction b as [|[k h] r IH]; cbn [bset].
  - intros [Hx|[]]. left. symmetry. exact Hx.
  - destruct (N.eqb_spec n k) as [->|].
    + intros [Hx|Hx]; [left; symmetry; exact Hx|right; right; exact Hx].
    + destruct (n <? k).
      * intros [Hx|Hx]; [left; symmetry; exact Hx|right; exact Hx].
      * intros [Hx|Hx]; [right; left; exact Hx|]. destruct (IH Hx); [left; assumption|right; right; assumption].
Qed.

Lemma in_bremove b n m g : In (m, g) (bremove b n) -> In (m, g) b.
Proof.
  induction b as [|[k h] r IH]; cbn [bremove]; [auto|].
  destruct (n =? k); [intro Hx; right; apply IH; exact Hx|].
  intros [Hx|Hx]; [left; exact Hx|right; apply IH; exact Hx].
Qed.

Lemma bucket_ok_bput maxsz b n s : bucket_ok maxsz b -> share_ok maxsz s -> bucket_ok maxsz (bput b n s).
Proof.
  intros Hb Hs m g Hin. destruct s as [f|]; cbn [bput] in Hin.
  - apply in_bset in Hin. destruct Hin as [Hx|Hx]; [inversion Hx; subst; exact Hs|apply (Hb m g Hx)].
  - apply in_bremove in Hin. apply (Hb m g Hin).
Qed.

Lemma bucket_ok_cons maxsz n f b : bucket_ok maxsz ((n, f) :: b) -> layout_ok maxsz f = true /\ bucket_ok maxsz b.
Proof. intro Hb. split; [apply (Hb n f); left; reflexivity|intros m g Hin; apply (Hb m g); right; exact Hin]. Qed.

Lemma bucket_ok_lookup maxsz b n : bucket_ok maxsz b -> share_ok maxsz (blookup b n).
Proof.
  intro Hb. destruct (blookup b n) as [f|] eqn:E; [|exact I]. apply (Hb n f). apply blookup_in. exact E.
Qed.

Lemma abs_bucket_bput b n s m : abs_bucket (bput b n s) m = if m =? n then abs_share s else abs_bucket b m.
Proof. unfold abs_bucket. rewrite blookup_bput. destruct (m =? n); reflexivity. Qed.

Lemma layout_open_rwe maxsz f : layout_ok maxsz f = true ->
  (exists v, open_container f = Ok v) /\ (exists w, read_write_enabler f = Ok w).
Proof.
  intro Hl. apply layout_ok_iff in Hl as (c & Hw & ->).
  split; [apply (open_flat_ok maxsz); exact Hw|]. eexists. apply (rwe_flat maxsz). exact Hw.
Qed.

Lemma collect_spec maxsz b we : bucket_ok maxsz b ->
  collect_shares b we = if enablers_match b we then Ok tt else Err EBadWriteEnabler.
Proof.
  induction b as [|[n f] r IH]; intro Hb; [reflexivity|]. apply bucket_ok_cons in Hb as [Hf Hr].
  cbn [collect_shares enablers_match forallb snd].
  destruct (layout_open_rwe maxsz f Hf) as ((v & Eo) & (w & Ew)). rewrite Eo. unfold check_write_enabler. rewrite Ew.
  destruct (list_N_eqb we w); [|reflexivity]. cbn [andb]. apply IH. exact Hr.
Qed.

Lemma enablers_match_false b we : enablers_match b we = false <->
  exists n f, In (n, f) b /\ read_write_enabler f <> Ok we.
Proof.
  unfold enablers_match. split.
  - intro Hf. induction b as [|[n f] r IH]; [discriminate|]. cbn [forallb snd] in Hf.
    apply andb_false_iff in Hf. destruct Hf as [Hf|Hf].
    + exists n, f. split; [left; reflexivity|]. destruct (read_write_enabler f) as [w|e]; [|discriminate].
      intro Hx. inversion Hx; subst. rewrite list_N_eqb_refl in Hf. discriminate.
    + destruct (IH Hf) as (m & g & Hin & Hne). exists m, g. split; [right; exact Hin|exact Hne].
  - intros (n & f & Hin & Hne). apply not_true_is_false. intro Ht. rewrite forallb_forall in Ht.
    specialize (Ht (n, f) Hin). cbn [snd] in Ht. destruct (read_write_enabler f) as [w|e]; [|discriminate].
    apply list_N_eqb_eq in Ht. subst. apply Hne. reflexivity.
Qed.

Lemma eval_tests_spec maxsz b tw : bucket_ok maxsz b -> eval_tests b tw = Ok (tests_pass b tw).
Proof.
  intro Hb. induction tw as [|t r IH]; [reflexivity|]. cbn [eval_tests tests_pass forallb].
  rewrite (share_test_refines maxsz _ _ (bucket_ok_lookup maxsz b (tw_shnum t) Hb)).
  fold (abs_bucket b (tw_shnum t)).
  destruct (ref_check_testv _ (tw_testv t)); [cbn [andb]; exact IH|reflexivity].
Qed.

Lemma eval_reads_spec maxsz b rv : bucket_ok maxsz b -> eval_reads b rv = Ok (ref_reads b rv).
Proof.
  induction b as [|[n f] r IH]; intro Hb; [reflexivity|]. apply bucket_ok_cons in Hb as [Hf Hr].
  cbn [eval_reads ref_reads map fst snd].
  destruct (layout_abs maxsz f Hf) as (d & Ha). rewrite (readv_refines_lemma maxsz f rv d Hf Ha).
  fold (ref_reads r rv). rewrite (IH Hr).
  unfold abs_share. rewrite Ha. reflexivity.
Qed.

Lemma share_write_spec maxsz fresh s dv nl :
  468 + maxsz < 2 ^ 64 -> layout_ok maxsz fresh = true -> abs_data fresh = Ok [] -> share_ok maxsz s ->
  (is_zero nl || vectors_fit maxsz dv) = true ->
  exists s', share_write maxsz fresh s dv nl = (s', None) /\ share_ok maxsz s' /\
             abs_share s' = ref_apply (abs_share s) dv nl.
Proof.
  intros Hm Hfo Hfe Hs Hfit. unfold ref_apply. destruct (is_zero nl) eqn:Ez.
  - exists None. unfold share_write. rewrite Ez. repeat split.
  - destruct (share_write_fits maxsz fresh Hm Hfo Hfe s dv nl Hs Ez Hfit) as (f' & E & Hl' & Ha').
    exists (Some f'). split; [exact E|]. split; [exact Hl'|]. apply abs_share_some. exact Ha'.
Qed.

Lemma sizes_ok_cons maxsz t r : sizes_ok maxsz (t :: r) = true ->
  (is_zero (tw_newlen t) || vectors_fit maxsz (tw_datav t)) = true /\ sizes_ok maxsz r = true.
Proof. unfold sizes_ok. cbn [forallb]. apply andb_prop. Qed.

Lemma all_applied_nil b : all_applied b b [].
Proof. split; [intros t []|reflexivity]. Qed.

Lemma all_applied_ext b b1 b2 tw : (forall n, abs_bucket b2 n = abs_bucket b1 n) ->
  all_applied b b1 tw -> all_applied b b2 tw.
Proof. intros He [Ha Ho]. split; [intros t Hin|intros n Hn]; rewrite He; auto. Qed.

(* one round of the loop: b1 is b with the share named by t replaced, and r names it no more *)
Lemma all_applied_cons b b1 b' t r : ~ In (tw_shnum t) (names r) ->
  (forall n, abs_bucket b1 n = if n =? tw_shnum t
                               then ref_apply (abs_bucket b (tw_shnum t)) (tw_datav t) (tw_newlen t)
                               else abs_bucket b n) ->
  all_applied b1 b' r -> all_applied b b' (t :: r).
Proof.
  intros Hnin H1 [Hall Hother]. split.
  - intros t' [<-|Hin]; [rewrite (Hother _ Hnin), H1, N.eqb_refl; reflexivity|]. rewrite (Hall t' Hin), !H1.
    destruct (N.eqb_spec (tw_shnum t') (tw_shnum t)) as [E|]; [|reflexivity].
    exfalso. apply Hnin. rewrite <- E. apply in_map. exact Hin.
  - intros n Hn. rewrite (Hother n) by (intro Hx; apply Hn; right; exact Hx). rewrite H1.
    destruct (N.eqb_spec n (tw_shnum t)) as [->|]; [|reflexivity]. exfalso. apply Hn. left. reflexivity.
Qed.

Lemma apply_writes_spec maxsz fresh tw : forall b,
  468 + maxsz < 2 ^ 64 -> layout_ok maxsz fresh = true -> abs_data fresh = Ok [] ->
  bucket_ok maxsz b -> sizes_ok maxsz tw = true -> NoDup (names tw) ->
  exists b', apply_writes maxsz fresh b tw = (b', None) /\ bucket_ok maxsz b' /\ all_applied b b' tw.
Proof.
  induction tw as [|t r IH]; intros b Hm Hfo Hfe Hb Hsz Hnd.
  - exists b. split; [reflexivity|]. split; [exact Hb|apply all_applied_nil].
  - cbn [apply_writes]. apply sizes_ok_cons in Hsz. destruct Hsz as [Hfit Hsz].
    cbn [names map] in Hnd. inversion Hnd as [|? ? Hnin Hnd']; subst.
    destruct (share_write_spec maxsz fresh (blookup b (tw_shnum t)) (tw_datav t) (tw_newlen t) Hm Hfo Hfe
                (bucket_ok_lookup maxsz b _ Hb) Hfit) as (s' & Ew & Hs' & Hab).
    rewrite Ew. set (b1 := bput b (tw_shnum t) s').
    assert (Hb1 : bucket_ok maxsz b1) by (apply bucket_ok_bput; assumption).
    destruct (IH b1 Hm Hfo Hfe Hb1 Hsz Hnd') as (b' & Ea & Hb' & Hall).
    exists b'. split; [exact Ea|]. split; [exact Hb'|]. apply (all_applied_cons b b1); [exact Hnin| |exact Hall].
    intro n. unfold b1. rewrite abs_bucket_bput, Hab. reflexivity.
Qed.

Section WithHash.
Variable H : list N -> list N.

(* the lease step touches neither data nor layout *)
Lemma lease_step_preserves maxsz f avail li :
  layout_ok maxsz f = true -> (forall v, lease_wf (stored_form H v li)) -> l_owner li <> 0 ->
  layout_ok maxsz (out_file (mutfile_add_or_renew H f avail li)) = true /\
  abs_data (out_file (mutfile_add_or_renew H f avail li)) = abs_data f.
Proof.
  intros Hl Hw Ho. unfold mutfile_add_or_renew. destruct (open_container f) as [v|e]; [|split; [exact Hl|reflexivity]].
  apply layout_ok_iff in Hl. destruct Hl as (c & Hc & ->).
  destruct (mut_add_or_renew_grows H maxsz v c avail li Hc (Hw v) Ho) as (c' & -> & Hc' & Hsd & _).
  split; [apply flat_layout_ok; exact Hc'|apply (same_data_abs maxsz); assumption].
Qed.

Lemma add_or_renew_on_spec maxsz ns avail li : forall b,
  bucket_ok maxsz b -> (forall v, lease_wf (stored_form H v li)) -> l_owner li <> 0 ->
  bucket_ok maxsz (fst (add_or_renew_on H b ns avail li)) /\
  forall n, abs_bucket (fst (add_or_renew_on H b ns avail li)) n = abs_bucket b n.
Proof.
  induction ns as [|n r IH]; intros b Hb Hw Ho; [split; [exact Hb|reflexivity]|].
  cbn [add_or_renew_on]. destruct (blookup b n) as [f|] eqn:El; [|apply IH; assumption].
  assert (Hf : layout_ok maxsz f = true) by (apply (Hb n f); apply blookup_in; exact El).
  destruct (lease_step_preserves maxsz f avail li Hf Hw Ho) as [Hl' Ha'].
  assert (Hstep : forall f', layout_ok maxsz f' = true -> abs_data f' = abs_data f ->
            bucket_ok maxsz (bset b n f') /\ forall m, abs_bucket (bset b n f') m = abs_bucket b m).
  { intros f' Hlf Haf. split.
    - apply (bucket_ok_bput maxsz b n (Some f')); assumption.
    - intro m. change (bset b n f') with (bput b n (Some f')). rewrite abs_bucket_bput.
      destruct (N.eqb_spec m n) as [->|]; [|reflexivity]. unfold abs_bucket. rewrite El. unfold abs_share. rewrite Haf. reflexivity. }
  destruct (mutfile_add_or_renew H f avail li) as [f'|f' e]; cbn [out_file] in *.
  - destruct (Hstep f' Hl' Ha') as [Hb1 Hab1]. destruct (IH (bset b n f') Hb1 Hw Ho) as [Hb2 Hab2].
    split; [exact Hb2|]. intro m. rewrite Hab2. apply Hab1.
  - cbn [fst]. apply Hstep; assumption.
Qed.

Lemma make_lease_wf nodeid rs cs now v :
  length rs = 32%nat -> length cs = 32%nat -> length nodeid = 20%nat -> (forall s, length (H s) = 32%nat) ->
  now + DEFAULT_RENEWAL_TIME < 2 ^ 32 -> lease_wf (stored_form H v (make_lease_info nodeid rs cs now)).
Proof.
  intros Hr Hc Hn Hh Ht. destruct v; constructor; cbn; auto; lia.
Qed.

Lemma slot_tw_spec sv b we rs cs tw rv renew now : request_ok H sv b rs cs tw now ->
  if negb (enablers_match b we) then slot_tw H sv b we rs cs tw rv renew now = (b, Err EBadWriteEnabler)
  else if negb (tests_pass b tw) then slot_tw H sv b we rs cs tw rv renew now = (b, Ok (false, ref_reads b rv))
  else if negb (sizes_ok (s_maxsz sv) tw) then slot_tw H sv b we rs cs tw rv renew now = (b, Err EDataTooLarge)
  else exists b' r, slot_tw H sv b we rs cs tw rv renew now = (b', r) /\
                    bucket_ok (s_maxsz sv) b' /\ all_applied b b' tw /\
                    (r = Ok (true, ref_reads b rv) \/ exists e, r = Err e).
Proof.
  intros (Hm & Hb & Hnd & Lr & Lc & Ln & Lh & Ht). unfold slot_tw.
  rewrite (collect_spec _ b we Hb), (eval_tests_spec _ b tw Hb), (eval_reads_spec _ b rv Hb).
  destruct (enablers_match b we); cbn [negb]; [|reflexivity].
  destruct (tests_pass b tw); cbn [negb]; [|reflexivity].
  destruct (sizes_ok (s_maxsz sv) tw) eqn:Esz; cbn [negb]; [|reflexivity].
  destruct (apply_writes_spec (s_maxsz sv) (mut_header V2 (s_nodeid sv) we) tw b Hm
              (mut_header_ok _ _ _ _) (mut_header_empty _ _ _) Hb Esz Hnd) as (b1 & -> & Hb1 & Hall).
  destruct renew.
  2:{ exists b1. eexists. split; [reflexivity|]. split; [exact Hb1|]. split; [exact Hall|]. left. reflexivity. }
  (* the lease renewal that follows changes no share's data, whether or not it raises *)
  set (li := make_lease_info (s_nodeid sv) rs cs now).
  destruct (add_or_renew_on_spec (s_maxsz sv) (remaining_shares tw) (s_avail sv) li b1 Hb1
              (fun v => make_lease_wf (s_nodeid sv) rs cs now v Lr Lc Ln Lh Ht)) as [Hb2 Hab2]; [discriminate|].
  destruct (add_or_renew_on H b1 (remaining_shares tw) (s_avail sv) li) as [b2 e]. cbn [fst] in *.
  pose proof (all_applied_ext b b1 b2 tw Hab2 Hall) as Hall2.
  destruct e as [e|]; exists b2; eexists; (split; [reflexivity|]); (split; [exact Hb2|]); (split; [exact Hall2|]).
  - right. eexists. reflexivity.
  - left. reflexivity.
Qed.

Lemma all_or_nothing_proof sv b we rs cs tw rv renew now : request_ok H sv b rs cs tw now ->
  let b' := fst (slot_tw H sv b we rs cs tw rv renew now) in
  let r := snd (slot_tw H sv b we rs cs tw rv renew now) in
  (b' = b /\
   ((enablers_match b we = false /\ r = Err EBadWriteEnabler) \/
    (enablers_match b we = true /\ tests_pass b tw = false /\ r = Ok (false, ref_reads b rv)) \/
    (enablers_match b we = true /\ tests_pass b tw = true /\ sizes_ok (s_maxsz sv) tw = false /\ r = Err EDataTooLarge)))
  \/
  (all_applied b b' tw /\ bucket_ok (s_maxsz sv) b' /\
   enablers_match b we = true /\ tests_pass b tw = true /\ sizes_ok (s_maxsz sv) tw = true /\
   (r = Ok (true, ref_reads b rv) \/ exists e, r = Err e)).
Proof.
  intro Hr. pose proof (slot_tw_spec sv b we rs cs tw rv renew now Hr) as Hs. cbn zeta.
  destruct (enablers_match b we); cbn [negb] in Hs; [|rewrite Hs; left; cbn; auto].
  destruct (tests_pass b tw); cbn [negb] in Hs; [|rewrite Hs; left; cbn; auto 10].
  destruct (sizes_ok (s_maxsz sv) tw); cbn [negb] in Hs; [|rewrite Hs; left; cbn; auto 10].
  destruct Hs as (b' & r & E & Hb' & Hall & Hres). rewrite E. right. cbn [fst snd]. auto 10.
Qed.

Lemma bad_enabler_changes_nothing_proof sv b we rs cs tw rv renew now n f : request_ok H sv b rs cs tw now ->
  In (n, f) b -> read_write_enabler f <> Ok we ->
  slot_tw H sv b we rs cs tw rv renew now = (b, Err EBadWriteEnabler).
Proof.
  intros Hr Hin Hne. pose proof (slot_tw_spec sv b we rs cs tw rv renew now Hr) as Hs.
  assert (Em : enablers_match b we = false) by (apply enablers_match_false; exists n, f; auto).
  rewrite Em in Hs. exact Hs.
Qed.

Lemma failed_test_changes_nothing_proof sv b we rs cs tw rv renew now : request_ok H sv b rs cs tw now ->
  tests_pass b tw = false ->
  fst (slot_tw H sv b we rs cs tw rv renew now) = b /\
  (snd (slot_tw H sv b we rs cs tw rv renew now) = Ok (false, ref_reads b rv) \/
   snd (slot_tw H sv b we rs cs tw rv renew now) = Err EBadWriteEnabler).
Proof.
  intros Hr Ht. pose proof (slot_tw_spec sv b we rs cs tw rv renew now Hr) as Hs. rewrite Ht in Hs.
  destruct (enablers_match b we); cbn [negb] in Hs; rewrite Hs; cbn; auto.
Qed.

Lemma reads_reflect_pre_state_proof sv b we rs cs tw rv renew now b' good rd : request_ok H sv b rs cs tw now ->
  slot_tw H sv b we rs cs tw rv renew now = (b', Ok (good, rd)) -> rd = ref_reads b rv.
Proof.
  intros Hr E. pose proof (slot_tw_spec sv b we rs cs tw rv renew now Hr) as Hs.
  destruct (enablers_match b we); cbn [negb] in Hs; [|congruence].
  destruct (tests_pass b tw); cbn [negb] in Hs; [|congruence].
  destruct (sizes_ok (s_maxsz sv) tw); cbn [negb] in Hs; [|congruence].
  destruct Hs as (b2 & r & E2 & _ & _ & [Hres|(e & Hres)]); rewrite E in E2; inversion E2; subst; congruence.
Qed.

Lemma oversized_request_changes_nothing_proof sv b we rs cs tw rv renew now : request_ok H sv b rs cs tw now ->
  sizes_ok (s_maxsz sv) tw = false -> fst (slot_tw H sv b we rs cs tw rv renew now) = b.
Proof.
  intros Hr Hz. pose proof (slot_tw_spec sv b we rs cs tw rv renew now Hr) as Hs. rewrite Hz in Hs.
  destruct (enablers_match b we); cbn [negb] in Hs; [|rewrite Hs; reflexivity].
  destruct (tests_pass b tw); cbn [negb] in Hs; rewrite Hs; reflexivity.
Qed.

End WithHash.

(* the finding: without the size validation the request is not atomic *)
Definition ex_sv : server := mkServer 100 (repeat 9 20) 1000.
Definition ex_we : list N := repeat 7 32.
Definition ex_tw : list twv := [mkTW 0 [] [(0, [1; 2])] None; mkTW 1 [] [(0, [3]); (200, [4])] None; mkTW 2 [] [(0, [5])] None].

Lemma slot_tw_unvalidated_not_atomic_proof :
  exists sv b we tw rv,
    bucket_ok (s_maxsz sv) b /\ NoDup (names tw) /\
    let '(b', r) := slot_tw_unvalidated sv b we tw rv in
    r = Err EDataTooLarge /\
    abs_bucket b' 0 = Some [1; 2] /\        (* share 0: written *)
    abs_bucket b' 1 = Some [3] /\           (* share 1: first vector written, second refused *)
    abs_bucket b' 2 = None.                 (* share 2: never reached *)
Proof.
  exists ex_sv, [], ex_we, ex_tw, []. split; [intros n f []|]. split.
  - cbn. repeat constructor; cbn; intuition discriminate.
  - vm_compute. repeat split.
Qed.
