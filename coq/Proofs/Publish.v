From Coq Require Import List NArith Bool Lia.
From Verif Require Import Model.Publish.
From Verif Require Proofs.ServerMap.   (* for its Section Dedup only *)
Import ListNotations.
Local Open Scope N_scope.

Lemma writer_eqb_eq a b : writer_eqb a b = true <-> a = b.
Proof.
  destruct a as [s1 v1], b as [s2 v2]; unfold writer_eqb; cbn.
  rewrite andb_true_iff, !N.eqb_eq. split; [intros [-> ->]; reflexivity|intro H; inversion H; auto].
Qed.

Lemma mem_N_In x l : mem_N x l = true <-> In x l.
Proof. apply (Proofs.ServerMap.mem_In N.eqb mem_N N.eqb_eq); reflexivity. Qed.

Lemma dedup_N_In x l : In x (dedup_N l) <-> In x l.
Proof. apply (Proofs.ServerMap.dedup_In N.eqb mem_N dedup_N N.eqb_eq); reflexivity. Qed.

Lemma dedup_N_NoDup l : NoDup (dedup_N l).
Proof. apply (Proofs.ServerMap.dedup_NoDup N.eqb mem_N dedup_N N.eqb_eq); reflexivity. Qed.

Lemma distinct_shnums_mono A B : incl A B -> distinct_shnums A <= distinct_shnums B.
Proof.
  intro H. unfold distinct_shnums.
  enough (length (dedup_N (map w_shnum A)) <= length (dedup_N (map w_shnum B)))%nat by lia.
  apply NoDup_incl_length; [apply dedup_N_NoDup|].
  intros x Hx. rewrite dedup_N_In in *. exact (incl_map w_shnum H x Hx).
Qed.

(* the final test of _push in DONE_STATE *)
Lemma decide_success k s :
  decide k s = Success <-> k <= distinct_shnums (writers s) /\ surprised s = false.
Proof.
  unfold decide. rewrite <- N.ltb_ge.
  destruct (distinct_shnums (writers s) <? k), (surprised s); cbn; intuition discriminate.
Qed.

Lemma decide_ucwe k s : decide k s = UncoordinatedWrite <-> surprised s = true.
Proof.
  unfold decide.
  destruct (distinct_shnums (writers s) <? k), (surprised s); cbn; intuition discriminate.
Qed.

Lemma handle_writers_subset s w a : incl (writers (handle_answer s w a)) (writers s).
Proof. destruct a as [|[] rd]; [apply incl_filter|apply incl_refl..]. Qed.

Lemma handle_conn_error_removes s w : ~ In w (writers (handle_answer s w ConnError)).
Proof.
  cbn. rewrite filter_In, (proj2 (writer_eqb_eq w w) eq_refl). intros [_ H]. discriminate.
Qed.

Lemma handle_surprised_mono s w a : surprised s = true -> surprised (handle_answer s w a) = true.
Proof.
  intro H. destruct a as [|[] rd]; cbn; [exact H| |reflexivity].
  destruct (existsb _ rd); [reflexivity|exact H].
Qed.

Lemma handle_placed_mono s w a x : In x (placed s) -> In x (placed (handle_answer s w a)).
Proof. destruct a as [|[] rd]; cbn; auto. Qed.

Lemma handle_placed_inv s w a x :
  In x (placed (handle_answer s w a)) -> In x (placed s) \/ (x = w /\ exists rd, a = Answered true rd).
Proof.
  destruct a as [|[] rd]; cbn; auto.
  intros [H|H]; [right; split; [auto|exists rd; reflexivity]|left; exact H].
Qed.

Lemma handle_all_ind (P : pstate -> Prop) answers :
  (forall s w a, In (w, a) answers -> P s -> P (handle_answer s w a)) ->
  forall s, P s -> P (handle_all s answers).
Proof.
  induction answers as [|[w a] r IH]; intros step s H; [exact H|].
  apply IH; [intros s' w' a' Hin; apply step; right; exact Hin|].
  apply step; [left; reflexivity|exact H].
Qed.

(* what the answer (w, a) establishes and no later answer undoes holds at the end *)
Lemma handle_all_after (P : pstate -> Prop) w a :
  (forall s, P (handle_answer s w a)) ->
  (forall s w' a', P s -> P (handle_answer s w' a')) ->
  forall answers s, In (w, a) answers -> P (handle_all s answers).
Proof.
  intros est pres answers s Hin. apply in_split in Hin as (pre & post & ->).
  unfold handle_all. rewrite fold_left_app.
  apply (handle_all_ind P post); [intros s' w' a' _; apply pres|apply est].
Qed.

Lemma all_writers_subset answers s : incl (writers (handle_all s answers)) (writers s).
Proof.
  apply (handle_all_ind (fun s' => incl (writers s') (writers s))); [|apply incl_refl].
  intros s' w a _. apply incl_tran, handle_writers_subset.
Qed.

Lemma all_surprised_mono answers s : surprised s = true -> surprised (handle_all s answers) = true.
Proof.
  apply (handle_all_ind (fun s => surprised s = true)). intros s' w a _. apply handle_surprised_mono.
Qed.

Lemma all_placed_inv answers s x :
  In x (placed (handle_all s answers)) -> In x (placed s) \/ exists rd, In (x, Answered true rd) answers.
Proof.
  apply (handle_all_ind (fun s' => In x (placed s') -> In x (placed s) \/ exists rd, In (x, Answered true rd) answers));
    [|auto].
  intros s' w a Hin IH H. apply handle_placed_inv in H as [H|[-> [rd ->]]]; [exact (IH H)|].
  right. exists rd. exact Hin.
Qed.

Lemma conn_error_removes answers s w :
  In (w, ConnError) answers -> ~ In w (writers (handle_all s answers)).
Proof.
  apply (handle_all_after (fun s => ~ In w (writers s))); [intro; apply handle_conn_error_removes|].
  intros s' w' a' H Hin. exact (H (handle_writers_subset _ _ _ _ Hin)).
Qed.

Lemma testv_failure_surprises answers s w rd :
  In (w, Answered false rd) answers -> surprised (handle_all s answers) = true.
Proof.
  apply (handle_all_after (fun s => surprised s = true)); [reflexivity|apply handle_surprised_mono].
Qed.

Lemma wrote_is_placed answers s w rd :
  In (w, Answered true rd) answers -> In w (placed (handle_all s answers)).
Proof.
  apply (handle_all_after (fun s => In w (placed s))); [left; reflexivity|].
  intros s' w' a'. apply handle_placed_mono.
Qed.

Definition covered (ws : list writer) (answers : list (writer * answer)) : Prop :=
  forall w, In w ws -> exists a, In (w, a) answers.

Lemma unsurprised_writers_placed answers s :
  covered (writers s) answers -> surprised (handle_all s answers) = false ->
  incl (writers (handle_all s answers)) (placed (handle_all s answers)).
Proof.
  intros Hc S w Hw. destruct (Hc w (all_writers_subset _ _ _ Hw)) as [[|[] rd] Ha].
  - destruct (conn_error_removes _ _ _ Ha Hw).
  - exact (wrote_is_placed _ _ _ _ Ha).
  - rewrite (testv_failure_surprises _ _ _ _ Ha) in S. discriminate.
Qed.

Lemma success_implies_k_acked_ok k ws answers :
  covered ws answers ->
  publish_outcome k ws answers = Success ->
  let final := handle_all (start ws) answers in
  k <= distinct_shnums (placed final) /\
  (forall w, In w (placed final) -> exists rd, In (w, Answered true rd) answers).
Proof.
  intros Hc H final. apply decide_success in H as [E S]. split.
  - apply (N.le_trans _ _ _ E), distinct_shnums_mono, unsurprised_writers_placed; assumption.
  - intros w Hw. apply all_placed_inv in Hw as [[]|H]. exact H.
Qed.

Lemma success_implies_not_surprised_ok k ws answers :
  publish_outcome k ws answers = Success ->
  surprised (handle_all (start ws) answers) = false /\
  (forall w rd, ~ In (w, Answered false rd) answers).
Proof.
  intro H. apply decide_success in H as [_ S]. split; [exact S|].
  intros w rd Hin. rewrite (testv_failure_surprises _ _ _ _ Hin) in S. discriminate.
Qed.

Definition has_conn_error (answers : list (writer * answer)) (w : writer) : bool :=
  existsb (fun wa => writer_eqb (fst wa) w && match snd wa with ConnError => true | _ => false end) answers.

Lemma has_conn_error_In answers w : has_conn_error answers w = true <-> In (w, ConnError) answers.
Proof.
  unfold has_conn_error. rewrite existsb_exists. split.
  - intros [[w0 a0] [Hin H]]. apply andb_prop in H as [Hw Ha]. apply writer_eqb_eq in Hw. cbn in Hw, Ha.
    subst w0. destruct a0; [exact Hin|discriminate].
  - intro Hin. exists (w, ConnError). cbn. rewrite andb_true_r. split; [exact Hin|]. apply writer_eqb_eq. reflexivity.
Qed.

Lemma final_writers_not_errored answers s :
  incl (writers (handle_all s answers)) (filter (fun w => negb (has_conn_error answers w)) (writers s)).
Proof.
  intros w Hw. apply filter_In. split; [exact (all_writers_subset _ _ _ Hw)|].
  apply negb_true_iff, not_true_is_false. intro C. apply has_conn_error_In in C.
  exact (conn_error_removes _ _ _ C Hw).
Qed.

Lemma fewer_than_k_is_error_ok k ws answers :
  distinct_shnums (filter (fun w => negb (has_conn_error answers w)) ws) < k ->
  publish_outcome k ws answers <> Success.
Proof.
  intros H Hs. apply decide_success in Hs as [E _].
  pose proof (distinct_shnums_mono _ _ (final_writers_not_errored answers (start ws))) as M.
  cbn [writers start] in M. lia.
Qed.
