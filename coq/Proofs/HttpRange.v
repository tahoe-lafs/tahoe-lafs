(* Proofs about Model/HttpRange.v (C31). *)
From Coq Require Import List NArith Bool Lia Arith PeanoNat.
From Verif Require Import Lib.Hex Lib.ListFacts Gen.Routes Model.HttpAuth Model.HttpRange.
Import ListNotations.
Local Open Scope N_scope.
Local Open Scope bool_scope.

Lemma mapM_map {A B C} (f : B -> option C) (g : A -> B) (h : A -> C) (l : list A) :
  (forall x, f (g x) = Some (h x)) -> mapM f (map g l) = Some (map h l).
Proof.
  intro H. induction l as [|x l IH]; simpl.
  - reflexivity.
  - rewrite H, IH. reflexivity.
Qed.

Lemma dec_enc_test x : dec_test (enc_test x) = Some (fst (fst x), snd (fst x), op_eq, snd x).
Proof. destruct x as [[o s] sp]. reflexivity. Qed.

Lemma dec_enc_write x : dec_write (enc_write x) = Some x.
Proof. destruct x as [o d]. reflexivity. Qed.

Lemma dec_enc_read x : dec_read (enc_read x) = Some x.
Proof. destruct x as [o s]. reflexivity. Qed.

Lemma dec_enc_twv e : dec_twv (CUInt (fst e), enc_twv (snd e)) = Some (fst e, wire_of_twv (snd e)).
Proof.
  destruct e as [sh [ts ws nl]]. unfold dec_twv, enc_twv, get_array. simpl.
  rewrite (mapM_map dec_test enc_test (fun x => (fst (fst x), snd (fst x), op_eq, snd x)) ts dec_enc_test).
  rewrite (mapM_map dec_write enc_write (fun x => x) ws dec_enc_write).
  rewrite map_id. destruct nl; reflexivity.
Qed.

Lemma rtw_roundtrip_ok : forall r, decode_rtw (encode_rtw r) = Some (wire_form r).
Proof.
  intros [tw rv]. unfold decode_rtw, encode_rtw, get_array. simpl.
  rewrite (mapM_map dec_twv (fun e => (CUInt (fst e), enc_twv (snd e))) (fun e => (fst e, wire_of_twv (snd e))) tw dec_enc_twv).
  rewrite (mapM_map dec_read enc_read (fun x => x) rv dec_enc_read).
  rewrite map_id. reflexivity.
Qed.

Lemma dec_enc_reads e : dec_reads (CUInt (fst e), CArray (map CBytes (snd e))) = Some e.
Proof.
  destruct e as [sh bs]. unfold dec_reads. simpl.
  rewrite (mapM_map dec_bytes CBytes (fun x => x) bs (fun x => eq_refl)). rewrite map_id. reflexivity.
Qed.

Lemma answer_roundtrip_ok : forall a, decode_answer (encode_answer a) = Some a.
Proof.
  intros [s d]. unfold decode_answer, encode_answer. simpl.
  rewrite (mapM_map dec_reads (fun e => (CUInt (fst e), CArray (map CBytes (snd e)))) (fun e => e) d dec_enc_reads).
  rewrite map_id. reflexivity.
Qed.

(* the wire form only adds the operator *)
Lemma wire_form_tests : forall r sh t,
  In (sh, t) (rq_tw r) -> In (sh, wire_of_twv t) (wr_tw (wire_form r)).
Proof.
  intros r sh t H. unfold wire_form. simpl. apply in_map_iff. exists (sh, t). split; [reflexivity | exact H].
Qed.

Lemma direct_read_app data s a b :
  direct_read data s a ++ direct_read data (s + a) b = direct_read data s (a + b).
Proof.
  unfold direct_read. rewrite !Nnat.N2Nat.inj_add. rewrite firstn_add, <- skipn_add. reflexivity.
Qed.

Lemma blen_direct_read data s a :
  s + a <= blen data -> blen (direct_read data s a) = a.
Proof.
  unfold blen, direct_read. intro H. rewrite firstn_length, skipn_length. lia.
Qed.

Lemma direct_read_clip data s a : direct_read data s a = direct_read data s (N.min (s + a) (blen data) - s).
Proof.
  unfold blen, direct_read. destruct (N.le_gt_cases (s + a) (N.of_nat (List.length data))) as [H|H].
  - f_equal. lia.
  - rewrite !firstn_all2 by (rewrite skipn_length; lia). reflexivity.
Qed.

Lemma produce_ok data chunk : 0 < chunk ->
  forall fuel start rem,
    0 < rem -> start + rem <= blen data -> (N.to_nat rem < fuel)%nat ->
    produce (direct_read data) chunk start rem fuel = Some (direct_read data start rem).
Proof.
  intro Hc. induction fuel as [|fuel IH]; intros start rem Hr Hb Hf; [lia|].
  cbn [produce].
  set (t := N.min rem chunk).
  assert (Ht : 0 < t /\ t <= rem) by (unfold t; lia).
  assert (Hl : blen (direct_read data start t) = t) by (apply blen_direct_read; lia).
  destruct (direct_read data start t) as [|x xs] eqn:E.
  - unfold blen in Hl. simpl in Hl. lia.
  - rewrite Hl.
    destruct (rem <? t) eqn:E1; [apply N.ltb_lt in E1; lia|].
    destruct (rem - t =? 0) eqn:E2.
    + apply N.eqb_eq in E2. assert (t = rem) by lia. subst t. rewrite <- E. f_equal. f_equal. lia.
    + apply N.eqb_neq in E2.
      rewrite IH; [|lia|lia|lia].
      rewrite <- E. rewrite direct_read_app. f_equal. f_equal. lia.
Qed.

Lemma range_read_ok : forall data chunk offset length,
  0 < chunk -> 0 < length ->
  http_read data chunk offset length = RData (direct_read data offset length).
Proof.
  intros data chunk offset length Hc Hl. unfold http_read, range_header.
  destruct (N.eqb_spec length 0) as [|_]; [lia|].
  unfold read_range, parse_range. rewrite (direct_read_clip data offset length).
  replace (offset + length - 1 + 1) with (offset + length) by lia.
  pose proof (N.le_min_l (offset + length) (blen data)) as E1. pose proof (N.le_min_r (offset + length) (blen data)) as E2.
  set (e := N.min (offset + length) (blen data)) in *.
  destruct (N.leb_spec e offset) as [E|E].
  - replace (e - offset) with 0 by lia. reflexivity.
  - rewrite produce_ok by (exact Hc || lia). rewrite blen_direct_read, N.eqb_refl by lia.
    destruct (N.ltb_spec length (e - offset)); [lia|reflexivity].
Qed.

Local Open Scope nat_scope.

Definition nslice (data : list N) (o l : nat) : list N := firstn l (skipn o data).

Lemma slice_nslice data c : slice data c = nslice data (N.to_nat (fst c)) (N.to_nat (snd c)).
Proof. reflexivity. Qed.

Lemma length_nslice data o l : o + l <= length data -> length (nslice data o l) = l.
Proof. intro H. unfold nslice. rewrite firstn_length, skipn_length. lia. Qed.

Lemma nth_nslice data o l i : i < l -> nth i (nslice data o l) 0%N = nth (o + i) data 0%N.
Proof. intro H. unfold nslice. rewrite nth_firstn_lt by exact H. apply nth_skipn. Qed.

Lemma length_splice {A} (l d : list A) off :
  off + length d <= length l -> length (splice l off d) = length l.
Proof.
  intro H. unfold splice. rewrite !app_length, firstn_length, skipn_length. lia.
Qed.

Lemma nth_splice {A} (l d : list A) off p x :
  off + length d <= length l ->
  nth p (splice l off d) x =
    if (off <=? p) && (p <? off + length d) then nth (p - off) d x else nth p l x.
Proof.
  intro H. unfold splice.
  assert (Hf : length (firstn off l) = off) by (rewrite firstn_length; lia).
  destruct (off <=? p) eqn:E1; simpl.
  - apply Nat.leb_le in E1. rewrite app_nth2 by lia. rewrite Hf.
    destruct (p <? off + length d) eqn:E2.
    + apply Nat.ltb_lt in E2. rewrite app_nth1 by lia. reflexivity.
    + apply Nat.ltb_ge in E2. rewrite app_nth2 by lia. rewrite nth_skipn. f_equal. lia.
  - apply Nat.leb_gt in E1. rewrite app_nth1 by lia. apply nth_firstn_lt. exact E1.
Qed.

Lemma in_range_spec o l p : reflect (o <= p < o + l) ((o <=? p) && (p <? o + l)).
Proof.
  destruct (Nat.leb_spec0 o p); [destruct (Nat.ltb_spec0 p (o + l))|]; constructor; lia.
Qed.

Lemma conflicts_false ms xs ys :
  (forall i, i < length ys -> nth i ms false = true -> nth i xs 0%N = nth i ys 0%N) ->
  conflicts ms xs ys = false.
Proof.
  revert xs ys. induction ms as [|m ms IH]; intros xs ys H; simpl; [reflexivity|].
  destruct xs as [|x xs]; [reflexivity|]. destruct ys as [|y ys]; [reflexivity|].
  apply orb_false_intro.
  - destruct m; simpl; [|reflexivity].
    specialize (H 0 ltac:(simpl; lia) eq_refl). simpl in H. subst. rewrite N.eqb_refl. reflexivity.
  - apply IH. intros i Hi Hm. apply (H (S i)); simpl; [lia | exact Hm].
Qed.

Lemma forallb_id_nth (l : list bool) :
  forallb (fun b => b) l = true <-> forall p, p < length l -> nth p l false = true.
Proof.
  induction l as [|b l IH]; simpl.
  - split; [intros _ p H; lia | reflexivity].
  - rewrite andb_true_iff, IH. split.
    + intros [Hb H] p Hp. destruct p; [exact Hb | apply H; lia].
    + intro H. split; [apply (H 0); lia | intros p Hp; apply (H (S p)); lia].
Qed.

(* the state of a writer that received, in some order, the slices of `data` given by `cov` *)
Record Inv (data : list N) (cov : nat -> Prop) (w : bw) : Prop := mk_inv {
  inv_len_d : length (bw_data w) = length data;
  inv_len_m : length (bw_mask w) = length data;
  inv_mask : forall p, p < length data -> (nth p (bw_mask w) false = true <-> cov p);
  inv_data : forall p, p < length data ->
             nth p (bw_data w) 0%N = if nth p (bw_mask w) false then nth p data 0%N else 0%N }.

Lemma Inv_ext data cov cov' w :
  Inv data cov w -> (forall p, p < length data -> (cov p <-> cov' p)) -> Inv data cov' w.
Proof.
  intros [A B C D] H. constructor; try assumption.
  intros p Hp. rewrite (C p Hp). apply H. exact Hp.
Qed.

Lemma Inv_unique data cov w1 w2 : Inv data cov w1 -> Inv data cov w2 -> w1 = w2.
Proof.
  intros [A1 B1 C1 D1] [A2 B2 C2 D2]. destruct w1 as [d1 m1], w2 as [d2 m2]. simpl in *.
  assert (Hm : m1 = m2).
  { apply (nth_ext m1 m2 false false); [congruence|].
    intros p Hp. rewrite B1 in Hp. apply eq_true_iff_eq. rewrite (C1 p Hp), (C2 p Hp). reflexivity. }
  subst m2. f_equal.
  apply (nth_ext d1 d2 0%N 0%N); [congruence|].
  intros p Hp. rewrite A1 in Hp. rewrite (D1 p Hp), (D2 p Hp). reflexivity.
Qed.

Lemma Inv_new data : Inv data (fun _ => False) (bw_new (blen data)).
Proof.
  unfold bw_new, blen. rewrite Nnat.Nat2N.id. constructor; simpl.
  - apply repeat_length.
  - apply repeat_length.
  - intros p Hp. rewrite nth_repeat_lt by exact Hp. split; [discriminate | contradiction].
  - intros p Hp. rewrite !nth_repeat_lt by exact Hp. reflexivity.
Qed.

Lemma write_step data cov w o l :
  Inv data cov w -> o + l <= length data ->
  exists w', bw_write_at w o (nslice data o l) = WOk w' (bw_finished w')
          /\ Inv data (fun p => cov p \/ (o <= p < o + l)) w'.
Proof.
  intros [A B C D] H.
  assert (Hl : length (nslice data o l) = l) by (apply length_nslice; exact H).
  unfold bw_write_at.
  rewrite conflicts_false.
  2:{ intros i Hi Hm. rewrite Hl in Hi. rewrite nth_skipn in Hm. rewrite nth_skipn.
      rewrite nth_nslice by exact Hi. rewrite D by lia. rewrite Hm. reflexivity. }
  unfold bw_size. rewrite B, Hl.
  destruct (length data <? o + l) eqn:E; [apply Nat.ltb_lt in E; lia|].
  eexists. split; [reflexivity|].
  constructor; simpl.
  - rewrite length_splice; [exact A | rewrite Hl, A; exact H].
  - rewrite length_splice; [exact B | rewrite repeat_length, B; exact H].
  - intros p Hp. rewrite nth_splice by (rewrite repeat_length, B; exact H). rewrite repeat_length.
    destruct (in_range_spec o l p) as [Hr|Hr].
    + rewrite nth_repeat_lt by lia. split; [intros _; right; exact Hr | reflexivity].
    + split; [intro Hm; left; apply (C p Hp), Hm | intros [Hc|Hr']; [apply (C p Hp), Hc | contradiction]].
  - intros p Hp.
    rewrite nth_splice by (rewrite Hl, A; exact H).
    rewrite nth_splice by (rewrite repeat_length, B; exact H).
    rewrite Hl, repeat_length. destruct (in_range_spec o l p) as [Hr|Hr]; [|exact (D p Hp)].
    rewrite nth_repeat_lt, nth_nslice by lia. f_equal. lia.
Qed.

Definition covn (chunks : list (N * N)) (p : nat) : Prop :=
  exists c, In c chunks /\ N.to_nat (fst c) <= p < N.to_nat (fst c) + N.to_nat (snd c).

Lemma covn_nil (P : Prop) p : P <-> P \/ covn [] p.
Proof. split; [left; assumption | intros [H|[c [[] _]]]; exact H]. Qed.

Lemma covn_cons (P : Prop) c r p :
  (P \/ N.to_nat (fst c) <= p < N.to_nat (fst c) + N.to_nat (snd c)) \/ covn r p <-> P \/ covn (c :: r) p.
Proof.
  unfold covn. split.
  - intros [[H|H]|[c0 [Hin Hp]]]; [left; exact H | right; exists c | right; exists c0]; simpl; auto.
  - intros [H|[c0 [[<-|Hin] Hp]]]; [left; left; exact H | left; right; exact Hp | right; exists c0; auto].
Qed.

Lemma chunk_ok_nat data c :
  chunk_ok (blen data) c -> N.to_nat (fst c) + N.to_nat (snd c) <= length data /\ 0 < N.to_nat (snd c).
Proof. unfold chunk_ok, blen. intros [H1 H2]. lia. Qed.

Lemma nslice_nil_iff data o l : o + l <= length data -> (nslice data o l = [] <-> l = 0).
Proof.
  intro H. split.
  - intro E. apply (f_equal (@length N)) in E. rewrite length_nslice in E by exact H. exact E.
  - intros ->. reflexivity.
Qed.

Lemma firstn_nslice data o l c : firstn c (nslice data o l) = nslice data o (Nat.min c l).
Proof. unfold nslice. apply firstn_firstn. Qed.

Lemma skipn_nslice data o l c : skipn c (nslice data o l) = nslice data (o + Nat.min c l) (l - Nat.min c l).
Proof.
  unfold nslice. rewrite skipn_firstn_comm.
  destruct (Nat.le_gt_cases c l) as [Hc|Hc].
  - rewrite Nat.min_l by exact Hc. rewrite skipn_add. reflexivity.
  - rewrite Nat.min_r by lia. replace (l - c) with 0 by lia. replace (l - l) with 0 by lia. reflexivity.
Qed.

Lemma patch_loop_inv data chunk : 0 < chunk ->
  forall fuel l o w cov fin,
    Inv data cov w -> o + l <= length data -> l < fuel ->
    (l = 0 -> fin = bw_finished w) ->
    exists w', patch_loop w chunk o (nslice data o l) fin fuel
               = PDone (if bw_finished w' then 201%N else 200%N) w' (required_ranges w')
            /\ Inv data (fun p => cov p \/ (o <= p < o + l)) w'.
Proof.
  intro Hc. induction fuel as [|fuel IH]; intros l o w cov fin HI Hb Hf Hfin; [lia|].
  cbn [patch_loop].
  destruct (Nat.eq_dec l 0) as [->|Hl].
  - simpl. exists w. split; [rewrite (Hfin eq_refl); reflexivity|].
    apply (Inv_ext _ _ _ _ HI). intros p _. intuition lia.
  - destruct (nslice data o l) as [|x xs] eqn:E.
    { apply nslice_nil_iff in E; [contradiction | exact Hb]. }
    rewrite <- E. rewrite firstn_nslice.
    set (l1 := Nat.min chunk l).
    assert (H1 : 0 < l1 /\ l1 <= l) by (unfold l1; lia).
    destruct (write_step data cov w o l1 HI ltac:(lia)) as [w1 [Ew I1]]. rewrite Ew.
    rewrite length_nslice by lia. rewrite skipn_nslice. fold l1.
    destruct (IH (l - l1) (o + l1) w1 _ (bw_finished w1) I1 ltac:(lia) ltac:(lia) (fun _ => eq_refl)) as [w' [E' I']].
    exists w'. split; [exact E'|].
    apply (Inv_ext _ _ _ _ I'). intros p _. split.
    + intros [[H|H]|H]; [left; exact H | right; lia | right; lia].
    + intros [H|H]; [left; left; exact H|].
      destruct (Nat.lt_ge_cases p (o + l1)); [left; right; lia | right; lia].
Qed.

Lemma patch_inv data chunk cov w c :
  (0 < chunk)%N -> Inv data cov w -> chunk_ok (blen data) c ->
  exists w', patch w chunk (fst c) (slice data c)
             = PDone (if bw_finished w' then 201%N else 200%N) w' (required_ranges w')
          /\ bw_write w (fst c) (slice data c) = WOk w' (bw_finished w')
          /\ Inv data (fun p => cov p \/ (N.to_nat (fst c) <= p < N.to_nat (fst c) + N.to_nat (snd c))) w'.
Proof.
  intros Hc HI Hok. destruct (chunk_ok_nat _ _ Hok) as [Hb Hpos].
  destruct (write_step data cov w _ _ HI Hb) as [w2 [E2 I2]].
  unfold patch, bw_write. rewrite slice_nslice.
  destruct (nslice data (N.to_nat (fst c)) (N.to_nat (snd c))) as [|x xs] eqn:E.
  { apply nslice_nil_iff in E; [lia | exact Hb]. }
  rewrite <- E in *. rewrite length_nslice by exact Hb.
  destruct (patch_loop_inv data (N.to_nat chunk) ltac:(lia) (S (N.to_nat (snd c))) _ _ w cov false HI Hb ltac:(lia) ltac:(lia))
    as [w' [E' I']].
  exists w'. rewrite (Inv_unique _ _ _ _ I2 I') in E2. auto.
Qed.

Lemma upload_inv data chunk : (0 < chunk)%N -> forall chunks cov w last,
  Inv data cov w -> Forall (chunk_ok (blen data)) chunks ->
  exists w', http_upload data chunk chunks w last
             = Some (w', match chunks with [] => last | _ => if bw_finished w' then 201%N else 200%N end)
    /\ direct_upload data chunks w = Some w'
    /\ Inv data (fun p => cov p \/ covn chunks p) w'.
Proof.
  intro Hc. induction chunks as [|c r IH]; intros cov w last HI HF; simpl.
  - exists w. split; [reflexivity|]. split; [reflexivity|]. exact (Inv_ext _ _ _ _ HI (fun p _ => covn_nil _ p)).
  - inversion HF as [|c' r' Hok Hr]; subst.
    destruct (patch_inv data chunk cov w c Hc HI Hok) as [w1 [E [D I1]]]. rewrite E, D.
    destruct (IH _ w1 (if bw_finished w1 then 201%N else 200%N) I1 Hr) as [w' [E' [D' I']]].
    exists w'. split; [|split; [exact D'|]].
    + rewrite E'. destruct r; [|reflexivity]. injection D' as <-. reflexivity.
    + exact (Inv_ext _ _ _ _ I' (fun p _ => covn_cons _ c r p)).
Qed.

Lemma Inv_finished data cov w : Inv data cov w -> (bw_finished w = true <-> forall p, p < length data -> cov p).
Proof.
  intros [A B C D]. unfold bw_finished. rewrite forallb_id_nth, B. split; intros H p Hp; apply (C p Hp), H, Hp.
Qed.

Lemma finished_iff_covered data chunks w :
  Inv data (fun p => False \/ covn chunks p) w ->
  (bw_finished w = true <-> forall p : N, (p < blen data)%N -> covered chunks p).
Proof.
  intro I. rewrite (Inv_finished _ _ _ I). unfold blen. split.
  - intros H p Hp. destruct (H (N.to_nat p) ltac:(lia)) as [[]|[c [Hin Hr]]]. exists c. split; [exact Hin|lia].
  - intros H p Hp. right. destruct (H (N.of_nat p) ltac:(lia)) as [c [Hin Hr]]. exists c. split; [exact Hin|lia].
Qed.

Lemma finished_data data cov w : Inv data cov w -> bw_finished w = true -> bw_data w = data.
Proof.
  intros [A B C D] H. unfold bw_finished in H. rewrite forallb_id_nth in H. rewrite B in H.
  apply (nth_ext _ _ 0%N 0%N); [exact A|].
  intros p Hp. rewrite A in Hp. rewrite (D p Hp). rewrite (H p Hp). reflexivity.
Qed.

Lemma chunked_upload_ok : forall data chunk chunks,
  (0 < chunk)%N -> Forall (chunk_ok (blen data)) chunks ->
  exists w code,
    http_upload data chunk chunks (bw_new (blen data)) 0%N = Some (w, code)
    /\ direct_upload data chunks (bw_new (blen data)) = Some w
    /\ (bw_finished w = true <-> forall p : N, (p < blen data)%N -> covered chunks p)
    /\ (chunks <> [] -> (code = 201%N <-> bw_finished w = true) /\ (code = 200%N <-> bw_finished w = false))
    /\ (bw_finished w = true -> bw_data w = data /\ bw_write (bw_new (blen data)) 0%N data = WOk w true).
Proof.
  intros data chunk chunks Hc HF.
  destruct (upload_inv data chunk Hc chunks _ _ 0%N (Inv_new data) HF) as [w [E [E2 I]]].
  eexists w, _. split; [exact E|]. split; [exact E2|]. split; [apply finished_iff_covered; exact I|].
  split.
  - intro Hne. destruct chunks; [congruence|]. destruct (bw_finished w); split; split; intro; try reflexivity; discriminate.
  - intro Hfin. split; [eapply finished_data; eassumption|].
    destruct (write_step data _ _ 0 (length data) (Inv_new data) ltac:(lia)) as [w1 [E1 I1]].
    unfold nslice in E1. cbn [skipn] in E1. rewrite firstn_all in E1.
    rewrite (Inv_unique _ _ w1 w I1) in E1.
    2:{ apply (Inv_ext _ _ _ _ I). intros p Hp. pose proof (proj1 (Inv_finished _ _ _ I) Hfin p Hp).
        split; intros _; [right; lia | assumption]. }
    unfold bw_write. cbn [N.to_nat]. rewrite E1, Hfin. reflexivity.
Qed.
