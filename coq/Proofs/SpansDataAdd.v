(* C37: DataSpans.add -- the while loop (cases A-E) produces a sorted, disjoint
   (possibly adjacent) chunk list denoting the overridden map; the merge pass
   re-establishes the strong invariant without changing the denotation;
   assert_invariants never fires. *)
From Coq Require Import List Arith NArith Bool Lia ZifyBool ZifyNat ZifyN.
From Verif Require Import Model.Spans Proofs.SpansBase Proofs.SpansDataBase.
Import ListNotations.
Local Open Scope N_scope.

(* `body` of ds_add_loop on the span (ss, sd), as a function *)
Definition add_body (ss : N) (sd : list N) (r : dspans) (end_ : N) (start : N) (data : list N) : dspans :=
  match data with
  | [] => (ss, sd) :: r
  | _ :: _ =>
      if (ss <=? start) && (start <? ss + nlen sd) then
        if ss =? start then
          if ss + nlen sd <=? end_ then
            (ss, ntake (nlen sd) data) :: ds_add_loop (start + nlen sd) (ndrop (nlen sd) data) end_ r
          else
            (ss, data ++ ndrop (nlen data) sd) :: r
        else if (ss <? start) && (end_ <? ss + nlen sd) then
          (ss, ntake (start - ss) sd ++ data ++ nlast (ss + nlen sd - end_) sd) :: r
        else
          (ss, ntake (start - ss) sd ++ ntake (nlen sd - (start - ss)) data)
            :: ds_add_loop (start + (nlen sd - (start - ss))) (ndrop (nlen sd - (start - ss)) data) end_ r
      else
        (ss, sd) :: ds_add_loop start data end_ r
  end.

Lemma ds_add_loop_cons start data end_ ss sd r :
  ds_add_loop start data end_ ((ss, sd) :: r) =
  match data with
  | [] => (ss, sd) :: r
  | _ :: _ =>
      if start <? ss
      then (start, ntake (ss - start) data) :: add_body ss sd r end_ ss (ndrop (ss - start) data)
      else add_body ss sd r end_ start data
  end.
Proof. destruct data; reflexivity. Qed.

(* dget reads the first chunk that holds z, so putting a chunk in front of a list
   overrides it there: the loop has to produce a weakly wf list that denotes
   (start, data) :: rest. *)
Definition loop_spec (res : dspans) (e start : N) (data : list N) (rest : dspans) : Prop :=
  dweak_from e res /\ forall z, dget z res = dget z ((start, data) :: rest).

Lemma loop_spec_nil rest e start : dweak_from e rest -> loop_spec rest e start [] rest.
Proof. intro W. split; [exact W|]. intro z. symmetry. apply dget_nil_chunk. Qed.

Lemma body_spec ss sd r
  (IH : forall start data e, dweak_from e r -> e <= start ->
        loop_spec (ds_add_loop start data (start + nlen data) r) e start data r) :
  0 < nlen sd -> dweak_from (ss + nlen sd) r ->
  forall st dt en, ss <= st -> (0 < nlen dt -> en = st + nlen dt) ->
  loop_spec (add_body ss sd r en st dt) ss st dt ((ss, sd) :: r).
Proof.
  intros Hsd Hr st dt en Hst Hen. unfold add_body.
  destruct dt as [|b dt'].
  - apply loop_spec_nil. cbn [dweak_from fst snd]. auto using N.le_refl.
  - assert (Hdt : 0 < nlen (b :: dt')) by (rewrite nlen_cons; lia). specialize (Hen Hdt).
    cbv beta iota zeta. remember (b :: dt') as dt eqn:Edt. clear Edt b dt'.
    destruct ((ss <=? st) && (st <? ss + nlen sd)) eqn:C1.
    + destruct (N.eqb_spec ss st) as [<-|C2].
      * destruct (ss + nlen sd <=? en) eqn:C3.
        -- (* case C: the chunk is covered; go on with the rest of the data *)
           destruct (IH (ss + nlen sd) (ndrop (nlen sd) dt) (ss + nlen sd) Hr (N.le_refl _)) as [W M].
           replace (ss + nlen sd + nlen (ndrop (nlen sd) dt)) with en in W, M by (rewrite nlen_ndrop; lia).
           split.
           ++ cbn [dweak_from fst snd]. rewrite nlen_ntake. repeat split; [lia|lia|].
              apply (dweak_from_weaken (ss + nlen sd)); [lia|exact W].
           ++ intro z. rewrite (dget_cong _ _ _ M), <- dget_cut, !dget_cons. iv_cases.
        -- (* case B *)
           split.
           ++ cbn [dweak_from fst snd]. rewrite nlen_app, nlen_ndrop. repeat split; [lia|lia|].
              apply (dweak_from_weaken (ss + nlen sd)); [lia|exact Hr].
           ++ intro z. rewrite (dget_app (ss + nlen dt)), (dget_cons _ _ dt), (dget_drop _ ss sd), !dget_cons
                by reflexivity.
              iv_cases.
      * destruct ((ss <? st) && (en <? ss + nlen sd)) eqn:C4.
        -- (* case E *)
           rewrite nlast_pos by lia. split.
           ++ cbn [dweak_from fst snd]. rewrite !nlen_app, nlen_ntake, nlen_ndrop. repeat split; [lia|lia|].
              apply (dweak_from_weaken (ss + nlen sd)); [lia|exact Hr].
           ++ intro z.
              rewrite (dget_app st), dget_take, (dget_app en), !(dget_cons _ _ dt), (dget_drop en ss sd), dget_cons
                by (rewrite ?nlen_ntake; lia).
              iv_cases.
        -- (* case D: the tail of the chunk is overwritten; go on with the rest of the data *)
           set (su := nlen sd - (st - ss)) in *.
           destruct (IH (st + su) (ndrop su dt) (ss + nlen sd) Hr ltac:(lia)) as [W M].
           replace (st + su + nlen (ndrop su dt)) with en in W, M by (rewrite nlen_ndrop; lia).
           split.
           ++ cbn [dweak_from fst snd]. rewrite nlen_app, !nlen_ntake. repeat split; [lia|lia|].
              apply (dweak_from_weaken (ss + nlen sd)); [lia|exact W].
           ++ intro z.
              rewrite (dget_app st), !dget_take, M, (dget_drop _ st dt), !dget_cons
                by (rewrite ?nlen_ntake; lia).
              iv_cases.
    + (* not there yet *)
      destruct (IH st dt (ss + nlen sd) Hr ltac:(lia)) as [W M].
      rewrite <- Hen in W, M. split.
      * cbn [dweak_from fst snd]. repeat split; [lia|exact Hsd|exact W].
      * intro z. rewrite (dget_cong _ _ _ M), !dget_cons. iv_cases.
Qed.

Lemma add_loop_spec rest : forall start data e, dweak_from e rest -> e <= start ->
  loop_spec (ds_add_loop start data (start + nlen data) rest) e start data rest.
Proof.
  induction rest as [|[ss sd] r IH]; intros start data e W He;
    (destruct data as [|b dt']; [exact (loop_spec_nil _ _ _ W)|]).
  - cbn [ds_add_loop]. split; [|reflexivity]. cbn [dweak_from fst snd]. rewrite nlen_cons. repeat split; lia.
  - cbn [dweak_from fst snd] in W. destruct W as (W1 & W2 & W3).
    pose proof (body_spec ss sd r IH W2 W3) as B.
    rewrite ds_add_loop_cons. cbv iota.
    assert (Hdt : 0 < nlen (b :: dt')) by (rewrite nlen_cons; lia).
    remember (b :: dt') as dt eqn:Edt. clear Edt b dt'.
    destruct (start <? ss) eqn:C.
    + (* case A: the data before the chunk becomes a chunk of its own *)
      destruct (B ss (ndrop (ss - start) dt) (start + nlen dt) (N.le_refl _)) as [WB MB].
      { rewrite nlen_ndrop. lia. }
      split.
      * cbn [dweak_from fst snd]. rewrite nlen_ntake. repeat split; [lia|lia|].
        apply (dweak_from_weaken ss); [lia|exact WB].
      * intro z. rewrite (dget_cong _ _ _ MB), (dget_cut (ss - start) start dt).
        replace (start + (ss - start)) with ss by lia. reflexivity.
    + destruct (B start dt (start + nlen dt) ltac:(lia) (fun _ => eq_refl)) as [WB MB].
      split; [apply (dweak_from_weaken ss); [lia|exact WB]|exact MB].
Qed.

Lemma merge_from_spec l : forall cur e,
  dweak_from (fst cur + nlen (snd cur)) l -> 0 < nlen (snd cur) -> e <= fst cur ->
  dwf_from e (ds_merge_from cur l) /\
  forall z, dget z (ds_merge_from cur l) = dget z (cur :: l).
Proof.
  induction l as [|[ss sd] r IH]; intros [cs cd] e W Hc He; cbn [fst snd] in *.
  - cbn [ds_merge_from]. split; [|reflexivity]. cbn [dwf_from]. auto.
  - cbn [dweak_from fst snd] in W. destruct W as (W1 & W2 & W3).
    cbn [ds_merge_from fst snd]. unfold adjacent.
    destruct ((cs <? ss) && (cs + nlen cd =? ss)) eqn:A1.
    + (* adjacent: glue *)
      destruct (IH (cs, cd ++ sd) e) as [Wf M]; cbn [fst snd]; rewrite ?nlen_app; try lia.
      { apply (dweak_from_weaken (ss + nlen sd)); [lia|exact W3]. }
      split; [exact Wf|]. intro z. rewrite M. apply dget_app. lia.
    + assert (A2 : ((ss <? cs) && (ss + nlen sd =? cs)) = false) by lia. rewrite A2.
      destruct (IH (ss, sd) (cs + nlen cd + 1)) as [Wf M]; cbn [fst snd]; try lia; try assumption.
      split.
      * cbn [dwf_from]. repeat split; assumption.
      * apply dget_cong. exact M.
Qed.

Lemma merge_spec l e : dweak_from e l ->
  dwf_from e (ds_merge l) /\ forall z, dget z (ds_merge l) = dget z l.
Proof.
  destruct l as [|cur r]; intro W; [split; [exact I|reflexivity]|].
  cbn [dweak_from] in W. destruct W as (W1 & W2 & W3). cbn [ds_merge].
  apply merge_from_spec; assumption.
Qed.

Lemma assert_invariants_wf l : dwf l -> ds_assert_invariants l = true.
Proof.
  destruct l as [|[s0 d0] r]; intro H; [reflexivity|].
  cbn [ds_assert_invariants]. unfold dwf in H. cbn [dwf_from fst snd] in H. destruct H as (_ & _ & H).
  apply forallb_forall. intros sp Hin. destruct (dwf_from_In _ _ _ H Hin). lia.
Qed.

Theorem ds_add_correct s data l : dwf l ->
  exists l', ds_add s data l = Some l' /\ dwf l' /\
             forall z, dget z l' = if in_iv s (nlen data) z then nget data (z - s) else dget z l.
Proof.
  intro H. unfold ds_add, ds_add_raw.
  destruct (add_loop_spec l s data 0 (dwf_dweak _ _ H) (N.le_0_l _)) as [W M].
  destruct (merge_spec _ 0 W) as [Wm Mm].
  exists (ds_merge (ds_add_loop s data (s + nlen data) l)).
  rewrite (assert_invariants_wf _ Wm). repeat split; [exact Wm|].
  intro z. rewrite Mm, M. reflexivity.
Qed.
