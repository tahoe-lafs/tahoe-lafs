(* The invariant tying every slot of Model/ImmStore.v to the history that produced it, its
   preservation by every operation, and the C22 facts for any store and history it relates. *)
From Coq Require Import List NArith ZArith Bool Lia.
From Coq Require Import ZifyBool ZifyNat ZifyN.
From Verif Require Import Lib.ListFacts Model.ImmStore Proofs.ImmStoreLib.
Import ListNotations.
Local Open Scope N_scope.

Lemma run_from_inv (ro : bool) (P : store -> list event -> Prop) :
  (forall s tr o, P s tr -> P (fst (step ro s o)) (tr ++ [(o, snd (step ro s o))])) ->
  forall ops s tr0, P s tr0 -> P (fst (run_from ro s ops)) (tr0 ++ snd (run_from ro s ops)).
Proof.
  intros Hstep. induction ops as [|o ops IH]; intros s tr0 H0; cbn [run_from].
  - cbn [fst snd]. rewrite app_nil_r. assumption.
  - specialize (Hstep s tr0 o H0). destruct (step ro s o) as [s' r]. cbn [fst snd] in Hstep.
    specialize (IH s' (tr0 ++ [(o, r)]) Hstep).
    destruct (run_from ro s' ops) as [s'' tr]. cbn [fst snd] in *.
    rewrite <- app_assoc in IH. exact IH.
Qed.

Definition accepted (tr : list event) (k : key) (wid off : N) (d : list N) : Prop :=
  exists f, In (OWrite k wid off d, RWrote f) tr.

Definition closed_ok (tr : list event) (k : key) (wid : N) : Prop := In (OClose k wid, ROk) tr.

Definition allocated_for (tr : list event) (k : key) (z : N) : Prop :=
  exists shs c av al acc, In (OAlloc (fst k) shs z c av, RAlloc al acc) tr /\ In (snd k) acc.

Lemma accepted_snoc : forall tr e k wid off d,
  accepted (tr ++ [e]) k wid off d <-> accepted tr k wid off d \/ exists f, (OWrite k wid off d, RWrote f) = e.
Proof.
  intros. unfold accepted. split.
  - intros (f & [H|H]%in_snoc); eauto.
  - intros [(f & H)|(f & H)]; exists f; apply in_snoc; auto.
Qed.

Lemma closed_snoc : forall tr e k wid,
  closed_ok (tr ++ [e]) k wid <-> closed_ok tr k wid \/ (OClose k wid, ROk) = e.
Proof. intros. apply in_snoc. Qed.

Lemma allocated_for_snoc : forall tr e k z, allocated_for tr k z -> allocated_for (tr ++ [e]) k z.
Proof.
  intros tr e k z (shs & c & av & al & acc & H1 & H2). exists shs, c, av, al, acc. split; auto.
  apply in_snoc. left. assumption.
Qed.

(* the only events that tell something new about the writes to share k or its closing *)
Definition concerns (e : event) (k : key) : Prop :=
  match e with
  | (OWrite k' _ _ _, RWrote _) | (OClose k' _, ROk) => k' = k
  | _ => False
  end.

Lemma refused_write_silent : forall k wid off d r k0,
  In r [REmpty; RConflict; RTooLarge] -> ~ concerns (OWrite k wid off d, r) k0.
Proof. intros k wid off d r k0 [<-|[<-|[<-|[]]]] H; exact H. Qed.

Definition agree (acc : N -> list N -> Prop) (data : list N) : Prop :=
  forall off d, acc off d ->
    off + blen d <= blen data /\ forall p, off <= p < off + blen d -> nthb data p = nthb d (p - off).

Definition zero_elsewhere (acc : N -> list N -> Prop) (data : list N) : Prop :=
  forall p, p < blen data -> (forall off d, acc off d -> ~ (off <= p < off + blen d)) -> nthb data p = 0.

Definition data_ok (acc : N -> list N -> Prop) (asz : N -> Prop) (data : list N) : Prop :=
  asz (blen data) /\ agree acc data /\ zero_elsewhere acc data.

(* [acc wid off d]: the write (off, d) through writer wid was accepted; [asz z]: an allocation of
   size z created a writer; [cl wid]: writer wid was closed; ids below [next] have been handed out.
   An open writer has closed nothing and its range map covers what its accepted writes cover;
   a final share was closed by the writer that wrote it, and by no other. *)
Definition slot_ok (acc : N -> N -> list N -> Prop) (asz cl : N -> Prop) (next : N) (v : slot) : Prop :=
  (forall wid off d, acc wid off d -> wid < next) /\
  match v with
  | Absent => forall wid, ~ cl wid
  | Incoming w =>
      (forall wid, ~ cl wid) /\ w_id w < next /\ blen (w_data w) = w_size w
      /\ data_ok (acc (w_id w)) asz (w_data w)
      /\ (forall p, covered (w_ranges w) p = true <-> exists off d, acc (w_id w) off d /\ off <= p < off + blen d)
  | Final wid data => (forall wid', cl wid' <-> wid' = wid) /\ data_ok (acc wid) asz data
  end.

Lemma data_ok_ext : forall (acc acc' : N -> list N -> Prop) (asz asz' : N -> Prop) data,
  (forall off d, acc off d <-> acc' off d) -> (forall z, asz z -> asz' z) ->
  data_ok acc asz data -> data_ok acc' asz' data.
Proof.
  intros acc acc' asz asz' data Hacc Hasz (A & G & Z). split; [auto|]. split.
  - intros off d H. apply G, Hacc, H.
  - intros p Hp Hno. apply Z; [exact Hp|]. intros off d H. apply Hno, Hacc, H.
Qed.

Lemma slot_ok_ext : forall (acc acc' : N -> N -> list N -> Prop) (asz asz' cl cl' : N -> Prop) next next' v,
  (forall wid off d, acc wid off d <-> acc' wid off d) -> (forall z, asz z -> asz' z) ->
  (forall wid, cl wid <-> cl' wid) -> next <= next' ->
  slot_ok acc asz cl next v -> slot_ok acc' asz' cl' next' v.
Proof.
  intros acc acc' asz asz' cl cl' next next' v Hacc Hasz Hcl Hn [F H]. split.
  - intros wid off d Ha%Hacc%F. lia.
  - destruct v as [|w|wid data]; cbn [slot_ok] in *.
    + intros wid Hc%Hcl. exact (H wid Hc).
    + destruct H as (C & I & L & D & V).
      split; [intros wid Hc%Hcl; exact (C wid Hc)|]. split; [lia|]. split; [exact L|].
      split; [apply (data_ok_ext _ _ _ _ _ (Hacc _) Hasz D)|].
      intros p. rewrite V. split; intros (off & d & Ha & Hp); exists off, d; split; auto; apply Hacc, Ha.
    + destruct H as (C & D). split; [|apply (data_ok_ext _ _ _ _ _ (Hacc _) Hasz D)].
      intros wid'. rewrite <- Hcl. apply C.
Qed.

Lemma slot_ok_weaken : forall acc (asz asz' : N -> Prop) cl next next' v,
  (forall z, asz z -> asz' z) -> next <= next' -> slot_ok acc asz cl next v -> slot_ok acc asz' cl next' v.
Proof. intros acc asz asz' cl next next' v Ha Hn. apply slot_ok_ext; [reflexivity|exact Ha|reflexivity|exact Hn]. Qed.

Lemma slot_ok_drop : forall acc asz cl next w, slot_ok acc asz cl next (Incoming w) -> slot_ok acc asz cl next Absent.
Proof. intros acc asz cl next w (F & C & _). split; assumption. Qed.

Lemma slot_ok_new : forall acc (asz asz' : N -> Prop) cl next next' id size now c,
  slot_ok acc asz cl next Absent -> asz' size -> next <= id < next' ->
  slot_ok acc asz' cl next' (Incoming (new_writer id size now c)).
Proof.
  intros acc asz asz' cl next next' id size now c [F C] Ha Hid.
  assert (Hno : forall off d, ~ acc id off d) by (intros off d H%F; lia).
  split; [intros wid off d H%F; lia|]. cbn [slot_ok new_writer w_id w_size w_data w_ranges].
  split; [exact C|]. split; [lia|]. split; [apply blen_zeros|]. split; [split; [|split]|].
  - rewrite blen_zeros. exact Ha.
  - intros off d H. destruct (Hno _ _ H).
  - intros p _ _. apply nthb_zeros.
  - intros p. split; [discriminate|]. intros (off & d & H & _). destruct (Hno _ _ H).
Qed.

Definition key_ok (tr : list event) (next : N) (k : key) (v : slot) : Prop :=
  slot_ok (accepted tr k) (allocated_for tr k) (closed_ok tr k) next v.

Record inv (s : store) (tr : list event) : Prop := mkInv {
  inv_keys : NoDup (keys (st_slots s));
  inv_slot : forall k, key_ok tr (st_next s) k (get s k)
}.

(* An event that does not concern k keeps its slot.  The allocation predicate is a parameter:
   inside the loop of allocate it is the answer collected so far, not yet in the trace. *)
Lemma slot_ok_snoc : forall tr e next k v (asz : N -> Prop),
  ~ concerns e k -> (forall z, asz z -> allocated_for (tr ++ [e]) k z) ->
  slot_ok (accepted tr k) asz (closed_ok tr k) next v -> key_ok (tr ++ [e]) next k v.
Proof.
  intros tr e next k v asz Hs Ha. apply slot_ok_ext; [|exact Ha| |apply N.le_refl].
  - intros wid off d. rewrite accepted_snoc. split; [auto|].
    intros [H|(f & <-)]; [exact H|destruct Hs; reflexivity].
  - intros wid. rewrite closed_snoc. split; [auto|].
    intros [H| <-]; [exact H|destruct Hs; reflexivity].
Qed.

Lemma key_ok_snoc : forall tr e next k v, ~ concerns e k -> key_ok tr next k v -> key_ok (tr ++ [e]) next k v.
Proof. intros tr e next k v Hs. apply slot_ok_snoc; [exact Hs|apply allocated_for_snoc]. Qed.

Lemma inv_snoc : forall s tr e, inv s tr -> (forall k, ~ concerns e k) -> inv s (tr ++ [e]).
Proof.
  intros s tr e [Hk Hs] He. split; [exact Hk|].
  intros k. apply key_ok_snoc; [apply He|apply Hs].
Qed.

Lemma inv_set_slot : forall s tr e k v,
  inv s tr -> (forall k0, k0 <> k -> ~ concerns e k0) -> key_ok (tr ++ [e]) (st_next s) k v ->
  inv (with_slots s (set_slot k v (st_slots s))) (tr ++ [e]).
Proof.
  intros s tr e k v [Hk Hs] He Hv. split.
  - apply NoDup_keys_set_slot, Hk.
  - intros k0. rewrite get_with_slots, lookup_set_slot. cbn [with_slots st_next].
    destruct (key_eqb_spec k0 k) as [->|Hne]; [exact Hv|].
    apply key_ok_snoc; [apply He, Hne|apply Hs].
Qed.

Lemma inv_abort_where : forall s tr e p now,
  inv s tr -> (forall k, ~ concerns e k) ->
  inv (mkStore (abort_where p (st_slots s)) (st_next s) now) (tr ++ [e]).
Proof.
  intros s tr e p now [Hk Hs] He. split; cbn [st_slots st_next].
  - rewrite keys_abort_where. exact Hk.
  - intros k. rewrite get_abort_where. apply key_ok_snoc; [apply He|]. specialize (Hs k).
    destruct (get s k) as [|w|]; try exact Hs.
    destruct (p w); [exact (slot_ok_drop _ _ _ _ _ Hs)|exact Hs].
Qed.

Lemma inv_allocate : forall ro s tr si shs size c av,
  inv s tr ->
  inv (fst (allocate ro s si shs size c av)) (tr ++ [(OAlloc si shs size c av, snd (allocate ro s si shs size c av))]).
Proof.
  intros ro s tr si shs size c av [Hk Hs].
  (* in the loop, the shares accepted so far stand for the answer not yet given *)
  pose (asz := fun (acc : list N) (k : key) z => allocated_for tr k z \/ (z = size /\ si = fst k /\ In (snd k) acc)).
  pose (P := fun slots next (_ : option Z) acc =>
               NoDup (keys slots) /\
               forall k, slot_ok (accepted tr k) (asz acc k) (closed_ok tr k) next (lookup k slots)).
  destruct (allocate_inv ro s si size c P) with (shs := shs) (av := av) as (slots' & next' & rem' & acc' & -> & N & S).
  - intros sh slots next rem acc (N & S) Hl _ _. split; [apply NoDup_keys_set_slot, N|].
    intros k. rewrite lookup_set_slot. destruct (key_eqb_spec k (si, sh)) as [->|Hne].
    + apply slot_ok_new with (asz := asz acc (si, sh)) (next := next); [rewrite <- Hl; apply S| |lia].
      right. cbn [fst snd]. repeat split. apply in_snoc. auto.
    + refine (slot_ok_weaken _ _ _ _ _ _ _ _ _ (S k)); [|lia].
      intros z [H|(H1 & H2 & H3)]; [left; exact H|right; repeat split; auto; apply in_snoc; auto].
  - split; [exact Hk|]. intros k.
    refine (slot_ok_weaken _ _ _ _ _ _ _ _ (N.le_refl _) (Hs k)). intros z H. left. exact H.
  - cbn [fst snd]. split; [exact N|]. intros k. unfold get. cbn [st_slots st_next].
    apply slot_ok_snoc with (asz := asz acc' k); [intros []| |exact (S k)].
    intros z [H|(-> & -> & Hin)]; [apply allocated_for_snoc, H|].
    exists shs, c, av, (get_buckets s (fst k)), acc'. split; [apply in_snoc; auto|exact Hin].
Qed.

(* The conflict check of BucketWriter.write passes exactly when the new data agree, position by
   position, with every write accepted so far: a covered position was written by an accepted
   write, which lies inside the data region and whose byte is still there. *)
Lemma conflict_check_exact : forall tr next k w off d,
  key_ok tr next k (Incoming w) ->
  (chunks_agree (w_data w) off d (rm_query off (off + blen d) (w_ranges w)) = true <->
   forall off0 d0 p, accepted tr k (w_id w) off0 d0 -> off0 <= p < off0 + blen d0 -> off <= p < off + blen d ->
     nthb d0 (p - off0) = nthb d (p - off)).
Proof.
  intros tr next k w off d (_ & _ & _ & L & (_ & G & _) & V). split.
  - intros Hc off0 d0 p Ha Hp0 Hp. rewrite <- (proj2 (G _ _ Ha) p Hp0).
    apply agree_pointwise with (l := w_ranges w); [exact Hc|exact Hp|]. apply V. eauto.
  - intros Hagree. apply agree_complete. intros p Hp (off0 & d0 & Ha & Hr)%V.
    destruct (G _ _ Ha) as [Hb Hv]. split; [lia|]. rewrite (Hv p Hr). apply Hagree; auto.
Qed.

Lemma data_ok_write : forall (acc acc' : N -> list N -> Prop) (asz asz' : N -> Prop) data off d,
  (forall o0 d0, acc' o0 d0 <-> acc o0 d0 \/ (o0 = off /\ d0 = d)) -> (forall z, asz z -> asz' z) ->
  off + blen d <= blen data ->
  (forall o0 d0 p, acc o0 d0 -> o0 <= p < o0 + blen d0 -> off <= p < off + blen d -> nthb d0 (p - o0) = nthb d (p - off)) ->
  data_ok acc asz data -> data_ok acc' asz' (write_at off d data).
Proof.
  intros acc acc' asz asz' data off d Hacc Hasz Hfit Hov (A & G & Z).
  split; [rewrite blen_write_at by exact Hfit; apply Hasz, A|]. split.
  - intros o0 d0 [H|(-> & ->)]%Hacc; rewrite blen_write_at by exact Hfit.
    + destruct (G _ _ H) as [Hb Hv]. split; [exact Hb|]. intros p Hp.
      destruct (N.lt_ge_cases p off) as [C1|C1]; [rewrite nth_write_at_out by lia; auto|].
      destruct (N.lt_ge_cases p (off + blen d)) as [C2|C2]; [|rewrite nth_write_at_out by lia; auto].
      (* p was written before and is written again, with the same byte *)
      rewrite nth_write_at_in by lia. symmetry. apply (Hov o0 d0 p); [exact H|exact Hp|lia].
    + split; [exact Hfit|]. intros p Hp. apply nth_write_at_in; assumption.
  - intros p Hp Hno. rewrite blen_write_at in Hp by exact Hfit.
    assert (Hout : ~ (off <= p < off + blen d)) by (apply Hno, Hacc; auto).
    rewrite nth_write_at_out by lia. apply Z; [exact Hp|].
    intros o0 d0 H. apply Hno, Hacc. left. exact H.
Qed.

Lemma key_ok_write : forall tr next k w off d f dl,
  key_ok tr next k (Incoming w) -> blen d <> 0 -> off + blen d <= w_size w ->
  chunks_agree (w_data w) off d (rm_query off (off + blen d) (w_ranges w)) = true ->
  key_ok (tr ++ [(OWrite k (w_id w) off d, RWrote f)]) next k
    (Incoming (mkWriter (w_id w) (w_size w) (rm_set off (off + blen d) (w_ranges w))
                        (write_at off d (w_data w)) dl (w_canary w))).
Proof.
  intros tr next k w off d f dl Hk Hne Hfit Hc.
  pose proof (proj1 (conflict_check_exact _ _ _ _ off d Hk) Hc) as Hagree.
  destruct Hk as (F & C & I & L & D & V).
  assert (Hacc : forall wid o0 d0, accepted (tr ++ [(OWrite k (w_id w) off d, RWrote f)]) k wid o0 d0 <->
                   accepted tr k wid o0 d0 \/ (wid = w_id w /\ o0 = off /\ d0 = d)).
  { intros. rewrite accepted_snoc. split; (intros [H|H]; [left; exact H|right]).
    - destruct H as (f0 & [= -> -> ->]). auto.
    - destruct H as (-> & -> & ->). eauto. }
  assert (Hfit' : off + blen d <= blen (w_data w)) by lia.
  split; [|cbn [slot_ok w_id w_size w_data w_ranges]; split; [|split; [|split; [|split]]]].
  - intros wid o0 d0 [H|(-> & _)]%Hacc; [exact (F _ _ _ H)|exact I].
  - intros wid [H|[=]]%closed_snoc. exact (C wid H).
  - exact I.
  - rewrite blen_write_at by exact Hfit'. exact L.
  - apply (data_ok_write (accepted tr k (w_id w)) _ (allocated_for tr k) _ _ off d); auto using allocated_for_snoc.
    intros o0 d0. rewrite Hacc. intuition.
  - intros p. rewrite covered_rm_set, orb_true_iff, V by lia. unfold in_iv. split.
    + intros [H|(o0 & d0 & H & Hp)].
      * exists off, d. split; [apply Hacc; auto|lia].
      * exists o0, d0. split; [apply Hacc; left; exact H|exact Hp].
    + intros (o0 & d0 & [H|(_ & -> & ->)]%Hacc & Hp); [right; exists o0, d0; auto|left; lia].
Qed.

Lemma key_ok_close : forall tr next k w,
  key_ok tr next k (Incoming w) ->
  key_ok (tr ++ [(OClose k (w_id w), ROk)]) next k (Final (w_id w) (w_data w)).
Proof.
  intros tr next k w (F & C & I & L & D & V).
  assert (Hacc : forall wid off d, accepted tr k wid off d <-> accepted (tr ++ [(OClose k (w_id w), ROk)]) k wid off d).
  { intros. rewrite accepted_snoc. split; [auto|]. intros [H|(f & [=])]. exact H. }
  split; [intros wid off d H%Hacc; exact (F _ _ _ H)|]. cbn [slot_ok]. split.
  - intros wid. rewrite closed_snoc. split.
    + intros [H|[= ->]]; [destruct (C _ H)|reflexivity].
    + intros ->. auto.
  - apply (data_ok_ext _ _ _ _ _ (Hacc _) (allocated_for_snoc _ _ _) D).
Qed.

Lemma step_inv : forall ro s tr o, inv s tr -> inv (fst (step ro s o)) (tr ++ [(o, snd (step ro s o))]).
Proof.
  intros ro s tr o Hi. pose proof (inv_slot _ _ Hi) as Hs.
  (* reads, listings and questions leave the store alone and concern no share *)
  destruct o; cbn [step fst snd]; try (apply inv_snoc; [exact Hi|intros k0 []]).
  - apply inv_allocate, Hi.
  - destruct (write_specP s k wid off d) as [|w r Hg <- Hr|w f Hg <- Hne Hfit Hc]; cbn [fst snd].
    + apply inv_snoc; [exact Hi|]. intros k0 [].
    + specialize (Hs k). rewrite Hg in Hs.
      apply inv_set_slot; [exact Hi|intros k0 _; apply refused_write_silent, Hr|].
      apply key_ok_snoc; [apply refused_write_silent, Hr|exact Hs].
    + apply inv_set_slot; [exact Hi|intros k0 Hk0 E; apply Hk0; symmetry; exact E|].
      apply key_ok_write; auto. rewrite <- Hg. apply Hs.
  - destruct (close_cases s k wid) as [->|(w & Hg & <- & ->)]; cbn [fst snd].
    + apply inv_snoc; [exact Hi|]. intros k0 [].
    + apply inv_set_slot; [exact Hi|intros k0 Hk0 E; apply Hk0; symmetry; exact E|].
      apply key_ok_close. rewrite <- Hg. apply Hs.
  - destruct (abort_cases s k wid) as [->|(w & Hg & <- & ->)]; cbn [fst snd].
    + apply inv_snoc; [exact Hi|]. intros k0 [].
    + apply inv_set_slot; [exact Hi|intros k0 _ []|].
      apply key_ok_snoc; [intros []|].
      apply slot_ok_drop with w. rewrite <- Hg. apply Hs.
  - apply inv_abort_where; [exact Hi|]. intros k0 [].
  - apply inv_abort_where; [exact Hi|]. intros k0 [].
Qed.

Lemma inv_init : inv init [].
Proof.
  split; [constructor|]. intros k. split; [intros wid off d (f & [])|intros wid []].
Qed.

Theorem run_inv : forall ro ops, inv (fst (run ro ops)) (snd (run ro ops)).
Proof.
  intros ro ops. unfold run.
  exact (run_from_inv ro inv (step_inv ro) ops init [] inv_init).
Qed.

Lemma closed_iff_final : forall s tr k wid,
  inv s tr -> (closed_ok tr k wid <-> exists d, get s k = Final wid d).
Proof.
  intros s tr k wid Hi. destruct (inv_slot _ _ Hi k) as [_ H].
  destruct (get s k) as [|w|wid0 d0]; cbn [slot_ok] in H.
  - split; [intros C; destruct (H _ C)|intros (d & [=])].
  - destruct H as [C _]. split; [intros X; destruct (C _ X)|intros (d & [=])].
  - destruct H as [C _]. rewrite C. split; [intros ->; eauto|intros (d & [= -> _]); reflexivity].
Qed.

Theorem visible_iff_closed_inv : forall s tr si sh,
  inv s tr -> (In sh (get_buckets s si) <-> exists wid, In (OClose (si, sh) wid, ROk) tr).
Proof.
  intros s tr si sh Hi. rewrite get_buckets_in by apply Hi. split.
  - intros (wid & d & H). exists wid. apply (closed_iff_final _ _ _ _ Hi). eauto.
  - intros (wid & (d & H)%(closed_iff_final _ _ _ _ Hi)). eauto.
Qed.

Theorem read_none_iff_invisible : forall s si sh off len,
  NoDup (keys (st_slots s)) ->
  (read s (si, sh) off len = None <-> ~ In sh (get_buckets s si)).
Proof.
  intros s si sh off len Hk. rewrite get_buckets_in by exact Hk. unfold read.
  destruct (get s (si, sh)) as [|w|wid d]; split; intros H; try reflexivity; try discriminate.
  - intros (w0 & d0 & [=]).
  - intros (w0 & d0 & [=]).
  - destruct H. eauto.
Qed.

Theorem final_holds_accepted_writes : forall s tr k wid data,
  inv s tr -> get s k = Final wid data ->
  closed_ok tr k wid
  /\ allocated_for tr k (blen data)
  /\ (forall off len, read s k off len = Some (slice off len data))
  /\ agree (accepted tr k wid) data
  /\ zero_elsewhere (accepted tr k wid) data.
Proof.
  intros s tr k wid data Hi Hg. pose proof (inv_slot _ _ Hi k) as Hs. rewrite Hg in Hs.
  destruct Hs as (_ & C & A & G & Z).
  split; [apply C; reflexivity|]. split; [exact A|]. split; [|split; [exact G|exact Z]].
  intros off len. unfold read. rewrite Hg, read_share_data_slice. reflexivity.
Qed.

Theorem conflict_rejected : forall ro s tr k w off0 d0 off d p,
  inv s tr -> get s k = Incoming w ->
  accepted tr k (w_id w) off0 d0 ->
  off0 <= p < off0 + blen d0 -> off <= p < off + blen d ->
  nthb d0 (p - off0) <> nthb d (p - off) ->
  snd (step ro s (OWrite k (w_id w) off d)) = RConflict
  /\ (exists w', get (fst (step ro s (OWrite k (w_id w) off d))) k = Incoming w'
                 /\ w_data w' = w_data w /\ w_ranges w' = w_ranges w /\ w_size w' = w_size w /\ w_id w' = w_id w)
  /\ (forall k', k' <> k -> get (fst (step ro s (OWrite k (w_id w) off d))) k' = get s k')
  /\ allocated_size (fst (step ro s (OWrite k (w_id w) off d))) = allocated_size s.
Proof.
  intros ro s tr k w off0 d0 off d p Hi Hg Ha Hp0 Hp Hne.
  pose proof (inv_slot _ _ Hi k) as Hs. rewrite Hg in Hs.
  assert (Hc : chunks_agree (w_data w) off d (rm_query off (off + blen d) (w_ranges w)) = false).
  { apply not_true_is_false. intros Hc. apply Hne.
    exact (proj1 (conflict_check_exact _ _ _ _ off d Hs) Hc _ _ _ Ha Hp0 Hp). }
  cbn [step]. unfold write. rewrite Hg, N.eqb_refl. unfold write_writer.
  destruct (N.eqb_spec (blen d) 0) as [E0|E0]; [lia|]. rewrite Hc. cbn [negb fst snd].
  split; [reflexivity|]. split; [|split].
  - exists (touch (st_now s) w). rewrite get_with_slots, lookup_set_same. auto.
  - intros k' Hk. rewrite get_with_slots. apply lookup_set_other, Hk.
  - apply allocated_size_same. rewrite Hg. reflexivity.
Qed.

Theorem consistent_write_is_accepted : forall ro s tr k w off d,
  inv s tr -> get s k = Incoming w ->
  blen d <> 0 -> off + blen d <= w_size w ->
  (forall off0 d0 p, accepted tr k (w_id w) off0 d0 -> off0 <= p < off0 + blen d0 -> off <= p < off + blen d ->
     nthb d0 (p - off0) = nthb d (p - off)) ->
  exists f w',
    step ro s (OWrite k (w_id w) off d) = (with_slots s (set_slot k (Incoming w') (st_slots s)), RWrote f)
    /\ w_size w' = w_size w /\ w_id w' = w_id w
    /\ (forall p, off <= p < off + blen d -> nthb (w_data w') p = nthb d (p - off))
    /\ (forall p, p < off \/ off + blen d <= p -> nthb (w_data w') p = nthb (w_data w) p)
    /\ (forall p, covered (w_ranges w') p = true <-> (off <= p < off + blen d) \/ covered (w_ranges w) p = true).
Proof.
  intros ro s tr k w off d Hi Hg Hne Hfit Hagree.
  pose proof (inv_slot _ _ Hi k) as Hs. rewrite Hg in Hs.
  pose proof (proj2 (conflict_check_exact _ _ _ _ off d Hs) Hagree) as Hc.
  destruct Hs as (_ & _ & _ & L & _).
  cbn [step]. unfold write. rewrite Hg, N.eqb_refl. unfold write_writer.
  destruct (N.eqb_spec (blen d) 0) as [E0|E0]; [contradiction|]. rewrite Hc. cbn [negb].
  destruct (N.ltb_spec (w_size w) (off + blen d)) as [El|El]; [lia|].
  eexists. eexists. split; [reflexivity|]. cbn [w_size w_id w_data w_ranges].
  split; [reflexivity|]. split; [reflexivity|]. split; [|split].
  - intros p Hp. apply nth_write_at_in; lia.
  - intros p Hp. apply nth_write_at_out; lia.
  - intros p. rewrite covered_rm_set, orb_true_iff by lia. unfold in_iv. split; intros [H|H]; auto; left; lia.
Qed.

Lemma absent_not_listed : forall s si sh,
  NoDup (keys (st_slots s)) -> get s (si, sh) = Absent -> ~ In sh (get_buckets s si).
Proof. intros s si sh Hk Hg. rewrite get_buckets_in by exact Hk. intros (wid & d & E). congruence. Qed.

Theorem abort_leaves_nothing : forall ro s si sh w,
  NoDup (keys (st_slots s)) -> get s (si, sh) = Incoming w ->
  let s' := fst (step ro s (OAbort (si, sh) (w_id w))) in
  get s' (si, sh) = Absent
  /\ ~ In sh (get_buckets s' si)
  /\ read s' (si, sh) 0 (w_size w) = None
  /\ allocated_size s' + w_size w = allocated_size s
  /\ (forall k', k' <> (si, sh) -> get s' k' = get s k')
  /\ (forall size c, snd (step false s' (OAlloc si [sh] size c None)) = RAlloc (get_buckets s' si) [sh]).
Proof.
  intros ro s si sh w Hk Hg s'.
  assert (Es : s' = with_slots s (set_slot (si, sh) Absent (st_slots s))).
  { subst s'. cbn [step]. rewrite (abort_live _ _ _ Hg). reflexivity. }
  assert (G' : get s' (si, sh) = Absent) by (rewrite Es, get_with_slots; apply lookup_set_same).
  split; [exact G'|]. split; [|split; [|split; [|split]]].
  - apply absent_not_listed; [|exact G']. rewrite Es. apply NoDup_keys_set_slot, Hk.
  - unfold read. rewrite G'. reflexivity.
  - rewrite Es. apply allocated_size_release; [exact Hg|reflexivity].
  - intros k' Hk'. rewrite Es, get_with_slots. apply lookup_set_other, Hk'.
  - intros size c. cbn [step]. unfold allocate. cbn [alloc_loop option_map]. fold (get s' (si, sh)). rewrite G'.
    reflexivity.
Qed.

Lemma abort_where_hit : forall s si sh w p now,
  NoDup (keys (st_slots s)) -> get s (si, sh) = Incoming w -> p w = true ->
  let s' := mkStore (abort_where p (st_slots s)) (st_next s) now in
  get s' (si, sh) = Absent /\ ~ In sh (get_buckets s' si) /\ allocated_size s' + w_size w <= allocated_size s.
Proof.
  intros s si sh w p now Hk Hg Hp s'.
  assert (G' : get s' (si, sh) = Absent).
  { unfold s'. rewrite get_abort_where, Hg, Hp. reflexivity. }
  split; [exact G'|]. split.
  - apply absent_not_listed; [|exact G']. unfold s'. cbn [st_slots]. rewrite keys_abort_where. exact Hk.
  - exact (sum_abort_where_releases slot_alloc p (st_slots s) (si, sh) w eq_refl Hg Hp).
Qed.

Lemma abort_where_miss : forall s k w p next now,
  get s k = Incoming w -> p w = false -> get (mkStore (abort_where p (st_slots s)) next now) k = Incoming w.
Proof.
  intros s k w p next now Hg Hp. rewrite get_abort_where, Hg, Hp. reflexivity.
Qed.

Theorem timeout_disconnect_leave_nothing : forall ro s si sh w,
  NoDup (keys (st_slots s)) -> get s (si, sh) = Incoming w ->
  (forall dt, w_deadline w <= st_now s + dt ->
     let s' := fst (step ro s (OAdvance dt)) in
     get s' (si, sh) = Absent /\ ~ In sh (get_buckets s' si) /\ allocated_size s' + w_size w <= allocated_size s)
  /\ (forall dt, st_now s + dt < w_deadline w -> get (fst (step ro s (OAdvance dt))) (si, sh) = Incoming w)
  /\ (let s' := fst (step ro s (ODisconnect (w_canary w))) in
      get s' (si, sh) = Absent /\ ~ In sh (get_buckets s' si) /\ allocated_size s' + w_size w <= allocated_size s)
  /\ (forall c, c <> w_canary w -> get (fst (step ro s (ODisconnect c))) (si, sh) = Incoming w).
Proof.
  intros ro s si sh w Hk Hg. split; [|split; [|split]].
  - intros dt Hd. apply abort_where_hit; auto. apply N.leb_le, Hd.
  - intros dt Hd. apply abort_where_miss; auto. apply N.leb_gt, Hd.
  - apply abort_where_hit; auto. apply N.eqb_refl.
  - intros c Hc. apply abort_where_miss; auto. apply N.eqb_neq. auto.
Qed.
