(* An accepted set_hashes call stores every (non-empty) value it was given:
   after acceptance the slot named by each key of `hashes`/`leaves` holds the
   supplied value.  Together with accepted_genuine this gives: an accepted leaf
   equals the genuine leaf. *)
From Coq Require Import List ZArith Bool Lia.
From Verif Require Import Model.HashTree Proofs.HashTreeBase Proofs.HashTree.
Import ListNotations.
Local Open Scope Z_scope.

Section Stored.
  Variable H : Type.
  Variable H_eqb : H -> H -> bool.
  Variable pair_hash : H -> H -> H.
  Variable truthy : H -> bool.
  Hypothesis H_eqb_spec : forall a b, H_eqb a b = true <-> a = b.

  Notation tree := (list (option H)).
  Notation wst := (wst H).
  Notation is_truthy := (is_truthy H truthy).
  Notation stepB := (stepB H H_eqb truthy).
  Notation phaseB := (phaseB H H_eqb truthy).
  Notation stepC := (stepC H H_eqb pair_hash truthy).
  Notation run_level := (run_level H H_eqb pair_hash truthy).
  Notation run_levels := (run_levels H H_eqb pair_hash truthy).
  Notation set_hashes := (set_hashes H H_eqb pair_hash truthy).
  Notation mkW := (mkW H).

  (* Tb extends Ta: same length, non-empty stored values untouched *)
  Definition Keep (Ta Tb : tree) : Prop :=
    length Tb = length Ta /\ forall j, 0 <= j -> is_truthy (slot Ta j) = true -> slot Tb j = slot Ta j.

  Lemma Keep_refl : forall T, Keep T T.
  Proof. intros T. split; auto. Qed.

  Lemma Keep_trans : forall Ta Tb Tc, Keep Ta Tb -> Keep Tb Tc -> Keep Ta Tc.
  Proof.
    intros Ta Tb Tc [L1 K1] [L2 K2]. split; [congruence|]. intros j Hj Ht.
    rewrite K2; [apply K1; assumption|exact Hj|]. rewrite K1; assumption.
  Qed.

  Lemma Keep_upd : forall (T : tree) p v,
    0 <= p < zlen T -> is_truthy (slot T p) = false -> Keep T (upd T (Z.to_nat p) v).
  Proof.
    intros T p v Hp Hf. split; [apply upd_length|]. intros j Hj Ht. rewrite slot_upd by lia.
    destruct (p =? j) eqn:E; [|reflexivity]. apply Z.eqb_eq in E. subst j. congruence.
  Qed.

  Lemma put_keep : forall (T : tree) k cur v T',
    get T k = Some cur -> is_truthy cur = false -> put T k v = Some T' ->
    Keep T T' /\ slot T' (normz (zlen T) k) = v.
  Proof.
    intros T k cur v T' Hg Hf Hp. apply put_some_valid in Hp. destruct Hp as [Hv ->].
    rewrite get_valid in Hg by exact Hv. apply Some_inj in Hg. subst cur.
    pose proof (normz_range _ _ Hv) as Hr. split; [apply Keep_upd; assumption|apply slot_upd_same; exact Hr].
  Qed.

  Lemma stepB_stored : forall st i h st',
    stepB st i h = inl st' ->
    Keep (wT H st) (wT H st') /\
    (validz (zlen (wT H st)) i -> truthy h = true -> slot (wT H st') (normz (zlen (wT H st)) i) = Some h).
  Proof.
    intros st i h st' Hs. unfold HashTree.stepB in Hs.
    destruct (get (wT H st) i) as [cur|] eqn:Eg; [|discriminate].
    destruct (is_truthy cur) eqn:Et.
    - destruct cur as [c|]; [|cbn in Et; discriminate].
      destruct (H_eqb c h) eqn:Eq; [|discriminate]. inversion Hs. subst st'. split; [apply Keep_refl|].
      intros Hv _. rewrite get_valid in Eg by exact Hv. apply Some_inj in Eg. apply H_eqb_spec in Eq. subst c. exact Eg.
    - destruct (get (wlv H st) (depth_of i)) as [s|]; [|discriminate].
      destruct (put (wT H st) i (Some h)) as [T'|] eqn:Ep; [|discriminate].
      destruct (put (wlv H st) (depth_of i) (zadd i s)) as [lv'|]; [|discriminate].
      inversion Hs. subst st'. cbn [wT]. destruct (put_keep _ _ _ _ _ Eg Et Ep) as [K S]. split; [exact K|]. intros _ _. exact S.
  Qed.

  Lemma phaseB_stored : forall nh st st',
    phaseB nh st = inl st' ->
    Keep (wT H st) (wT H st') /\
    (forall k h, In (k, h) nh -> validz (zlen (wT H st)) k -> truthy h = true ->
                 slot (wT H st') (normz (zlen (wT H st)) k) = Some h).
  Proof.
    induction nh as [|[i h] r IH]; intros st st' Hp; cbn [HashTree.phaseB] in Hp.
    - inversion Hp. subst. split; [apply Keep_refl|intros k h' []].
    - destruct (stepB st i h) as [st1|e] eqn:Es; [|discriminate].
      destruct (stepB_stored _ _ _ _ Es) as [K1 S1]. destruct (IH _ _ Hp) as [K2 S2].
      assert (Hz : zlen (wT H st1) = zlen (wT H st)) by (unfold zlen; rewrite (proj1 K1); reflexivity).
      split; [apply (Keep_trans _ _ _ K1 K2)|].
      intros k h' [Heq|Hin] Hv Ht.
      + inversion Heq. subst k h'. pose proof (S1 Hv Ht) as Hs1. pose proof (normz_range _ _ Hv) as Hr.
        rewrite (proj2 K2); [exact Hs1|lia|]. rewrite Hs1. exact Ht.
      + rewrite <- Hz. apply (S2 k h' Hin); [rewrite Hz; exact Hv|exact Ht].
  Qed.

  Lemma stepC_keep : forall l i cur st cur' st',
    stepC l i cur st = inl (cur', st') -> Keep (wT H st) (wT H st').
  Proof.
    intros l i cur st cur' st' Hs.
    destruct (Z.eq_dec i 0) as [->|Hi0]; [rewrite stepC_root in Hs; inversion Hs; apply Keep_refl|].
    assert (Hd : (1 <= i /\ 2 * parz i + 2 < zlen (wT H st)) \/ ~ (1 <= i /\ 2 * parz i + 2 < zlen (wT H st))) by lia.
    destruct Hd as [[Hi Hc]|Hbad]; [|rewrite stepC_index in Hs by assumption; discriminate].
    pose proof (parz_range i Hi) as Hp.
    rewrite stepC_slots in Hs by assumption.
    destruct (slot (wT H st) (sibz i)); [|discriminate].
    destruct (slot (wT H st) (2 * parz i + 1)) as [a|]; [|discriminate].
    destruct (slot (wT H st) (2 * parz i + 2)) as [b|]; [|discriminate].
    unfold pair_step in Hs.
    destruct (is_truthy (slot (wT H st) (parz i))) eqn:Et.
    - destruct (slot (wT H st) (parz i)) as [ph|]; [|discriminate].
      destruct (H_eqb ph (pair_hash a b)); [|discriminate]. inversion Hs. apply Keep_refl.
    - destruct (negb (depth_of (parz i) =? l - 1)); [discriminate|].
      destruct (get (wlv H st) (depth_of (parz i))) as [s|]; [|discriminate].
      destruct (put (wlv H st) (depth_of (parz i)) (zadd (parz i) s)) as [lv'|]; [|discriminate].
      inversion Hs. cbn [wT]. apply Keep_upd; [lia|exact Et].
  Qed.

  Lemma run_level_keep : forall fuel l cur st ord st' ord' cur',
    run_level fuel l cur st ord = inl (st', ord', cur') -> Keep (wT H st) (wT H st').
  Proof.
    induction fuel as [|f IH]; intros l cur st ord st' ord' cur' Hr; cbn [HashTree.run_level] in Hr.
    - inversion Hr. apply Keep_refl.
    - destruct (zpop ord cur) as [[[i c1] o1]|]; [|inversion Hr; apply Keep_refl].
      destruct (stepC l i c1 st) as [[c2 st1]|e] eqn:Es; [|discriminate].
      apply (Keep_trans _ _ _ (stepC_keep _ _ _ _ _ _ Es) (IH _ _ _ _ _ _ _ Hr)).
  Qed.

  Lemma run_levels_keep : forall k st ord st',
    run_levels k st ord = inl st' -> Keep (wT H st) (wT H st').
  Proof.
    induction k as [|L IH]; intros st ord st' Hr; cbn [HashTree.run_levels] in Hr.
    - inversion Hr. apply Keep_refl.
    - destruct (run_level (length (nth L (wlv H st) [])) (Z.of_nat L) (nth L (wlv H st) [])
                  (mkW (wT H st) (upd (wlv H st) L []) (wruf H st)) ord) as [[[st1 o1] c1]|e] eqn:E; [|discriminate].
      apply run_level_keep in E. cbn [wT] in E. apply (Keep_trans _ _ _ E (IH _ _ _ Hr)).
  Qed.

  Theorem accepted_stores : forall fl T0 hashes leaves ord T1,
    set_hashes fl T0 hashes leaves ord = Accepted H T1 ->
    (forall k h, In (k, h) hashes -> validz (zlen T0) k -> truthy h = true -> slot T1 (normz (zlen T0) k) = Some h) /\
    (forall ln h, In (ln, h) leaves -> validz (zlen T0) (fl + ln) -> truthy h = true ->
                  slot T1 (normz (zlen T0) (fl + ln)) = Some h).
  Proof.
    intros fl T0 hashes leaves ord T1 Hacc. unfold HashTree.set_hashes in Hacc.
    destruct (merge_leaves H H_eqb fl hashes leaves) as [nh|] eqn:Em; [|discriminate].
    cbv zeta in Hacc.
    destruct (phaseB nh (mkW T0 (repeat [] (Z.to_nat (depth_of (zlen T0 - 1) + 1))) [])) as [st1|[e st]] eqn:Eb;
      [|destruct e; discriminate].
    destruct (run_levels (length (wlv H st1)) st1 ord) as [st2|[e st]] eqn:Ec; [|destruct e; discriminate].
    inversion Hacc. subst T1.
    destruct (phaseB_stored _ _ _ Eb) as [K1 S1]. cbn [wT] in K1, S1.
    pose proof (run_levels_keep _ _ _ _ Ec) as K2.
    pose proof (merge_spec _ _ H_eqb_spec _ _ _ _ Em) as M.
    assert (Hst : forall k h, In (k, h) nh -> validz (zlen T0) k -> truthy h = true -> slot (wT H st2) (normz (zlen T0) k) = Some h).
    { intros k h Hin Hv Ht. pose proof (S1 k h Hin Hv Ht) as Hs1. pose proof (normz_range _ _ Hv) as Hr.
      rewrite (proj2 K2); [exact Hs1|lia|]. rewrite Hs1. exact Ht. }
    split.
    - intros k h Hin. apply Hst. apply M. left. exact Hin.
    - intros ln h Hin. apply Hst. apply M. right. exists ln. split; [reflexivity|exact Hin].
  Qed.
End Stored.
