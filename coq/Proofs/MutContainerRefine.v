(* C23, second half: the statements about files that satisfy `layout_ok`, obtained
   from the structured-container lemmas of Proofs/MutContainer.v. *)
From Coq Require Import List NArith Arith Bool Lia.
From Verif Require Import Lib.Hex Gen.MutConsts Model.MutContainer Proofs.MutContainerBytes Proofs.MutContainer.
Import ListNotations.
Local Open Scope N_scope.

Lemma layout_flat maxsz f d : layout_ok maxsz f = true -> abs_data f = Ok d ->
  exists c, wf maxsz c /\ f = flat c /\ d = c_data c.
Proof.
  intros Hl Ha. apply layout_ok_iff in Hl as (c & Hw & ->).
  rewrite (abs_data_flat _ _ Hw) in Ha. injection Ha as <-. exists c. auto.
Qed.

Lemma layout_abs maxsz f : layout_ok maxsz f = true -> exists d, abs_data f = Ok d.
Proof. intro Hl. apply layout_ok_iff in Hl as (c & Hw & ->). eexists. apply (abs_data_flat maxsz). exact Hw. Qed.

Lemma writev_spec maxsz f dv nl d :
  468 + maxsz < 2 ^ 64 -> layout_ok maxsz f = true -> abs_data f = Ok d ->
  (layout_ok maxsz (out_file (writev maxsz f dv nl)) = true /\
   abs_data (out_file (writev maxsz f dv nl)) = Ok (fst (ref_writev maxsz d dv nl)) /\
   out_err (writev maxsz f dv nl) = snd (ref_writev maxsz d dv nl)) /\
  (raw_lease_records (out_file (writev maxsz f dv nl)) = raw_lease_records f /\
   read_write_enabler (out_file (writev maxsz f dv nl)) = read_write_enabler f).
Proof.
  intros Hm Hl Ha. destruct (layout_flat _ _ _ Hl Ha) as (c & Hw & -> & ->).
  destruct (writev_flat maxsz c dv nl Hw Hm) as (c' & -> & Hw' & Hs & Ee & <-).
  split; [split; [apply flat_layout_ok; exact Hw'|split; [apply (abs_data_flat maxsz); exact Hw'|exact Ee]]|].
  rewrite !(raw_lease_records_flat maxsz), !(rwe_flat maxsz), (recs_same _ _ Hs) by assumption.
  destruct Hs as (-> & _). auto.
Qed.

Lemma readv_refines_lemma maxsz f rv d : layout_ok maxsz f = true -> abs_data f = Ok d ->
  readv f rv = Ok (ref_readv d rv).
Proof.
  intros Hl Ha. destruct (layout_flat _ _ _ Hl Ha) as (c & Hw & -> & ->). apply (readv_flat maxsz). exact Hw.
Qed.

Lemma check_testv_refines_lemma maxsz f tv d : layout_ok maxsz f = true -> abs_data f = Ok d ->
  check_testv f tv = Ok (ref_check_testv d tv).
Proof.
  intros Hl Ha. destruct (layout_flat _ _ _ Hl Ha) as (c & Hw & -> & ->). apply (check_testv_flat maxsz). exact Hw.
Qed.

Lemma read_share_data_refines maxsz f off n d : layout_ok maxsz f = true -> abs_data f = Ok d ->
  read_share_data f off n = Ok (ref_read d off n).
Proof.
  intros Hl Ha. destruct (layout_flat _ _ _ Hl Ha) as (c & Hw & -> & ->). apply (read_share_data_flat maxsz). exact Hw.
Qed.

Lemma vectors_fit_ref maxsz dv d : vectors_fit maxsz dv = true ->
  ref_write_vectors maxsz d dv = (fold_left (fun a '(off, x) => ref_write a off x) dv d, None).
Proof.
  revert d; induction dv as [|[off x] r IH]; intros d Hf; [reflexivity|].
  cbn [vectors_fit] in Hf. apply andb_prop in Hf. destruct Hf as [H1 H2]. apply N.leb_le in H1.
  cbn [ref_write_vectors fold_left]. destruct (N.ltb_spec maxsz (off + len x)); [lia|]. apply IH. exact H2.
Qed.

Lemma ref_empty_testv tv : ref_check_testv [] tv = empty_check_testv tv.
Proof.
  induction tv as [|[[off n] sp] r IH]; [reflexivity|]. cbn [ref_check_testv empty_check_testv].
  assert (E : ref_read [] off n = []).
  { unfold ref_read, pread. rewrite skipn_nil. apply firstn_nil. }
  rewrite E, IH. reflexivity.
Qed.

(* a write that starts at or beyond the end appends the gap's zeros, then the data *)
Lemma gap_reads_zero (d : list N) (off : N) (data : list N) : len d <= off ->
  ref_read (ref_write d off data) (len d) (off - len d) = zeros (off - len d).
Proof.
  intro Hg. unfold ref_read, ref_write, zeros, len in *. rewrite pread_prn.
  rewrite firstn_all2, skipn_all2, app_nil_r, N2Nat.inj_sub, !Nat2N.id by lia.
  rewrite <- (repeat_length 0 (N.to_nat off - length d)) at 2. apply prn_exact; reflexivity.
Qed.

Section Share.
Variable maxsz : N.
Variable fresh : file.
Hypothesis Hmax : 468 + maxsz < 2 ^ 64.
Hypothesis fresh_ok : layout_ok maxsz fresh = true.
Hypothesis fresh_empty : abs_data fresh = Ok [].

Lemma abs_share_some f d : abs_data f = Ok d -> abs_share (Some f) = Some d.
Proof. intro Ha. unfold abs_share. rewrite Ha. reflexivity. Qed.

(* the file a write goes to (a new container if the share is missing) and its data *)
Lemma share_file s : share_ok maxsz s ->
  layout_ok maxsz (match s with Some f => f | None => fresh end) = true /\
  abs_data (match s with Some f => f | None => fresh end) = Ok (match abs_share s with Some d => d | None => [] end).
Proof.
  destruct s as [f|]; intro Hs; [|auto]. split; [exact Hs|].
  destruct (layout_abs _ _ Hs) as (d & Ha). rewrite (abs_share_some _ _ Ha). exact Ha.
Qed.

Lemma share_test_refines s tv : share_ok maxsz s ->
  share_test s tv = Ok (ref_check_testv (match abs_share s with Some d => d | None => [] end) tv).
Proof.
  intro Hs. destruct s as [f|]; cbn [share_test].
  - destruct (layout_abs _ _ Hs) as (d & Ha). rewrite (abs_share_some _ _ Ha).
    apply (check_testv_refines_lemma maxsz); assumption.
  - cbn [abs_share]. rewrite ref_empty_testv. reflexivity.
Qed.

Lemma share_write_fits s dv nl : share_ok maxsz s -> is_zero nl = false -> vectors_fit maxsz dv = true ->
  exists f', share_write maxsz fresh s dv nl = (Some f', None) /\ layout_ok maxsz f' = true /\
             abs_data f' = Ok (ref_truncate (fold_left (fun a '(off, x) => ref_write a off x) dv
                                               (match abs_share s with Some d => d | None => [] end)) nl).
Proof.
  intros Hs Ez Ef. unfold share_write. rewrite Ez. destruct (share_file s Hs) as [Hf Ha].
  destruct (writev_spec maxsz _ dv nl _ Hmax Hf Ha) as ((Hl' & Ha' & He') & _).
  unfold ref_writev in *. rewrite (vectors_fit_ref _ _ _ Ef) in *. cbn [fst snd] in *.
  destruct (writev maxsz _ dv nl) as [f'|f' e]; cbn [out_file out_err] in *; [eauto|discriminate].
Qed.

Lemma share_step_refines s o : share_ok maxsz s ->
  ref_step maxsz (abs_share s) o = (abs_share (fst (share_step maxsz fresh s o)), snd (share_step maxsz fresh s o))
  /\ share_ok maxsz (fst (share_step maxsz fresh s o)).
Proof.
  intro Hs. destruct o as [tv dv nl|rv].
  - cbn [share_step ref_step]. rewrite (share_test_refines s tv Hs).
    destruct (ref_check_testv _ tv); [|split; [reflexivity|exact Hs]].
    destruct (is_zero nl) eqn:Ez; cbn [negb andb].
    + unfold share_write. rewrite Ez. split; [reflexivity|exact I].
    + destruct (vectors_fit maxsz dv) eqn:Ef; cbn [negb]; [|split; [reflexivity|exact Hs]].
      destruct (share_write_fits s dv nl Hs Ez Ef) as (f' & -> & Hl' & Ha').
      cbn [fst snd]. rewrite (abs_share_some _ _ Ha'). split; [reflexivity|exact Hl'].
  - cbn [share_step ref_step share_read]. destruct s as [f|]; cbn [fst snd]; [|split; [reflexivity|exact I]].
    destruct (layout_abs _ _ Hs) as (d & Ha). rewrite (abs_share_some _ _ Ha).
    cbn [share_read]. rewrite (readv_refines_lemma maxsz f rv d Hs Ha). split; [reflexivity|exact Hs].
Qed.

Lemma run_share_refines ops : forall s, share_ok maxsz s ->
  run_ref maxsz (abs_share s) ops = (abs_share (fst (run_share maxsz fresh s ops)), snd (run_share maxsz fresh s ops))
  /\ share_ok maxsz (fst (run_share maxsz fresh s ops)).
Proof.
  induction ops as [|o r IH]; intros s Hs; [split; [reflexivity|exact Hs]|].
  cbn [run_share run_ref]. destruct (share_step_refines s o Hs) as [E1 H1].
  destruct (share_step maxsz fresh s o) as [s1 b] eqn:Es. cbn [fst snd] in *. rewrite E1.
  destruct (IH s1 H1) as [E2 H2]. destruct (run_share maxsz fresh s1 r) as [s2 bs] eqn:Er. cbn [fst snd] in *.
  rewrite E2. split; [reflexivity|exact H2].
Qed.

End Share.

Lemma mut_header_flat v nodeid we :
  mut_header v nodeid we =
  flat (mkFC (fit 32 (magic_of v) ++ fit 20 nodeid ++ fit 32 we) (be 8 0) (be 8 468) (zeros 368) [] (be 4 0) []).
Proof. unfold mut_header, flat, hdr, tail. cbn [c_id c_dlb c_elob c_slots c_region c_nxb c_extra]. consts. rewrite <- !app_assoc. reflexivity. Qed.

Lemma mut_header_wf maxsz v nodeid we :
  wf maxsz (mkFC (fit 32 (magic_of v) ++ fit 20 nodeid ++ fit 32 we) (be 8 0) (be 8 468) (zeros 368) [] (be 4 0) []).
Proof.
  constructor; cbn [c_id c_dlb c_elob c_slots c_region c_nxb c_extra]; unfold c_dl, c_nx;
    cbn [c_id c_dlb c_elob c_slots c_region c_nxb c_extra]; try reflexivity; try (cbn; lia).
  - rewrite !app_length, !fit_length. reflexivity.
  - (* the two magic strings are constants *)
    rewrite schema_of_header_app by (rewrite fit_length; lia). destruct v; vm_compute; discriminate.
Qed.

Lemma mut_header_ok maxsz v nodeid we : layout_ok maxsz (mut_header v nodeid we) = true.
Proof. rewrite mut_header_flat. apply flat_layout_ok. apply mut_header_wf. Qed.

Lemma mut_header_empty v nodeid we : abs_data (mut_header v nodeid we) = Ok [].
Proof. rewrite mut_header_flat. rewrite (abs_data_flat 0) by apply mut_header_wf. reflexivity. Qed.

Lemma write_share_data_done maxsz f off data d :
  468 + maxsz < 2 ^ 64 -> layout_ok maxsz f = true -> abs_data f = Ok d -> off + len data <= maxsz ->
  exists f', writev maxsz f [(off, data)] None = Done f' /\ layout_ok maxsz f' = true /\ abs_data f' = Ok (ref_write d off data).
Proof.
  intros Hm Hl Ha Hfit. destruct (writev_spec maxsz f [(off, data)] None d Hm Hl Ha) as ((A & B & C) & _).
  unfold ref_writev in *. cbn [ref_write_vectors] in *. destruct (N.ltb_spec maxsz (off + len data)); [lia|].
  cbn [fst snd ref_truncate] in *. destruct (writev maxsz f [(off, data)] None) as [f'|f' e]; cbn [out_file out_err] in *; [|discriminate].
  exists f'. auto.
Qed.

Lemma gap_zero_filled_proof maxsz f off data d :
  468 + maxsz < 2 ^ 64 -> layout_ok maxsz f = true -> abs_data f = Ok d ->
  len d <= off -> off + len data <= maxsz ->
  exists f', writev maxsz f [(off, data)] None = Done f' /\
             read_share_data f' (len d) (off - len d) = Ok (zeros (off - len d)).
Proof.
  intros Hm Hl Ha Hgap Hfit. destruct (write_share_data_done maxsz f off data d Hm Hl Ha Hfit) as (f' & E & Hl' & Ha').
  exists f'. split; [exact E|]. rewrite (read_share_data_refines maxsz f' _ _ _ Hl' Ha'). f_equal.
  apply gap_reads_zero. exact Hgap.
Qed.

Lemma stale_bytes_never_exposed_proof maxsz f n off data d :
  468 + maxsz < 2 ^ 64 -> layout_ok maxsz f = true -> abs_data f = Ok d ->
  n <= len d -> n <= off -> off + len data <= maxsz ->
  exists f1 f2, writev maxsz f [] (Some n) = Done f1 /\ writev maxsz f1 [(off, data)] None = Done f2 /\
                read_share_data f2 n (off - n) = Ok (zeros (off - n)).
Proof.
  intros Hm Hl Ha Hn Hoff Hfit.
  destruct (writev_spec maxsz f [] (Some n) d Hm Hl Ha) as ((A & B & C) & _).
  unfold ref_writev in *. cbn [ref_write_vectors fst snd ref_truncate] in *.
  destruct (writev maxsz f [] (Some n)) as [f1|f1 e]; cbn [out_file out_err] in *; [|discriminate].
  (* after the truncation the data has length n, so the second write starts at or beyond its end *)
  set (d1 := if n <? len d then firstn (N.to_nat n) d else d) in *.
  assert (Hd1 : len d1 = n).
  { subst d1. destruct (N.ltb_spec n (len d)); unfold len in *; [rewrite firstn_length|]; lia. }
  destruct (gap_zero_filled_proof maxsz f1 off data d1 Hm A B) as (f2 & E2 & R2); try lia.
  rewrite Hd1 in R2. eauto.
Qed.
