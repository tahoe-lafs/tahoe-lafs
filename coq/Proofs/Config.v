(* C48  Proofs about Model/Config.v: list scanning lemmas, the parsers accept
   exactly the documented grammars, calendar arithmetic, print-then-parse. *)
From Coq Require Import List NArith ZArith Bool String Lia ZifyBool ZifyNat ZifyN.
From Verif Require Import Lib.Hex Lib.Decimal Lib.DecimalFacts Gen.Config Model.Config.
Import ListNotations.
Local Open Scope N_scope.
Local Open Scope bool_scope.

Definition hd_not (p : N -> bool) (l : list N) : bool :=
  match l with [] => true | c :: _ => negb (p c) end.

Definition none_of (p : N -> bool) (l : list N) : bool := forallb (fun c => negb (p c)) l.

Lemma none_of_hd_not p l : none_of p l = true -> hd_not p l = true.
Proof. destruct l as [|c r]; cbn; [reflexivity|]. intro H. apply andb_prop in H. tauto. Qed.

Lemma hd_not_app p a b : hd_not p a = true -> hd_not p b = true -> hd_not p (a ++ b) = true.
Proof. destruct a; cbn; auto. Qed.

Lemma hd_not_app_ne p a b : a <> [] -> hd_not p a = true -> hd_not p (a ++ b) = true.
Proof. destruct a; cbn; [congruence|auto]. Qed.

Lemma drop_while_all p a b : forallb p a = true -> drop_while p (a ++ b) = drop_while p b.
Proof.
  induction a as [|c a IH]; cbn; [reflexivity|]. intro H. apply andb_prop in H. destruct H as [Hc Ha].
  rewrite Hc. auto.
Qed.

Lemma drop_while_hd_not p l : hd_not p l = true -> drop_while p l = l.
Proof. destruct l as [|c r]; cbn; [reflexivity|]. intro H. apply negb_true_iff in H. rewrite H. reflexivity. Qed.

Lemma drop_while_split p l : exists a, l = a ++ drop_while p l /\ forallb p a = true /\ hd_not p (drop_while p l) = true.
Proof.
  induction l as [|c r IH]; cbn.
  - exists []. auto.
  - destruct (p c) eqn:E.
    + destruct IH as [a [H1 [H2 H3]]]. exists (c :: a). cbn. rewrite E, H2. split; [congruence|auto].
    + exists []. cbn. rewrite E. auto.
Qed.

Lemma span_all p a b : forallb p a = true -> hd_not p b = true -> span p (a ++ b) = (a, b).
Proof.
  induction a as [|c a IH]; cbn.
  - intros _ H. destruct b as [|x b]; cbn in *; [reflexivity|]. apply negb_true_iff in H. rewrite H. reflexivity.
  - intros H Hb. apply andb_prop in H. destruct H as [Hc Ha]. rewrite Hc, (IH Ha Hb). reflexivity.
Qed.

Lemma span_split p l a b : span p l = (a, b) -> l = a ++ b /\ forallb p a = true /\ hd_not p b = true.
Proof.
  revert a b. induction l as [|c r IH]; cbn; intros a b H.
  - inversion H; subst. auto.
  - destruct (p c) eqn:E.
    + destruct (span p r) as [a' b'] eqn:S. inversion H; subst. destruct (IH _ _ eq_refl) as [H1 [H2 H3]].
      cbn. rewrite E, H2. split; [congruence|auto].
    + inversion H; subst. cbn. rewrite E. auto.
Qed.

Lemma forallb_rev (p : N -> bool) l : forallb p (rev l) = forallb p l.
Proof.
  induction l as [|c r IH]; cbn; [reflexivity|]. rewrite forallb_app, IH. cbn. rewrite andb_true_r. apply andb_comm.
Qed.

Lemma rstrip_all p u w : none_of p u = true -> forallb p w = true -> rstrip p (u ++ w) = u.
Proof.
  intros Hu Hw. unfold rstrip. rewrite rev_app_distr, drop_while_all by (rewrite forallb_rev; exact Hw).
  rewrite drop_while_hd_not; [apply rev_involutive|]. apply none_of_hd_not. unfold none_of. rewrite forallb_rev. exact Hu.
Qed.

Lemma rstrip_split p l : exists w, l = rstrip p l ++ w /\ forallb p w = true.
Proof.
  unfold rstrip. destruct (drop_while_split p (rev l)) as [a [H1 [H2 _]]].
  exists (rev a). split; [|rewrite forallb_rev; exact H2].
  rewrite <- rev_app_distr, <- H1, rev_involutive. reflexivity.
Qed.

Lemma ws_not_digit c : is_ws c = true -> is_digit c = false.
Proof. unfold is_ws, is_digit. lia. Qed.

Lemma forallb_ws_none_digit l : forallb is_ws l = true -> none_of is_digit l = true.
Proof.
  unfold none_of. induction l as [|c r IH]; cbn; [reflexivity|]. intro H. apply andb_prop in H. destruct H as [Hc Hr].
  rewrite (ws_not_digit _ Hc), IH by assumption. reflexivity.
Qed.

Definition is_letter (c : N) : bool := ((65 <=? c) && (c <=? 90)) || ((97 <=? c) && (c <=? 122)).

Lemma letter_not_ws_digit c : is_letter c = true -> is_ws c = false /\ is_digit c = false.
Proof. unfold is_letter, is_ws, is_digit. intro H. split; lia. Qed.

Lemma lower_letter c : is_letter (lower c) = true -> is_letter c = true.
Proof. unfold is_letter, lower. destruct ((65 <=? c) && (c <=? 90)) eqn:E; intro H; lia. Qed.

Lemma upper_letter c : is_letter (upper c) = true -> is_letter c = true.
Proof. unfold is_letter, upper. destruct ((97 <=? c) && (c <=? 122)) eqn:E; intro H; lia. Qed.

Lemma letters_via_map (f : N -> N) (Hf : forall c, is_letter (f c) = true -> is_letter c = true) u :
  forallb is_letter (map f u) = true -> forallb is_letter u = true.
Proof.
  induction u as [|c r IH]; cbn; [reflexivity|]. intro H. apply andb_prop in H. destruct H as [Hc Hr].
  rewrite (Hf _ Hc), IH by assumption. reflexivity.
Qed.

Lemma letters_none u : forallb is_letter u = true -> none_of is_ws u = true /\ none_of is_digit u = true.
Proof.
  unfold none_of. induction u as [|c r IH]; cbn; [auto|]. intro H. apply andb_prop in H. destruct H as [Hc Hr].
  destruct (letter_not_ws_digit _ Hc) as [A B]. destruct (IH Hr) as [C D]. rewrite A, B, C, D. auto.
Qed.

Lemma undec_acc_value l : forall acc, forallb is_digit l = true ->
  undec_acc l acc = Some (fold_left (fun a d => a * 10 + (d - 48)) l acc).
Proof.
  induction l as [|c r IH]; cbn; intros acc H; [reflexivity|].
  apply andb_prop in H. destruct H as [Hc Hr]. rewrite Hc. apply IH. exact Hr.
Qed.

Lemma undec_value l : l <> [] -> forallb is_digit l = true -> undec l = Some (digits_value l).
Proof. intros Hn H. rewrite undec_nonempty by assumption. apply undec_acc_value. exact H. Qed.

Lemma py_int_digits_value ds : digit_string ds -> py_int_digits ds = Some (digits_value ds).
Proof.
  intros [Hn [Hd Hl]]. unfold py_int_digits. apply N.leb_le in Hl. rewrite Hl. apply undec_value; assumption.
Qed.

Lemma py_int_digits_inv ds n : ds <> [] -> forallb is_digit ds = true -> py_int_digits ds = Some n ->
  digit_string ds /\ n = digits_value ds.
Proof.
  intros Hn Hd. unfold py_int_digits. destruct (N.of_nat (List.length ds) <=? max_int_digits) eqn:E; [|discriminate].
  rewrite undec_value by assumption. intro H. inversion H. apply N.leb_le in E. unfold digit_string. auto.
Qed.

Lemma dec_aux_length : forall f n acc, (List.length (dec_aux f n acc) <= f + List.length acc)%nat.
Proof.
  induction f as [|f IH]; intros n acc; cbn [dec_aux]; [lia|].
  destruct (n <? 10); [cbn [List.length]; lia|]. specialize (IH (n / 10) ((48 + n mod 10) :: acc)). cbn [List.length] in IH. lia.
Qed.

Lemma dec_length n : (List.length (dec n) <= S (N.to_nat (N.size n)))%nat.
Proof. unfold dec. pose proof (dec_aux_length (S (N.to_nat (N.size n))) n []) as H. cbn [List.length] in H. lia. Qed.

Lemma dec_digit_string n : N.size n <= 4000 -> digit_string (dec n).
Proof.
  intro H. split; [apply dec_nonempty|]. split; [apply dec_all_digits|].
  pose proof (dec_length n). unfold max_int_digits. lia.
Qed.

Lemma digits_value_dec n : digits_value (dec n) = n.
Proof.
  pose proof (undec_dec n) as H. rewrite undec_value in H by (apply dec_nonempty || apply dec_all_digits).
  congruence.
Qed.

Lemma lookup_map_some {A B} (g : A -> B) k (t : list (list N * A)) :
  lookup k (map (fun kv => (fst kv, g (snd kv))) t) = option_map g (lookup k t).
Proof.
  induction t as [|[k' v] r IH]; cbn; [reflexivity|]. destruct (list_N_eqb k k'); [reflexivity|exact IH].
Qed.

Lemma lookup_in {A} k (t : list (list N * A)) v : lookup k t = Some v -> In k (map fst t).
Proof.
  induction t as [|[k' v'] r IH]; cbn; [discriminate|]. destruct (list_N_eqb k k') eqn:E.
  - intros _. left. symmetry. apply list_N_eqb_eq. exact E.
  - intro H. right. auto.
Qed.

(* the tables regenerated from the source are the documented ones *)

Lemma duration_table_ok :
  duration_units = map (fun kv => (fst kv, Some (snd kv))) spec_duration_units.
Proof. reflexivity. Qed.

Lemma duration_lookup k : lookup k duration_units = option_map Some (lookup k spec_duration_units).
Proof. rewrite duration_table_ok. apply lookup_map_some. Qed.

Lemma spec_units_letters k m : lookup k spec_duration_units = Some m -> forallb is_letter k = true /\ k <> [].
Proof.
  intro H. apply lookup_in in H. cbn in H.
  repeat (destruct H as [H|H]; [subst k; split; [reflexivity|discriminate]|]). contradiction.
Qed.

Lemma duration_spellings_ok :
  forall ws1 ds ws2 u ws3 m,
    forallb is_ws ws1 = true -> forallb is_ws ws2 = true -> forallb is_ws ws3 = true ->
    digit_string ds ->
    lookup (map lower u) spec_duration_units = Some m ->
    parse_duration (ws1 ++ ds ++ ws2 ++ u ++ ws3) = POk (digits_value ds * m).
Proof.
  intros ws1 ds ws2 u ws3 m H1 H2 H3 Hd Hu.
  destruct (spec_units_letters _ _ Hu) as [Hl Hne].
  apply (letters_via_map lower lower_letter) in Hl. destruct (letters_none _ Hl) as [Unw Und].
  assert (Une : u <> []) by (destruct u; [cbn in Hne; congruence|discriminate]).
  pose proof Hd as [Dn [Dd Dl]].
  unfold parse_duration. rewrite drop_while_all by assumption.
  rewrite drop_while_hd_not.
  2:{ destruct ds as [|d ds']; [congruence|]. cbn in *. apply andb_prop in Dd. destruct Dd as [Dd _].
      destruct (is_ws d) eqn:E; [|reflexivity]. apply ws_not_digit in E. congruence. }
  rewrite (span_all is_digit ds (ws2 ++ u ++ ws3)); [|assumption|].
  2:{ apply hd_not_app; [apply none_of_hd_not, forallb_ws_none_digit; assumption|].
      apply hd_not_app; [apply none_of_hd_not; assumption|]. apply none_of_hd_not, forallb_ws_none_digit; assumption. }
  destruct ds as [|d ds']; [congruence|].
  rewrite drop_while_all by assumption. rewrite (drop_while_hd_not is_ws (u ++ ws3)).
  2:{ apply hd_not_app_ne; [assumption|]. apply none_of_hd_not; assumption. }
  rewrite rstrip_all by assumption. rewrite duration_lookup, Hu. cbn [option_map].
  rewrite py_int_digits_value by assumption. reflexivity.
Qed.

Lemma duration_accepts s v : duration_grammar s v -> parse_duration s = POk v.
Proof.
  intros (ws1 & ds & ws2 & u & ws3 & m & -> & H1 & H2 & H3 & Hd & Hu & ->).
  apply duration_spellings_ok; assumption.
Qed.

Lemma duration_rejects s v : parse_duration s = POk v -> duration_grammar s v.
Proof.
  unfold parse_duration. intro H.
  destruct (drop_while_split is_ws s) as [ws1 [Hs [Hw1 _]]].
  destruct (span is_digit (drop_while is_ws s)) as [ds r] eqn:Sp.
  destruct (span_split _ _ _ _ Sp) as [Hr [Hd _]].
  destruct ds as [|d ds']; [discriminate|].
  destruct (drop_while_split is_ws r) as [ws2 [Hr2 [Hw2 _]]].
  destruct (rstrip_split is_ws (drop_while is_ws r)) as [ws3 [Hr3 Hw3]].
  set (u := rstrip is_ws (drop_while is_ws r)) in *.
  rewrite duration_lookup in H.
  destruct (lookup (map lower u) spec_duration_units) as [m|] eqn:L; cbn [option_map] in H; [|discriminate].
  destruct (py_int_digits (d :: ds')) as [n|] eqn:I; [|discriminate].
  apply py_int_digits_inv in I; [|discriminate|assumption]. destruct I as [[I1 [I2 I3]] In]. inversion H; subst v n.
  exists ws1, (d :: ds'), ws2, u, ws3, m. repeat split; try assumption.
  rewrite Hs at 1. rewrite Hr. rewrite Hr2 at 1. rewrite Hr3 at 1. reflexivity.
Qed.

Lemma duration_no_keyerror s : parse_duration s <> PKeyError.
Proof.
  unfold parse_duration. destruct (span is_digit (drop_while is_ws s)) as [ds r].
  destruct ds; [discriminate|]. rewrite duration_lookup.
  destruct (lookup _ spec_duration_units); cbn [option_map]; [|discriminate].
  destruct (py_int_digits _); discriminate.
Qed.

Lemma is_scale_cases c : is_scale c = true -> c = 75 \/ c = 77 \/ c = 71 \/ c = 84 \/ c = 80 \/ c = 69.
Proof.
  unfold is_scale. cbn [existsb]. intro H.
  repeat (apply orb_prop in H; destruct H as [H|H]; [apply N.eqb_eq in H; tauto|]). discriminate.
Qed.

Lemma suffix_table_ok x : suffix_wf x = true ->
  size_suffix_ok (suffix_text x) = true /\
  lookup (drop_trailing_B (suffix_text x)) size_multipliers = Some (spec_multiplier x) /\
  forallb is_letter (suffix_text x) = true.
Proof.
  destruct x as [[c|] bin b]; cbn [suffix_wf]; intro H.
  - apply is_scale_cases in H. destruct H as [H|[H|[H|[H|[H|H]]]]]; subst c; destruct bin, b; vm_compute; auto.
  - destruct bin, b; vm_compute; auto.
Qed.

Lemma strip_scale_split l : exists sc : option N,
  l = (match sc with Some c => [c] | None => [] end) ++ strip_scale l /\
  match sc with Some c => is_scale c = true | None => True end.
Proof.
  destruct l as [|c r]; [exists None; auto|]. cbn [strip_scale]. destruct (is_scale c) eqn:E.
  - exists (Some c). auto.
  - exists None. auto.
Qed.

Lemma strip_opt_split c l : exists b : bool, l = (if b then [c] else []) ++ strip_opt c l.
Proof.
  destruct l as [|x r]; [exists false; reflexivity|]. cbn [strip_opt].
  destruct (N.eqb_spec x c) as [->|_]; [exists true|exists false]; reflexivity.
Qed.

Lemma suffix_ok_inv u : size_suffix_ok u = true -> exists x, suffix_wf x = true /\ u = suffix_text x.
Proof.
  unfold size_suffix_ok. intro H.
  destruct (strip_scale_split u) as [sc [Hu Hsc]].
  destruct (strip_opt_split 73 (strip_scale u)) as [bin H1].
  destruct (strip_opt_split 66 (strip_opt 73 (strip_scale u))) as [b H2].
  destruct (strip_opt 66 _); [|discriminate].
  exists (Suffix sc bin b). split; [destruct sc; [exact Hsc|reflexivity]|].
  cbn [suffix_text]. rewrite Hu at 1. rewrite H1 at 1. rewrite H2, app_nil_r. reflexivity.
Qed.

Lemma size_spellings_ok :
  forall ds ws sfx x,
    digit_string ds -> forallb is_ws ws = true ->
    suffix_wf x = true -> map upper sfx = suffix_text x ->
    parse_abbreviated_size (ds ++ ws ++ sfx) = SzOk (digits_value ds * spec_multiplier x).
Proof.
  intros ds ws sfx x Hds Hw Hx Hu. pose proof Hds as [Dn [Dd Dl]].
  destruct (suffix_table_ok _ Hx) as [Hok [Hlk Hlet]].
  rewrite <- Hu in Hlet. apply (letters_via_map upper upper_letter) in Hlet.
  destruct (letters_none _ Hlet) as [Snw Snd].
  unfold parse_abbreviated_size.
  destruct ds as [|d ds']; [congruence|]. cbn [app].
  change (d :: ds' ++ ws ++ sfx) with ((d :: ds') ++ ws ++ sfx).
  rewrite (span_all is_digit (d :: ds') (ws ++ sfx)); [|assumption|].
  2:{ apply hd_not_app; apply none_of_hd_not; [apply forallb_ws_none_digit|]; assumption. }
  rewrite drop_while_all by assumption. rewrite drop_while_hd_not by (apply none_of_hd_not; assumption).
  rewrite Hu, Hok, Hlk. rewrite py_int_digits_value by assumption. reflexivity.
Qed.

Lemma size_accepts s v : size_grammar s v -> parse_abbreviated_size s = SzOk v.
Proof.
  intros (ds & ws & sfx & x & -> & Hd & Hw & Hx & Hu & ->). apply size_spellings_ok; assumption.
Qed.

Lemma size_rejects s v : parse_abbreviated_size s = SzOk v -> size_grammar s v.
Proof.
  unfold parse_abbreviated_size. intro H. destruct s as [|c0 s0]; [discriminate|].
  destruct (span is_digit (c0 :: s0)) as [ds r] eqn:Sp.
  destruct (span_split _ _ _ _ Sp) as [Hr [Hd _]].
  destruct ds as [|d ds']; [discriminate|].
  destruct (drop_while_split is_ws r) as [ws [Hr2 [Hw _]]].
  set (sfx := drop_while is_ws r) in *.
  destruct (size_suffix_ok (map upper sfx)) eqn:Ok; [|discriminate].
  destruct (suffix_ok_inv _ Ok) as [x [Hx Hu]].
  destruct (suffix_table_ok _ Hx) as [_ [Hlk _]]. rewrite Hu, Hlk in H.
  destruct (py_int_digits (d :: ds')) as [n|] eqn:I; [|discriminate].
  apply py_int_digits_inv in I; [|discriminate|assumption]. destruct I as [[I1 [I2 I3]] In]. inversion H; subst v n.
  exists (d :: ds'), ws, sfx, x. repeat split; try assumption.
  rewrite Hr. rewrite Hr2 at 1. reflexivity.
Qed.

Lemma size_no_keyerror s : parse_abbreviated_size s <> SzKeyError.
Proof.
  unfold parse_abbreviated_size. destruct s as [|c0 s0]; [discriminate|].
  destruct (span is_digit (c0 :: s0)) as [ds r]. destruct ds; [discriminate|].
  destruct (size_suffix_ok _) eqn:Ok; [|discriminate].
  destruct (suffix_ok_inv _ Ok) as [x [Hx Hu]]. destruct (suffix_table_ok _ Hx) as [_ [Hlk _]].
  rewrite Hu, Hlk. destruct (py_int_digits _); discriminate.
Qed.

Lemma size_none_iff s : parse_abbreviated_size s = SzNone <-> s = [].
Proof.
  split; [|intros ->; reflexivity]. unfold parse_abbreviated_size. destruct s as [|c0 s0]; [reflexivity|].
  destruct (span is_digit (c0 :: s0)) as [ds r]. destruct ds; [discriminate|].
  destruct (size_suffix_ok _); [|discriminate]. destruct (lookup _ _); [|discriminate].
  destruct (py_int_digits _); discriminate.
Qed.

(* parse_date: calendar arithmetic *)
Local Open Scope Z_scope.

(* the quotient by n goes up by one exactly at the multiples of n *)
Lemma div_step k n : 0 < n -> k / n = (k - 1) / n + (if k mod n =? 0 then 1 else 0).
Proof.
  intro Hn. pose proof (Z.div_mod k n ltac:(lia)) as D. pose proof (Z.mod_pos_bound k n Hn) as B.
  destruct (Z.eqb_spec (k mod n) 0) as [E|E].
  - rewrite <- (Z.div_unique (k - 1) n (k / n - 1) (n - 1)); lia.
  - rewrite <- (Z.div_unique (k - 1) n (k / n) (k mod n - 1)); lia.
Qed.

Lemma mod_mul_0 k n m : 0 < n -> 0 < m -> k mod (n * m) = 0 -> k mod n = 0.
Proof.
  intros Hn Hm H. apply Z.mod_divide in H; [|apply Z.neq_mul_0; lia]. apply Z.mod_divide; [lia|].
  destruct H as [q ->]. exists (q * m). ring.
Qed.

Lemma year_step k : days_before_year (k + 1) = days_before_year k + year_len k.
Proof.
  unfold days_before_year, year_len, is_leap. rewrite Z.add_simpl_r.
  rewrite (div_step k 4), (div_step k 100), (div_step k 400) by reflexivity.
  pose proof (mod_mul_0 k 4 25 eq_refl eq_refl : k mod 100 = 0 -> _) as H4.
  pose proof (mod_mul_0 k 100 4 eq_refl eq_refl : k mod 400 = 0 -> _) as H100.
  (* what is left is linear in the quotients and remainders: lia is given them as variables *)
  generalize dependent (k mod 4); generalize dependent (k mod 100); generalize dependent (k mod 400).
  generalize ((k - 1) / 4) ((k - 1) / 100) ((k - 1) / 400). intros q4 q100 q400 r400 r100 H100 r4 H4.
  destruct (Z.eqb_spec r4 0), (Z.eqb_spec r100 0), (Z.eqb_spec r400 0); cbn [andb orb negb]; lia.
Qed.

Lemma days_before_year_sum (n : nat) : days_before_year (Z.of_nat n + 1) = days_in_years n.
Proof.
  induction n as [|n IH]; [reflexivity|].
  cbn [days_in_years]. rewrite <- IH. replace (Z.of_nat (S n) + 1) with ((Z.of_nat n + 1) + 1) by lia.
  rewrite year_step. f_equal. f_equal. lia.
Qed.

Lemma days_before_year_spec y : 1 <= y -> days_before_year y = days_in_years (Z.to_nat (y - 1)).
Proof. intro H. rewrite <- days_before_year_sum. f_equal. lia. Qed.

Lemma days_in_months_leap y y' k : is_leap y = is_leap y' -> days_in_months y k = days_in_months y' k.
Proof.
  intro E. induction k as [|k IH]; cbn [days_in_months]; [reflexivity|].
  unfold days_in_month. rewrite IH, E. reflexivity.
Qed.

Lemma days_before_month_spec y m : 1 <= m <= 12 -> days_before_month y m = days_in_months y (Z.to_nat (m - 1)).
Proof.
  intro H. assert (C : In m [1; 2; 3; 4; 5; 6; 7; 8; 9; 10; 11; 12]) by (cbn [In]; lia).
  unfold days_before_month.
  (* the year enters through is_leap only: the table is checked against year 4 and year 1 *)
  destruct (is_leap y) eqn:L;
    [rewrite (days_in_months_leap y 4 _ L)|rewrite (days_in_months_leap y 1 _ L)];
    repeat (destruct C as [<-|C]; [reflexivity|]); destruct C.
Qed.

(* the specification's day count is datetime's proleptic Gregorian ordinal *)
Lemma day_number_ordinal y m d : 1 <= y -> 1 <= m <= 12 -> day_number y m d = ymd2ord y m d.
Proof.
  intros Hy Hm. unfold day_number, ymd2ord.
  rewrite days_before_year_spec, days_before_month_spec by assumption. reflexivity.
Qed.

Lemma valid_date_bounds y m d : valid_date y m d = true ->
  1 <= y <= 9999 /\ 1 <= m <= 12 /\ 1 <= d <= days_in_month y m.
Proof. unfold valid_date. intro H. repeat (apply andb_prop in H; destruct H as [H ?]). lia. Qed.

Lemma timegm_is_spec y m d : valid_date y m d = true -> timegm_midnight y m d = spec_utc_midnight y m d.
Proof.
  intro V. apply valid_date_bounds in V. destruct V as [Hy [Hm Hd]].
  unfold spec_utc_midnight. rewrite !day_number_ordinal by lia.
  (* the epoch's ordinal from the closed formula, not by adding up 1969 year lengths *)
  change (ymd2ord 1970 1 1) with epoch_ord. unfold timegm_midnight, ymd2ord. ring.
Qed.

Lemma spec_midnight_multiple y m d : spec_utc_midnight y m d mod 86400 = 0.
Proof. unfold spec_utc_midnight. rewrite Z.mul_comm. apply Z.mod_mul. lia. Qed.

Lemma is_digit_digit_of v : 0 <= v <= 9 -> is_digit (digit_of v) = true /\ dval (digit_of v) = v.
Proof. intro H. unfold is_digit, digit_of, dval. split; lia. Qed.

Lemma digit_of_dval c : is_digit c = true -> digit_of (dval c) = c /\ 0 <= dval c <= 9.
Proof. unfold is_digit, digit_of, dval. intro H. split; lia. Qed.

Lemma parse_date_digits a b c e f g h i :
  0 <= a <= 9 -> 0 <= b <= 9 -> 0 <= c <= 9 -> 0 <= e <= 9 -> 0 <= f <= 9 -> 0 <= g <= 9 -> 0 <= h <= 9 -> 0 <= i <= 9 ->
  parse_date [digit_of a; digit_of b; digit_of c; digit_of e; 45%N; digit_of f; digit_of g; 45%N; digit_of h; digit_of i] =
  if valid_date (((a * 10 + b) * 10 + c) * 10 + e) (f * 10 + g) (h * 10 + i)
  then POk (timegm_midnight (((a * 10 + b) * 10 + c) * 10 + e) (f * 10 + g) (h * 10 + i)) else PValueError.
Proof.
  intros Ha Hb Hc He Hf Hg Hh Hi. unfold parse_date. cbn [forallb].
  destruct (is_digit_digit_of a Ha) as [-> ->]. destruct (is_digit_digit_of b Hb) as [-> ->].
  destruct (is_digit_digit_of c Hc) as [-> ->]. destruct (is_digit_digit_of e He) as [-> ->].
  destruct (is_digit_digit_of f Hf) as [-> ->]. destruct (is_digit_digit_of g Hg) as [-> ->].
  destruct (is_digit_digit_of h Hh) as [-> ->]. destruct (is_digit_digit_of i Hi) as [-> ->].
  reflexivity.
Qed.

Lemma fmt_date_digits a b c e f g h i :
  0 <= a <= 9 -> 0 <= b <= 9 -> 0 <= c <= 9 -> 0 <= e <= 9 -> 0 <= f <= 9 -> 0 <= g <= 9 -> 0 <= h <= 9 -> 0 <= i <= 9 ->
  fmt_date (((a * 10 + b) * 10 + c) * 10 + e) (f * 10 + g) (h * 10 + i) =
  [digit_of a; digit_of b; digit_of c; digit_of e; 45%N; digit_of f; digit_of g; 45%N; digit_of h; digit_of i].
Proof. intros Ha Hb Hc He Hf Hg Hh Hi. unfold fmt_date. repeat f_equal; lia. Qed.

Lemma parse_fmt_date y m d : valid_date y m d = true -> parse_date (fmt_date y m d) = POk (spec_utc_midnight y m d).
Proof.
  intro V. pose proof (valid_date_bounds _ _ _ V) as [Hy [Hm Hd]].
  assert (Hd' : d <= 31) by (unfold days_in_month in Hd; destruct (m =? 2); [destruct (is_leap y)|destruct ((m =? 4) || (m =? 6) || (m =? 9) || (m =? 11))%bool]; lia).
  unfold fmt_date. rewrite parse_date_digits by lia.
  replace ((((y / 1000 * 10 + y / 100 mod 10) * 10 + y / 10 mod 10) * 10 + y mod 10)) with y by lia.
  replace (m / 10 * 10 + m mod 10) with m by lia. replace (d / 10 * 10 + d mod 10) with d by lia.
  rewrite V. f_equal. apply timegm_is_spec. exact V.
Qed.

Lemma date_accepts s t : date_grammar s t -> parse_date s = POk t.
Proof. intros [y [m [d [V [-> ->]]]]]. apply parse_fmt_date. exact V. Qed.

Lemma date_rejects s t : parse_date s = POk t -> date_grammar s t.
Proof.
  unfold parse_date. intro H.
  destruct s as [|y1 [|y2 [|y3 [|y4 [|h1 [|m1 [|m2 [|h2 [|d1 [|d2 [|x r]]]]]]]]]]]; try discriminate.
  destruct (forallb is_digit [y1; y2; y3; y4; m1; m2; d1; d2] && (h1 =? 45)%N && (h2 =? 45)%N) eqn:E; [|discriminate].
  apply andb_prop in E. destruct E as [E E2]. apply andb_prop in E. destruct E as [E E1].
  apply N.eqb_eq in E1, E2. subst h1 h2. cbn [forallb] in E.
  repeat (apply andb_prop in E; destruct E as [? E]).
  destruct (valid_date _ _ _) eqn:V; [|discriminate]. inversion H; subst t.
  eexists _, _, _. split; [exact V|]. split; [|apply timegm_is_spec; exact V].
  repeat match goal with Hd : is_digit ?c = true |- _ => destruct (digit_of_dval c Hd) as [? ?]; clear Hd end.
  rewrite fmt_date_digits by assumption. congruence.
Qed.

Lemma date_no_keyerror s : parse_date s <> PKeyError.
Proof.
  unfold parse_date.
  destruct s as [|y1 [|y2 [|y3 [|y4 [|h1 [|m1 [|m2 [|h2 [|d1 [|d2 [|x r]]]]]]]]]]]; try discriminate.
  destruct (_ && _ && _)%bool; [|discriminate]. destruct (valid_date _ _ _); discriminate.
Qed.
Local Close Scope Z_scope.

(* abbreviate_space then parse_abbreviated_size *)

Lemma small_size_digit_string s : s < 1024 -> digit_string (dec s).
Proof.
  intro H. apply dec_digit_string.
  destruct (N.eq_dec s 0) as [->|Hz]; [cbn; lia|].
  rewrite N.size_log2 by assumption.
  assert (N.log2 s < 10) by (apply N.log2_lt_pow2; [lia|exact H]). lia.
Qed.

Lemma print_parse_small si s : s < abbrev_small_limit ->
  parse_abbreviated_size (abbreviate_space si s) = SzOk s.
Proof.
  intro H. unfold abbreviate_space. apply N.ltb_lt in H. rewrite H. apply N.ltb_lt in H.
  pose proof (size_spellings_ok (dec s) [32] [66] (Suffix None false true)
                (small_size_digit_string s H) eq_refl eq_refl eq_refl) as P.
  rewrite digits_value_dec, N.mul_1_r in P. exact P.
Qed.

Lemma fmt_2f_shape x : exists a rest, fmt_2f x = dec a ++ 46 :: rest.
Proof. destruct x as [m e]. unfold fmt_2f. eexists. eexists. reflexivity. Qed.

Lemma ladder_shape s U isuffix steps : exists a rest, abbrev_ladder s U isuffix steps = dec a ++ 46 :: rest.
Proof.
  induction steps as [|[[k j] prefix] rest IH]; cbn [abbrev_ladder].
  - unfold abbrev_r. destruct (fmt_2f_shape (double_div (to_double s 1) (U ^ fst abbrev_last))) as [a [r ->]].
    exists a. eexists. rewrite <- app_assoc. reflexivity.
  - destruct (s <? U ^ k); [|exact IH].
    unfold abbrev_r. destruct (fmt_2f_shape (double_div (to_double s 1) (U ^ j))) as [a [r ->]].
    exists a. eexists. rewrite <- app_assoc. reflexivity.
Qed.

Lemma parse_rejects_fraction a rest : parse_abbreviated_size (dec a ++ 46 :: rest) = SzValueError.
Proof.
  unfold parse_abbreviated_size.
  pose proof (dec_nonempty a) as Hn. pose proof (dec_all_digits a) as Hd.
  destruct (dec a) as [|d ds'] eqn:E; [congruence|]. cbn [app].
  change (d :: ds' ++ 46 :: rest) with ((d :: ds') ++ 46 :: rest).
  rewrite span_all by (assumption || reflexivity).
  reflexivity.
Qed.

Lemma print_parse_large si s : abbrev_small_limit <= s ->
  parse_abbreviated_size (abbreviate_space si s) = SzValueError.
Proof.
  intro H. unfold abbreviate_space. apply N.ltb_ge in H. rewrite H.
  destruct (ladder_shape s (if si then abbrev_U_si else abbrev_U_bin)
                         (if si then abbrev_isuffix_si else abbrev_isuffix_bin) abbrev_steps) as [a [rest ->]].
  apply parse_rejects_fraction.
Qed.

(* pins: the function bodies the model was written for *)
Lemma pins_ok :
  (pin_ParseDurationUnitFormat, pin_parse_duration, pin_parse_date, pin_iso_utc_time_to_seconds,
   pin_parse_abbreviated_size, pin_abbreviate_space)
  = ("e60451526ff2414a", "693d444aee709583", "ec2189f6a5d6742e", "d07f2764f994da2a",
     "e478f6b709c0fba5", "fb656703568ea414")%string.
Proof. reflexivity. Qed.

Lemma regexes_ok :
  (duration_regex_template, duration_regex_flags, date_regex, date_regex_flags, date_regex_method,
   size_regex, size_regex_flags)
  = ("^\s*(\d+)\s*({unit_pattern})\s*$", "ASCII|IGNORECASE", "(\d{4})-(\d{2})-(\d{2})", "ASCII", "fullmatch",
     "^(\d+)\s*([KMGTPE]?[I]?[B]?)\Z", "ASCII|IGNORECASE")%string.
Proof. reflexivity. Qed.

Lemma abbrev_format_ok :
  (abbrev_small_limit, abbrev_fmt_small, abbrev_fmt_r, abbrev_U_si, abbrev_U_bin, abbrev_isuffix_si, abbrev_isuffix_bin,
   map (fun st => snd st) abbrev_steps, snd abbrev_last)
  = (1024, "%d B"%string, "%.2f %s%s"%string, 1000, 1024, bytes_of_string "B", bytes_of_string "iB",
     map bytes_of_string ["k"; "M"; "G"; "T"; "P"]%string, bytes_of_string "E").
Proof. reflexivity. Qed.

(* a parser that accepts only the grammar and never misses a table lookup rejects
   everything else with ValueError *)
Lemma presult_value_error {A} (r : presult A) (G : A -> Prop) :
  (forall v, r = POk v -> G v) -> r <> PKeyError -> ~ (exists v, G v) -> r = PValueError.
Proof.
  intros Hok Hkey N. destruct r as [v| |]; [|reflexivity|congruence].
  exfalso. apply N. exists v. apply Hok. reflexivity.
Qed.

Lemma malformed_rejected_ok :
  (forall s v, parse_duration s = POk v <-> duration_grammar s v) /\
  (forall s, ~ (exists v, duration_grammar s v) -> parse_duration s = PValueError) /\
  (forall s v, parse_abbreviated_size s = SzOk v <-> size_grammar s v) /\
  (forall s, s <> [] -> ~ (exists v, size_grammar s v) -> parse_abbreviated_size s = SzValueError) /\
  (forall s, parse_abbreviated_size s = SzNone <-> s = []) /\
  (forall s t, parse_date s = POk t <-> date_grammar s t) /\
  (forall s, ~ (exists t, date_grammar s t) -> parse_date s = PValueError).
Proof.
  split; [intros s v; split; [apply duration_rejects|apply duration_accepts]|].
  split; [intro s; apply presult_value_error; [intro v; apply duration_rejects|apply duration_no_keyerror]|].
  split; [intros s v; split; [apply size_rejects|apply size_accepts]|].
  split.
  { intros s Hne N. destruct (parse_abbreviated_size s) as [|v| |] eqn:E; [| |reflexivity|].
    - apply size_none_iff in E. contradiction.
    - exfalso. apply N. exists v. apply size_rejects. exact E.
    - exfalso. exact (size_no_keyerror s E). }
  split; [exact size_none_iff|].
  split; [intros s t; split; [apply date_rejects|apply date_accepts]|].
  intro s. apply presult_value_error; [intro t; apply date_rejects|apply date_no_keyerror].
Qed.
