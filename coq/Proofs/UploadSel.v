(* C06: the encoder from its first write round to the answers to close, the shape of a run, and the lemmas
   that Props/C06.v closes its theorems with. *)
From Coq Require Import List NArith ZArith Bool.
From Verif Require Import Model.Matching Proofs.Matching
  Model.UploadSel Proofs.UploadSelBase Proofs.UploadSelSelector Proofs.UploadSelEncoder.
Import ListNotations.
Local Open Scope N_scope.

Definition encode (happy : Z) (writes : list (list (N * wresp))) (closes : list (N * cresp)) (e0 : enc) : step_result :=
  match write_rounds happy writes e0 with
  | Continue e1 => close_round happy closes e1
  | other => other
  end.

Section Encode.
  Variable happy : Z.
  Variable E : dmap.
  Variable B : list bucket.
  Variable writes : list (list (N * wresp)).
  Variable closes : list (N * cresp).

  Definition writes_ok (s : N) : Prop := forall wr, In wr writes -> lookup_w s wr <> Some WErr.

  (* what holds of the encoder when it stops or finishes, having started in e0 with an empty log: close is only ever
     sent for a landlord all of whose writes were acknowledged, and the landlords left at the end are those whose
     close was acknowledged too *)
  Record encoded (e0 e : enc) : Prop := {
    en_inv : enc_inv happy E B e;
    en_log : forall x, In x (e_log e) ->
      is_abort x \/ is_write x \/
      exists s p o, x = ((p, s), o) /\ In (s, p) (e_landlords e0) /\ writes_ok s /\ close_op closes s = Some o;
    en_left : e_raised e = false -> forall s p,
      In (s, p) (e_landlords e) <-> In (s, p) (e_landlords e0) /\ writes_ok s /\ lookup_c s closes = Some COk;
    en_closed : e_raised e = false -> forall s p, In (s, p) (e_landlords e) -> In ((p, s), OpClose true) (e_log e)
  }.

  Lemma encode_facts : forall e0,
    enc_inv happy E B e0 -> e_raised e0 = false -> e_log e0 = [] -> ends_in (encode happy writes closes e0) (encoded e0).
  Proof.
    intros e0 I R E0. unfold encode. pose proof (write_rounds_facts happy E B writes e0 I R) as WF. rewrite E0 in WF.
    destruct (write_rounds happy writes e0) as [e1|e1|]; cbn [ends_in] in *; [| |exact Logic.I]; destruct WF as [(I1 & [_ L1] & K1) R1].
    - specialize (K1 R1). eapply ends_in_impl; [|exact (close_round_facts happy E B closes e1 I1)]. cbv beta.
      intros e (I' & [_ L'] & K & C).
      constructor; [exact I'| |intros _ s p; rewrite K, K1; tauto|intros _; exact C].
      intros x Hx. destruct (L' x Hx) as [H|[H|H]]; [destruct (L1 x H) as [[]|H']; tauto|tauto|].
      right; right. apply In_log_sends in H. destruct H as (s & p & o & Hl & Ho & ->). exists s, p, o. apply K1 in Hl. tauto.
    - split; [|exact R1]. constructor; [exact I1| |congruence|congruence]. intros x Hx. destruct (L1 x Hx) as [[]|H]. tauto.
  Qed.
End Encode.
Arguments en_inv {happy E B writes closes e0 e}.
Arguments en_log {happy E B writes closes e0 e}.
Arguments en_left {happy E B writes closes e0 e}.
Arguments en_closed {happy E B writes closes e0 e}.

Definition enc0 (st : sel) : enc :=
  {| e_landlords := build_landlords st; e_servermap := merged st; e_log := []; e_raised := false |}.

Lemma In_build_landlords : forall st s p, In (s, p) (build_landlords st) <-> In (p, s) (sel_buckets st).
Proof.
  intros st s p. unfold build_landlords. rewrite in_map_iff. split.
  - intros [[q t] [[= <- <-] H]]. exact H.
  - intros H. exists (p, s). auto.
Qed.

Lemma enc0_inv : forall c st eff,
  happiness st = Some eff -> (c_happy c <= eff)%Z -> has_dup_share st = false ->
  enc_inv (c_happy c) (transpose (s_existing st)) (sel_buckets st) (enc0 st).
Proof.
  intros c st eff HP L D. split; [|intros _; exists eff; auto].
  constructor; cbn [enc0 e_landlords e_servermap e_log e_raised].
  - intros s p H. destruct (dm_in_merged _ _ _ H) as [H'|H']; [left; exact H'|right; apply In_build_landlords; exact H'].
  - apply merged_nodup.
  - intros s p H. apply In_build_landlords. exact H.
  - unfold build_landlords. rewrite map_map. cbn [fst]. apply nodupN_NoDup.
    unfold has_dup_share in D. apply negb_false_iff in D. exact D.
  - intros p s H. left. apply In_build_landlords. exact H.
  - intros s p _. split; [intros []|discriminate].
Qed.

Definition encoded_from (c : config) (x : script) (st : sel) (e : enc) : Prop :=
  encoded (c_happy c) (transpose (s_existing st)) (sel_buckets st) (x_writes x) (x_close x) (enc0 st) e.

Inductive run_shape (c : config) (x : script) : result -> Prop :=
| RS_pending : forall st qs, run_shape c x (mk_result VPending st qs [] [] [])
| RS_unhappy_sel : forall st qs eff,
    selector_ends c x st qs -> happiness st = Some eff -> (eff < c_happy c)%Z ->
    run_shape c x (mk_result VUnhappySel st qs (merged st) [] (sel_aborts st))
| RS_assert : forall st qs eff,
    selector_ends c x st qs -> happiness st = Some eff -> (c_happy c <= eff)%Z -> has_dup_share st = true ->
    run_shape c x (mk_result VAssert st qs (merged st) [] [])
| RS_unhappy_enc : forall st qs eff e,
    selector_ends c x st qs -> happiness st = Some eff -> (c_happy c <= eff)%Z ->
    encoded_from c x st e -> e_raised e = true ->
    run_shape c x (mk_result VUnhappyEnc st qs (e_servermap e) [] (e_log e))
| RS_success : forall st qs eff e,
    selector_ends c x st qs -> happiness st = Some eff -> (c_happy c <= eff)%Z ->
    encoded_from c x st e -> e_raised e = false ->
    run_shape c x (mk_result VSuccess st qs (e_servermap e) (e_landlords e) (e_log e)).

Lemma upload_run_shape : forall c x, run_shape c x (upload_run c x).
Proof.
  intros c x. unfold upload_run.
  destruct (phase1 c (x_existing x) (trackers c) (sel_init c)) as [st1 pending] eqn:P1.
  destruct (is_nil pending) eqn:NP; cbn [negb]; [|apply RS_pending].
  apply is_nil_true in NP. subst pending.
  destruct (sel_loop c (x_rounds x) None st1 []) as [[st qs]|] eqn:SL; [|apply RS_pending].
  assert (S : selector_ends c x st qs) by (exists st1; auto).
  destruct (happiness st) as [eff|] eqn:HP; [|apply RS_pending].
  destruct (Z.ltb_spec eff (c_happy c)) as [L|L]; [eapply RS_unhappy_sel; eassumption|].
  destruct (has_dup_share st) eqn:D; [eapply RS_assert; eassumption|].
  pose proof (encode_facts _ _ _ (x_writes x) (x_close x) _ (enc0_inv c st eff HP L D) eq_refl eq_refl) as F.
  unfold encode in F. fold (enc0 st).
  destruct (write_rounds (c_happy c) (x_writes x) (enc0 st)) as [e1|e|]; [destruct (close_round (c_happy c) (x_close x) e1) as [e|e|]| |];
    try apply RS_pending; destruct F as [F R].
  - eapply RS_success; eassumption.
  - eapply RS_unhappy_enc; eassumption.
  - eapply RS_unhappy_enc; eassumption.
Qed.

Lemma finished_selector_ends : forall c x r,
  run_shape c x r -> r_verdict r <> VPending -> selector_ends c x (r_sel r) (r_queries r).
Proof. intros c x r [] V; cbn [mk_result r_verdict r_sel r_queries] in *; congruence || assumption. Qed.

Lemma fold_bstep_settled : forall ops s, s <> BOpen -> fold_left bstep ops s = s.
Proof. induction ops as [|op ops IH]; intros s H; cbn [fold_left]; [reflexivity|]. destruct s; [contradiction| |]; exact (IH _ H). Qed.

Lemma fold_bstep_abort : forall ops s, In OpAbort ops -> fold_left bstep ops s <> BOpen.
Proof.
  induction ops as [|op ops IH]; intros s H; [destruct H|]. cbn [fold_left]. destruct H as [->|H]; [|apply IH; exact H].
  assert (N : bstep s OpAbort <> BOpen) by (destruct s; discriminate). rewrite (fold_bstep_settled _ _ N). exact N.
Qed.

Lemma fold_bstep_closed_inv : forall ops, fold_left bstep ops BOpen = BClosed -> In (OpClose true) ops.
Proof.
  induction ops as [|op ops IH]; cbn [fold_left]; [discriminate|].
  destruct op as [|[|]|]; cbn [bstep]; [right; auto|left; reflexivity|right; auto|].
  rewrite fold_bstep_settled; discriminate.
Qed.

Lemma fold_bstep_closed : forall ops, ~ In OpAbort ops -> In (OpClose true) ops -> fold_left bstep ops BOpen = BClosed.
Proof.
  induction ops as [|op ops IH]; cbn [In fold_left]; [tauto|]. intros Hn Hc.
  destruct op as [|[|]|]; cbn [bstep]; [| apply fold_bstep_settled; discriminate | |tauto]; (apply IH; [tauto|]); destruct Hc as [[=]|Hc]; exact Hc.
Qed.

Lemma bucket_eqb_eq : forall a b, bucket_eqb a b = true <-> a = b.
Proof.
  intros [a1 a2] [b1 b2]. unfold bucket_eqb. cbn [fst snd]. rewrite andb_true_iff, !N.eqb_eq. split; [intros [-> ->]; reflexivity|intros [= -> ->]; auto].
Qed.

Lemma In_ops_of : forall b l op, In op (ops_of b l) <-> In (b, op) l.
Proof.
  intros b l op. unfold ops_of. rewrite in_map_iff. split.
  - intros [[b' o] [<- H]]. apply filter_In in H. destruct H as [H Eb]. apply bucket_eqb_eq in Eb. cbn [fst snd] in *. subst b'. exact H.
  - intros H. exists (b, op). split; [reflexivity|]. apply filter_In. split; [exact H|]. apply bucket_eqb_eq. reflexivity.
Qed.

Lemma aborted_not_open : forall l b, In (b, OpAbort) l -> final_state l b <> BOpen.
Proof. intros l b H. apply fold_bstep_abort, In_ops_of. exact H. Qed.

Lemma closed_was_sent_close : forall l b, final_state l b = BClosed -> In (b, OpClose true) l.
Proof. intros l b H. apply In_ops_of, fold_bstep_closed_inv. exact H. Qed.

Lemma close_without_abort_closed : forall l b, ~ In (b, OpAbort) l -> In (b, OpClose true) l -> final_state l b = BClosed.
Proof. intros l b Hn Hc. apply fold_bstep_closed; rewrite In_ops_of; assumption. Qed.

Definition write_failed (x : script) (s : N) : Prop :=
  exists wr, In wr (x_writes x) /\ lookup_w s wr = Some WErr.

Definition failed_unhappy (v : verdict) : Prop := v = VUnhappySel \/ v = VUnhappyEnc.

Lemma writes_ok_not_failed : forall x s, writes_ok (x_writes x) s <-> ~ write_failed x s.
Proof. intros x s. unfold writes_ok, write_failed. split; [intros H [wr [Hw L]]; exact (H wr Hw L)|intros H wr Hw L; apply H; eauto]. Qed.

(* Each theorem of Props/C06.v is a property of the shapes a run can have. *)
Lemma selector_verdict_shape : forall c x r, run_shape c x r ->
  (r_verdict r = VUnhappySel -> exists eff, happiness (r_sel r) = Some eff /\ (eff < c_happy c)%Z) /\
  (r_verdict r = VSuccess \/ r_verdict r = VUnhappyEnc \/ r_verdict r = VAssert ->
     exists eff, happiness (r_sel r) = Some eff /\ (c_happy c <= eff)%Z).
Proof.
  intros c x r []; cbn [mk_result r_verdict r_sel]; split; intros V;
    try discriminate; try (destruct V as [V|[V|V]]; discriminate); eauto.
Qed.

Lemma selector_edges_shape : forall c x r, run_shape c x r -> forall s p,
  r_verdict r <> VPending -> dm_in (merged (r_sel r)) s p -> found x p s \/ allocated x p s.
Proof.
  intros c x r S s p V H.
  destruct (merged_sound _ _ _ _ _ (selector_state_sound _ _ _ _ (finished_selector_ends c x r S V)) H); tauto.
Qed.

Lemma buckets_were_allocated_shape : forall c x r, run_shape c x r -> forall p s,
  r_verdict r <> VPending -> In (p, s) (sel_buckets (r_sel r)) -> allocated x p s.
Proof.
  intros c x r S p s V Hb. apply In_sel_buckets in Hb.
  apply (selector_state_sound _ _ _ _ (finished_selector_ends c x r S V)), dm_get_in. tauto.
Qed.

Lemma success_implies_happy_shape : forall c x r, run_shape c x r ->
  r_verdict r = VSuccess -> exists h, servers_of_happiness (r_servermap r) = Some h /\ (c_happy c <= h)%Z.
Proof. intros c x r [| | | |st qs eff e S HP L F R] V; try discriminate. exact (inv_happy (en_inv F) R). Qed.

Lemma servermap_edges_shape : forall c x r, run_shape c x r -> forall s p,
  r_verdict r = VSuccess -> dm_in (r_servermap r) s p -> found x p s \/ In (s, p) (r_placed r).
Proof.
  intros c x r [| | | |st qs eff e S HP L F R] s p V; try discriminate.
  cbn [mk_result r_servermap r_placed]. intros Hd.
  destruct (wf_edges (inv_wf (en_inv F)) _ _ Hd) as [H|H]; [left|right; exact H].
  apply (selector_state_sound c x st qs S), dm_in_transpose. exact H.
Qed.

Lemma placed_shares_closed_shape : forall c x r, run_shape c x r -> forall s p,
  r_verdict r = VSuccess ->
  (In (s, p) (r_placed r) <->
   In (p, s) (sel_buckets (r_sel r)) /\ ~ write_failed x s /\ lookup_c s (x_close x) = Some COk).
Proof.
  intros c x r [| | | |st qs eff e S HP L F R] s p V; try discriminate.
  cbn [mk_result r_placed r_sel]. rewrite (en_left F R), writes_ok_not_failed. cbn [enc0 e_landlords]. rewrite In_build_landlords. reflexivity.
Qed.

Lemma placed_are_closed_shape : forall c x r, run_shape c x r -> forall s p,
  r_verdict r = VSuccess -> In (s, p) (r_placed r) -> final_state (r_log r) (p, s) = BClosed.
Proof.
  intros c x r [| | | |st qs eff e S HP L F R] s p V; try discriminate.
  cbn [mk_result r_placed r_log]. intros H. apply close_without_abort_closed; [|exact (en_closed F R _ _ H)].
  rewrite (wf_aborted (inv_wf (en_inv F)) _ _ H), R. discriminate.
Qed.

Lemma failure_aborts_all_shape : forall c x r, run_shape c x r -> forall b,
  failed_unhappy (r_verdict r) -> In b (sel_buckets (r_sel r)) -> In (b, OpAbort) (r_log r).
Proof.
  intros c x r [| | |st qs eff e S HP L F R|] [p s] V Hb;
    cbn [mk_result r_verdict r_sel r_log] in *; try (destruct V; discriminate).
  - exact (in_map (fun b => (b, OpAbort)) _ _ Hb).
  - pose proof (inv_wf (en_inv F)) as W.
    destruct (wf_fate W _ _ Hb) as [H|H]; [apply (wf_aborted W _ _ H); exact R|exact H].
Qed.

(* close is executed only for a bucket of the selector whose writes were all acknowledged *)
Lemma close_executed_complete : forall c x st e p s,
  encoded_from c x st e -> In ((p, s), OpClose true) (e_log e) ->
  In (p, s) (sel_buckets st) /\ ~ write_failed x s /\ exists a, lookup_c s (x_close x) = Some a /\ a <> CFlushErr.
Proof.
  intros c x st e p s F He. destruct (en_log F _ He) as [[=]|[[=]|(s' & p' & o & [= <- <- <-] & H0 & W & Ho)]].
  split; [apply In_build_landlords; exact H0|]. split; [apply writes_ok_not_failed; exact W|].
  unfold close_op in Ho. destruct (lookup_c s (x_close x)) as [a|]; [|discriminate]. exists a. split; [reflexivity|].
  intros ->. discriminate.
Qed.

Lemma visible_share_complete_shape : forall c x r, run_shape c x r -> forall p s,
  final_state (r_log r) (p, s) = BClosed ->
  In (p, s) (sel_buckets (r_sel r)) /\ ~ write_failed x s /\
  exists a, lookup_c s (x_close x) = Some a /\ a <> CFlushErr.
Proof.
  intros c x r S p s H. apply closed_was_sent_close in H.
  destruct S as [| | |st qs eff e S HP L F R|st qs eff e S HP L F R]; cbn [mk_result r_sel r_log] in *;
    [destruct H| |destruct H|exact (close_executed_complete c x st e p s F H)|exact (close_executed_complete c x st e p s F H)].
  apply in_map_iff in H. destruct H as [b [[=] _]].
Qed.
