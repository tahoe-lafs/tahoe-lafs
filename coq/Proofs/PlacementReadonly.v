(* C07, clauses 1 and 2: every share is placed; a read-only server is assigned only shares
   it already holds, and every share goes to a listed server. *)
From Coq Require Import List NArith ZArith Bool Arith.
From Verif Require Import Model.Matching Model.Placement Proofs.Matching
     Proofs.Placement Proofs.PlacementStruct Proofs.PlacementGraph.
Import ListNotations.

Theorem placement_total_full : forall os peers readonly shares p2s res,
  peers <> [] ->
  share_placement os peers readonly shares p2s = Some res ->
  total_spec shares res.
Proof.
  intros os peers readonly shares p2s res Hne H s Hs.
  destruct (share_placement_inv _ _ _ _ _ _ Hne H) as (ro & ex & nw & _ & C2 & _ & _ & Hkeys & _).
  destruct (cm_facts _ _ _ _ _ C2) as (pl2 & so2 & g2 & F2).
  assert (Hin : In s (map fst res)).
  { apply Hkeys, merge_keys.
    (* a share the read-only phase did not match is handed to the second phase *)
    destruct (in_dec N.eq_dec s (used_shares_of (pr_mappings ro))) as [Hu|Hu].
    - left. apply used_shares_spec in Hu. destruct Hu as [p Hp]. apply (in_map fst _ _ Hp).
    - right. left. apply (pf_key_In F2), diffN_In. auto. }
  apply in_map_iff in Hin. destruct Hin as [[s' p] [<- Hin]]. exists p. exact Hin.
Qed.

Definition wf_input (peers readonly : list N) (p2s : smap) : Prop :=
  (forall p, In p peers -> ~ In p readonly) /\
  (forall p held, In (p, held) p2s -> In p peers \/ In p readonly).

Theorem readonly_only_existing_full : forall os peers readonly shares p2s res,
  wf_input peers readonly p2s ->
  share_placement os peers readonly shares p2s = Some res ->
  readonly_spec readonly p2s res /\ known_spec peers readonly res.
Proof.
  intros os peers readonly shares p2s res [Hdisj Hkeys] H.
  destruct peers as [|p0 pr]; [inversion H; split; intros s p []|].
  assert (Hne : p0 :: pr <> []) by discriminate.
  destruct (share_placement_inv _ _ _ _ _ _ Hne H) as (ro & ex & nw & C1 & C2 & C3 & _ & _ & _ & Hfrom).
  set (peers := p0 :: pr) in *.
  destruct (cm_facts _ _ _ _ _ C1) as (pl1 & so1 & g1 & F1).
  destruct (cm_facts _ _ _ _ _ C2) as (pl2 & so2 & g2 & F2).
  destruct (cm_facts _ _ _ _ _ C3) as (pl3 & so3 & g3 & F3).
  (* an entry of the result is a match of the read-only phase or names a writable server *)
  assert (Horigin : forall s p, In (s, p) res ->
            In (s, Some p) (pr_mappings ro) \/ (In p peers /\ ~ In p readonly)).
  { intros s p Hin. assert (Hw : In p peers -> In p peers /\ ~ In p readonly) by auto.
    destruct (Hfrom s p Hin) as [H2|[Hq|Hq]]; [|right|right; exact Hq].
    - destruct (merge_In _ _ _ _ _ H2) as [H3|[H3|H3]]; [left; exact H3 | right; apply Hw | right; apply Hw].
      + apply (pf_server F2) in H3. apply diffN_In in H3. apply H3.
      + apply (pf_server F3), diffN3_In in H3. apply H3.
    - apply in_map_iff in Hq. destruct Hq as [[p' held] [<- Hq]].
      apply filter_In in Hq. destruct Hq as [Hq1 Hq2]. cbn [fst] in *.
      assert (Hn : ~ In p' readonly) by (intro Hx; apply memN_In in Hx; rewrite Hx in Hq2; discriminate).
      destruct (Hkeys _ _ Hq1); [auto | contradiction]. }
  split; intros s p Hin; destruct (Horigin s p Hin) as [H1|[H1 H2]].
  - intros _. destruct (pf_linked F1 s p H1) as [Hnil|[held [El Hs]]].
    + (* no read-only server holds anything: the phase had no share to match *)
      apply (in_map fst) in H1. apply (pf_key_In F1) in H1.
      unfold ro_shares in H1. rewrite Hnil in H1. destruct H1.
    + exists held. split; [|exact Hs]. apply lookupN_In in El. apply (held_by_readonly_In _ _ _ _ El).
  - contradiction.
  - right. apply (pf_server F1 s p H1).
  - left. exact H1.
Qed.
