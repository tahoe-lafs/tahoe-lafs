(* The flow invariant of the bipartite unit-capacity network and its preservation by
   one augmentation along a BFS path. *)
From Coq Require Import List NArith ZArith Bool Arith Lia.
From Verif Require Import Model.Matching Proofs.MatchingLists Proofs.MatchingResidual Proofs.MatchingPath.
Import ListNotations.

(* The layered network: vertex 0 is the source, 1..ns are the servers, ns+1..ns+nsh the shares,
   ns+nsh+1 is the sink. *)

Record Net (g : graph) (ns nsh : nat) : Prop := {
  net_len : length g = ns + nsh + 2;
  net_src : adj g 0 = seq 1 ns;
  net_srv : forall i, 1 <= i <= ns ->
            (forall s, In s (adj g i) -> ns < s <= ns + nsh) /\ NoDup (adj g i);
  net_shr : forall s, ns < s <= ns + nsh -> adj g s = [ns + nsh + 1];
  net_snk : adj g (ns + nsh + 1) = []
}.

Section Network.
Variables (g : graph) (ns nsh : nat).
Hypothesis HN : Net g ns nsh.

Let t := ns + nsh + 1.
Let dim := ns + nsh + 2.
Definition server (i : nat) : Prop := 1 <= i <= ns.
Definition share (s : nat) : Prop := ns < s <= ns + nsh.
Definition E (u v : nat) : Prop := In v (adj g u).

Lemma vertex_cases : forall u, u = 0 \/ server u \/ share u \/ u = t \/ dim <= u.
Proof. intros u. unfold server, share, t, dim. lia. Qed.

Lemma adj_outside : forall u, dim <= u -> adj g u = [].
Proof. intros u H. unfold adj. apply nth_overflow. rewrite (net_len _ _ _ HN). exact H. Qed.

Lemma E_cases : forall u v, E u v ->
  (u = 0 /\ server v) \/ (server u /\ share v) \/ (share u /\ v = t).
Proof.
  intros u v H. unfold E in H. destruct (vertex_cases u) as [->|[Hs|[Hs|[->|Hu]]]].
  - left. split; [reflexivity|]. rewrite (net_src _ _ _ HN) in H. apply in_seq in H. unfold server. lia.
  - right. left. split; [exact Hs|]. apply (net_srv _ _ _ HN u Hs). exact H.
  - right. right. split; [exact Hs|]. rewrite (net_shr _ _ _ HN u Hs) in H. destruct H as [<-|[]]. reflexivity.
  - unfold t in H. rewrite (net_snk _ _ _ HN) in H. destruct H.
  - rewrite (adj_outside u Hu) in H. destruct H.
Qed.

Lemma net_upward : upward g.
Proof.
  split.
  - intros u v H. rewrite (net_len _ _ _ HN).
    destruct (E_cases u v H) as [[-> Hv]|[[Hu Hv]|[Hu ->]]]; unfold server, share, t in *; lia.
  - intros u. destruct (vertex_cases u) as [->|[Hs|[Hs|[->|Hu]]]].
    + rewrite (net_src _ _ _ HN). apply seq_NoDup.
    + apply (net_srv _ _ _ HN u Hs).
    + rewrite (net_shr _ _ _ HN u Hs). constructor; [intros [] | constructor].
    + unfold t. rewrite (net_snk _ _ _ HN). constructor.
    + rewrite (adj_outside u Hu). constructor.
Qed.

Lemma E_src : forall i, server i -> E 0 i.
Proof. intros i H. unfold E. rewrite (net_src _ _ _ HN). apply in_seq. unfold server in H. lia. Qed.

Lemma E_snk : forall s, share s -> E s t.
Proof. intros s H. unfold E. rewrite (net_shr _ _ _ HN s H). left. reflexivity. Qed.

(* edges lead from one layer to the next, so the layer of one end fixes that of the other *)
Lemma E_src_inv : forall v, E 0 v -> server v.
Proof. intros v H. destruct (E_cases _ _ H) as [[? ?]|[[? ?]|[? ?]]]; unfold server, share in *; lia. Qed.

Lemma E_into_server : forall u i, E u i -> server i -> u = 0.
Proof. intros u i H Hi. destruct (E_cases _ _ H) as [[? ?]|[[? ?]|[? ?]]]; unfold server, share, t in *; lia. Qed.

Lemma E_from_server : forall i v, E i v -> server i -> share v.
Proof. intros i v H Hi. destruct (E_cases _ _ H) as [[? ?]|[[? ?]|[? ?]]]; unfold server, share, t in *; lia. Qed.

Lemma E_into_share : forall u s, E u s -> share s -> server u.
Proof. intros u s H Hs. destruct (E_cases _ _ H) as [[? ?]|[[? ?]|[? ?]]]; unfold server, share, t in *; lia. Qed.

Lemma E_from_share : forall s v, E s v -> share s -> v = t.
Proof. intros s v H Hs. destruct (E_cases _ _ H) as [[? ?]|[[? ?]|[? ?]]]; unfold server, share, t in *; lia. Qed.

Record Inv (f : matrix) : Prop := {
  inv_shape : shape dim f;
  inv_01 : forall u v, E u v -> mget f u v = 0%Z \/ mget f u v = 1%Z;
  inv_out : forall i s s', server i -> E i s -> E i s' -> mget f i s = 1%Z -> mget f i s' = 1%Z -> s = s';
  inv_in : forall s i i', E i s -> E i' s -> server i -> server i' ->
                          mget f i s = 1%Z -> mget f i' s = 1%Z -> i = i';
  inv_srv : forall i, server i -> (mget f 0 i = 1%Z <-> exists s, E i s /\ mget f i s = 1%Z);
  inv_shr : forall s, share s -> (mget f s t = 1%Z <-> exists i, server i /\ E i s /\ mget f i s = 1%Z)
}.

Lemma inv_zero : Inv (zero_matrix dim).
Proof.
  constructor.
  - apply shape_zero.
  - intros. left. apply mget_zero.
  - intros i s s' _ _ _ H. rewrite mget_zero in H. discriminate.
  - intros s i i' _ _ _ _ H. rewrite mget_zero in H. discriminate.
  - intros i _. rewrite mget_zero. split; [discriminate|]. intros [s [_ H]]. rewrite mget_zero in H. discriminate.
  - intros s _. rewrite mget_zero. split; [discriminate|]. intros [i [_ [_ H]]]. rewrite mget_zero in H. discriminate.
Qed.

Record PathOK (f : matrix) (path : list (nat * nat)) : Prop := {
  pk_chain : chain path 0 t;
  pk_lev : exists d, levelled d path;
  pk_res : forall u v, In (u, v) path -> residual_edge g f u v
}.

Section Augment.
Variables (f : matrix) (path : list (nat * nat)).
Hypothesis HI : Inv f.
Hypothesis HP : PathOK f path.

Let f' := augment f 1%Z path.

Lemma res_bounds : forall u v, residual_edge g f u v -> u < dim /\ v < dim /\ u <> v.
Proof.
  intros u v [[H _]|[H _]]; destruct (proj1 net_upward _ _ H) as [H1 H2];
    rewrite (net_len _ _ _ HN) in H2; unfold dim; lia.
Qed.

Lemma f_is0 : forall u v, E u v -> mget f u v <> 1%Z -> mget f u v = 0%Z.
Proof. intros u v H Hn. destruct (inv_01 _ HI _ _ H); [assumption | contradiction]. Qed.

(* forward use of a graph edge / backward use / untouched *)
Lemma aug_cases : forall a b, E a b ->
  (In (a, b) path /\ mget f a b = 0%Z /\ mget f' a b = 1%Z) \/
  (In (b, a) path /\ mget f a b = 1%Z /\ mget f' a b = 0%Z) \/
  (~ In (a, b) path /\ ~ In (b, a) path /\ mget f' a b = mget f a b).
Proof.
  intros a b Hab. destruct (pk_lev _ _ HP) as [d Hl].
  assert (Hnba : ~ E b a).
  { intro H. pose proof (proj1 (proj1 net_upward _ _ H)). pose proof (proj1 (proj1 net_upward _ _ Hab)). lia. }
  pose proof (proj1 (NoDup_count_occ' edge_eq_dec path) (levelled_NoDup d _ _ _ (pk_chain _ _ HP) Hl)) as Hone.
  pose proof (fun e => proj1 (count_occ_not_In edge_eq_dec path e)) as Hzero.
  unfold f'. rewrite (augment_spec dim 1 path f (inv_shape _ HI))
    by (intros u v H; apply res_bounds, (pk_res _ _ HP), H).
  destruct (in_dec edge_eq_dec (a, b) path) as [H1|H1]; [|destruct (in_dec edge_eq_dec (b, a) path) as [H2|H2]].
  - left. rewrite (Hone _ H1), (Hzero _ (levelled_no_swap d _ Hl _ _ H1)).
    destruct (pk_res _ _ HP _ _ H1) as [[_ Hf]|[Hba _]]; [|contradiction].
    rewrite (f_is0 _ _ Hab Hf). split; [exact H1 | split; reflexivity].
  - right. left. rewrite (Hzero _ H1), (Hone _ H2).
    destruct (pk_res _ _ HP _ _ H2) as [[Hba _]|[_ Hf]]; [contradiction|].
    rewrite Hf. split; [exact H2 | split; reflexivity].
  - right. right. rewrite (Hzero _ H1), (Hzero _ H2). split; [exact H1 | split; [exact H2 | lia]].
Qed.

Lemma no_into_src : forall u, ~ In (u, 0) path.
Proof. destruct (pk_lev _ _ HP) as [d Hl]. apply (chain_no_into_start d _ _ _ (pk_chain _ _ HP) Hl). Qed.

Lemma no_from_snk : forall y, ~ In (t, y) path.
Proof. destruct (pk_lev _ _ HP) as [d Hl]. apply (chain_no_from_end d _ _ _ (pk_chain _ _ HP) Hl). Qed.

Lemma src_unique : forall x y y', In (x, y) path -> In (x, y') path -> y = y'.
Proof. destruct (pk_lev _ _ HP) as [d Hl]. apply (chain_source_unique d _ _ _ (pk_chain _ _ HP) Hl). Qed.

Lemma tgt_unique : forall x x' y, In (x, y) path -> In (x', y) path -> x = x'.
Proof. destruct (pk_lev _ _ HP) as [d Hl]. apply (chain_target_unique d _ _ _ (pk_chain _ _ HP) Hl). Qed.

(* how the path reaches a server it leaves: from the source, or backwards along the server's matching edge *)
Lemma srv_entry : forall i y, In (i, y) path -> server i ->
  (In (0, i) path /\ mget f 0 i = 0%Z) \/ (exists u, In (u, i) path /\ E i u /\ mget f i u = 1%Z).
Proof.
  intros i y H Hi.
  destruct (chain_out_in _ _ _ (pk_chain _ _ HP) i y H) as [u Hu]; [unfold server in Hi; lia|].
  destruct (pk_res _ _ HP _ _ Hu) as [[He Hf]|[He Hf]].
  - left. pose proof (E_into_server _ _ He Hi) as ->. split; [exact Hu | apply f_is0; assumption].
  - right. exists u. split; [exact Hu|]. split; assumption.
Qed.

(* how the path leaves a share it enters: to the sink, or backwards along the share's matching edge *)
Lemma shr_exit : forall u s, In (u, s) path -> share s ->
  (In (s, t) path /\ mget f s t = 0%Z) \/
  (exists y, In (s, y) path /\ server y /\ E y s /\ mget f y s = 1%Z).
Proof.
  intros u s H Hs.
  destruct (chain_in_out _ _ _ (pk_chain _ _ HP) u s H) as [y Hy]; [unfold share, t in *; lia|].
  destruct (pk_res _ _ HP _ _ Hy) as [[He Hf]|[He Hf]].
  - left. pose proof (E_from_share _ _ He Hs) as ->. split; [exact Hy | apply f_is0; assumption].
  - right. exists y. split; [exact Hy|]. split; [exact (E_into_share _ _ He Hs)|]. split; assumption.
Qed.

Lemma new_one : forall a b, E a b -> mget f' a b = 1%Z ->
  In (a, b) path \/ (~ In (a, b) path /\ ~ In (b, a) path /\ mget f a b = 1%Z).
Proof.
  intros a b Hab H1. destruct (aug_cases a b Hab) as [[H _]|[[_ [_ H0]]|[Ha [Hb He]]]].
  - left. exact H.
  - rewrite H0 in H1. discriminate.
  - right. split; [exact Ha|]. split; [exact Hb|]. rewrite <- He. exact H1.
Qed.

Lemma aug_forward : forall a b, E a b -> In (a, b) path -> mget f' a b = 1%Z.
Proof.
  intros a b Hab P. destruct (aug_cases a b Hab) as [[_ [_ F]]|[[Q _]|[N _]]]; [exact F | | contradiction].
  destruct (pk_lev _ _ HP) as [d Hl]. destruct (levelled_no_swap d _ Hl _ _ P Q).
Qed.

(* the path leaves a server it enters along one of the server's edges, which then carries a unit *)
Lemma srv_leaves : forall u i, In (u, i) path -> server i -> exists y, E i y /\ mget f' i y = 1%Z.
Proof.
  intros u i H Hi.
  destruct (chain_in_out _ _ _ (pk_chain _ _ HP) u i H) as [y Hy]; [unfold server, t in *; lia|].
  assert (Hey : E i y).
  { destruct (pk_res _ _ HP _ _ Hy) as [[He _]|[He _]]; [exact He|].
    (* backwards a server is left only for the source, which the path does not enter *)
    pose proof (E_into_server _ _ He Hi) as ->. destruct (no_into_src _ Hy). }
  exists y. split; [exact Hey | exact (aug_forward _ _ Hey Hy)].
Qed.

Lemma shr_entered : forall s y, In (s, y) path -> share s ->
  exists u, server u /\ E u s /\ mget f' u s = 1%Z.
Proof.
  intros s y H Hs.
  destruct (chain_out_in _ _ _ (pk_chain _ _ HP) s y H) as [u Hu]; [unfold share in Hs; lia|].
  assert (Heu : E u s).
  { destruct (pk_res _ _ HP _ _ Hu) as [[He _]|[He _]]; [exact He|].
    pose proof (E_from_share _ _ He Hs) as ->. destruct (no_from_snk _ Hu). }
  exists u. split; [exact (E_into_share _ _ Heu Hs)|]. split; [exact Heu | exact (aug_forward _ _ Heu Hu)].
Qed.

(* a path that leaves a matched server forwards has entered it backwards along its matching edge *)
Lemma srv_old_unit : forall i s s', server i -> In (i, s) path -> E i s' -> mget f i s' = 1%Z ->
  In (s', i) path.
Proof.
  intros i s s' Hi H Hs' O. destruct (srv_entry _ _ H Hi) as [[_ Hf0]|[u [Hu [Heu Hfu]]]].
  - exfalso. assert (Hx : mget f 0 i = 1%Z) by (apply (inv_srv _ HI i Hi); exists s'; split; assumption).
    rewrite Hf0 in Hx. discriminate.
  - rewrite <- (inv_out _ HI i u s' Hi Heu Hs' Hfu O). exact Hu.
Qed.

Lemma shr_old_unit : forall s i i', share s -> In (i, s) path -> E i' s -> server i' -> mget f i' s = 1%Z ->
  In (s, i') path.
Proof.
  intros s i i' Hs H Hs' Hi' O. destruct (shr_exit _ _ H Hs) as [[_ Hf0]|[y [Hy [Hys [Hey Hfy]]]]].
  - exfalso. assert (Hx : mget f s t = 1%Z)
      by (apply (inv_shr _ HI s Hs); exists i'; split; [assumption | split; assumption]).
    rewrite Hf0 in Hx. discriminate.
  - rewrite <- (inv_in _ HI s y i' Hey Hs' Hys Hi' Hfy O). exact Hy.
Qed.

Theorem augment_preserves : Inv f'.
Proof.
  constructor.
  - apply shape_augment. apply (inv_shape _ HI).
  - intros u v Huv. destruct (aug_cases u v Huv) as [[_ [_ H]]|[[_ [_ H]]|[_ [_ H]]]].
    + right. exact H.
    + left. exact H.
    + rewrite H. apply (inv_01 _ HI). exact Huv.
  - (* at most one unit out of a server *)
    intros i s s' Hi Hs Hs' H1 H2.
    destruct (new_one _ _ Hs H1) as [P1|[_ [N1 O1]]]; destruct (new_one _ _ Hs' H2) as [P2|[_ [N2 O2]]].
    + eapply src_unique; eassumption.
    + destruct (N2 (srv_old_unit i s s' Hi P1 Hs' O2)).
    + destruct (N1 (srv_old_unit i s' s Hi P2 Hs O1)).
    + apply (inv_out _ HI i s s' Hi Hs Hs' O1 O2).
  - (* at most one unit into a share *)
    intros s i i' Hs Hs' Hi Hi' H1 H2.
    pose proof (E_from_server _ _ Hs Hi) as Hsh.
    destruct (new_one _ _ Hs H1) as [P1|[_ [N1 O1]]]; destruct (new_one _ _ Hs' H2) as [P2|[_ [N2 O2]]].
    + eapply tgt_unique; eassumption.
    + destruct (N2 (shr_old_unit s i i' Hsh P1 Hs' Hi' O2)).
    + destruct (N1 (shr_old_unit s i' i Hsh P2 Hs Hi O1)).
    + apply (inv_in _ HI s i i' Hs Hs' Hi Hi' O1 O2).
  - (* source edge of a server carries a unit iff one of its share edges does *)
    intros i Hi.
    destruct (aug_cases 0 i (E_src i Hi)) as [[P [_ F1]]|[[P _]|[N1 [N2 Fe]]]].
    + rewrite F1. split; [intros _; exact (srv_leaves _ _ P Hi) | reflexivity].
    + destruct (no_into_src i P).
    + rewrite Fe. split.
      * intros H1. apply (inv_srv _ HI i Hi) in H1. destruct H1 as [s0 [He0 Hf0]].
        destruct (aug_cases i s0 He0) as [[_ [Z _]]|[[Q _]|[_ [_ Fe0]]]].
        -- rewrite Z in Hf0. discriminate.
        -- exact (srv_leaves _ _ Q Hi).
        -- exists s0. split; [exact He0|]. rewrite Fe0. exact Hf0.
      * intros [s [Hes Hfs]]. apply (inv_srv _ HI i Hi). destruct (new_one _ _ Hes Hfs) as [P|[_ [_ O]]].
        -- destruct (srv_entry _ _ P Hi) as [[P0 _]|[u [_ [Heu Hfu]]]]; [contradiction|].
           exists u. split; assumption.
        -- exists s. split; assumption.
  - (* sink edge of a share carries a unit iff one of its server edges does *)
    intros s Hs.
    destruct (aug_cases s t (E_snk s Hs)) as [[P [_ F1]]|[[P _]|[N1 [N2 Fe]]]].
    + rewrite F1. split; [intros _; exact (shr_entered _ _ P Hs) | reflexivity].
    + destruct (no_from_snk s P).
    + rewrite Fe. split.
      * intros H1. apply (inv_shr _ HI s Hs) in H1. destruct H1 as [i0 [Hi0 [He0 Hf0]]].
        destruct (aug_cases i0 s He0) as [[_ [Z _]]|[[Q _]|[_ [_ Fe0]]]].
        -- rewrite Z in Hf0. discriminate.
        -- exact (shr_entered _ _ Q Hs).
        -- exists i0. split; [exact Hi0|]. split; [exact He0|]. rewrite Fe0. exact Hf0.
      * intros [i [Hi [Hei Hfi]]]. apply (inv_shr _ HI s Hs). destruct (new_one _ _ Hei Hfi) as [P|[_ [_ O]]].
        -- destruct (shr_exit _ _ P Hs) as [[Pt _]|[y [_ [Hys [Hey Hfy]]]]]; [contradiction|].
           exists y. split; [assumption | split; assumption].
        -- exists i. split; [assumption | split; assumption].
Qed.

Lemma aug_source_row : exists p1, server p1 /\ mget f' 0 p1 = (mget f 0 p1 + 1)%Z /\
  forall i, server i -> i <> p1 -> mget f' 0 i = mget f 0 i.
Proof.
  destruct (chain_first _ _ _ (pk_chain _ _ HP)) as [v Hin]; [unfold t; lia|].
  assert (Hv : server v).
  { destruct (pk_res _ _ HP _ _ Hin) as [[He _]|[He _]]; [exact (E_src_inv _ He)|].
    pose proof (proj1 (proj1 net_upward _ _ He)). lia. }
  exists v. split; [exact Hv|]. split.
  - destruct (aug_cases 0 v (E_src v Hv)) as [[_ [H0 H1]]|[[P _]|[N _]]].
    + rewrite H0, H1. reflexivity.
    + exfalso. apply (no_into_src v). exact P.
    + contradiction.
  - intros i Hi Hne. destruct (aug_cases 0 i (E_src i Hi)) as [[P _]|[[P _]|[_ [_ H]]]].
    + exfalso. apply Hne. apply (src_unique 0 i v P Hin).
    + exfalso. apply (no_into_src i). exact P.
    + exact H.
Qed.

End Augment.
End Network.
