(* Python's int() on the numerals b"%d" prints, and the strict readers. *)
From Coq Require Import List NArith ZArith Bool Lia.
From Verif Require Import Lib.Decimal Lib.DecimalFacts Lib.Hex Model.PyInt.
Import ListNotations.
Local Open Scope N_scope.

Lemma is_digit_not_ws b : is_digit b = true -> is_ws b = false.
Proof.
  intro H. apply is_digit_spec in H. unfold is_ws.
  destruct (9 <=? b) eqn:E1, (b <=? 13) eqn:E2, (b =? 32) eqn:E3; cbn; try reflexivity;
    try (apply N.leb_le in E2); try (apply N.eqb_eq in E3); lia.
Qed.

Lemma is_digit_not_sign b : is_digit b = true -> (b =? 43) = false /\ (b =? 45) = false /\ (b =? 95) = false.
Proof.
  intro H. apply is_digit_spec in H. repeat split; apply N.eqb_neq; lia.
Qed.

Lemma py_digits_all_digits : forall l acc s,
  forallb is_digit l = true -> (l <> [] \/ s = PDigit) ->
  py_digits l acc s = undec_acc l acc.
Proof.
  induction l as [|b r IH]; intros acc s Hd Hs.
  - destruct Hs as [Hs | ->]; [congruence|reflexivity].
  - cbn [forallb] in Hd. apply andb_true_iff in Hd. destruct Hd as [Hb Hr].
    cbn [py_digits undec_acc]. rewrite Hb. apply IH; [assumption|right; reflexivity].
Qed.

Lemma drop_ws_digit b r : is_digit b = true -> drop_ws (b :: r) = b :: r.
Proof. intro H. cbn [drop_ws]. rewrite (is_digit_not_ws b H). reflexivity. Qed.

Lemma py_int_all_digits l :
  forallb is_digit l = true -> l <> [] -> py_int l = option_map Z.of_N (undec l).
Proof.
  intros Hd Hn. destruct l as [|b r]; [congruence|].
  pose proof Hd as Hd'. cbn [forallb] in Hd'. apply andb_true_iff in Hd'. destruct Hd' as [Hb _].
  unfold py_int. rewrite (drop_ws_digit b r Hb).
  destruct (is_digit_not_sign b Hb) as (E1 & E2 & _). rewrite E1, E2.
  rewrite py_digits_all_digits by (try assumption; left; discriminate).
  reflexivity.
Qed.

Lemma py_int_minus r :
  forallb is_digit r = true -> r <> [] ->
  py_int (45 :: r) = option_map (fun n => Z.opp (Z.of_N n)) (undec r).
Proof.
  intros Hd Hn. unfold py_int. cbn [drop_ws]. change (is_ws 45) with false. cbv iota.
  change (45 =? 43) with false. change (45 =? 45) with true. cbv iota.
  rewrite py_digits_all_digits by (try assumption; left; assumption).
  rewrite <- undec_nonempty by assumption. reflexivity.
Qed.

Theorem py_int_dec n : py_int (dec n) = Some (Z.of_N n).
Proof.
  rewrite py_int_all_digits by (apply dec_all_digits || apply dec_nonempty).
  rewrite undec_dec. reflexivity.
Qed.

Theorem py_int_dec_Z z : py_int (dec_Z z) = Some z.
Proof.
  destruct z as [|p|p]; cbn [dec_Z].
  - apply py_int_dec.
  - rewrite py_int_dec. reflexivity.
  - rewrite py_int_minus by (apply dec_all_digits || apply dec_nonempty).
    rewrite undec_dec. reflexivity.
Qed.

Lemma canonical_all_digits l : canonical_dec l = true -> forallb is_digit l = true /\ l <> [].
Proof. intro H. apply canonical_dec_spec in H. tauto. Qed.

Theorem strict_nat_sound l z : strict_nat l = Some z -> py_int l = Some z.
Proof.
  unfold strict_nat. destruct (canonical_dec l) eqn:C; [|discriminate].
  destruct (canonical_all_digits l C) as [Hd Hn]. intro H.
  rewrite py_int_all_digits by assumption. assumption.
Qed.

Theorem strict_nat_canonical l z :
  strict_nat l = Some z -> (0 <= z)%Z /\ l = dec (Z.to_N z).
Proof.
  unfold strict_nat. destruct (canonical_dec l) eqn:C; [|discriminate].
  destruct (undec l) as [n|] eqn:U; [|discriminate]. cbn. intro H. injection H as <-.
  split; [lia|]. rewrite N2Z.id. symmetry. apply dec_undec_canonical; assumption.
Qed.

Theorem strict_nat_dec n : strict_nat (dec n) = Some (Z.of_N n).
Proof. unfold strict_nat. rewrite canonical_dec_dec, undec_dec. reflexivity. Qed.

Theorem strict_int_sound l z : strict_int l = Some z -> py_int l = Some z.
Proof.
  destruct l as [|b r]; [discriminate|]. cbn [strict_int].
  destruct (b =? 45) eqn:E.
  - apply N.eqb_eq in E. subst b.
    destruct (canonical_dec r && negb (list_N_eqb r [48])) eqn:C; [|discriminate].
    apply andb_true_iff in C. destruct C as [C _].
    destruct (canonical_all_digits r C) as [Hd Hn]. intro H.
    rewrite py_int_minus by assumption. assumption.
  - apply strict_nat_sound.
Qed.

Theorem strict_int_canonical l z : strict_int l = Some z -> l = dec_Z z.
Proof.
  destruct l as [|b r]; [discriminate|]. cbn [strict_int].
  destruct (b =? 45) eqn:E.
  - apply N.eqb_eq in E. subst b.
    destruct (canonical_dec r && negb (list_N_eqb r [48])) eqn:C; [|discriminate].
    apply andb_true_iff in C. destruct C as [C Hnz].
    destruct (undec r) as [n|] eqn:U; [|discriminate]. cbn. intro H. injection H as <-.
    pose proof (dec_undec_canonical r n C U) as Hr.
    destruct n as [|p].
    + rewrite dec_0 in Hr. subst r. cbn in Hnz. discriminate.
    + cbn [Z.of_N Z.opp dec_Z]. rewrite Hr. reflexivity.
  - intro H. apply strict_nat_canonical in H. destruct H as [Hz Hl].
    rewrite Hl. destruct z as [|p|p]; try reflexivity. lia.
Qed.

Theorem strict_int_dec_Z z : strict_int (dec_Z z) = Some z.
Proof.
  destruct z as [|p|p]; cbn [dec_Z].
  - reflexivity.
  - change (dec (Z.to_N (Z.pos p))) with (dec (N.pos p)).
    destruct (dec_head (N.pos p)) as (d & r & E & Hd & _ & _).
    rewrite E. cbn [strict_int].
    destruct (is_digit_not_sign d Hd) as (_ & E2 & _). rewrite E2, <- E.
    apply (strict_nat_dec (N.pos p)).
  - cbn [strict_int]. change (45 =? 45) with true. cbv iota.
    rewrite canonical_dec_dec.
    assert (Hne : list_N_eqb (dec (N.pos p)) [48] = false).
    { destruct (list_N_eqb (dec (N.pos p)) [48]) eqn:E; [|reflexivity].
      apply list_N_eqb_eq in E. rewrite <- dec_0 in E. apply dec_inj in E. discriminate. }
    rewrite Hne. cbn [negb andb]. rewrite undec_dec. reflexivity.
Qed.

Lemma dec_Z_nonneg n : dec_Z (Z.of_N n) = dec n.
Proof. destruct n; reflexivity. Qed.
