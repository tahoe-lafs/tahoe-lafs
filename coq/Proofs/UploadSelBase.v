(* C06: sets, dicts of sets, and what the selector's maps can contain.
   Soundness direction throughout: an edge of a map was put there by a server's answer. *)
From Coq Require Import List NArith ZArith Bool.
From Verif Require Import Lib.ListFacts Model.Matching Proofs.Matching Model.UploadSel.
Import ListNotations.
Local Open Scope N_scope.

Lemma In_set_add : forall x y l, In y (set_add x l) <-> y = x \/ In y l.
Proof.
  intros x y l. unfold set_add. destruct (memN x l) eqn:E.
  - split; [tauto|]. intros [->|H]; [apply memN_In; exact E|exact H].
  - rewrite in_app_iff. cbn [In]. split; [intros [H|[H|[]]]; auto|intros [->|H]; auto].
Qed.

Lemma In_set_remove : forall x y l, In y (set_remove x l) <-> In y l /\ y <> x.
Proof.
  intros x y l. unfold set_remove. rewrite filter_In. split.
  - intros [H E]. split; [exact H|]. intros ->. rewrite N.eqb_refl in E. discriminate.
  - intros [H E]. split; [exact H|]. destruct (N.eqb x y) eqn:F; [apply N.eqb_eq in F; congruence|reflexivity].
Qed.

Lemma In_set_diff : forall y a b, In y (set_diff a b) <-> In y a /\ ~ In y b.
Proof.
  intros y a b. unfold set_diff. rewrite filter_In. split.
  - intros [H E]. split; [exact H|]. intros Hb. apply memN_In in Hb. rewrite Hb in E. discriminate.
  - intros [H E]. split; [exact H|]. destruct (memN y b) eqn:F; [apply memN_In in F; tauto|reflexivity].
Qed.

Lemma is_nil_true : forall (A : Type) (l : list A), is_nil l = true -> l = [].
Proof. intros A [|a l]; cbn; [reflexivity|discriminate]. Qed.

Definition dm_in (m : dmap) (k v : N) : Prop := exists l, In (k, l) m /\ In v l.

Lemma dm_in_nil : forall k v, ~ dm_in [] k v.
Proof. intros k v [l [[] _]]. Qed.

Lemma dm_in_cons : forall k' l' m k v, dm_in ((k', l') :: m) k v <-> (k = k' /\ In v l') \/ dm_in m k v.
Proof.
  intros k' l' m k v. unfold dm_in. split.
  - intros [l [[E|H] Hv]]; [inversion E; subst; left; auto|right; exists l; auto].
  - intros [[-> Hv]|[l [H Hv]]]; [exists l'; split; [left; reflexivity|exact Hv]|exists l; split; [right; exact H|exact Hv]].
Qed.

Lemma dm_in_add : forall k v m k' v', dm_in (dm_add k v m) k' v' -> (k' = k /\ v' = v) \/ dm_in m k' v'.
Proof.
  intros k v m k' v'. induction m as [|[q l] r IH]; cbn [dm_add].
  - rewrite dm_in_cons. intros [[-> [->|[]]]|H]; [left; auto|right; exact H].
  - destruct (N.eqb k q) eqn:E.
    + apply N.eqb_eq in E. subst q. rewrite !dm_in_cons. intros [[-> H]|H].
      * apply In_set_add in H. destruct H as [->|H]; [left; auto|right; left; auto].
      * right; right; exact H.
    + rewrite !dm_in_cons. intros [H|H]; [right; left; exact H|].
      destruct (IH H) as [H'|H']; [left; exact H'|right; right; exact H'].
Qed.

Lemma dm_in_add_all : forall k vs m k' v', dm_in (dm_add_all k vs m) k' v' -> (k' = k /\ In v' vs) \/ dm_in m k' v'.
Proof.
  intros k vs. unfold dm_add_all. induction vs as [|v vs IH]; intros m k' v'; cbn [fold_left]; [auto|].
  intros H. destruct (IH _ _ _ H) as [[-> Hv]|H']; [left; split; [reflexivity|right; exact Hv]|].
  destruct (dm_in_add _ _ _ _ _ H') as [[-> ->]|H'']; [left; split; [reflexivity|left; reflexivity]|right; exact H''].
Qed.

Lemma dm_in_remove : forall k v m k' v', dm_in (dm_remove k v m) k' v' -> dm_in m k' v'.
Proof.
  intros k v m k' v'. induction m as [|[q l] r IH]; cbn [dm_remove]; [auto|].
  destruct (N.eqb k q) eqn:E.
  - destruct (is_nil (set_remove v l)) eqn:F.
    + intros H. apply dm_in_cons. right; exact H.
    + rewrite !dm_in_cons. intros [[-> H]|H]; [left; split; [reflexivity|apply In_set_remove in H; tauto]|right; exact H].
  - rewrite !dm_in_cons. intros [H|H]; [left; exact H|right; apply IH; exact H].
Qed.

Lemma dm_get_in : forall k m v, In v (dm_get k m) -> dm_in m k v.
Proof.
  intros k m v. induction m as [|[q l] r IH]; cbn [dm_get]; [intros []|].
  destruct (N.eqb k q) eqn:E.
  - apply N.eqb_eq in E. subst q. intros H. apply dm_in_cons. left; auto.
  - intros H. apply dm_in_cons. right; apply IH; exact H.
Qed.

Lemma dm_in_fold_add_key : forall (p : N) (shs : list N) (m : dmap) k v,
  dm_in (fold_left (fun a s => dm_add s p a) shs m) k v -> (In k shs /\ v = p) \/ dm_in m k v.
Proof.
  intros p shs. induction shs as [|s shs IH]; intros m k v; cbn [fold_left]; [auto|].
  intros H. destruct (IH _ _ _ H) as [[Hk ->]|H']; [left; split; [right; exact Hk|reflexivity]|].
  destruct (dm_in_add _ _ _ _ _ H') as [[-> ->]|H'']; [left; split; [left; reflexivity|reflexivity]|right; exact H''].
Qed.

(* the loop that builds both transpose and merged: every e of l adds the edges (k, key e), k in vals e *)
Definition add_edges {X : Type} (key : X -> N) (vals : X -> list N) (l : list X) (m : dmap) : dmap :=
  fold_left (fun acc e => fold_left (fun a k => dm_add k (key e) a) (vals e) acc) l m.

Lemma dm_in_add_edges : forall (X : Type) (key : X -> N) vals (l : list X) m k v,
  dm_in (add_edges key vals l m) k v -> (exists e, In e l /\ In k (vals e) /\ v = key e) \/ dm_in m k v.
Proof.
  intros X key vals l. unfold add_edges. induction l as [|e l IH]; intros m k v; cbn [fold_left]; [auto|].
  intros H. destruct (IH _ _ _ H) as [(e' & He & Hk)|H']; [left; exists e'; split; [right; exact He|exact Hk]|].
  destruct (dm_in_fold_add_key _ _ _ _ _ H') as [Hk|H'']; [left; exists e; split; [left; reflexivity|exact Hk]|right; exact H''].
Qed.

Lemma dm_in_transpose : forall m s p, dm_in (transpose m) s p -> dm_in m p s.
Proof.
  intros m s p H. destruct (dm_in_add_edges _ fst snd m [] s p H) as [([q l] & He & Hs & ->)|H'].
  - exists l. auto.
  - destruct (dm_in_nil _ _ H').
Qed.

(* the sharemap edge of C08 is the same notion *)
Lemma sm_edge_dm_in : forall sm p s, sm_edge sm p s <-> dm_in sm s p.
Proof. intros sm p s. unfold sm_edge, dm_in. tauto. Qed.

Lemma In_sel_buckets : forall st p s, In (p, s) (sel_buckets st) <-> In p (s_use st) /\ In s (dm_get p (s_buckets st)).
Proof.
  intros st p s. unfold sel_buckets. rewrite in_flat_map. split.
  - intros [q [Hq H]]. apply in_map_iff in H. destruct H as [sh [[= <- <-] Hs]]. auto.
  - intros [Hu Hs]. exists p. split; [exact Hu|]. apply in_map_iff. exists s. auto.
Qed.

Lemma dm_in_merged : forall st s p,
  dm_in (merged st) s p -> dm_in (transpose (s_existing st)) s p \/ In (p, s) (sel_buckets st).
Proof.
  intros st s p H.
  destruct (dm_in_add_edges _ (fun q => q) (fun q => dm_get q (s_buckets st)) _ _ s p H) as [(q & Hq & Hs & ->)|H'].
  - right. apply In_sel_buckets. auto.
  - left. exact H'.
Qed.
