(* C46 / C04: no reader is ever stranded.  `LInv` holds in every reachable state: an
   unfinished, hungry reader has a queued _maybe_fetch_next or an outstanding get_segment
   request that is still queued, or whose delivery is, and has not been cancelled.  With
   queue_ok of Proofs/SegQueueBase.v this is no_stuck_state. *)
From Coq Require Import List NArith Bool Arith Lia.
From Verif Require Import Model.SegQueue Proofs.SegQueueBase Proofs.SegQueueRange.
Import ListNotations.

(* a request handle that can still fire *)
Definition live (s : sys) (rid : N) : Prop :=
  ~ In rid (s_inactive s) /\ (In rid (map r_id (s_reqs s)) \/ In rid (map fst (s_deliveries s))).

Definition reader_pending (s : sys) (r : reader) : Prop :=
  rd_result r = None ->
  (forall sg rid k, rd_active r = Some (sg, rid, k) -> live s rid) /\
  (rd_hungry r = true -> rd_mfn r > 0 \/ rd_active r <> None).

(* `skip`: the reader whose record is about to be replaced is exempt from the two
   per-reader clauses *)
Record LInvX (skip : option nat) (s : sys) : Prop := {
  l_inactive_fresh : forall x, In x (s_inactive s) -> (x < s_next_rid s)%N;
  l_req_fresh : forall q, In q (s_reqs s) -> (r_id q < s_next_rid s)%N;
  l_del_fresh : forall d, In d (s_deliveries s) -> (fst d < s_next_rid s)%N;
  l_active_fresh : forall i r sg rid k, nth_error (s_readers s) i = Some r -> rd_active r = Some (sg, rid, k) -> (rid < s_next_rid s)%N;
  l_uniq : forall i j ri rj sa sb rid ka kb,
      nth_error (s_readers s) i = Some ri -> nth_error (s_readers s) j = Some rj ->
      rd_active ri = Some (sa, rid, ka) -> rd_active rj = Some (sb, rid, kb) -> i = j;
  l_alive : forall i r, skip <> Some i -> nth_error (s_readers s) i = Some r -> rd_result r = None -> rd_alive r = true;
  l_pending : forall i r, skip <> Some i -> nth_error (s_readers s) i = Some r -> reader_pending s r;
  l_known : forall d, In d (s_deliveries s) ->
      (exists n, snd d = SegData n) \/ snd d = SegErr EBadSegNum -> s_known s = true;
  l_finished : forall i r, nth_error (s_readers s) i = Some r -> rd_result r <> None -> rd_active r = None /\ rd_alive r = false
}.

Definition LInv := LInvX None.

Lemma linv_skip s i : LInv s -> LInvX (Some i) s.
Proof. intros [? ? ? ? ? Lalive Lpending ? ?]. constructor; auto; intros; [eapply Lalive|eapply Lpending]; eauto; discriminate. Qed.

Lemma linv_alive s i r : LInv s -> nth_error (s_readers s) i = Some r -> rd_result r = None -> rd_alive r = true.
Proof. intros L. apply (l_alive _ s L). discriminate. Qed.

Lemma linv_pending s i r : LInv s -> nth_error (s_readers s) i = Some r -> reader_pending s r.
Proof. intros L. apply (l_pending _ s L). discriminate. Qed.

Lemma linv_waiting sk s i r a : LInvX sk s -> nth_error (s_readers s) i = Some r -> rd_active r = Some a -> rd_result r = None.
Proof.
  intros L Hi Ha. destruct (rd_result r) eqn:Rr; [|reflexivity].
  destruct (l_finished _ s L i r Hi) as [X _]; congruence.
Qed.

(* what the fetchers may report: blocks can only be decoded, and a segment number only
   be refused, once the UEB is known *)
Definition sev_ok (s : sys) (e : sev) : Prop :=
  match e with
  | SBlocks _ _ => s_known s = true
  | SFetchFailed EBadSegNum => s_known s = true
  | _ => True
  end.

(* the clauses of LInvX that speak of the node part only *)
Definition node_ok (s : sys) : Prop :=
  (forall x, In x (s_inactive s) -> (x < s_next_rid s)%N) /\
  (forall q, In q (s_reqs s) -> (r_id q < s_next_rid s)%N) /\
  (forall d, In d (s_deliveries s) -> (fst d < s_next_rid s)%N) /\
  (forall d, In d (s_deliveries s) -> (exists n, snd d = SegData n) \/ snd d = SegErr EBadSegNum -> s_known s = true).

Lemma linv_node_ok sk s : LInvX sk s -> node_ok s.
Proof. intros []. repeat split; assumption. Qed.

Section Live.
  Variable ct : list N.
  Variables segsize guess : N.

  Notation mfn := (maybe_fetch_next segsize guess).
  Notation fired := (reader_fired ct segsize guess).
  Notation step := (sstep true ct segsize guess).
  Notation run := (srun true ct segsize guess).

  Definition node_ext (s s' : sys) : Prop :=
    s_readers s' = s_readers s /\ (s_next_rid s <= s_next_rid s')%N /\
    (forall rid, live s rid -> live s' rid) /\
    (forall x, In x (s_inactive s') -> In x (s_inactive s)) /\
    (forall q, In q (s_reqs s') -> In q (s_reqs s)) /\
    (s_known s = true -> s_known s' = true).

  Lemma live_same s s' :
    s_inactive s' = s_inactive s -> s_reqs s' = s_reqs s -> s_deliveries s' = s_deliveries s ->
    forall rid, live s rid <-> live s' rid.
  Proof. intros A B C rid. unfold live. rewrite A, B, C. tauto. Qed.

  Lemma start_new_live s rid : live s rid <-> live (fst (start_new s)) rid.
  Proof. destruct (start_new_fields s) as (A & _ & B & C & _). apply live_same; auto. Qed.

  Lemma extract_live s seg res rid : live s rid -> live (extract s seg res) rid.
  Proof.
    unfold live, extract. cbn [upd_node s_inactive s_reqs s_deliveries]. intros [A B]. split; [exact A|].
    rewrite map_app, map_map. cbn [fst].
    destruct B as [B|B]; [|right; apply in_or_app; now left].
    apply in_map_iff in B. destruct B as (q & E & Hq).
    destruct (N.eqb (r_seg q) seg) eqn:S.
    - right. apply in_or_app. right. apply in_map_iff. exists q. split; [exact E|]. apply filter_In. now split.
    - left. apply in_map_iff. exists q. split; [exact E|]. apply filter_In. split; [exact Hq|]. now rewrite S.
  Qed.

  Lemma get_segment_live s w :
    node_ok s ->
    let s' := fst (fst (get_segment s w)) in
    node_ok s' /\ (forall rid, live s rid -> live s' rid) /\ live s' (s_next_rid s).
  Proof.
    intros (Hin & Hreq & Hdel & Hkn). destruct (get_segment_fields s w) as (R & Nx & In & D & K & _). cbn zeta.
    unfold node_ok, live. rewrite R, Nx, In, D, K, map_app. split; [|split].
    - repeat split.
      + intros x Hx. specialize (Hin x Hx). lia.
      + intros q Hq. apply in_app_or in Hq. destruct Hq as [Hq|[<-|[]]]; [specialize (Hreq q Hq)|cbn]; lia.
      + intros d Hd. specialize (Hdel d Hd). lia.
      + exact Hkn.
    - intros rid [A [B|B]]; (split; [exact A|]); [left; apply in_or_app; now left|now right].
    - split; [intros H; specialize (Hin _ H); lia|]. left. apply in_or_app. right. now left.
  Qed.

  Lemma cancel_live s rid :
    node_ok s -> (rid < s_next_rid s)%N ->
    let s' := fst (cancel s rid) in
    s_next_rid s' = s_next_rid s /\ node_ok s' /\ (forall rid', live s rid' -> rid' <> rid -> live s' rid').
  Proof.
    intros (Hin & Hreq & Hdel & Hkn) Hrid. destruct (cancel_fields s rid) as (Nx & D & K & _ & C). cbn zeta.
    unfold node_ok, live. rewrite Nx, D, K. split; [reflexivity|].
    destruct C as [(-> & -> & _)|(-> & ->)]; [tauto|]. split.
    - repeat split; auto.
      + intros x [<-|Hx]; auto.
      + intros q Hq. apply filter_In in Hq. apply Hreq. tauto.
    - intros rid' [A B] NE. split; [intros [E|E]; [congruence|contradiction]|].
      destruct B as [B|B]; [|now right]. left. apply in_map_iff in B. destruct B as (q & E & Hq).
      apply in_map_iff. exists q. split; [exact E|]. apply filter_In. split; [exact Hq|].
      apply negb_true_iff, N.eqb_neq. congruence.
  Qed.

  (* replacing reader i by r' in a state s' whose node part extends that of s *)
  Lemma linv_update s s' i r r' :
    LInvX (Some i) s -> nth_error (s_readers s) i = Some r ->
    s_readers s' = s_readers s -> (s_next_rid s <= s_next_rid s')%N -> node_ok s' ->
    (forall rid, live s rid -> (forall sg k, rd_active r <> Some (sg, rid, k)) -> live s' rid) ->
    (* the new record of reader i *)
    (forall sg rid k, rd_active r' = Some (sg, rid, k) ->
        (rid < s_next_rid s')%N /\ (rd_active r = Some (sg, rid, k) \/ (s_next_rid s <= rid)%N)) ->
    (rd_result r' = None -> rd_alive r' = true) ->
    (rd_result r' <> None -> rd_active r' = None /\ rd_alive r' = false) ->
    reader_pending s' r' ->
    LInv (set_reader s' i r').
  Proof.
    intros L Hn Hrd Hnext (Hin & Hreq & Hdel & Hkn) Hlive Hact Halive Hfin Hpend.
    (* no other reader holds the handle of r': it is the one r held, or younger than s *)
    assert (Hother : forall j x sa sb rid ka kb, nth_error (s_readers s) j = Some x ->
                       rd_active r' = Some (sa, rid, ka) -> rd_active x = Some (sb, rid, kb) -> i = j).
    { intros j x sa sb rid ka kb Hj Aa Ab. destruct (Hact _ _ _ Aa) as (_ & [Old|New]).
      - exact (l_uniq _ s L i j r x sa sb rid ka kb Hn Hj Old Ab).
      - pose proof (l_active_fresh _ s L _ _ _ _ _ Hj Ab). lia. }
    constructor; cbn [set_reader s_inactive s_reqs s_deliveries s_readers s_next_rid s_known]; auto; rewrite Hrd.
    - intros j x sg rid k Hj Hx. apply nth_error_set_nth in Hj. destruct Hj as [[<- ->]|[NE Hj]].
      + now apply (Hact sg rid k).
      + pose proof (l_active_fresh _ s L _ _ _ _ _ Hj Hx). lia.
    - intros a b ra rb sa sb rid ka kb Ha Hb Aa Ab.
      apply nth_error_set_nth in Ha. apply nth_error_set_nth in Hb.
      destruct Ha as [[<- ->]|[NEa Ha]], Hb as [[<- ->]|[NEb Hb]]; eauto.
      + symmetry. eauto.
      + eapply (l_uniq _ s L); eauto.
    - intros j x _ Hj. apply nth_error_set_nth in Hj. destruct Hj as [[<- ->]|[NE Hj]]; [exact Halive|].
      eapply (l_alive _ s L); eauto. congruence.
    - intros j x _ Hj. apply nth_error_set_nth in Hj. destruct Hj as [[<- ->]|[NE Hj]]; [exact Hpend|].
      assert (Some i <> Some j) as NS by congruence.
      intros A. destruct (l_pending _ s L _ _ NS Hj A) as [P1 P2]. split; [|exact P2]. intros sg rid k Ac.
      apply Hlive; [eapply P1; eauto|]. intros sg' k' Er. apply NE. eapply (l_uniq _ s L); eauto.
    - intros j x Hj. apply nth_error_set_nth in Hj. destruct Hj as [[<- ->]|[NE Hj]]; [exact Hfin|].
      eapply (l_finished _ s L); eauto.
  Qed.

  (* the same with the node part untouched: the record keeps its request or drops it *)
  Lemma linv_set s i r r' :
    LInvX (Some i) s -> nth_error (s_readers s) i = Some r ->
    rd_active r' = None \/ rd_active r' = rd_active r ->
    (rd_result r' = None -> rd_alive r' = true) ->
    (rd_result r' <> None -> rd_active r' = None /\ rd_alive r' = false) ->
    reader_pending s r' ->
    LInv (set_reader s i r').
  Proof.
    intros L Hi Ha. apply (linv_update s s i r r' L Hi); [reflexivity|lia|exact (linv_node_ok _ _ L)|auto|].
    intros sg rid k E. destruct Ha as [N|Same]; [congruence|]. rewrite Same in E.
    split; [exact (l_active_fresh _ s L i r sg rid k Hi E)|now left].
  Qed.

  Lemma linv_set_idle s i r r' :
    LInvX (Some i) s -> nth_error (s_readers s) i = Some r ->
    rd_active r' = None -> (rd_result r' = None -> rd_alive r' = true) -> (rd_result r' <> None -> rd_alive r' = false) ->
    (rd_result r' = None -> rd_hungry r' = true -> rd_mfn r' > 0) ->
    LInv (set_reader s i r').
  Proof.
    intros L Hi Ha Hal Hd Hp. apply (linv_set s i r r' L Hi); auto.
    intros A. split; [intros sg rid k E; congruence|]. intros B. left. auto.
  Qed.

  (* pause and resume change only rd_hungry and rd_mfn of an unfinished reader *)
  Lemma linv_reflag s i r r' :
    LInv s -> nth_error (s_readers s) i = Some r -> rd_result r = None ->
    rd_active r' = rd_active r -> rd_result r' = rd_result r -> rd_alive r' = rd_alive r ->
    (rd_hungry r' = true -> rd_mfn r' > 0 \/ rd_active r' <> None) ->
    LInv (set_reader s i r').
  Proof.
    intros L Hi Rr Ha Hr Hal Hp. destruct (linv_pending s i r L Hi Rr) as [P1 _].
    apply (linv_set s i r r' (linv_skip s i L) Hi); [now right| |congruence|].
    - intros _. rewrite Hal. exact (linv_alive s i r L Hi Rr).
    - intros _. split; [rewrite Ha; exact P1|exact Hp].
  Qed.

  (* _maybe_fetch_next for reader i whose (old) record is r0; r is the record it works on *)
  Lemma mfn_linv s i r0 r :
    LInvX (Some i) s -> nth_error (s_readers s) i = Some r0 ->
    (rd_active r = None \/ rd_active r = rd_active r0) ->
    (rd_result r = None -> rd_alive r = true) ->
    (rd_result r <> None -> rd_active r = None /\ rd_alive r = false) ->
    (rd_result r = None -> forall sg rid k, rd_active r = Some (sg, rid, k) -> live s rid) ->
    LInv (fst (mfn s i r)).
  Proof.
    intros L Hn Hact Halive Hfin Hlv.
    destruct (mfn_cases segsize guess s i r) as [Idle|A H Ac Z|w A H Ac NZ]; cbn [fst].
    - apply (linv_set s i r0 r L Hn Hact Halive Hfin). intros R. split; [now apply Hlv|].
      intros Hg. right. destruct Idle as [I|[I|I]]; [rewrite (Halive R) in I; discriminate|congruence|exact I].
    - apply (linv_set_idle s i r0 _ L Hn); cbn [rd_finish rd_active rd_result rd_alive]; [exact Ac|discriminate|reflexivity|discriminate].
    - destruct (get_segment_fields s w) as (_ & Nx & _ & _ & _ & Rd & _).
      destruct (get_segment_live s w (linv_node_ok _ _ L)) as (Nok & Lold & Lnew). cbn zeta in *.
      apply (linv_update s (fst (fst (get_segment s w))) i r0 (rd_set_active r (Some (w, s_next_rid s, s_known s))) L Hn);
        cbn [rd_set_active rd_active rd_result rd_alive]; [exact Rd|lia|exact Nok|auto| | | |].
      + intros sg rid k [= _ <- _]. rewrite Nx. split; [lia|right; lia].
      + intros _. exact A.
      + intros X. destruct (Hfin X) as [_ Y]. congruence.
      + intros _. split; [intros sg rid k [= _ <- _]; exact Lnew|]. intros _. right. discriminate.
  Qed.

  Lemma fired_linv s i r k res react :
    LInvX (Some i) s -> nth_error (s_readers s) i = Some r -> rd_alive r = true -> rd_result r = None ->
    LInv (fst (fired s i r k res react)).
  Proof.
    intros L Hi Hal Hres.
    assert (M : forall r1, rd_active r1 = None -> rd_alive r1 = true -> rd_result r1 = None -> LInv (fst (mfn s i r1))).
    { intros r1 A1 Al1 R1. apply (mfn_linv s i r r1 L Hi); auto; congruence. }
    destruct (fired_cases ct segsize guess s i r k res react) as [data G|data G|data G|x Hx|_ _].
    - now apply M.
    - apply (linv_set_idle s i r _ L Hi); cbn [rd_set_flags rd_write rd_active rd_result rd_alive rd_hungry]; auto; congruence.
    - apply (linv_set_idle s i r _ L Hi); cbn [rd_finish rd_active rd_result rd_alive]; auto; discriminate.
    - apply (linv_set_idle s i r _ L Hi); cbn [rd_finish rd_set_active rd_active rd_result rd_alive]; auto; discriminate.
    - now apply M.
  Qed.

  Lemma linv_node sk s s' :
    LInvX sk s ->
    s_readers s' = s_readers s -> (s_next_rid s <= s_next_rid s')%N -> node_ok s' ->
    (forall i r sg rid k, sk <> Some i -> nth_error (s_readers s) i = Some r -> rd_active r = Some (sg, rid, k) ->
        live s rid -> live s' rid) ->
    LInvX sk s'.
  Proof.
    intros L Hrd Hnext (Hin & Hreq & Hdel & Hkn) Hlive.
    constructor; auto; rewrite Hrd.
    - intros i r sg rid k Hi Ha. pose proof (l_active_fresh _ s L _ _ _ _ _ Hi Ha). lia.
    - apply (l_uniq _ s L).
    - apply (l_alive _ s L).
    - intros i r Hs Hi A. destruct (l_pending _ s L i r Hs Hi A) as [P1 P2]. split; [|exact P2].
      intros sg rid k Ac. eapply Hlive; eauto.
    - apply (l_finished _ s L).
  Qed.

  (* the oldest queued delivery, of handle rid, is taken off; inact' is the list of
     cancelled handles with or without rid; no reader outside sk still waits for rid *)
  Lemma linv_pop sk s rid res rest inact' :
    LInvX sk s -> s_deliveries s = (rid, res) :: rest ->
    (forall x, In x inact' -> x = rid \/ In x (s_inactive s)) ->
    (forall j r sg k, sk <> Some j -> nth_error (s_readers s) j = Some r -> rd_active r = Some (sg, rid, k) -> In rid (s_inactive s)) ->
    LInvX sk (pop s inact' rest).
  Proof.
    intros L D Hin' Hno. destruct (linv_node_ok _ _ L) as (Hin & Hreq & Hdel & Hkn). rewrite D in Hdel, Hkn.
    apply (linv_node sk s _ L); [reflexivity|cbn; lia| |]; unfold node_ok, live; cbn [pop upd_node s_inactive s_reqs s_deliveries s_next_rid s_known].
    - repeat split; [|exact Hreq|intros d Hd; exact (Hdel d (in_cons _ _ _ Hd))|intros d Hd; exact (Hkn d (in_cons _ _ _ Hd))].
      intros x Hx. destruct (Hin' x Hx) as [->|Hx']; [exact (Hdel (rid, res) (in_eq _ _))|auto].
    - intros j r sg ridj k Hs Hj Aj [A B].
      assert (ridj <> rid) as NE by (intros ->; exact (A (Hno j r sg k Hs Hj Aj))).
      split; [intros Hx; destruct (Hin' _ Hx); auto|].
      destruct B as [B|B]; [now left|right]. rewrite D in B. destruct B as [B|B]; [cbn in B; congruence|exact B].
  Qed.

  Lemma finish_linv s fid seg res :
    LInv s -> s_active s = Some (fid, seg) ->
    ((exists n, res = SegData n) \/ res = SegErr EBadSegNum -> s_known s = true) ->
    LInv (fst (start_new (extract (clear_active s) seg res))).
  Proof.
    intros L A Hk. destruct (linv_node_ok _ _ L) as (Hin & Hreq & Hdel & Hkn).
    destruct (start_new_fields (extract (clear_active s) seg res)) as (F1 & F2 & F3 & F4 & F5 & F6).
    destruct (extract_fields (clear_active s) seg res) as (_ & E2 & E3 & E4 & E5 & E6 & E7).
    cbn [clear_active upd_node s_next_rid s_inactive s_known s_readers s_reqs s_deliveries] in E2, E3, E4, E5, E6, E7.
    apply (linv_node None s _ L).
    - now rewrite F6, E5.
    - rewrite F2, E2. lia.
    - unfold node_ok. rewrite F1, F2, F3, F4, F5, E2, E3, E4, E6, E7. repeat split; auto.
      + intros q Hq. apply filter_In in Hq. apply Hreq. tauto.
      + intros d Hd. apply in_app_or in Hd. destruct Hd as [Hd|Hd]; [auto|].
        apply in_map_iff in Hd. destruct Hd as (q & <- & Hq). apply filter_In in Hq. apply Hreq. tauto.
      + intros d Hd Hx. apply in_app_or in Hd. destruct Hd as [Hd|Hd]; [now apply (Hkn d)|].
        apply in_map_iff in Hd. destruct Hd as (q & <- & Hq). now apply Hk.
    - intros i r sg rid k _ _ _ Lv. apply (proj1 (start_new_live _ rid)), extract_live. exact Lv.
  Qed.

  Lemma linv_append s x :
    LInv s -> rd_active x = None -> (rd_result x <> None -> rd_alive x = false) ->
    LInvX (Some (length (s_readers s)))
      (mk_sys (s_reqs s) (s_active s) (s_next_fid s) (s_next_rid s) (s_inactive s) (s_deliveries s) (s_known s) (s_readers s ++ [x])).
  Proof.
    intros L Hx Hd. constructor; cbn [s_inactive s_reqs s_deliveries s_readers s_next_rid s_known].
    - apply (l_inactive_fresh _ s L).
    - apply (l_req_fresh _ s L).
    - apply (l_del_fresh _ s L).
    - intros i r sg rid k Hi Ha. apply nth_error_snoc in Hi. destruct Hi as [Hi|[_ E]]; [|subst; congruence].
      eapply (l_active_fresh _ s L); eauto.
    - intros i j ri rj sa sb rid ka kb Hi Hj Ai Aj.
      apply nth_error_snoc in Hi. apply nth_error_snoc in Hj.
      destruct Hi as [Hi|[_ E]]; [|subst; congruence]. destruct Hj as [Hj|[_ E]]; [|subst; congruence].
      eapply (l_uniq _ s L); eauto.
    - intros i r Hs Hi. apply nth_error_snoc in Hi. destruct Hi as [Hi|[E _]]; [|subst; congruence].
      eapply linv_alive; eauto.
    - intros i r Hs Hi. apply nth_error_snoc in Hi. destruct Hi as [Hi|[E _]]; [|subst; congruence].
      exact (linv_pending s i r L Hi).
    - apply (l_known _ s L).
    - intros i r Hi Hr. apply nth_error_snoc in Hi. destruct Hi as [Hi|[_ E]]; [eapply (l_finished _ s L); eauto|].
      subst. auto.
  Qed.

  Lemma linv_x_fill s i : LInvX (Some i) s ->
    (forall r, nth_error (s_readers s) i = Some r -> (rd_result r = None -> rd_alive r = true) /\ reader_pending s r) -> LInv s.
  Proof.
    intros [? ? ? ? ? Lalive Lpending ? ?] H. constructor; auto.
    - intros j r _ Hj. destruct (Nat.eq_dec i j) as [E|NE]; [subst; now apply (H r Hj)|]. eapply Lalive; eauto. congruence.
    - intros j r _ Hj. destruct (Nat.eq_dec i j) as [E|NE]; [subst; now apply (H r Hj)|]. eapply Lpending; eauto. congruence.
  Qed.

  Lemma linv_x_none s i : LInvX (Some i) s -> length (s_readers s) <= i -> LInv s.
  Proof. intros L Hi. apply (linv_x_fill s i L). intros r Hr. apply nth_error_None in Hi. congruence. Qed.

  (* every list of the initial state is empty *)
  Lemma linv_init : LInv sinit.
  Proof.
    constructor; cbn [sinit s_inactive s_reqs s_deliveries s_readers]; solve [intros ? []|intros [|?]; discriminate].
  Qed.

  Lemma step_linv s e : LInv s -> sev_ok s e -> LInv (fst (step s e)).
  Proof.
    intros L Hok. destruct e as [off sz|i|i|i|i| |e|ok e|react]; cbn [sstep].
    - destruct (N.eqb (read_clip (fsize ct) off sz) 0).
      + cbn [fst]. eapply linv_x_fill.
        * apply (linv_append s _ L); cbn; auto.
        * cbn [s_readers]. intros r Hr. rewrite nth_error_app2, Nat.sub_diag in Hr by lia. cbn in Hr. inversion Hr; subst.
          unfold reader_pending. cbn. split; discriminate.
      + set (r := mk_reader off (read_clip (fsize ct) off sz) true true None [] None 0 off (read_clip (fsize ct) off sz)).
        apply (mfn_linv _ (length (s_readers s)) r r); cbn [s_readers r rd_active rd_result rd_alive]; auto; try congruence.
        * apply (linv_append s r L); [reflexivity|cbn; congruence].
        * now rewrite nth_error_app2, Nat.sub_diag by lia.
    - destruct (nth_error _ i) as [r|] eqn:E; [|exact L]. destruct (rd_result r) eqn:Rr; [exact L|].
      apply (linv_reflag s i r _ L E Rr); [reflexivity..|discriminate].
    - destruct (nth_error _ i) as [r|] eqn:E; [|exact L]. destruct (rd_result r) eqn:Rr; [exact L|].
      apply (linv_reflag s i r _ L E Rr); [reflexivity..|]. intros _. left. cbn. lia.
    - destruct (nth_error _ i) as [r|] eqn:E; [|exact L]. destruct (rd_result r) eqn:Rr; [exact L|].
      destruct (rd_active r) as [[[sg rid] k]|] eqn:Ea.
      + destruct (cancel_live s rid (linv_node_ok _ _ L) (l_active_fresh _ s L i r sg rid k E Ea)) as (Nx & Nok & Lv).
        destruct (cancel_fields s rid) as (_ & _ & _ & Rd & _).
        destruct (cancel s rid) as [s1 o]. cbn [fst] in *.
        apply (linv_update s s1 i r _ (linv_skip s i L) E Rd); cbn [rd_finish rd_active rd_result rd_alive]; [lia|exact Nok| |discriminate|discriminate|auto|discriminate].
        intros rid' Hl Hne. apply Lv; [exact Hl|]. intros ->. exact (Hne sg k Ea).
      + cbn [fst]. apply (linv_set_idle s i r _ (linv_skip s i L) E); cbn [rd_finish rd_active rd_result rd_alive]; auto; discriminate.
    - destruct (nth_error _ i) as [r|] eqn:E; [|exact L]. destruct (rd_mfn r) as [|n] eqn:Mf; [exact L|].
      apply (mfn_linv s i r _ (linv_skip s i L) E); cbn [rd_set_mfn rd_active rd_result rd_alive]; auto.
      * intros Rr. eapply linv_alive; eauto.
      * apply (l_finished _ s L i r E).
      * intros Rr. apply (linv_pending s i r L E Rr).
    - cbn [fst]. destruct L. constructor; auto.
    - destruct (s_active s) as [[fid seg]|] eqn:A; [|exact L].
      apply (finish_linv s fid seg (SegErr e) L A). intros [[n X]|X]; [discriminate|]. inversion X; subst. exact Hok.
    - destruct (s_active s) as [[fid seg]|] eqn:A; [|exact L]. cbn [sev_ok] in Hok.
      destruct ok; apply (finish_linv s fid seg _ L A); intros _; exact Hok.
    - pose proof (deliver_cases true ct segsize guess s react) as C. cbn [sstep] in C.
      destruct C as [_|rid res rest D M|rid res rest D _ No|rid res rest i r sg k D _ Nth Ea]; [exact L| | |].
      + apply (linv_pop None s rid res rest _ L D); auto.
      + apply (linv_pop None s rid res rest _ L D); [intros x [<-|Hx]; auto|].
        intros j r sg k _ Hj Aj. exfalso. exact (No j r sg k Hj Aj).
      + pose proof (linv_waiting _ s i r _ L Nth Ea) as Rr.
        apply fired_linv; [|exact Nth|exact (linv_alive s i r L Nth Rr)|exact Rr].
        apply (linv_pop (Some i) s rid res rest _ (linv_skip s i L) D); [intros x [<-|Hx]; auto|].
        intros j' r' sg' k' Hs Hj Aj. exfalso. apply Hs. f_equal. eapply (l_uniq _ s L); eauto.
  Qed.

End Live.
