(* Completeness on a new node: a downloader that starts fresh accepts every block of every genuine
   share (what the uploader -- or a repair, Proofs/ImmCheckRepair.v -- wrote), through all the
   stages of Share._get_satisfaction.  Uses the C35 completeness theorem (needed_accepted). *)
From Coq Require Import List ZArith NArith Bool Lia.
From Verif Require Import Lib.ListFacts Gen.ImmConsts Model.HashTree Model.ImmFile Model.ImmVerify
  Proofs.HashTreeBase Proofs.HashTree Proofs.HashTreeStored Proofs.HashTreeComplete Proofs.HashTreeBuild
  Proofs.ImmVerifyTree Proofs.ImmVerify.
Import ListNotations.
Local Open Scope Z_scope.

Lemma dict_set_in : forall A k (v : A) d p, In p (dict_set k v d) -> p = (k, v) \/ In p d.
Proof.
  intros A k v d p. induction d as [|[k0 v0] d IH]; intros Hin; cbn [dict_set] in Hin.
  - destruct Hin as [E|[]]. left. symmetry. exact E.
  - destruct (k =? k0).
    + destruct Hin as [E|Hin]; [left; symmetry; exact E|right; right; exact Hin].
    + destruct Hin as [E|Hin]; [right; left; exact E|].
      destruct (IH Hin) as [E|Hd]; [left; exact E|right; right; exact Hd].
Qed.

Lemma dict_set_keys : forall A k (v : A) d k', (k' = k \/ In k' (map fst d)) -> In k' (map fst (dict_set k v d)).
Proof.
  intros A k v d. induction d as [|[k0 v0] d IH]; intros k' Hk; cbn [dict_set].
  - destruct Hk as [->|[]]. left. reflexivity.
  - destruct (k =? k0) eqn:E.
    + apply Z.eqb_eq in E. subst k0. cbn [map fst In] in *. destruct Hk as [->|[->|Hk]]; auto.
    + cbn [map fst In] in *. destruct Hk as [->|[->|Hk]]; [right; apply IH; left; reflexivity|left; reflexivity|right; apply IH; right; exact Hk].
Qed.

(* dict(pairs) takes the pairs in one at a time *)
Lemma pydict_snoc : forall A (l : list (Z * A)) k v, pydict (l ++ [(k, v)]) = dict_set k v (pydict l).
Proof. intros A l k v. unfold pydict. rewrite fold_left_app. reflexivity. Qed.

Lemma pydict_in : forall A (l : list (Z * A)) p, In p (pydict l) -> In p l.
Proof.
  intros A l p. induction l as [|[k v] l IH] using rev_ind; intros Hin; [destruct Hin|].
  rewrite pydict_snoc in Hin. apply in_or_app.
  destruct (dict_set_in _ _ _ _ _ Hin) as [E|Hd]; [right; left; symmetry; exact E|left; apply IH, Hd].
Qed.

Lemma pydict_keys : forall A (l : list (Z * A)) k, In k (map fst l) -> In k (map fst (pydict l)).
Proof.
  intros A l k. induction l as [|[k0 v0] l IH] using rev_ind; intros Hk; [destruct Hk|].
  rewrite pydict_snoc. apply dict_set_keys. rewrite map_app, in_app_iff in Hk.
  destruct Hk as [Hk|[<-|[]]]; [right; apply IH, Hk|left; reflexivity].
Qed.

Section Complete.
  Variable H : Type.
  Variable H_eqb : H -> H -> bool.
  Variable pair_hash : H -> H -> H.
  Variable truthy : H -> bool.
  Variable empty_leaf : Z -> H.
  Variable block_hash : list N -> H.
  Variable seg_hash : list N -> H.
  Variable UB : Type.
  Variable ueb_hash : UB -> H.
  Variable parse_ueb : UB -> option (ueb H).
  Variable ser_ueb : ueb H -> UB.

  Hypothesis H_eqb_spec : forall a b, H_eqb a b = true <-> a = b.
  Hypothesis all_truthy_H : forall h, truthy h = true.
  Hypothesis parse_ser : forall u, parse_ueb (ser_ueb u) = Some u.

  Variable f : efile.
  Variable key : list N.
  Hypothesis Hwf : ef_wf f.

  Notation c := (g_cap H pair_hash empty_leaf block_hash seg_hash UB ueb_hash ser_ueb key f).
  Notation set_hashes := (set_hashes H H_eqb pair_hash truthy).
  Notation nn := (nn f).
  Notation nseg := (nseg f).
  Notation ns := (ns f).
  Notation nc := (nc f).
  Notation Gs := (Gs H pair_hash empty_leaf block_hash f).
  Notation Gc := (Gc H pair_hash empty_leaf seg_hash f).
  Notation Gb := (Gb H pair_hash empty_leaf block_hash f).
  Notation node_of := (node_of H empty_leaf).
  Notation rooted := (rooted H).

  Lemma rooted_closed : forall r n, closed H (rooted r n).
  Proof. intros r n j Hj Hp. exfalso. apply Hp. apply rooted_slot. exact Hj. Qed.

  Lemma rooted_slot_none : forall r n k, 0 <= k < n -> (slot_none H (rooted r n) k = true <-> 1 <= k).
  Proof.
    intros r n k Hk. rewrite (slot_none_spec H) by (rewrite rooted_zlen; lia).
    split.
    - intros Hs. destruct (Z.eq_dec k 0) as [->|]; [cbn in Hs; discriminate|lia].
    - intros H1. apply rooted_slot. exact H1.
  Qed.

  Lemma chain_range : forall n leaf nf k, needed_for n leaf = Some nf -> In k (zadd leaf nf) -> 0 <= k < n.
  Proof.
    intros n leaf nf k Hnf Hk. apply in_zadd in Hk. destruct Hk as [->|Hk].
    - apply (needed_for_spec _ _ _ Hnf).
    - pose proof (needed_for_entries _ _ _ _ Hnf Hk). lia.
  Qed.

  (* a tree holding only its root asks for the whole chain *)
  Lemma needed_rooted : forall r n fl leafnum nf,
    needed_for n (fl + leafnum) = Some nf ->
    needed_hashes H fl (rooted r n) leafnum true = Some (if fl + leafnum =? 0 then [] else zadd (fl + leafnum) nf) /\
    needed_hashes H fl (rooted r n) leafnum false = Some nf.
  Proof.
    intros r n fl leafnum nf Hnf. destruct (needed_for_spec _ _ _ Hnf) as [Hlr _].
    unfold needed_hashes. rewrite rooted_zlen, Hnf by lia.
    assert (Hnf_all : forall k, In k nf -> slot_none H (rooted r n) k = true).
    { intros k Hk. pose proof (needed_for_entries _ _ _ _ Hnf Hk). apply rooted_slot_none; lia. }
    split; [|rewrite (filter_all_true _ _ Hnf_all); reflexivity].
    destruct (fl + leafnum =? 0) eqn:E.
    - apply Z.eqb_eq in E. rewrite E in *. rewrite needed_for_root in Hnf by lia. inversion Hnf. subst nf.
      cbn [zadd zmem app filter]. assert (slot_none H (rooted r n) 0 = false) as -> by (rewrite <- not_true_iff_false, rooted_slot_none; lia).
      reflexivity.
    - apply Z.eqb_neq in E. rewrite filter_all_true; [reflexivity|]. intros k Hk. apply in_zadd in Hk.
      destruct Hk as [->|Hk]; [apply rooted_slot_none; lia|apply Hnf_all; exact Hk].
  Qed.

  (* `hashes` holds exactly the nodes `keys`, each with its genuine value *)
  Definition offers (G : Z -> H) (keys : list Z) (hashes : list (Z * H)) : Prop :=
    (forall k h, In (k, h) hashes -> In k keys /\ h = G k) /\ (forall k, In k keys -> In k (map fst hashes)).

  Lemma offers_graph : forall G keys, offers G keys (map (fun k => (k, G k)) keys).
  Proof.
    intros G keys. split.
    - intros k h Hin. apply in_map_iff in Hin. destruct Hin as [k0 [E Hk0]]. injection E as <- <-. split; [exact Hk0|reflexivity].
    - intros k Hk. rewrite map_map. cbn [fst]. rewrite map_id. exact Hk.
  Qed.

  Lemma offers_pydict : forall G keys l, offers G keys l -> offers G keys (pydict l).
  Proof.
    intros G keys l [O1 O2]. split.
    - intros k h Hin. apply O1, pydict_in, Hin.
    - intros k Hk. apply pydict_keys, O2, Hk.
  Qed.

  (* the chain of a leaf, offered to a tree that holds only the genuine root: accepted, and the
     leaf is then known (C35: needed_accepted) *)
  Lemma rooted_chain_accepted : forall (G : Z -> H) n fl leafnum hashes nf ord,
    merkle H pair_hash G n -> needed_for n (fl + leafnum) = Some nf -> 1 <= fl + leafnum ->
    offers G (zadd (fl + leafnum) nf) hashes ->
    exists T1, set_hashes fl (rooted (G 0) n) hashes [] ord = Accepted H T1 /\
               slot T1 (fl + leafnum) = Some (G (fl + leafnum)) /\ zlen T1 = n.
  Proof.
    intros G n fl leafnum hashes nf ord Hm Hnf Hleaf [Hh Hcov].
    destruct (needed_for_spec _ _ _ Hnf) as [Hlr _].
    destruct (rooted_ok H G n ltac:(lia)) as [Hl0 Hg0 Hr0].
    destruct (needed_rooted (G 0) n fl leafnum nf Hnf) as [Hnd _].
    rewrite (proj2 (Z.eqb_neq _ 0)) in Hnd by lia.
    assert (Hgt : forall j, 0 <= j < n -> truthy (G j) = true) by (intros; apply all_truthy_H).
    destruct (needed_accepted H H_eqb pair_hash truthy H_eqb_spec (pair_truthy H pair_hash truthy all_truthy_H) G n Hm Hgt
                fl _ leafnum _ hashes [] ord Hl0 Hg0 (rooted_closed (G 0) n) Hr0 Hnd Hh) as [T1 [Hacc Hslot]].
    - intros ln h [].
    - intros k Hk. left. apply Hcov, Hk.
    - exists T1. split; [exact Hacc|]. split; [exact Hslot|].
      rewrite <- Hl0. apply (accepted_keeps H H_eqb pair_hash truthy H_eqb_spec all_truthy_H _ _ _ _ _ _ Hacc).
  Qed.

  Lemma zassoc_map_seq : forall A (g : nat -> A) len start k,
    Z.of_nat start <= k < Z.of_nat (start + len) ->
    zassoc k (map (fun j => (Z.of_nat j, g j)) (seq start len)) = Some (g (Z.to_nat k)).
  Proof.
    intros A g len. induction len as [|len IH]; intros start k Hk; [lia|].
    cbn [seq map zassoc]. destruct (k =? Z.of_nat start) eqn:E.
    - apply Z.eqb_eq in E. subst k. rewrite Nat2Z.id. reflexivity.
    - apply Z.eqb_neq in E. apply IH. lia.
  Qed.

  Lemma zassoc_index_all : forall t k, 0 <= k < zlen t -> zassoc k (index_all H empty_leaf t) = Some (node_of t k).
  Proof.
    intros t k Hk. unfold index_all, ImmVerify.node_of.
    apply (zassoc_map_seq H (fun j => nth j t (empty_leaf 0)) (length t) 0%nat k). unfold zlen in Hk. lia.
  Qed.

  Lemma gather_all : forall src keys (g : Z -> H),
    (forall k, In k keys -> zassoc k src = Some (g k)) -> gather H src keys = Some (map (fun k => (k, g k)) keys).
  Proof.
    intros src keys g. induction keys as [|k r IH]; intros Hk; cbn [gather map]; [reflexivity|].
    rewrite (Hk k (or_introl eq_refl)). rewrite IH by (intros x Hx; apply Hk; right; exact Hx). reflexivity.
  Qed.

  (* the step shared by the block hash tree and the crypttext hash tree: every node the rooted tree asks
     for is read from the genuine share and accepted *)
  Lemma rooted_step : forall (t : list H) n fl leafnum ord,
    zlen t = n -> Z.odd n = true -> merkle H pair_hash (node_of t) n -> 0 <= fl + leafnum < n ->
    match needed_hashes H fl (rooted (node_of t 0) n) leafnum true with
    | None => False
    | Some [] => fl + leafnum = 0
    | Some nd =>
        exists hs T1, gather H (index_all H empty_leaf t) nd = Some hs /\
                      set_hashes fl (rooted (node_of t 0) n) hs [] ord = Accepted H T1 /\
                      slot T1 (fl + leafnum) = Some (node_of t (fl + leafnum)) /\ zlen T1 = n
    end.
  Proof.
    intros t n fl leafnum ord Hz Ho Hm Hl.
    destruct (needed_for_total _ _ Ho Hl) as [nf Hnf].
    destruct (needed_rooted (node_of t 0) n fl leafnum nf Hnf) as [-> _].
    destruct (fl + leafnum =? 0) eqn:E; [apply Z.eqb_eq in E; exact E|]. apply Z.eqb_neq in E.
    destruct (zadd (fl + leafnum) nf) as [|x nd'] eqn:Ez; [exfalso; exact (zadd_nonempty _ _ Ez)|]. rewrite <- Ez.
    destruct (rooted_chain_accepted (node_of t) n fl leafnum _ nf ord Hm Hnf ltac:(lia) (offers_graph _ _)) as [T1 A].
    exists (map (fun k => (k, node_of t k)) (zadd (fl + leafnum) nf)), T1. split; [|exact A].
    apply gather_all. intros k Hk. apply zassoc_index_all. rewrite Hz. exact (chain_range _ _ _ _ Hnf Hk).
  Qed.

  Notation sh_of ver o i := (g_share H pair_hash empty_leaf block_hash seg_hash UB ser_ueb f ver o i).
  Notation g_sht := (g_sht H pair_hash empty_leaf block_hash f).
  Notation g_cht := (g_cht H pair_hash empty_leaf seg_hash f).
  Notation g_bht := (g_bht H pair_hash empty_leaf block_hash f).
  Notation sht_tree := (sht_tree H pair_hash empty_leaf block_hash f).
  Notation bht_tree := (bht_tree H pair_hash empty_leaf block_hash f Hwf).
  Notation cht_tree := (cht_tree H pair_hash empty_leaf seg_hash f Hwf).

  Lemma stage_share_hashes_complete : forall ss cht bht ver o i ords,
    0 <= i < nn ->
    exists sht2,
      stage_share_hashes H H_eqb pair_hash truthy UB c (mkDn (Some ss) (rooted (Gs 0) ns) cht bht) i (sh_of ver o i) ords
      = (mkDn (Some ss) sht2 cht bht, None) /\
      get sht2 (first_leaf_num nn + i) = Some (Some (Gs (first_leaf_num nn + i))).
  Proof.
    intros ss cht bht ver o i ords Hi. destruct sht_tree as [Zs [Ms _]].
    unfold stage_share_hashes. cbn [g_cap c_n dn_sht dn_segsize dn_cht dn_bht]. fold nn.
    set (fl := first_leaf_num nn). set (leaf := fl + i).
    assert (Hleaf : 0 <= leaf < ns) by (apply fl_leaf_range; exact Hi).
    destruct (needed_for_total _ _ (odd_tree_size nn) Hleaf) as [nf Hnf]. fold ns in Hnf.
    destruct (needed_rooted (Gs 0) ns fl i nf Hnf) as [_ ->].
    destruct nf as [|x nf'].
    - (* N = 1: the share's leaf is the root *)
      pose proof (needed_for_nil_root _ _ Hnf) as E0. exists (rooted (Gs 0) ns). split; [reflexivity|].
      fold leaf. rewrite E0, get_slot by (rewrite rooted_zlen; lia). reflexivity.
    - cbn [g_share s_share_hashes]. fold nn. fold fl. rewrite Zs. fold leaf. rewrite Hnf.
      set (chain := zadd leaf (x :: nf')).
      set (pairs := map (fun j => (j, node_of g_sht j)) chain).
      assert (Hof : offers Gs chain (pydict pairs)) by apply offers_pydict, (offers_graph Gs).
      assert (Hleaf1 : 1 <= leaf).
      { destruct (Z.eq_dec leaf 0) as [E|E]; [|lia]. rewrite E, needed_for_root in Hnf by lia. discriminate. }
      destruct (rooted_chain_accepted Gs ns fl i _ (x :: nf') (ords 2%nat) Ms Hnf Hleaf1 Hof) as [T1 [A1 [A2 A3]]].
      (* process_share_hashes does not refuse the chain *)
      assert (Hex : existsb (fun kv => zlen (rooted (Gs 0) ns) <=? fst kv) (pydict pairs) = false).
      { apply not_true_is_false. intros E. apply existsb_exists in E. destruct E as [[k h] [Hin Hle]].
        pose proof (chain_range _ _ _ _ Hnf (proj1 (proj1 Hof k h Hin))) as Hk.
        cbn [fst] in Hle. apply Z.leb_le in Hle. rewrite rooted_zlen in Hle by lia. lia. }
      destruct pairs as [|p0 pr] eqn:Ep; [exfalso; apply map_eq_nil in Ep; exact (zadd_nonempty _ _ Ep)|].
      rewrite <- Ep in *. rewrite Hex, A1. exists T1. split; [reflexivity|].
      rewrite get_slot by (rewrite A3; exact Hleaf). exact (f_equal Some A2).
  Qed.

  (* the first share of a share number creates its CommonShare: a new tree, seeded with the
     share's leaf of the share hash tree *)
  Lemma stage_block_root_new : forall dn s h ords,
    bht_get H (dn_bht dn) s = None -> get (dn_sht dn) (first_leaf_num nn + s) = Some (Some h) ->
    stage_block_root H H_eqb pair_hash truthy c dn nseg s ords
    = (mkDn (dn_segsize dn) (dn_sht dn) (dn_cht dn) (bht_put H (dn_bht dn) s (rooted h nc)), None).
  Proof.
    intros dn s h ords Hn Hg. unfold stage_block_root, common_bht. rewrite Hn, (get0_fresh H).
    cbn [is_truthy g_cap c_n]. fold nn. rewrite Hg, seed_root_fresh. reflexivity.
  Qed.

  Lemma stage_block_hashes_complete : forall ss sht cht i j ver o ords,
    0 <= j < nseg ->
    exists T,
      stage_block_hashes H H_eqb pair_hash truthy UB (mkDn (Some ss) sht cht (bht_put H [] i (rooted (Gb i 0) nc))) nseg i j (sh_of ver o i) ords
      = (mkDn (Some ss) sht cht (bht_put H [] i T), None) /\
      slot T (first_leaf_num nseg + j) = Some (Gb i (first_leaf_num nseg + j)) /\ zlen T = nc.
  Proof.
    intros ss sht cht i j ver o ords Hj. unfold stage_block_hashes, common_bht. cbn [dn_bht dn_sht dn_segsize dn_cht].
    rewrite bht_get_put, Z.eqb_refl. destruct (bht_tree i) as [Zb [Mb _]].
    pose proof (rooted_step (g_bht i) nc (first_leaf_num nseg) j (ords 4%nat) Zb (odd_tree_size nseg) Mb (fl_leaf_range nseg j Hj)) as Hstep.
    fold (Gb i 0) in Hstep.
    destruct (needed_hashes H (first_leaf_num nseg) (rooted (Gb i 0) nc) j true) as [[|x nd]|]; [| |destruct Hstep].
    - exists (rooted (Gb i 0) nc). split; [reflexivity|]. split; [rewrite Hstep; reflexivity|].
      apply rooted_zlen, nc_ge1.
    - destruct Hstep as [hs [T1 [S1 [S2 [S3 S4]]]]]. cbn [g_share s_block_hashes]. rewrite S1, S2.
      exists T1. split; [|split; [exact S3|exact S4]].
      unfold bht_put. cbn [dict_set]. rewrite Z.eqb_refl. reflexivity.
  Qed.

  Lemma stage_ct_hashes_complete : forall ss sht bht i j ver o ords,
    0 <= j < nseg ->
    exists cht2,
      stage_ct_hashes H H_eqb pair_hash truthy UB (mkDn (Some ss) sht (rooted (Gc 0) nc) bht) nseg j (sh_of ver o i) ords
      = (mkDn (Some ss) sht cht2 bht, None).
  Proof.
    intros ss sht bht i j ver o ords Hj. unfold stage_ct_hashes. cbn [dn_bht dn_sht dn_segsize dn_cht].
    destruct cht_tree as [Zc [Mc _]].
    pose proof (rooted_step g_cht nc (first_leaf_num nseg) j (ords 5%nat) Zc (odd_tree_size nseg) Mc (fl_leaf_range nseg j Hj)) as Hstep.
    fold (Gc 0) in Hstep.
    destruct (needed_hashes H (first_leaf_num nseg) (rooted (Gc 0) nc) j true) as [[|x nd]|]; [| |destruct Hstep].
    - eexists. reflexivity.
    - destruct Hstep as [hs [T1 [S1 [S2 _]]]]. cbn [g_share s_ct_hashes]. rewrite S1, S2. eexists. reflexivity.
  Qed.

  Theorem new_node_accepts_genuine_block : forall ver o i j ords,
    check_offsets H UB (sh_of ver o i) = None ->
    0 <= i < nn -> 0 <= j < nseg ->
    exists dn',
      get_block H H_eqb pair_hash truthy block_hash UB ueb_hash parse_ueb c (node_init H c) i j (sh_of ver o i) ords
      = (dn', GBlock (gblock f i j)).
  Proof.
    intros ver o i j ords Hoff Hi Hj. unfold ImmVerify.get_block. rewrite Hoff.
    unfold stage_ueb, node_init. cbn [dn_segsize g_share s_ueb].
    rewrite (store_ueb_genuine H H_eqb pair_hash truthy empty_leaf block_hash seg_hash UB ueb_hash parse_ueb ser_ueb
               H_eqb_spec parse_ser f key Hwf (mkDn None (fresh_tree H nn) [] []) _ _ eq_refl).
    cbn [and_then dn_segsize]. change (node_nseg H c (ef_segsize f)) with nseg.
    assert (((j <? 0) || (nseg <=? j)) = false) as -> by (apply orb_false_iff; split; [apply Z.ltb_ge|apply Z.leb_gt]; lia).
    destruct (stage_share_hashes_complete (ef_segsize f) (rooted (Gc 0) nc) [] ver o i ords Hi) as [sht2 [-> G2]].
    cbn [and_then].
    rewrite (stage_block_root_new (mkDn (Some (ef_segsize f)) sht2 (rooted (Gc 0) nc) []) i _ ords eq_refl G2), (proj2 (proj2 sht_tree) i Hi).
    cbn [and_then dn_segsize dn_sht dn_cht dn_bht].
    destruct (stage_block_hashes_complete (ef_segsize f) sht2 (rooted (Gc 0) nc) i j ver o ords Hj) as [T [-> [S4 Z4]]].
    cbn [and_then].
    destruct (stage_ct_hashes_complete (ef_segsize f) sht2 (bht_put H [] i T) i j ver o ords Hj) as [cht2 ->].
    cbn [and_then].
    (* the block hash tree already holds the leaf of segment j *)
    unfold stage_block, common_bht. cbn [dn_bht dn_sht dn_cht dn_segsize g_share s_blocks].
    rewrite bht_get_put, Z.eqb_refl.
    rewrite (zassoc_map_seq (list N) (fun j0 => gblock f i (Z.of_nat j0)) (length (ef_blocks f)) 0%nat j)
      by (rewrite (wf_blocks f Hwf); unfold ImmVerify.nseg in Hj; lia).
    rewrite Z2Nat.id by lia.
    rewrite (set_hashes_known_leaf H H_eqb pair_hash truthy H_eqb_spec all_truthy_H (first_leaf_num nseg) T j (block_hash (gblock f i j)) (ords 6%nat)).
    - eexists. reflexivity.
    - rewrite Z4. apply fl_leaf_range. exact Hj.
    - rewrite S4. f_equal. apply (proj2 (proj2 (bht_tree i)) j Hj).
  Qed.
End Complete.
