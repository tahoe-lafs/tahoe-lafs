(* Proofs for C13: the Deferred-chain model of _do_serialized is a FIFO,
   non-overlapping executor that failures do not block. *)
From Coq Require Import List NArith Bool Lia.
From Verif Require Import Model.Serializer.
Import ListNotations.
Local Open Scope N_scope.

(* the callbacks that the requests l append to the chain *)
Definition triples (l : list (opid * behaviour)) : list cb :=
  flat_map (fun ob => [Start (fst ob) (snd ob); Deliver (fst ob); LogErr]) l.

Lemma triples_app a b : triples (a ++ b) = triples a ++ triples b.
Proof. apply flat_map_app. Qed.

(* the two shapes of a reachable state: nothing running, or paused on o with o's own
   Deliver and LogErr and then the callbacks of the queued requests q still to run *)
Definition idle (tr : list event) : st :=
  {| pending := []; waiting := None; current := Ok; trace := tr |}.
Definition busy (o : opid) (q : list (opid * behaviour)) (tr : list event) : st :=
  {| pending := Deliver o :: LogErr :: triples q; waiting := Some o; current := Ok; trace := tr |}.

(* what running a queue of requests does: synchronous ones run to completion
   one after the other, the first asynchronous one becomes the running op *)
Fixpoint drain (q : list (opid * behaviour)) (tr : list event) : st :=
  match q with
  | [] => idle tr
  | (o, Sync r) :: rest => drain rest (Delivered o r :: Finished o r :: Started o :: tr)
  | (o, Async) :: rest => busy o rest (Started o :: tr)
  end.

Lemma run_triples q tr : run (triples q) Ok tr = drain q tr.
Proof.
  revert tr; induction q as [|[o [r|]] q IH]; intro tr; [reflexivity| |reflexivity].
  cbn [drain]. rewrite <- IH. reflexivity.
Qed.

Lemma step_idle_request tr o b : step (idle tr) (Request o b) = drain [(o, b)] tr.
Proof. exact (run_triples [(o, b)] tr). Qed.

Lemma step_busy_request w q tr o b : step (busy w q tr) (Request o b) = busy w (q ++ [(o, b)]) tr.
Proof. unfold busy. rewrite triples_app. reflexivity. Qed.

Lemma step_busy_complete w q tr r :
  step (busy w q tr) (Complete r) = drain q (Delivered w r :: Finished w r :: tr).
Proof. exact (run_triples q _). Qed.

Lemma drain_keeps e q : forall tr, In e tr -> In e (trace (drain q tr)).
Proof.
  induction q as [|[o [r|]] q IH]; intros tr H; cbn [drain].
  - exact H.
  - apply IH. do 3 right. exact H.
  - right. exact H.
Qed.

Lemma drain_starts o b q tr : In (Started o) (trace (drain ((o, b) :: q) tr)).
Proof.
  destruct b; cbn [drain].
  - apply drain_keeps. do 2 right. left. reflexivity.
  - left. reflexivity.
Qed.

(* scanning a chronological trace: who is running at the end, or None on overlap *)
Fixpoint scan (running : option opid) (l : list event) : option (option opid) :=
  match l with
  | [] => Some running
  | Started o :: r => match running with None => scan (Some o) r | Some _ => None end
  | Finished o _ :: r => match running with Some o' => if o =? o' then scan None r else None | None => None end
  | Delivered _ _ :: r => scan running r
  end.

Lemma scan_app run0 a b : scan run0 (a ++ b) = match scan run0 a with Some r => scan r b | None => None end.
Proof.
  revert run0; induction a as [|e a IH]; intro run0; [reflexivity|].
  destruct e as [o|o r|o r]; cbn [app scan].
  - destruct run0; [reflexivity|apply IH].
  - destruct run0 as [o'|]; [|reflexivity]. destruct (o =? o'); [apply IH|reflexivity].
  - apply IH.
Qed.

Lemma scan_nonoverlap l : forall run0, scan run0 l = Some None -> nonoverlap run0 l = true.
Proof.
  induction l as [|[o|o r|o r] l IH]; intros run0 H; cbn [scan nonoverlap] in *.
  - reflexivity.
  - destruct run0; [discriminate|]. apply IH, H.
  - destruct run0 as [o'|]; [|discriminate]. destruct (o =? o'); [|discriminate]. apply IH, H.
  - apply IH, H.
Qed.

Lemma started_ids_app a b : started_ids (a ++ b) = started_ids a ++ started_ids b.
Proof.
  induction a as [|e a IH]; [reflexivity|]. destruct e; cbn [app started_ids]; rewrite IH; reflexivity.
Qed.

Lemma finished_app a b : finished (a ++ b) = finished a ++ finished b.
Proof. induction a as [|e a IH]; [reflexivity|]. destruct e; cbn [app finished]; rewrite IH; reflexivity. Qed.

Lemma delivered_app a b : delivered (a ++ b) = delivered a ++ delivered b.
Proof. induction a as [|e a IH]; [reflexivity|]. destruct e; cbn [app delivered]; rewrite IH; reflexivity. Qed.

(* What is tracked of the newest-first trace tr: ids are the operations started, in order;
   scanning it ends with w running; every finished operation's result has been handed
   to its caller. *)
Record Tr (tr : list event) (ids : list opid) (w : option opid) : Prop := {
  tr_ids : started_ids (rev tr) = ids;
  tr_scan : scan None (rev tr) = Some w;
  tr_deliv : delivered (rev tr) = finished (rev tr)
}.

Lemma tr_app tr new ids w w' :
  Tr tr ids w -> scan w (rev new) = Some w' -> delivered (rev new) = finished (rev new) ->
  Tr (new ++ tr) (ids ++ started_ids (rev new)) w'.
Proof.
  intros [Hi Hs Hd] Hs' Hd'. split; rewrite rev_app_distr.
  - rewrite started_ids_app, Hi. reflexivity.
  - rewrite scan_app, Hs. exact Hs'.
  - rewrite delivered_app, finished_app, Hd, Hd'. reflexivity.
Qed.

Lemma tr_start tr ids o : Tr tr ids None -> Tr (Started o :: tr) (ids ++ [o]) (Some o).
Proof. intro H. exact (tr_app tr [Started o] ids None (Some o) H eq_refl eq_refl). Qed.

Lemma tr_finish tr ids o r : Tr tr ids (Some o) -> Tr (Delivered o r :: Finished o r :: tr) ids None.
Proof.
  intro H. rewrite <- (app_nil_r ids).
  apply (tr_app tr [Delivered o r; Finished o r] ids (Some o) None H); [|reflexivity].
  cbn. rewrite N.eqb_refl. reflexivity.
Qed.

(* The second argument is the requests so far, in order: `done` have been started, and when an
   operation is running the queue holds exactly the others. *)
Inductive Inv : st -> list (opid * behaviour) -> Prop :=
| inv_idle tr done : Tr tr (map fst done) None -> Inv (idle tr) done
| inv_busy o q tr done : Tr tr (map fst done) (Some o) -> Inv (busy o q tr) (done ++ q).

Lemma inv_drain q : forall tr done, Tr tr (map fst done) None -> Inv (drain q tr) (done ++ q).
Proof.
  induction q as [|[o b] q IH]; intros tr done H.
  - rewrite app_nil_r. apply inv_idle, H.
  - change (done ++ (o, b) :: q) with (done ++ [(o, b)] ++ q). rewrite app_assoc.
    assert (H' : Tr (Started o :: tr) (map fst (done ++ [(o, b)])) (Some o)).
    { rewrite map_app. apply tr_start, H. }
    destruct b as [r|]; cbn [drain].
    + apply IH, tr_finish, H'.
    + apply inv_busy, H'.
Qed.

Fixpoint reqs_of (l : list input) : list (opid * behaviour) :=
  match l with
  | [] => []
  | Request o b :: r => (o, b) :: reqs_of r
  | Complete _ :: r => reqs_of r
  end.

Lemma reqs_of_app a b : reqs_of (a ++ b) = reqs_of a ++ reqs_of b.
Proof. induction a as [|i a IH]; [reflexivity|]. destruct i; cbn; rewrite IH; reflexivity. Qed.

Lemma requested_ids_reqs l : requested_ids l = map fst (reqs_of l).
Proof. induction l as [|i l IH]; [reflexivity|]. destruct i; cbn; rewrite IH; reflexivity. Qed.

Lemma inv_step s reqs i : Inv s reqs -> Inv (step s i) (reqs ++ reqs_of [i]).
Proof.
  intros [tr done H|w q tr done H]; destruct i as [o b|r]; cbn [reqs_of]; rewrite ?app_nil_r.
  - rewrite step_idle_request. apply inv_drain, H.
  - apply inv_idle, H.
  - rewrite step_busy_request, <- app_assoc. apply inv_busy, H.
  - rewrite step_busy_complete. apply inv_drain, tr_finish, H.
Qed.

Lemma inv_fold inputs : forall s reqs, Inv s reqs -> Inv (fold_left step inputs s) (reqs ++ reqs_of inputs).
Proof.
  induction inputs as [|i inputs IH]; intros s reqs H; cbn [fold_left].
  - rewrite app_nil_r. exact H.
  - change (i :: inputs) with ([i] ++ inputs). rewrite reqs_of_app, app_assoc. apply IH, inv_step, H.
Qed.

Lemma inv_exec inputs : Inv (exec inputs) (reqs_of inputs).
Proof. apply (inv_fold inputs init []), (inv_idle [] []). split; reflexivity. Qed.

Definition is_prefix {A} (a b : list A) : Prop := exists c, b = a ++ c.

Lemma inv_prefix [s reqs] : Inv s reqs -> is_prefix (started_ids (events s)) (map fst reqs).
Proof.
  intros [tr done H|o q tr done H].
  - exists []. rewrite app_nil_r. symmetry. exact (tr_ids _ _ _ H).
  - exists (map fst q). rewrite map_app, <- (tr_ids _ _ _ H). reflexivity.
Qed.

Lemma inv_scan [s reqs] : Inv s reqs -> scan None (events s) = Some (waiting s).
Proof. intros [tr done H|o q tr done H]; exact (tr_scan _ _ _ H). Qed.

Lemma inv_deliv [s reqs] : Inv s reqs -> delivered (events s) = finished (events s).
Proof. intros [tr done H|o q tr done H]; exact (tr_deliv _ _ _ H). Qed.

Lemma inv_bracketed [s reqs] : Inv s reqs -> waiting s = None -> nonoverlap None (events s) = true.
Proof. intros H W. apply scan_nonoverlap. rewrite (inv_scan H), W. reflexivity. Qed.

Lemma inv_all_started [s reqs] : Inv s reqs -> waiting s = None -> started_ids (events s) = map fst reqs.
Proof. intros [tr done H|o q tr done H] W; [exact (tr_ids _ _ _ H)|discriminate W]. Qed.

Lemma inv_complete [s reqs w] r :
  Inv s reqs -> waiting s = Some w ->
  let s' := step s (Complete r) in
  In (Finished w r) (events s') /\ In (Delivered w r) (events s') /\
  (forall o rest, map fst reqs = started_ids (events s) ++ o :: rest -> In (Started o) (events s')).
Proof.
  intros [tr done H|w' q tr done H] W; [discriminate W|]. injection W as ->.
  cbn zeta. rewrite step_busy_complete. unfold events.
  split; [|split].
  - apply -> in_rev. apply drain_keeps. right. left. reflexivity.
  - apply -> in_rev. apply drain_keeps. left. reflexivity.
  - intros o rest E. apply -> in_rev.
    rewrite map_app, <- (tr_ids _ _ _ H) in E. apply app_inv_head in E.
    destruct q as [|[o' b] q]; [discriminate E|]. injection E as -> _. apply drain_starts.
Qed.

Section Modify.
  Variable content : Type.
  Variable modifier : opid -> content -> content.

  (* while an operation is running, what it read is still what is stored *)
  Lemma replay_bracketed l : forall store run0,
    nonoverlap run0 l = true ->
    replay content modifier l store (option_map (fun _ => store) run0)
    = apply_ok content modifier (finished l) store.
  Proof.
    induction l as [|[o|o r|o r] l IH]; intros store run0 H; cbn [nonoverlap replay finished apply_ok] in *.
    - reflexivity.
    - destruct run0; [discriminate|]. apply (IH store (Some o)), H.
    - destruct run0 as [o'|]; [|discriminate]. apply andb_prop in H as [_ H].
      destruct r; apply (IH _ None), H.
    - apply IH, H.
  Qed.
End Modify.

Lemma cache_lookup_same k v c : cache_lookup ((k, v) :: c) k = Some v.
Proof.
  cbn [cache_lookup]. generalize (cache_lookup c k). intro miss.
  induction k as [|x k IH]; [reflexivity|]. rewrite N.eqb_refl. exact IH.
Qed.

Lemma cache_same_cap_same_node c k f1 f2 :
  let '(c1, n1) := create_from_cap c k f1 in
  let '(_, n2) := create_from_cap c1 k f2 in n1 = n2.
Proof.
  unfold create_from_cap. destruct (cache_lookup c k) eqn:E.
  - rewrite E. reflexivity.
  - rewrite cache_lookup_same. reflexivity.
Qed.
