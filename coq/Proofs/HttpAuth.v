(* Proofs about Model/HttpAuth.v (C30). *)
From Coq Require Import List NArith Bool String Lia.
From Verif Require Import Lib.Hex Lib.ListFacts Gen.Routes Model.HttpAuth.
Import ListNotations.
Local Open Scope N_scope.
Local Open Scope bool_scope.

Lemma secret_eqb_eq a b : secret_eqb a b = true <-> a = b.
Proof. destruct a, b; simpl; split; intro H; try reflexivity; try discriminate. Qed.

Lemma secret_eqb_refl a : secret_eqb a a = true.
Proof. apply secret_eqb_eq. reflexivity. Qed.

Lemma secret_mem_In k l : secret_mem k l = true <-> In k l.
Proof. exact (existsb_eqb_In secret_eqb secret_eqb_eq k l). Qed.

Lemma dict_get_set d k v k' :
  dict_get (dict_set d k v) k' = if secret_eqb k' k then Some v else dict_get d k'.
Proof.
  induction d as [|[k0 v0] d IH]; simpl; [reflexivity|].
  destruct (secret_eqb k k0) eqn:E; simpl.
  - apply secret_eqb_eq in E. subst k0. destruct (secret_eqb k' k); reflexivity.
  - destruct (secret_eqb k' k0) eqn:E2; [|exact IH].
    apply secret_eqb_eq in E2. subst k0. destruct (secret_eqb k' k) eqn:E3; [|reflexivity].
    apply secret_eqb_eq in E3. subst k'. rewrite secret_eqb_refl in E. discriminate.
Qed.

Lemma dict_keys_get d k : secret_mem k (dict_keys d) = true <-> exists v, dict_get d k = Some v.
Proof.
  induction d as [|[k0 v0] d IH]; simpl.
  - split; [discriminate | intros [v H]; discriminate].
  - destruct (secret_eqb k k0) eqn:E; simpl.
    + split; [intros _; eexists; reflexivity | reflexivity].
    + exact IH.
Qed.

Lemma keys_eq_spec d req :
  keys_eq d req = true ->
  forall k, In k req <-> exists v, dict_get d k = Some v.
Proof.
  unfold keys_eq. intros H k. apply andb_prop in H. destruct H as [H1 H2].
  rewrite forallb_forall in H1, H2. rewrite <- dict_keys_get. split.
  - apply H2.
  - intro Hv. apply secret_mem_In, H1, secret_mem_In, Hv.
Qed.

Lemma extract_loop_last hs : forall d d',
  extract_loop hs d = inr d' ->
  forall k, dict_get d' k = last_of k hs (dict_get d k).
Proof.
  induction hs as [|h hs IH]; intros d d' H k; simpl in *.
  - inversion H. reflexivity.
  - destruct (parse_header h) as [e|[k0 v0]] eqn:P; [discriminate|].
    rewrite (IH _ _ H k). rewrite dict_get_set.
    destruct (secret_eqb k k0); reflexivity.
Qed.

Lemma extract_loop_all_parse hs : forall d d',
  extract_loop hs d = inr d' ->
  forall h, In h hs -> exists k v, parse_header h = inr (k, v).
Proof.
  induction hs as [|h0 hs IH]; intros d d' H h Hin; simpl in *.
  - contradiction.
  - destruct (parse_header h0) as [e|[k0 v0]] eqn:P; [discriminate|].
    destruct Hin as [<-|Hin].
    + exists k0, v0. exact P.
    + eapply IH; eauto.
Qed.

Lemma last_of_some k hs : forall acc,
  (exists v, last_of k hs acc = Some v) <->
  (exists v, acc = Some v) \/ Exists (fun h => exists v, parse_header h = inr (k, v)) hs.
Proof.
  induction hs as [|h hs IH]; intro acc; cbn [last_of].
  - rewrite Exists_nil. tauto.
  - destruct (parse_header h) as [e|[k0 v0]] eqn:P; [|destruct (secret_eqb k k0) eqn:E]; rewrite IH, Exists_cons.
    + assert (~ exists v, parse_header h = inr (k, v)) by (intros [v Q]; congruence). tauto.
    + apply secret_eqb_eq in E. subst k0. split; intros _; [right; left|left]; eauto.
    + assert (k <> k0) by (intros ->; rewrite secret_eqb_refl in E; discriminate).
      assert (~ exists v, parse_header h = inr (k, v)) by (intros [v Q]; congruence). tauto.
Qed.

Lemma extract_ok_spec hs req d :
  extract_secrets hs req = inr d ->
  (forall h, In h hs -> exists k v, parse_header h = inr (k, v))
  /\ (forall k, dict_get d k = last_of k hs None)
  /\ (forall k, In k req <-> exists v, last_of k hs None = Some v).
Proof.
  unfold extract_secrets. intro H.
  destruct (extract_loop hs []) as [e|d0] eqn:L; [discriminate|].
  destruct (keys_eq d0 req) eqn:K; [|discriminate]. inversion H; subst d0. clear H.
  split; [|split].
  - eapply extract_loop_all_parse. exact L.
  - intro k. rewrite (extract_loop_last _ _ _ L k). reflexivity.
  - intro k. rewrite (keys_eq_spec _ _ K k). rewrite (extract_loop_last _ _ _ L k). simpl. reflexivity.
Qed.

Lemma extract_bad hs req :
  (exists h e, In h hs /\ parse_header h = inl e)
  \/ (exists k, In k req /\ forall h, In h hs -> forall k' v, parse_header h = inr (k', v) -> k' <> k)
  \/ (exists h k v, In h hs /\ parse_header h = inr (k, v) /\ ~ In k req) ->
  exists e, extract_secrets hs req = inl e.
Proof.
  intro H. destruct (extract_secrets hs req) as [e'|d] eqn:X; [eexists; reflexivity|]. exfalso.
  apply extract_ok_spec in X. destruct X as [A [_ C]].
  destruct H as [[h [e [Hin P]]] | [[k [Hin Habs]] | [h [k [v [Hin [P Hn]]]]]]].
  - destruct (A h Hin) as [k [v Q]]. congruence.
  - apply C, last_of_some in Hin. destruct Hin as [[v Hv]|Hex]; [discriminate|].
    apply Exists_exists in Hex. destruct Hex as (h & Hh & v & P). exact (Habs h Hh k v P eq_refl).
  - apply Hn, C, last_of_some. right. apply Exists_exists. eauto.
Qed.

Lemma authorize_no_swissnum sw req rq :
  auth_header rq <> Some (swissnum_auth_header sw) ->
  authorize sw req rq = Reject (match auth_header rq with None => BadAuthorizationHeader | Some _ => WrongAuthorizationHeader end).
Proof.
  intro H. unfold authorize. destruct (auth_header rq) as [a|]; [|reflexivity].
  unfold timing_safe_compare. rewrite list_N_eqb_neq; [reflexivity | congruence].
Qed.

Lemma authorize_invoke_inv sw req rq d :
  authorize sw req rq = Invoke d ->
  auth_header rq = Some (swissnum_auth_header sw)
  /\ exists hs, all_some (rq_xauth rq) = Some hs /\ extract_secrets hs req = inr d.
Proof.
  unfold authorize. destruct (auth_header rq) as [a|]; [|discriminate].
  unfold timing_safe_compare. destruct (list_N_eqb a (swissnum_auth_header sw)) eqn:E; simpl; [|discriminate].
  apply list_N_eqb_eq in E. subst a.
  destruct (all_some (rq_xauth rq)) as [hs|]; [|discriminate].
  destruct (extract_secrets hs req) as [e|d0] eqn:X; [discriminate|].
  intro H. inversion H. subst d0. split; [reflexivity|]. exists hs. split; [reflexivity | exact X].
Qed.

(* Duplicated kinds are not rejected: the handler gets the last header of each kind. *)
Lemma authorize_effective sw req rq d k :
  authorize sw req rq = Invoke d -> dict_get d k = effective_secret rq k.
Proof.
  intro H. destruct (authorize_invoke_inv _ _ _ _ H) as [_ [hs [A E]]].
  unfold effective_secret. rewrite A. apply (extract_ok_spec hs req d E).
Qed.

Section HandlerProofs.
  Variable B R RTW : Type.
  Variable bucket_write : B -> upkey -> N -> list N -> B * R * bool.
  Variable bucket_abort : B -> upkey -> B.
  Variable already_uploaded : B -> upkey -> bool.
  Variable backend_rtw : B -> list N -> (list N * list N * list N) -> RTW -> option (B * R).

  Notation serve' := (serve B R RTW bucket_write bucket_abort already_uploaded backend_rtw).
  Notation run' := (run_action B R RTW bucket_write bucket_abort already_uploaded backend_rtw).

  Lemma serve_no_swissnum sw req rq a st :
    auth_header rq <> Some (swissnum_auth_header sw) ->
    serve' sw req rq a st = (st, HStatus (match auth_header rq with None => 400 | Some _ => 401 end)).
  Proof.
    intro H. unfold serve. rewrite (authorize_no_swissnum _ _ _ H).
    destruct (auth_header rq); reflexivity.
  Qed.

  Lemma serve_bad_secrets sw req rq hs a st :
    auth_header rq = Some (swissnum_auth_header sw) ->
    all_some (rq_xauth rq) = Some hs ->
    (exists e, extract_secrets hs req = inl e) ->
    serve' sw req rq a st = (st, HStatus 400).
  Proof.
    intros A X [e E]. unfold serve, authorize, timing_safe_compare.
    rewrite A, list_N_eqb_refl, X, E. reflexivity.
  Qed.

  Definition refused (st : hstate B) (res : hstate B * response R) : Prop :=
    fst res = st /\ exists c, snd res = HStatus c /\ is_reject_status c.

  Lemma refused_status st c : is_reject_status c -> refused st (st, HStatus c).
  Proof. intro H. split; [reflexivity|]. exists c. split; [reflexivity | exact H]. Qed.

  (* the decorator refuses unless the handler runs, so it is enough that the handler refuses *)
  Lemma serve_refused sw req rq a st :
    (forall d, authorize sw req rq = Invoke d -> refused st (run' d a st)) -> refused st (serve' sw req rq a st).
  Proof.
    intro H. unfold serve. destruct (authorize sw req rq) as [why|d]; [|exact (H d eq_refl)].
    apply refused_status. red. destruct why; simpl; auto.
  Qed.

  Lemma get_write_bucket_wrong u k s s' :
    up_lookup u k = Some s -> s' <> s -> get_write_bucket u k s' = inl 401.
  Proof.
    intros L Hn. unfold get_write_bucket, validate_upload_secret. rewrite L.
    unfold timing_safe_compare. rewrite list_N_eqb_neq; [reflexivity | congruence].
  Qed.

  Lemma h_write_wrong_secret d k off body u b s s' :
    up_lookup u k = Some s -> dict_get d S_UPLOAD = Some s' -> s' <> s ->
    h_write B R bucket_write d k true off body (u, b) = ((u, b), HStatus 401).
  Proof.
    intros L D Hn. unfold h_write. simpl. rewrite D. rewrite (get_write_bucket_wrong _ _ _ _ L Hn). reflexivity.
  Qed.

  Lemma h_abort_wrong_secret d k u b s s' :
    up_lookup u k = Some s -> dict_get d S_UPLOAD = Some s' -> s' <> s ->
    h_abort B R bucket_abort already_uploaded d k (u, b) = ((u, b), HStatus 401).
  Proof.
    intros L D Hn. unfold h_abort. simpl. rewrite D. rewrite (get_write_bucket_wrong _ _ _ _ L Hn). reflexivity.
  Qed.

  Lemma h_write_refused d k cr off body u b s :
    up_lookup u k = Some s -> dict_get d S_UPLOAD <> Some s ->
    refused (u, b) (h_write B R bucket_write d k cr off body (u, b)).
  Proof.
    intros L Hn. unfold h_write. destruct cr; cbn [negb fst]; [|apply refused_status; red; auto].
    destruct (dict_get d S_UPLOAD) as [s'|]; [|apply refused_status; red; auto].
    rewrite (get_write_bucket_wrong u k s s' L) by congruence. apply refused_status; red; auto.
  Qed.

  Lemma h_abort_refused d k u b s :
    up_lookup u k = Some s -> dict_get d S_UPLOAD <> Some s ->
    refused (u, b) (h_abort B R bucket_abort already_uploaded d k (u, b)).
  Proof.
    intros L Hn. unfold h_abort. cbn [fst]. destruct (dict_get d S_UPLOAD) as [s'|]; [|apply refused_status; red; auto].
    rewrite (get_write_bucket_wrong u k s s' L) by congruence. apply refused_status; red; auto.
  Qed.

  Lemma serve_upload_secret sw req rq k cr off body u b s :
    up_lookup u k = Some s ->
    effective_secret rq S_UPLOAD <> Some s ->
    refused (u, b) (serve' sw req rq (AWrite k cr off body) (u, b))
    /\ refused (u, b) (serve' sw req rq (AAbort k) (u, b)).
  Proof.
    intros L Hn. split; apply serve_refused; intros d A; rewrite <- (authorize_effective _ _ _ _ S_UPLOAD A) in Hn.
    - exact (h_write_refused d k cr off body u b s L Hn).
    - exact (h_abort_refused d k u b s L Hn).
  Qed.

  (* write enabler: delegated to the storage server *)
  Variable slot_enabler : B -> list N -> option (list N).
  Hypothesis backend_checks_enabler :
    forall b si we lr lc req e, slot_enabler b si = Some e -> we <> e -> backend_rtw b si (we, lr, lc) req = None.

  Lemma h_rtw_passes_secrets d si req u b we lr lc :
    dict_get d S_WRITE_ENABLER = Some we -> dict_get d S_LEASE_RENEW = Some lr -> dict_get d S_LEASE_CANCEL = Some lc ->
    h_rtw B R RTW backend_rtw d si req (u, b) =
      match backend_rtw b si (we, lr, lc) req with
      | None => ((u, b), HStatus 401)
      | Some (b', r) => ((u, b'), HBusiness r)
      end.
  Proof. intros A C D. unfold h_rtw. rewrite A, C, D. reflexivity. Qed.

  Lemma serve_write_enabler sw req rq si rtw u b e :
    slot_enabler b si = Some e ->
    effective_secret rq S_WRITE_ENABLER <> Some e ->
    refused (u, b) (serve' sw req rq (ARtw si rtw) (u, b)).
  Proof.
    intros S Hn. apply serve_refused. intros d A. rewrite <- (authorize_effective _ _ _ _ S_WRITE_ENABLER A) in Hn.
    cbn [run_action]. unfold h_rtw.
    destruct (dict_get d S_WRITE_ENABLER) as [we|]; [|apply refused_status; red; auto].
    destruct (dict_get d S_LEASE_RENEW) as [lr|]; [|apply refused_status; red; auto].
    destruct (dict_get d S_LEASE_CANCEL) as [lc|]; [|apply refused_status; red; auto].
    cbn [snd]. rewrite (backend_checks_enabler b si we lr lc rtw e S) by congruence. apply refused_status; red; auto.
  Qed.
End HandlerProofs.

Lemma routes_all_ok : forallb route_ok routes = true.
Proof. vm_compute. reflexivity. Qed.

Lemma route_in_table_ok r : In r routes -> r_authorised r = true /\ secret_set_eqb (r_uses r) (r_required r) = true.
Proof. intro H. apply andb_prop. exact (proj1 (forallb_forall _ _) routes_all_ok r H). Qed.
