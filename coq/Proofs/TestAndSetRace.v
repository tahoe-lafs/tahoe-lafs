(* C12, "concurrent writers are detected": two publishes whose survey-to-write windows
   overlap and that both send a guarded write for the same share cannot both finish
   unsurprised -- for every interleaving of any number of writers and any cells.
   Built on the ghost dirty sets and the invariant of Proofs/TestAndSetTrace.v. *)
From Coq Require Import List NArith Bool Lia Arith.
From Verif Require Import Lib.ListFacts Model.TestAndSet Proofs.TestAndSet Proofs.TestAndSetTrace.
Import ListNotations.
Local Open Scope N_scope.

Definition surveyed (s : sys) (j : nat) : Prop :=
  exists w snap, nth_error (ws s) j = Some w /\ snapshot w = Some snap.
Definition surprised (s : sys) (j : nat) : Prop :=
  exists w, nth_error (ws s) j = Some w /\ w_surprised w = true.

Lemma surveyed_step s e o : surveyed s o -> surveyed (step s e) o.
Proof.
  intros (w & snap & Hw & Hs).
  enough (exists w', nth_error (ws (step s e)) o = Some w' /\ snapshot w' <> None) as (w' & Hw' & Hs').
  { destruct (snapshot w') as [snap'|] eqn:E; [exists w', snap'; auto|congruence]. }
  assert (H : exists w, nth_error (ws s) o = Some w /\ snapshot w <> None) by (exists w; split; congruence).
  destruct (step_cases s e); [exact H|..];
    apply (writer_upd (fun w => snapshot w <> None)) with w0; auto; discriminate.
Qed.

Lemma surprised_fold evs s j : surprised s j -> surprised (fold_left step evs s) j.
Proof.
  apply (fold_left_preserves (fun s => surprised s j)).
  intros s' e [w [Hw Hs]]. exact (surprised_sticky_ok e s' j w Hw Hs).
Qed.

(* the ghost set of a surveyed writer only grows while it does not survey again *)
Lemma dirty_step g e o i :
  surveyed (gs g) o -> survey_ok (gs g) e -> In i (dirty g o) -> In i (dirty (gstep g e) o).
Proof.
  intros [w [snap [Hw Hs]]] Hok Hin. destruct e as [j0|j0 i0]; cbn [gstep].
  - cbn [dirty]. destruct (Nat.eqb_spec o j0) as [->|Hne]; [|exact Hin].
    cbn [survey_ok] in Hok. rewrite (Hok w Hw) in Hs. discriminate.
  - destruct (applied (gs g) (Write j0 i0)); cbn [dirty]; [|exact Hin].
    destruct (Nat.eqb o j0); [exact Hin|right; exact Hin].
Qed.

Lemma write_outcome g j i :
  Inv g -> surveyed (gs g) j -> (i < length (cells (gs g)))%nat ->
  applied (gs g) (Write j i) = true \/ surprised (step (gs g) (Write j i)) j.
Proof.
  intros HI [w [snap [Hw Hs]]] Hi.
  assert (Hlen : length snap = length (cells (gs g))).
  { apply (inv_len g HI j). unfold snap_of. rewrite Hw. exact Hs. }
  destruct (nth_error (cells (gs g)) i) as [cur|] eqn:Hc; [|apply nth_error_None in Hc; lia].
  destruct (nth_error snap i) as [seen|] eqn:Hn; [|apply nth_error_None in Hn; lia].
  unfold applied. rewrite (step_write _ j i w snap cur seen Hw Hs Hc Hn), Hw, Hs, Hc, Hn.
  destruct (cur =? seen); [left; reflexivity|right].
  eexists. split; [exact (nth_error_upd_same _ _ _ _ _ Hw)|reflexivity].
Qed.

(* what is carried along a trace about a surveyed writer o and an existing cell i *)
Definition watching (g : gstate) (o i : nat) : Prop :=
  Inv g /\ surveyed (gs g) o /\ (i < length (cells (gs g)))%nat.

Lemma watching_step g e o i : watching g o i -> survey_ok (gs g) e -> watching (gstep g e) o i.
Proof.
  intros (HI & Hs & Hi) Hok. unfold watching. rewrite gstep_gs, step_cells_length.
  exact (conj (inv_step g e HI Hok) (conj (surveyed_step _ e o Hs) Hi)).
Qed.

(* once another writer has written to the cell it stays dirty for o ... *)
Lemma dirty_fold evs g o i :
  watching g o i -> In i (dirty g o) -> single_survey_from (gs g) evs ->
  watching (fold_left gstep evs g) o i /\ In i (dirty (fold_left gstep evs g) o).
Proof.
  intros HW Hin. apply (single_survey_fold (fun g => watching g o i /\ In i (dirty g o))); [|auto].
  intros g' e [HW' Hin'] Hok. split; [exact (watching_step g' e o i HW' Hok)|].
  apply dirty_step; [apply HW'|exact Hok|exact Hin'].
Qed.

(* ... and o's write to it is refused *)
Lemma dirty_write_surprises g o i :
  watching g o i -> In i (dirty g o) -> surprised (step (gs g) (Write o i)) o.
Proof.
  intros (HI & Hs & Hi) Hin. destruct (write_outcome g o i HI Hs Hi) as [Ha|H]; [|exact H].
  destruct (applied_untouched g o i HI Ha Hin).
Qed.

Lemma race g j o i mid post :
  watching g j i -> surveyed (gs g) o -> j <> o ->
  single_survey_from (gs g) (Write j i :: mid ++ Write o i :: post) ->
  let s := fold_left step (Write j i :: mid ++ Write o i :: post) (gs g) in
  surprised s j \/ surprised s o.
Proof.
  intros (HI & Hsj & Hi) Hso Hne [_ Hss] s. subst s. cbn [fold_left].
  destruct (write_outcome g j i HI Hsj Hi) as [Ha|Hsur].
  - (* j's write is applied: the cell becomes dirty for o and stays so until o's write, which is refused *)
    right. rewrite fold_left_app. cbn [fold_left]. apply surprised_fold.
    apply single_survey_from_app in Hss as [Hmid _].
    rewrite <- (gstep_gs g (Write j i)) in *. rewrite <- gfold_gs.
    destruct (dirty_fold mid (gstep g (Write j i)) o i) as [HW Hd]; [| |exact Hmid|exact (dirty_write_surprises _ o i HW Hd)].
    + apply watching_step; [exact (conj HI (conj Hso Hi))|exact I].
    + cbn [gstep]. rewrite Ha. cbn [dirty]. destruct (Nat.eqb_spec o j); [congruence|left; reflexivity].
  - (* j's write is refused: j is surprised, for good *)
    left. apply surprised_fold, Hsur.
Qed.

Lemma overlapping_publishes_detected_ok ncells n pre mid post j o i :
  single_survey ncells n (pre ++ Write j i :: mid ++ Write o i :: post) ->
  j <> o -> (i < ncells)%nat ->
  surveyed (run ncells n pre) j -> surveyed (run ncells n pre) o ->
  let s := run ncells n (pre ++ Write j i :: mid ++ Write o i :: post) in
  surprised s j \/ surprised s o.
Proof.
  intros Hss Hne Hi Hsj Hso s. subst s.
  apply single_survey_from_app in Hss as [Hpre Hrest]. fold (run ncells n pre) in Hrest.
  destruct (run_cells_ok ncells n pre) as (_ & _ & Hlen).
  assert (HW : watching (grun ncells n pre) j i).
  { unfold watching. rewrite grun_gs, Hlen. exact (conj (inv_run _ _ _ Hpre) (conj Hsj Hi)). }
  unfold run. rewrite fold_left_app. fold (run ncells n pre).
  rewrite <- (grun_gs ncells n pre) in Hso, Hrest |- *.
  exact (race _ j o i mid post HW Hso Hne Hrest).
Qed.
