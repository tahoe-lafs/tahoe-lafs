(* List-of-bytes lemmas for the container proofs: big-endian fields, pread/pwrite
   over concatenations, what the first bytes of a file are after a write. *)
From Coq Require Import List NArith Arith Bool Lia.
From Verif Require Import Lib.Hex Lib.ListFacts Gen.MutConsts Model.MutContainer.
Import ListNotations.
Local Open Scope N_scope.

Lemma be_length n v : length (be n v) = n.
Proof. revert v; induction n as [|n IH]; intro v; cbn [be]; [reflexivity|]. rewrite app_length, IH. cbn. lia. Qed.

Lemma unbe_app1 l b : unbe (l ++ [b]) = unbe l * 256 + b.
Proof. unfold unbe. rewrite fold_left_app. reflexivity. Qed.

Lemma unbe_be n v : v < 256 ^ N.of_nat n -> unbe (be n v) = v.
Proof.
  revert v; induction n as [|n IH]; intros v Hv.
  - cbn in *. lia.
  - cbn [be]. rewrite unbe_app1, IH.
    + pose proof (N.div_mod v 256). lia.
    + rewrite Nat2N.inj_succ, N.pow_succ_r' in Hv. apply N.div_lt_upper_bound; lia.
Qed.

Lemma be_bytes n v : Forall (fun b => b < 256) (be n v).
Proof.
  revert v; induction n as [|n IH]; intro v; cbn [be]; [constructor|].
  apply Forall_app; split; [apply IH|]. constructor; [|constructor]. apply N.mod_lt. lia.
Qed.

Lemma be_unbe l : Forall (fun b => b < 256) l -> be (length l) (unbe l) = l.
Proof.
  induction l as [|x l IH] using rev_ind; intro Hb; [reflexivity|].
  apply Forall_app in Hb. destruct Hb as [Hl Hx]. inversion Hx; subst.
  rewrite app_length, unbe_app1. cbn [length]. rewrite Nat.add_1_r. cbn [be].
  replace ((unbe l * 256 + x) / 256) with (unbe l).
  2:{ apply N.div_unique with x; lia. }
  replace ((unbe l * 256 + x) mod 256) with x.
  2:{ apply N.mod_unique with (unbe l); lia. }
  rewrite IH by assumption. reflexivity.
Qed.

Lemma unbe_bound l : Forall (fun b => b < 256) l -> unbe l < 256 ^ N.of_nat (length l).
Proof.
  induction l as [|x l IH] using rev_ind; intro Hb; [cbn; lia|].
  apply Forall_app in Hb. destruct Hb as [Hl Hx]. inversion Hx; subst.
  rewrite app_length, unbe_app1. cbn [length]. rewrite Nat.add_1_r, Nat2N.inj_succ, N.pow_succ_r'.
  specialize (IH Hl). lia.
Qed.

Lemma pack_be_ok n v : v < 256 ^ N.of_nat n -> pack_be n v = Ok (be n v).
Proof. intro Hv. unfold pack_be. apply N.ltb_lt in Hv. rewrite Hv. reflexivity. Qed.

Lemma unpack_be_ok n l : length l = n -> unpack_be n l = Ok (unbe l).
Proof. intro Hl. unfold unpack_be. rewrite <- Hl, Nat.eqb_refl. reflexivity. Qed.

Lemma unpack_be_inv n l v : unpack_be n l = Ok v -> length l = n /\ v = unbe l.
Proof.
  unfold unpack_be. destruct (Nat.eqb (length l) n) eqn:E; [|discriminate].
  intro Hx. inversion Hx. apply Nat.eqb_eq in E. auto.
Qed.

Lemma len_app a b : len (a ++ b) = len a + len b.
Proof. unfold len. rewrite app_length. lia. Qed.
Lemma zeros_length n : length (zeros n) = N.to_nat n.
Proof. unfold zeros. apply repeat_length. Qed.
Lemma len_zeros n : len (zeros n) = n.
Proof. unfold len. rewrite zeros_length. lia. Qed.
Lemma len_nat l : N.to_nat (len l) = length l.
Proof. unfold len. lia. Qed.

Lemma fit_length n s : length (fit n s) = n.
Proof. unfold fit. rewrite app_length, firstn_length, repeat_length. lia. Qed.

Lemma fit_id n s : length s = n -> fit n s = s.
Proof. intro Hl. unfold fit. rewrite firstn_all2 by lia. rewrite <- Hl, Nat.sub_diag. apply app_nil_r. Qed.

Lemma fit_firstn n s : (n <= length s)%nat -> fit n s = firstn n s.
Proof. intro Hn. unfold fit. replace (n - length s)%nat with 0%nat by lia. apply app_nil_r. Qed.

(* pread / pwrite with offsets in nat *)
Definition prn (f : list N) (o n : nat) : list N := firstn n (skipn o f).
Definition pwn (f : list N) (o : nat) (d : list N) : list N :=
  match d with
  | [] => f
  | _ => firstn o f ++ repeat 0 (o - length f) ++ d ++ skipn (o + length d) f
  end.

Lemma pread_prn f off n : pread f off n = prn f (N.to_nat off) (N.to_nat n).
Proof. reflexivity. Qed.
Lemma pwrite_pwn f off d : pwrite f off d = pwn f (N.to_nat off) d.
Proof. reflexivity. Qed.

Lemma prn_length_inside (f : list N) o n : (o + n <= length f)%nat -> length (prn f o n) = n.
Proof. intro Hi. unfold prn. rewrite firstn_length, skipn_length. lia. Qed.

Lemma pwn_fit f o d : d <> [] -> pwn f o d = fit o f ++ d ++ skipn (o + length d) f.
Proof. intro Hd. unfold pwn, fit. destruct d; [congruence|]. rewrite <- app_assoc. reflexivity. Qed.

Lemma pwn_split f o d : (o <= length f)%nat -> pwn f o d = firstn o f ++ d ++ skipn (o + length d) f.
Proof.
  intro Ho. unfold pwn. destruct d; [rewrite Nat.add_0_r; symmetry; apply firstn_skipn|].
  replace (o - length f)%nat with 0%nat by lia. reflexivity.
Qed.

Lemma pwn_length f o d : d <> [] -> length (pwn f o d) = Nat.max (length f) (o + length d).
Proof.
  intro Hd. unfold pwn. destruct d as [|x d]; [congruence|].
  rewrite !app_length, firstn_length, repeat_length, skipn_length. cbn [length]. lia.
Qed.

Lemma pwn_length_inside f o d : (o + length d <= length f)%nat -> length (pwn f o d) = length f.
Proof.
  intro Hi. destruct d as [|x d]; [reflexivity|]. rewrite pwn_length by discriminate. lia.
Qed.

Lemma len_pwrite_inside f off d : off + len d <= len f -> len (pwrite f off d) = len f.
Proof. intro Hi. unfold len in *. rewrite pwrite_pwn, pwn_length_inside; [reflexivity|lia]. Qed.

Lemma prn_app_skip a b k o n : length a = k -> prn (a ++ b) (k + o) n = prn b o n.
Proof. intros <-. unfold prn. rewrite skipn_app. rewrite skipn_all2 by lia. replace (length a + o - length a)%nat with o by lia. reflexivity. Qed.

Lemma prn_exact a x b o n : length a = o -> length x = n -> prn (a ++ x ++ b) o n = x.
Proof.
  intros <- <-. unfold prn. rewrite skipn_app, skipn_all, Nat.sub_diag. cbn [skipn app].
  rewrite firstn_app, firstn_all, Nat.sub_diag. cbn. apply app_nil_r.
Qed.

Lemma prn_inside r t o n : (o + n <= length r)%nat -> prn (r ++ t) o n = prn r o n.
Proof.
  intro Hi. unfold prn. rewrite skipn_app, firstn_app, skipn_length.
  replace (n - (length r - o))%nat with 0%nat by lia. cbn. apply app_nil_r.
Qed.

Lemma prn_app_end (a b : list N) : prn (a ++ b) (length a) (length b) = b.
Proof. rewrite <- (app_nil_r b) at 1. apply prn_exact; reflexivity. Qed.

Lemma pwn_app_skip a b o d : pwn (a ++ b) (length a + o) d = a ++ pwn b o d.
Proof.
  unfold pwn. destruct d as [|x d]; [reflexivity|]. remember (x :: d) as dd. clear Heqdd.
  rewrite firstn_app, firstn_all2 by lia. replace (length a + o - length a)%nat with o by lia.
  rewrite app_length. replace (length a + o - (length a + length b))%nat with (o - length b)%nat by lia.
  rewrite skipn_app, skipn_all2 by lia. cbn [app].
  replace (length a + o + length dd - length a)%nat with (o + length dd)%nat by lia.
  rewrite <- !app_assoc. reflexivity.
Qed.

Lemma pwn_exact a x b o d : length a = o -> length x = length d -> pwn (a ++ x ++ b) o d = a ++ d ++ b.
Proof.
  intros <- Hl. rewrite pwn_split by (rewrite app_length; lia).
  rewrite <- skipn_add, !skipn_app_exact, firstn_app_exact by auto. reflexivity.
Qed.

Lemma pwn_inside r t o d : (o + length d <= length r)%nat -> pwn (r ++ t) o d = pwn r o d ++ t.
Proof.
  intro Hi. unfold pwn. destruct d as [|x d]; [reflexivity|]. remember (x :: d) as dd. clear Heqdd.
  rewrite firstn_app, app_length, skipn_app.
  replace (o - length r)%nat with 0%nat by lia. replace (o - (length r + length t))%nat with 0%nat by lia.
  replace (o + length dd - length r)%nat with 0%nat by lia. cbn [firstn skipn repeat app].
  rewrite app_nil_r. rewrite <- !app_assoc. reflexivity.
Qed.

Lemma prn_pwn_same (s b : list N) o : (o <= length s)%nat -> prn (pwn s o b) o (length b) = b.
Proof. intro Ho. rewrite pwn_split by exact Ho. apply prn_exact; [rewrite firstn_length; lia|reflexivity]. Qed.

Lemma prn_pwn_other (s b : list N) o o' k : (o <= length s)%nat ->
  (o' + k <= o \/ o + length b <= o')%nat -> prn (pwn s o b) o' k = prn s o' k.
Proof.
  intros Ho Hd. rewrite pwn_split by exact Ho.
  assert (La : length (firstn o s) = o) by (rewrite firstn_length; lia). destruct Hd as [Hd|Hd].
  - rewrite <- (firstn_skipn o s) at 3. rewrite !prn_inside by lia. reflexivity.
  - rewrite app_assoc. replace o' with (length (firstn o s ++ b) + (o' - (o + length b)))%nat at 1 by (rewrite app_length; lia).
    rewrite prn_app_skip by reflexivity. unfold prn. rewrite skipn_add. do 2 f_equal. lia.
Qed.

(* A blob seen as an array of k-byte records: writing record i -- inside the blob or right at
   its end -- changes that record and no other. *)
Lemma rec_pwrite k (s b : list N) i j : len b = k -> i * k <= len s ->
  pread (pwrite s (i * k) b) (j * k) k = if j =? i then b else pread s (j * k) k.
Proof.
  intros Hb Hi. rewrite !pread_prn, pwrite_pwn.
  assert (Hk : N.to_nat k = length b) by (unfold len in Hb; lia).
  assert (Ho : (N.to_nat (i * k) <= length s)%nat) by (unfold len in Hi; lia).
  destruct (N.eqb_spec j i) as [->|Hne].
  - rewrite Hk. apply prn_pwn_same, Ho.
  - apply prn_pwn_other; [exact Ho|]. rewrite <- Hk.
    (* records j and i do not overlap *)
    assert (D : (j + 1) * k <= i * k \/ (i + 1) * k <= j * k)
      by (destruct (N.lt_ge_cases j i); [left|right]; apply N.mul_le_mono_r; lia).
    rewrite !N.mul_add_distr_r, !N.mul_1_l in D. lia.
Qed.

Lemma len_pwrite_end (s b : list N) : len (pwrite s (len s) b) = len s + len b.
Proof. unfold len. rewrite pwrite_pwn, pwn_split, firstn_all2, skipn_all2, !app_length by lia. cbn [length]. lia. Qed.

Lemma pwn_beyond f o d : (length f <= o)%nat -> d <> [] -> pwn f o d = f ++ repeat 0 (o - length f) ++ d.
Proof.
  intros Ho Hd. unfold pwn. destruct d as [|x d]; [congruence|].
  rewrite firstn_all2 by lia. rewrite skipn_all2 by (cbn [length]; lia). rewrite app_nil_r. reflexivity.
Qed.

Lemma firstn_repeat0 n k : firstn n (repeat 0 k) = repeat 0 (Nat.min n k).
Proof.
  revert k; induction n as [|n IH]; intro k; [reflexivity|]. destruct k; [reflexivity|]. cbn. f_equal. apply IH.
Qed.

Lemma fit_app_zeros (l : list N) k n : (length l <= n)%nat -> fit n (l ++ repeat 0 k) = l ++ repeat 0 (n - length l).
Proof.
  intro Hn. unfold fit. rewrite firstn_app, firstn_all2, firstn_repeat0, <- app_assoc, <- repeat_app by lia.
  rewrite app_length, repeat_length. do 2 f_equal. lia.
Qed.

(* the last block t of a ++ t is blanked and written again at p, at or after its old place *)
Lemma pwn_move_block (a t : list N) p : (length a <= p)%nat -> t <> [] ->
  pwn (pwn (a ++ t) (length a) (repeat 0 (length t))) p t = a ++ repeat 0 (p - length a) ++ t.
Proof.
  intros Hp Ht. rewrite <- (app_nil_r t) at 1.
  rewrite (pwn_exact a t [] (length a)), app_nil_r by (try reflexivity; symmetry; apply repeat_length).
  rewrite pwn_fit, fit_app_zeros, skipn_all2, app_nil_r, <- app_assoc by (rewrite ?app_length, ?repeat_length; auto; lia).
  reflexivity.
Qed.

Lemma firstn_pwn f o d : (o <= length f)%nat -> firstn (o + length d) (pwn f o d) = firstn o f ++ d.
Proof.
  intro Ho. rewrite pwn_split, app_assoc by exact Ho.
  apply firstn_app_exact. rewrite app_length, firstn_length. lia.
Qed.

Lemma firstn_pwn_inside n f o d : (o + length d <= n)%nat -> (n <= length f)%nat ->
  firstn n (pwn f o d) = pwn (firstn n f) o d.
Proof.
  intros Hi Hn. assert (Hl : length (firstn n f) = n) by (rewrite firstn_length; lia).
  rewrite <- (firstn_skipn n f) at 1. rewrite pwn_inside by lia.
  apply firstn_app_exact. rewrite pwn_length_inside; lia.
Qed.

(* zero-filling from dl up to o (nothing if o <= dl): the first o bytes are the first dl bytes, padded *)
Lemma firstn_pwn_zeros f dl o : (dl <= length f)%nat ->
  firstn o (pwn f dl (repeat 0 (o - dl))) = fit o (firstn dl f).
Proof.
  intros Hd. destruct (Nat.le_gt_cases o dl) as [Hle|Hgt].
  - replace (o - dl)%nat with 0%nat by lia. cbn [repeat pwn].
    rewrite fit_firstn, firstn_firstn by (rewrite firstn_length; lia). f_equal. lia.
  - pose proof (firstn_pwn f dl (repeat 0 (o - dl)) Hd) as E. rewrite repeat_length in E.
    replace (dl + (o - dl))%nat with o in E by lia. rewrite E. unfold fit.
    rewrite (firstn_all2 (n:=o) (firstn dl f)), firstn_length by (rewrite firstn_length; lia). do 3 f_equal. lia.
Qed.

(* an empty write beyond the end leaves the file alone, whereas ref_write pads up to the offset *)
Lemma pwrite_ref_write f off d : d <> [] \/ off <= len f -> pwrite f off d = ref_write f off d.
Proof.
  intro H. destruct d as [|x d]; [|reflexivity]. destruct H as [H|H]; [congruence|].
  unfold ref_write, pwrite, len in *. cbn [length app]. rewrite Nat.add_0_r.
  replace (N.to_nat off - length f)%nat with 0%nat by lia. symmetry. apply firstn_skipn.
Qed.

Lemma bytes_ok_app a b : bytes_ok (a ++ b) <-> bytes_ok a /\ bytes_ok b.
Proof. apply Forall_app. Qed.
Lemma bytes_ok_repeat0 n : bytes_ok (repeat 0 n).
Proof. apply Forall_forall. intros x Hx. apply repeat_spec in Hx. subst. reflexivity. Qed.
Lemma bytes_ok_firstn n l : bytes_ok l -> bytes_ok (firstn n l).
Proof. apply Forall_firstn. Qed.
Lemma bytes_ok_skipn n l : bytes_ok l -> bytes_ok (skipn n l).
Proof. apply Forall_skipn. Qed.
Lemma bytes_ok_pwn f o d : bytes_ok f -> bytes_ok d -> bytes_ok (pwn f o d).
Proof.
  intros Hf Hd. unfold pwn. destruct d as [|x d]; [assumption|].
  repeat (apply bytes_ok_app; split); auto using bytes_ok_firstn, bytes_ok_skipn, bytes_ok_repeat0.
Qed.

Lemma unbe_prn_bound (r : list N) o k : bytes_ok r -> (o + k <= length r)%nat -> unbe (prn r o k) < 256 ^ N.of_nat k.
Proof.
  intros Hb Hl. rewrite <- (prn_length_inside r o k Hl) at 2. apply unbe_bound.
  unfold prn. apply bytes_ok_firstn. apply bytes_ok_skipn. exact Hb.
Qed.
