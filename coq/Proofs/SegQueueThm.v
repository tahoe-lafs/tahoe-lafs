(* C46 / C04: the invariants over all reachable states and the theorems of Props. *)
From Coq Require Import List NArith Bool Arith Lia.
From Verif Require Import Lib.ListFacts Model.SegQueue Proofs.SegQueueBase Proofs.SegQueueRange Proofs.SegQueueLive Proofs.SegQueueMeasure.
Import ListNotations.

Section Thm.
  Variable ct : list N.
  Variables segsize guess : N.

  Notation mfn := (maybe_fetch_next segsize guess).
  Notation fired := (reader_fired ct segsize guess).
  Notation step := (sstep true ct segsize guess).
  Notation run := (srun true ct segsize guess).

  (* the fetchers respect the guard along the run *)
  Fixpoint guarded (s : sys) (evs : list sev) : Prop :=
    match evs with
    | [] => True
    | e :: r => sev_ok s e /\ guarded (fst (step s e)) r
    end.

  Definition all_inv (s : sys) : Prop := LInv s /\ queue_ok s.

  Lemma step_all_inv s e : all_inv s -> sev_ok s e -> all_inv (fst (step s e)).
  Proof.
    intros (L & Q) Hok. split; [now apply step_linv|now apply step_queue_ok].
  Qed.

  Lemma run_all_inv : forall evs s, all_inv s -> guarded s evs -> all_inv (fst (run s evs)).
  Proof.
    induction evs as [|e r IH]; intros s H G; [exact H|]. destruct G as [G1 G2].
    rewrite run_cons_fst. apply IH; [now apply step_all_inv|exact G2].
  Qed.

  Lemma init_all_inv : all_inv sinit.
  Proof. split; [apply linv_init|reflexivity]. Qed.

  Lemma reach_inv evs : guarded sinit evs -> all_inv (fst (run sinit evs)).
  Proof. apply run_all_inv, init_all_inv. Qed.

  Lemma guarded_app : forall a b s, guarded s (a ++ b) <-> guarded s a /\ guarded (fst (run s a)) b.
  Proof.
    induction a as [|e a IH]; intros b s; cbn [app guarded]; [cbn; tauto|]. rewrite run_cons_fst, IH. tauto.
  Qed.

  Lemma reach_pending evs : guarded sinit evs ->
    let s := fst (run sinit evs) in forall i r, nth_error (s_readers s) i = Some r -> reader_pending s r.
  Proof. intros G s i r. destruct (reach_inv evs G) as (L & _). now apply linv_pending. Qed.

  Lemma no_stuck evs : guarded sinit evs ->
    let s := fst (run sinit evs) in
    (s_reqs s <> [] -> exists fid seg, s_active s = Some (fid, seg) /\ In seg (map r_seg (s_reqs s))) /\
    (forall fid seg, s_active s = Some (fid, seg) -> In seg (map r_seg (s_reqs s))) /\
    (forall i r, nth_error (s_readers s) i = Some r -> rd_result r = None ->
       (forall sg rid k, rd_active r = Some (sg, rid, k) ->
          ~ In rid (s_inactive s) /\ (In rid (map r_id (s_reqs s)) \/ In rid (map fst (s_deliveries s)))) /\
       (rd_hungry r = true -> rd_mfn r > 0 \/ rd_active r <> None)).
  Proof.
    intros G. destruct (reach_inv evs G) as (_ & Q). cbn zeta.
    unfold queue_ok, segs in Q. split; [|split; [|exact (reach_pending evs G)]].
    - intros NE. destruct (s_active _) as [[fid seg]|]; [eauto|contradiction].
    - intros fid seg A. now rewrite A in Q.
  Qed.

  Lemma progress evs e : guarded sinit evs ->
    let s := fst (run sinit evs) in
    sev_ok s e -> system_step s e -> weight (fst (step s e)) < weight s.
  Proof. intros G. destruct (reach_inv evs G) as (L & Q). cbn zeta. now apply step_weight. Qed.

  (* wherever the invariants hold, a read of at least one byte gets its request queued and
     a fetcher is running *)
  Lemma read_is_queued s1 off sz :
    all_inv s1 -> read_clip (fsize ct) off sz <> 0%N ->
    let s2 := fst (step s1 (SRead off sz)) in
    exists r w rid k fid seg,
      nth_error (s_readers s2) (length (s_readers s1)) = Some r /\ rd_result r = None /\
      rd_active r = Some (w, rid, k) /\ In (mk_req w rid) (s_reqs s2) /\ ~ In rid (s_inactive s2) /\
      s_active s2 = Some (fid, seg) /\ In seg (map r_seg (s_reqs s2)).
  Proof.
    intros Inv1 NZ s2.
    destruct (step_all_inv s1 (SRead off sz) Inv1 I) as (L2 & Q2). fold s2 in L2, Q2.
    unfold s2 in *. cbn [sstep] in *. destruct (N.eqb_spec (read_clip (fsize ct) off sz) 0) as [Z|_]; [contradiction|].
    set (r0 := mk_reader off (read_clip (fsize ct) off sz) true true None [] None 0 off (read_clip (fsize ct) off sz)) in *.
    set (s1' := mk_sys _ _ _ _ _ _ _ (s_readers s1 ++ [r0])) in *.
    destruct (mfn_cases segsize guess s1' (length (s_readers s1)) r0) as [Idle|A H Ac Z|w A H Ac NZ'].
    - exfalso. destruct Idle as [X|[X|X]]; cbn in X; congruence.
    - exfalso. cbn in Z. contradiction.
    - cbn [fst] in *.
      destruct (get_segment_fields s1' w) as (R & _ & _ & _ & _ & Rd & _). cbn zeta in *.
      set (sg := fst (fst (get_segment s1' w))) in *.
      set (r := rd_set_active r0 (Some (w, s_next_rid s1', s_known s1'))) in *.
      assert (Hn : nth_error (s_readers (set_reader sg (length (s_readers s1)) r)) (length (s_readers s1)) = Some r).
      { cbn [set_reader s_readers]. apply nth_error_set_nth_eq. rewrite Rd. cbn [s1' s_readers]. rewrite app_length. cbn. lia. }
      assert (Hreq : In (mk_req w (s_next_rid s1')) (s_reqs (set_reader sg (length (s_readers s1)) r))).
      { cbn [set_reader s_reqs]. rewrite R. apply in_or_app. right. now left. }
      unfold queue_ok, segs in Q2.
      destruct (s_active (set_reader sg (length (s_readers s1)) r)) as [[fid seg]|] eqn:Act.
      + exists r, w, (s_next_rid s1'), (s_known s1'), fid, seg.
        split; [exact Hn|]. split; [reflexivity|]. split; [reflexivity|]. split; [exact Hreq|].
        split; [|split; [reflexivity|exact Q2]].
        destruct (linv_pending _ _ _ L2 Hn eq_refl) as [P _].
        destruct (P w (s_next_rid s1') (s_known s1') eq_refl) as [NI _]. exact NI.
      + rewrite Q2 in Hreq. destruct Hreq.
  Qed.

  (* in particular after a failed segment (decode failure, bad ciphertext hash, not enough
     shares) *)
  Lemma failed_then_read evs e off sz :
    guarded sinit evs ->
    let s := fst (run sinit evs) in
    (exists err, e = SBlocks false err \/ e = SFetchFailed err) -> sev_ok s e ->
    read_clip (fsize ct) off sz <> 0%N ->
    let s1 := fst (step s e) in
    let s2 := fst (step s1 (SRead off sz)) in
    exists r w rid k fid seg,
      nth_error (s_readers s2) (length (s_readers s1)) = Some r /\ rd_result r = None /\
      rd_active r = Some (w, rid, k) /\ In (mk_req w rid) (s_reqs s2) /\ ~ In rid (s_inactive s2) /\
      s_active s2 = Some (fid, seg) /\ In seg (map r_seg (s_reqs s2)).
  Proof. intros G s _ Hok NZ. apply read_is_queued; [|exact NZ]. apply step_all_inv; [exact (reach_inv evs G)|exact Hok]. Qed.

  Lemma reach_rd_ok evs i r : nth_error (s_readers (fst (run sinit evs))) i = Some r -> rd_ok ct r.
  Proof. destruct (reach_tracks true ct segsize guess evs) as [F _]. exact (Forall_nth_error _ _ _ _ F). Qed.

  (* the read started by SRead off sz after evs1, at any later moment *)
  Lemma range_slice_ok evs1 off sz evs2 :
    let i := length (s_readers (fst (run sinit evs1))) in
    let s := fst (run sinit (evs1 ++ SRead off sz :: evs2)) in
    exists r, nth_error (s_readers s) i = Some r /\
      (exists n, concat (rd_written r) = firstn n (py_slice ct off sz)) /\
      (rd_result r = Some RDone -> concat (rd_written r) = py_slice ct off sz).
  Proof.
    cbn zeta. rewrite (run_readers_length true ct segsize guess evs1).
    destruct (read_delivers true ct segsize guess (evs1 ++ SRead off sz :: evs2) (length (flat_map (new_origin ct) evs1))
                (off, read_clip (fsize ct) off sz)) as (r & Nth & [= O1 O2] & Ok).
    { now rewrite flat_map_app, nth_error_app2, Nat.sub_diag by lia. }
    exists r. split; [exact Nth|]. rewrite <- clip_is_python_slice. fold (fsize ct). rewrite <- O2, <- O1.
    exact (rd_ok_prefix ct r Ok).
  Qed.
End Thm.

(* the code before the repair (clear_on_failure = false), on two segments of 4 bytes: a
   read of segment 0 whose ciphertext hash check fails, then a read of segment 1: the
   stopped fetcher of segment 0 is still the active one, nothing fetches segment 1 *)
Definition stuck_file : list N := [1; 2; 3; 4; 5; 6; 7; 8]%N.
Definition stuck_events : list sev :=
  [SRead 0 (Some 2); SLearn; SBlocks false EBadCiphertext; SDeliver Quiet; SRead 4 (Some 2)]%N.

Lemma old_code_stuck_ok :
  let s := fst (srun false stuck_file 4 4 sinit stuck_events) in
  s_reqs s = [mk_req 1 1]%N /\ s_active s = Some (0, 0)%N /\ s_deliveries s = [] /\
  (exists r, nth_error (s_readers s) 1 = Some r /\ rd_result r = None /\ rd_hungry r = true /\ rd_written r = []) /\
  ~ queue_ok s.
Proof.
  vm_compute. repeat split; try reflexivity.
  - eexists. repeat split; reflexivity.
  - intros [H|[]]. discriminate.
Qed.

Lemma new_code_not_stuck_ok :
  let s := fst (srun true stuck_file 4 4 sinit stuck_events) in
  s_reqs s = [mk_req 1 1]%N /\ s_active s = Some (1, 1)%N /\ queue_ok s.
Proof. vm_compute. repeat split; try reflexivity. now left. Qed.

(* and the second read then completes with its two bytes *)
Lemma new_code_second_read_ok :
  let s := fst (srun true stuck_file 4 4 sinit (stuck_events ++ [SBlocks true EOther; SDeliver Quiet])) in
  exists r, nth_error (s_readers s) 1 = Some r /\ rd_result r = Some RDone /\ concat (rd_written r) = [5; 6]%N.
Proof. vm_compute. eexists. repeat split; reflexivity. Qed.

Lemma literal_range_ok (data : list N) (offset : N) (size : option N) :
  literal_read data offset size = slice (N.to_nat offset) (N.to_nat (read_clip (N.of_nat (length data)) offset size)) data /\
  N.of_nat (length (literal_read data offset size)) = read_clip (N.of_nat (length data)) offset size /\
  ((N.of_nat (length data) <= offset)%N -> literal_read data offset size = []).
Proof.
  pose proof (clip_is_python_slice data offset size) as E. unfold py_slice in E.
  split; [now rewrite E|]. split.
  - rewrite <- E. unfold slice. rewrite firstn_length, skipn_length. unfold read_clip. destruct size; lia.
  - intros H. rewrite <- E. unfold read_clip. replace (N.of_nat (length data) - offset)%N with 0%N by lia.
    destruct size as [s|]; [rewrite N.min_0_r|rewrite N.min_0_r]; reflexivity.
Qed.
