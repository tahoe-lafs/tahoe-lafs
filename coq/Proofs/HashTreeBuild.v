(* HashTree.__init__ (Model/HashTree.v: hash_tree) builds the Merkle tree over the
   padded leaves: node p = pair_hash(node 2p+1, node 2p+2), the bottom row is the
   caller's leaves followed by empty_leaf_hash(i). *)
From Coq Require Import List ZArith Bool Lia Arith.
From Verif Require Import Model.HashTree.
Import ListNotations.

Section Build.
  Variable H : Type.
  Variable pair_hash : H -> H -> H.
  Variable empty_leaf_hash : Z -> H.
  Notation pair_up := (pair_up H pair_hash).
  Notation rows_loop := (rows_loop H pair_hash).

  Lemma pair_up_spec : forall m l d, length l = 2 * m ->
    length (pair_up l) = m /\
    forall j, j < m -> nth j (pair_up l) d = pair_hash (nth (2 * j) l d) (nth (2 * j + 1) l d).
  Proof.
    induction m as [|m IH]; intros l d Hl.
    - destruct l; [|cbn in Hl; lia]. split; [reflexivity|intros j Hj; lia].
    - destruct l as [|a [|b r]]; cbn [length] in Hl; try lia.
      destruct (IH r d ltac:(lia)) as [I1 I2]. cbn [HashTree.pair_up length]. split; [lia|].
      intros [|j] Hj.
      + reflexivity.
      + replace (2 * S j) with (S (S (2 * j))) by lia. replace (S (S (2 * j)) + 1) with (S (S (2 * j + 1))) by lia.
        cbn [nth]. apply I2. lia.
  Qed.

  Definition tree_of (fuel : nat) (last : list H) : list H := concat (rev (rows_loop fuel last)).

  Lemma tree_of_S : forall f last,
    tree_of (S f) last = if Nat.eqb (length last) 1 then last else tree_of f (pair_up last) ++ last.
  Proof.
    intros f last. unfold tree_of. cbn [HashTree.rows_loop].
    destruct (Nat.eqb (length last) 1).
    - cbn [rev app concat]. apply app_nil_r.
    - cbn [rev]. rewrite concat_app. cbn [concat]. rewrite app_nil_r. reflexivity.
  Qed.

  Lemma pow2_pos : forall k, 1 <= 2 ^ k.
  Proof. intros k. pose proof (Nat.pow_nonzero 2 k ltac:(lia)). lia. Qed.

  (* The bottom row starts at position 2^k - 1.  Lengths and positions are given by equations
     without nat subtraction, on which every lia call below would have to split. *)
  Lemma tree_of_spec : forall k last fuel d,
    length last = 2 ^ k -> k < fuel ->
    let t := tree_of fuel last in
    S (length t) = 2 * 2 ^ k /\
    (forall i j, i < 2 ^ k -> S j = 2 ^ k + i -> nth j t d = nth i last d) /\
    (forall p, 2 * p + 2 < length t -> nth p t d = pair_hash (nth (2 * p + 1) t d) (nth (2 * p + 2) t d)).
  Proof.
    induction k as [|k IH]; intros last fuel d Hl Hf; (destruct fuel as [|f]; [lia|]); cbv zeta; rewrite tree_of_S, Hl.
    - cbn [Nat.pow Nat.eqb]. cbn [Nat.pow] in Hl. split; [lia|]. split; [intros i j Hi Hj; f_equal; lia|intros p Hp; lia].
    - pose proof (pow2_pos k) as Hp1. rewrite Nat.pow_succ_r' in *.
      assert (Nat.eqb (2 * 2 ^ k) 1 = false) as -> by (apply Nat.eqb_neq; lia).
      destruct (pair_up_spec (2 ^ k) last d Hl) as [P1 P2].
      destruct (IH (pair_up last) f d P1 ltac:(lia)) as [I1 [I2 I3]]. cbv zeta in I1, I2, I3.
      set (t' := tree_of f (pair_up last)) in *.
      split; [rewrite app_length; lia|]. split.
      + intros i j Hi Hj. rewrite app_nth2 by lia. f_equal. lia.
      + intros p Hp. rewrite app_length in Hp.
        destruct (Nat.lt_ge_cases (2 * p + 2) (length t')) as [Hlt|Hge].
        * rewrite !app_nth1 by lia. apply I3. exact Hlt.
        * assert (Hpj : exists j, S p = 2 ^ k + j /\ j < 2 ^ k) by (exists (S p - 2 ^ k); lia).
          destruct Hpj as [j [Hpj Hj]].
          rewrite app_nth1 by lia. rewrite (I2 j p Hj Hpj), P2 by exact Hj.
          rewrite !app_nth2 by lia. f_equal; f_equal; lia.
  Qed.

  Local Open Scope Z_scope.

  Lemma roundup_loop_spec : forall fuel ans x j,
    ans = 2 ^ Z.of_nat j -> x <= ans + Z.of_nat fuel ->
    exists k, roundup_loop fuel ans x = 2 ^ Z.of_nat k /\ x <= roundup_loop fuel ans x.
  Proof.
    induction fuel as [|f IH]; intros ans x j Ha Hx; cbn [roundup_loop].
    - exists j. split; [exact Ha|lia].
    - destruct (Z.ltb_spec ans x) as [Hlt|Hge]; [|exists j; split; [exact Ha|exact Hge]].
      apply (IH (2 * ans) x (S j)); [|lia].
      rewrite Nat2Z.inj_succ, Z.pow_succ_r, Ha by lia. reflexivity.
  Qed.

  Lemma roundup_pow2_spec : forall x, exists k : nat, roundup_pow2 x = 2 ^ Z.of_nat k /\ x <= roundup_pow2 x.
  Proof. intros x. apply (roundup_loop_spec (Z.to_nat x) 1 x 0); [reflexivity|lia]. Qed.

  Lemma roundup_ge1 : forall x, 1 <= roundup_pow2 x.
  Proof.
    intros x. destruct (roundup_pow2_spec x) as [k [-> _]]. apply (Z.pow_le_mono_r 2 0 (Z.of_nat k)); lia.
  Qed.

  Lemma fl_leaf_range : forall x i, 0 <= i < x -> 0 <= first_leaf_num x + i < 2 * roundup_pow2 x - 1.
  Proof.
    intros x i Hi. unfold first_leaf_num. destruct (roundup_pow2_spec x) as [k [_ Hle]]. lia.
  Qed.

  Lemma odd_tree_size : forall x, Z.odd (2 * roundup_pow2 x - 1) = true.
  Proof.
    intros x. replace (2 * roundup_pow2 x - 1) with (1 + 2 * (roundup_pow2 x - 1)) by lia.
    rewrite Z.odd_add_mul_2. reflexivity.
  Qed.

  Lemma pad_from_spec : forall cnt i d,
    length (pad_from H empty_leaf_hash cnt i) = cnt /\
    forall j, (j < cnt)%nat -> nth j (pad_from H empty_leaf_hash cnt i) d = empty_leaf_hash (i + Z.of_nat j).
  Proof.
    induction cnt as [|c IH]; intros i d; cbn [pad_from length].
    - split; [reflexivity|intros j Hj; lia].
    - destruct (IH (i + 1) d) as [I1 I2]. split; [lia|].
      intros [|j] Hj; cbn [nth]; [f_equal; lia|]. rewrite I2 by lia. f_equal. lia.
  Qed.

  Theorem hash_tree_merkle : forall (L : list H) d,
    let t := hash_tree H pair_hash empty_leaf_hash L in
    let P := roundup_pow2 (zlen L) in
    zlen t = 2 * P - 1 /\
    (forall i, 0 <= i < zlen L -> nth (Z.to_nat (P - 1 + i)) t d = nth (Z.to_nat i) L d) /\
    (forall i, zlen L <= i < P -> nth (Z.to_nat (P - 1 + i)) t d = empty_leaf_hash i) /\
    (forall p, 0 <= p -> 2 * p + 2 < zlen t ->
       nth (Z.to_nat p) t d = pair_hash (nth (Z.to_nat (2 * p + 1)) t d) (nth (Z.to_nat (2 * p + 2)) t d)).
  Proof.
    intros L d. cbv zeta. unfold hash_tree. fold (tree_of (length (padded H empty_leaf_hash L)) (padded H empty_leaf_hash L)).
    destruct (roundup_pow2_spec (zlen L)) as [k [Hk Hge]].
    remember (roundup_pow2 (zlen L)) as P eqn:HeqP in *.
    set (bottom := padded H empty_leaf_hash L).
    destruct (pad_from_spec (Z.to_nat (P - zlen L)) (zlen L) d) as [Pd1 Pd2].
    assert (Hbl : length bottom = (2 ^ k)%nat).
    { unfold bottom, padded. rewrite <- HeqP. rewrite app_length, Pd1.
      apply Nat2Z.inj. rewrite Nat2Z.inj_add. assert (Hq : 0 <= P - zlen L) by (clear - Hge; lia). rewrite Z2Nat.id by exact Hq. rewrite Nat2Z.inj_pow.
      change (Z.of_nat 2) with 2. change (Z.of_nat (length L)) with (zlen L). lia. }
    assert (HP : P = Z.of_nat (2 ^ k)) by (rewrite Nat2Z.inj_pow; exact Hk).
    assert (Hfuel : (k < length bottom)%nat) by (rewrite Hbl; apply Nat.pow_gt_lin_r; lia).
    destruct (tree_of_spec k bottom (length bottom) d Hbl Hfuel) as [S1 [S2 S3]]. cbv zeta in S1, S2, S3.
    set (t := tree_of (length bottom) bottom) in *.
    assert (Hbot : forall i, 0 <= i < P -> nth (Z.to_nat (P - 1 + i)) t d = nth (Z.to_nat i) bottom d).
    { intros i Hi. apply S2; lia. }
    assert (HL0 : 0 <= zlen L) by (unfold zlen; lia).
    split; [unfold zlen; lia|]. split; [|split].
    - intros i Hi. rewrite Hbot by lia. unfold bottom, padded. apply app_nth1. unfold zlen in Hi. lia.
    - intros i Hi. rewrite Hbot by lia. unfold bottom, padded. rewrite <- HeqP. rewrite app_nth2 by (unfold zlen in Hi; lia).
      rewrite Pd2 by (unfold zlen in *; lia). f_equal. unfold zlen in *. lia.
    - intros p Hp Hlt. unfold zlen in Hlt. rewrite S3 by lia. f_equal; f_equal; lia.
  Qed.
End Build.
