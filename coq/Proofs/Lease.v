(* C25, mutable containers, operation level: what renew_lease, add_lease, add_or_renew_lease
   (`grows`) and cancel_lease (`cancel_scan_spec`) do to a structured container, from the
   record-level lemmas of Proofs/LeaseMutable.v. *)
From Coq Require Import List NArith Arith Bool Lia.
From Verif Require Import Lib.Hex Gen.MutConsts Model.MutContainer Model.Lease
  Proofs.MutContainerBytes Proofs.MutContainer Proofs.LeaseList Proofs.LeaseMutable.
Import ListNotations.
Local Open Scope N_scope.

(* Renewing the lease in slot i writes its record, unless the owner or the new expiry does not
   fit 4 bytes; an owner read from a file of bytes does. *)
Lemma renew_write maxsz c i l t : wf maxsz c -> i < 4 + c_nx c -> slot c i = Some l ->
  let o := write_lease_record (flat c) i (ser_mutable (set_expire l t)) in
  o = Raised (flat c) EStruct /\ ~ (bytes_ok (flat c) /\ t < 2 ^ 32) \/ written maxsz c i (set_expire l t) o.
Proof.
  intros Hw Hi Hs o. subst o.
  destruct (fit4_cases (l_owner l) t) as [[Ho Ht]|Hc].
  - right. destruct (slot_lengths maxsz c i l Hw Hi Hs) as (Lr & Lc & Ln).
    apply write_slot_written; auto; try lia; [constructor; assumption|exact (proj2 (slot_some c i l Hs))].
  - left. rewrite (proj1 (ser_err (set_expire l t) Hc)). split; [apply (write_record_err maxsz); assumption|].
    intros [Hb Ht]. destruct (slot_bounds maxsz c i l Hw Hb Hi Hs). lia.
Qed.

Lemma renew_write_cases maxsz c i l t : wf maxsz c -> i < 4 + c_nx c -> slot c i = Some l ->
  (exists e, write_lease_record (flat c) i (ser_mutable (set_expire l t)) = Raised (flat c) e) \/
  written maxsz c i (set_expire l t) (write_lease_record (flat c) i (ser_mutable (set_expire l t))).
Proof.
  intros Hw Hi Hs. destruct (renew_write maxsz c i l t Hw Hi Hs) as [[E _]|Hwr]; [left; eexists; exact E|right; exact Hwr].
Qed.

(* What every lease operation does to a well-formed container: the file stays one, with the same
   data, and every lease stays in its slot with an expiry that is not earlier. *)
Definition grows (maxsz : N) (c : FC) (o : outcome) : Prop :=
  exists c', out_file o = flat c' /\ wf maxsz c' /\ same_data c c' /\ never_shorter (enum c) (enum c').

Lemma grows_same maxsz c o : wf maxsz c -> out_file o = flat c -> grows maxsz c o.
Proof.
  intros Hw E. exists c. split; [exact E|]. split; [exact Hw|]. split; [apply same_data_refl|apply never_shorter_refl].
Qed.

Section WithHash.
Variable H : list N -> list N.

(* renew_lease against the reference `renew_first` on the list of leases *)
Lemma mut_renew_cases maxsz v c s t : wf maxsz c ->
  let o := mut_renew_lease H v (flat c) s t in
  match renew_first H v (map snd (enum c)) s t with
  | None => o = Raised (flat c) EIndex
  | Some ls' =>
      o = Raised (flat c) EStruct /\ ~ (bytes_ok (flat c) /\ t < 2 ^ 32) \/
      exists c', o = Done (flat c') /\ wf maxsz c' /\ same_data c c' /\
                 never_shorter (enum c) (enum c') /\ map snd (enum c') = ls'
  end.
Proof.
  intros Hw o. subst o. unfold mut_renew_lease. rewrite (mut_enumerate_flat maxsz c Hw), renew_scan_find.
  rewrite (renew_first_numbered H v (enum c) s t (NoDup_enum c)).
  destruct (first_match H v (enum c) s) as [[i l]|] eqn:Ef; [|reflexivity].
  apply first_match_in in Ef. destruct Ef as [Hin _]. apply in_enum in Hin. destruct Hin as [Hi Hs].
  cbv beta iota. unfold renewed. destruct (N.ltb_spec (l_expire l) t) as [Hlt|Hge].
  - destruct (renew_write maxsz c i l t Hw Hi Hs) as [Herr|(c' & E & Hw' & Hsd & Enx & Hsl)]; [left; exact Herr|right].
    destruct (N.eqb_spec i (4 + c_nx c)); [lia|].
    exists c'. split; [exact E|]. split; [exact Hw'|]. split; [exact Hsd|]. split.
    + apply (upd_never_shorter c c' i (set_expire l t)); [lia|exact Hsl|].
      intros l0 _ Hs0. replace l0 with l by congruence. apply extends_set_expire. lia.
    + rewrite (upd_enum c c' i l _ Hs Enx Hsl). reflexivity.
  - right. exists c. split; [reflexivity|]. split; [exact Hw|]. split; [apply same_data_refl|].
    split; [apply never_shorter_refl|]. rewrite set_at_id; [reflexivity|].
    intros x Hin. apply in_enum in Hin. destruct Hin. congruence.
Qed.

Lemma mut_renew_grows maxsz v c s t : wf maxsz c -> grows maxsz c (mut_renew_lease H v (flat c) s t).
Proof.
  intro Hw. pose proof (mut_renew_cases maxsz v c s t Hw) as Hr. cbv zeta in Hr.
  destruct (renew_first H v (map snd (enum c)) s t); [destruct Hr as [[E _]|(c' & E & Hw' & Hsd & Hns & _)]|].
  - apply grows_same; [exact Hw|rewrite E; reflexivity].
  - exists c'. rewrite E. auto.
  - apply grows_same; [exact Hw|rewrite Hr; reflexivity].
Qed.

Lemma mut_add_grows maxsz v c avail li : wf maxsz c -> lease_wf (stored_form H v li) -> l_owner li <> 0 ->
  grows maxsz c (mut_add_lease H v (flat c) avail li).
Proof.
  intros Hw Hl Ho. destruct (mut_add_flat H maxsz v c avail li Hw Hl Ho) as (i & _ & Hnone & [Hwr|(e & E)]).
  - destruct Hwr as (c' & -> & Hw' & Hsd & Enx & Hsl). exists c'. split; [reflexivity|]. split; [exact Hw'|]. split; [exact Hsd|].
    apply (upd_never_shorter c c' i (stored_form H v li)); [destruct (i =? 4 + c_nx c); lia|exact Hsl|].
    intros l Hi Hs. rewrite (Hnone Hi) in Hs. discriminate.
  - apply grows_same; [exact Hw|rewrite E; reflexivity].
Qed.

(* add_or_renew_lease is renew_lease, or add_lease when that raises IndexError *)
Lemma mut_add_or_renew_grows maxsz v c avail li : wf maxsz c -> lease_wf (stored_form H v li) -> l_owner li <> 0 ->
  grows maxsz c (mut_add_or_renew H v (flat c) avail li).
Proof.
  intros Hw Hl Ho. unfold mut_add_or_renew. destruct (N.eqb_spec (l_owner li) 0); [congruence|].
  pose proof (mut_renew_grows maxsz v c (l_renew li) (l_expire li) Hw) as Hr.
  destruct (mut_renew_lease H v (flat c) (l_renew li) (l_expire li)) as [g|g []]; try exact Hr.
  apply mut_add_grows; assumption.
Qed.

(* cancel_lease (used by the lease-expiry crawler) blanks, in place, exactly the slots whose lease
   answers to the cancel secret; every other lease keeps its slot, data and layout are untouched. *)
Definition cancels (v : version) (cs : list N) (il : N * lease) : bool := is_cancel_secret H v (snd il) cs.

Lemma blank_record v : exists b, ser_mutable (stored_form H v blank_lease) = Ok b /\ length b = 92%nat /\ slot_of_rec b = None.
Proof.
  assert (Ho : l_owner (stored_form H v blank_lease) = 0) by (destruct v; reflexivity).
  assert (He : l_expire (stored_form H v blank_lease) = 0) by (destruct v; reflexivity).
  destruct (ser_mutable_ok (stored_form H v blank_lease)) as (b & Es & Lb & Pb); [rewrite Ho; reflexivity|rewrite He; reflexivity|].
  exists b. split; [exact Es|]. split; [exact Lb|]. unfold slot_of_rec. rewrite Pb. cbn [norm_mut l_owner]. rewrite Ho. reflexivity.
Qed.

Lemma blank_slot maxsz v c i : wf maxsz c -> i < 4 + c_nx c ->
  exists c', write_lease_record (flat c) i (ser_mutable (stored_form H v blank_lease)) = Done (flat c') /\
             wf maxsz c' /\ same_data c c' /\ c_nx c' = c_nx c /\
             forall j, slot c' j = if j =? i then None else slot c j.
Proof.
  intros Hw Hi. destruct (blank_record v) as (b & Es & Lb & Sb). rewrite Es.
  destruct (write_record_flat maxsz c i b Hw (N.lt_le_incl _ _ Hi)) as (c' & E & Hw' & Hsd & Enx & Hrec); [lia|exact Lb|].
  destruct (N.eqb_spec i (4 + c_nx c)); [lia|].
  exists c'. split; [exact E|]. split; [exact Hw'|]. split; [exact Hsd|]. split; [exact Enx|].
  intro j. unfold slot. rewrite (Hrec j). destruct (j =? i); [exact Sb|reflexivity].
Qed.

Definition hit (v : version) (cs : list N) (ls : list (N * lease)) (j : N) : bool :=
  existsb (fun il => (fst il =? j) && cancels v cs il) ls.

Lemma cancel_scan_spec maxsz v cs ls : forall c m rmn,
  wf maxsz c -> (forall i l, In (i, l) ls -> i < 4 + c_nx c) ->
  exists c', cancel_scan H v (flat c) ls cs m rmn
             = (Done (flat c'), m + N.of_nat (length (filter (cancels v cs) ls)),
                rmn + N.of_nat (length (filter (fun il => negb (cancels v cs il)) ls))) /\
             wf maxsz c' /\ same_data c c' /\ c_nx c' = c_nx c /\
             (forall j, slot c' j = if hit v cs ls j then None else slot c j) /\
             (filter (cancels v cs) ls = [] -> c' = c).
Proof.
  induction ls as [|[i l] r IH]; intros c m rmn Hw Hin.
  - exists c. cbn [cancel_scan filter length hit existsb]. rewrite !N.add_0_r.
    split; [reflexivity|]. split; [exact Hw|]. split; [apply same_data_refl|]. repeat split.
  - cbn [cancel_scan filter hit existsb fst]. change (cancels v cs (i, l)) with (is_cancel_secret H v l cs).
    destruct (is_cancel_secret H v l cs) eqn:Ec; cbn [negb].
    + destruct (blank_slot maxsz v c i Hw (Hin i l (or_introl eq_refl))) as (c1 & E1 & Hw1 & Hsd1 & Enx1 & Hs1).
      rewrite E1.
      destruct (IH c1 (m + 1) rmn Hw1) as (c' & E & Hw' & Hsd' & Enx' & Hs' & _).
      { intros i' l' Hx. rewrite Enx1. apply (Hin i' l'). right. exact Hx. }
      exists c'. rewrite E. cbn [length]. split. { apply f_equal2; [apply f_equal2; [reflexivity|lia]|lia]. } split; [exact Hw'|].
      split; [exact (same_data_trans _ _ _ Hsd1 Hsd')|].
      split; [congruence|]. split; [|discriminate]. intro j. rewrite Hs', Hs1.
      fold (hit v cs r j). rewrite andb_true_r. destruct (N.eqb_spec i j) as [->|Hne].
      * rewrite N.eqb_refl. cbn [orb]. destruct (hit v cs r j); reflexivity.
      * destruct (N.eqb_spec j i); [congruence|]. reflexivity.
    + destruct (IH c m (rmn + 1) Hw) as (c' & E & Hw' & Hsd' & Enx' & Hs' & Hsame).
      { intros i' l' Hx. apply (Hin i' l'). right. exact Hx. }
      exists c'. rewrite E. cbn [length]. split; [apply f_equal2; [apply f_equal2; [reflexivity|lia]|lia]|]. split; [exact Hw'|]. split; [exact Hsd'|].
      split; [exact Enx'|]. split; [|exact Hsame]. intro j. rewrite Hs'. fold (hit v cs r j). rewrite andb_false_r. reflexivity.
Qed.

(* on an enumeration, the slots hit are exactly those whose own lease answers to the secret *)
Lemma hit_enumL v cs h L j : In j L ->
  hit v cs (enumL h L) j = match h j with Some l => is_cancel_secret H v l cs | None => false end.
Proof.
  intro Hj. apply eq_iff_eq_true. unfold hit. rewrite existsb_exists. split.
  - intros ([k x] & Hin & Hb). apply andb_prop in Hb. destruct Hb as [Hk Hc]. apply N.eqb_eq in Hk. cbn [fst] in Hk. subst k.
    apply in_enumL in Hin. destruct Hin as [_ ->]. exact Hc.
  - destruct (h j) as [l|] eqn:Eh; [|discriminate]. intro Hc. exists (j, l).
    split; [apply in_enumL; auto|]. cbn [fst]. rewrite N.eqb_refl. exact Hc.
Qed.

Lemma enumL_filter v cs h h' L :
  (forall j, In j L -> h' j = match h j with Some l => if is_cancel_secret H v l cs then None else Some l | None => None end) ->
  enumL h' L = filter (fun il => negb (cancels v cs il)) (enumL h L).
Proof.
  induction L as [|j r IH]; intro Hh; [reflexivity|]. cbn [enumL flat_map]. fold (enumL h' r). fold (enumL h r).
  rewrite filter_app, <- IH by (intros; apply Hh; right; assumption). f_equal.
  rewrite (Hh j (or_introl eq_refl)). destruct (h j) as [l|]; [|reflexivity].
  cbn [filter]. unfold cancels. cbn [snd]. destruct (is_cancel_secret H v l cs); reflexivity.
Qed.

End WithHash.
