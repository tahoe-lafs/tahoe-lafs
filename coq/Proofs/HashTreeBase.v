(* Basic facts for Model/HashTree.v: Python list indexing, int sets, complete
   binary tree arithmetic. *)
From Coq Require Import List ZArith Bool Lia.
From Verif Require Import Model.HashTree.
Import ListNotations.
Local Open Scope Z_scope.

Lemma Some_inj : forall A (a b : A), Some a = Some b -> a = b.
Proof. intros A a b Hab. congruence. Qed.

(* T[j] for a slot number j >= 0; None beyond the end of the list *)
Definition slot {A} (T : list (option A)) (j : Z) : option A := nth (Z.to_nat j) T None.

(* pyidx in closed form: validz n i says that i, possibly negative, is a legal index of a list of
   length n (no IndexError), normz n i is the slot number it then names (pyidx_valid, pyidx_invalid) *)
Definition normz (n i : Z) : Z := if 0 <=? i then i else i + n.
Definition validz (n i : Z) : Prop := - n <= i < n.

Lemma pyidx_valid : forall n i, validz n i -> pyidx n i = Some (Z.to_nat (normz n i)).
Proof.
  intros n i Hv. unfold validz in Hv. unfold pyidx, normz.
  destruct (0 <=? i) eqn:E0.
  - apply Z.leb_le in E0. assert (i <? n = true) as -> by (apply Z.ltb_lt; lia). reflexivity.
  - apply Z.leb_gt in E0. cbn [andb].
    assert (i <? 0 = true) as -> by (apply Z.ltb_lt; lia).
    assert (- n <=? i = true) as -> by (apply Z.leb_le; lia). reflexivity.
Qed.

Lemma pyidx_invalid : forall n i, ~ validz n i -> pyidx n i = None.
Proof.
  intros n i Hv. unfold validz in Hv. unfold pyidx.
  destruct (Z.leb_spec 0 i) as [H0|H0].
  - destruct (Z.ltb_spec i n) as [H1|H1]; [lia|]. destruct (Z.ltb_spec i 0) as [H2|H2]; [lia|reflexivity].
  - destruct (Z.leb_spec (- n) i) as [H1|H1]; [lia|]. cbn [andb]. rewrite andb_false_r. reflexivity.
Qed.

Lemma pyidx_some_valid : forall n i k, pyidx n i = Some k -> validz n i /\ k = Z.to_nat (normz n i).
Proof.
  intros n i k Hk.
  assert (Hd : validz n i \/ ~ validz n i) by (unfold validz; lia).
  destruct Hd as [Hv|Hv].
  - rewrite (pyidx_valid _ _ Hv) in Hk. inversion Hk. auto.
  - rewrite (pyidx_invalid _ _ Hv) in Hk. discriminate.
Qed.

Lemma normz_range : forall n i, validz n i -> 0 <= normz n i < n.
Proof. intros n i Hv. unfold validz in Hv. unfold normz. destruct (0 <=? i) eqn:E; [apply Z.leb_le in E|apply Z.leb_gt in E]; lia. Qed.

Lemma normz_nonneg : forall n i, 0 <= i -> normz n i = i.
Proof. intros n i Hi. unfold normz. apply Z.leb_le in Hi. rewrite Hi. reflexivity. Qed.

Lemma get_invalid : forall A (T : list A) i, ~ validz (zlen T) i -> get T i = None.
Proof. intros A T i Hv. unfold get. rewrite (pyidx_invalid _ _ Hv). reflexivity. Qed.

Lemma get_some_valid : forall A (T : list A) i v, get T i = Some v -> validz (zlen T) i.
Proof.
  intros A T i v Hg. assert (Hd : validz (zlen T) i \/ ~ validz (zlen T) i) by (unfold validz; lia).
  destruct Hd as [Hv|Hv]; [exact Hv|]. rewrite (get_invalid _ _ _ Hv) in Hg. discriminate.
Qed.

Lemma get_lists_valid : forall A (T : list A) i d,
  validz (zlen T) i -> get T i = Some (nth (Z.to_nat (normz (zlen T) i)) T d).
Proof.
  intros A T i d Hv. unfold get. rewrite (pyidx_valid _ _ Hv).
  apply nth_error_nth'. pose proof (normz_range _ _ Hv) as Hr. unfold zlen in *. lia.
Qed.

Lemma get_valid : forall A (T : list (option A)) i,
  validz (zlen T) i -> get T i = Some (slot T (normz (zlen T) i)).
Proof. intros A T i Hv. apply get_lists_valid. exact Hv. Qed.

Lemma put_valid : forall A (T : list A) i v,
  validz (zlen T) i -> put T i v = Some (upd T (Z.to_nat (normz (zlen T) i)) v).
Proof. intros A T i v Hv. unfold put. rewrite (pyidx_valid _ _ Hv). reflexivity. Qed.

Lemma put_some_valid : forall A (T : list A) i v T', put T i v = Some T' ->
  validz (zlen T) i /\ T' = upd T (Z.to_nat (normz (zlen T) i)) v.
Proof.
  intros A T i v T' Hp. unfold put in Hp. destruct (pyidx (zlen T) i) eqn:E; [|discriminate].
  apply pyidx_some_valid in E. destruct E as [Hv ->]. inversion Hp. auto.
Qed.

Lemma get_nth : forall A (l : list A) x d, 0 <= x < zlen l -> get l x = Some (nth (Z.to_nat x) l d).
Proof. intros A l x d Hx. rewrite (get_lists_valid _ _ _ d) by (unfold validz; lia). rewrite normz_nonneg by lia. reflexivity. Qed.

Lemma get_slot : forall A (T : list (option A)) x, 0 <= x < zlen T -> get T x = Some (slot T x).
Proof. intros A T x Hx. apply get_nth. exact Hx. Qed.

Lemma put_nonneg : forall A (T : list A) x v, 0 <= x < zlen T -> put T x v = Some (upd T (Z.to_nat x) v).
Proof. intros A T x v Hx. rewrite put_valid by (unfold validz; lia). rewrite normz_nonneg by lia. reflexivity. Qed.

Lemma get_some_put : forall A (l : list A) i x d, get l i = Some x ->
  (Z.to_nat (normz (zlen l) i) < length l)%nat /\ x = nth (Z.to_nat (normz (zlen l) i)) l d /\
  forall v, put l i v = Some (upd l (Z.to_nat (normz (zlen l) i)) v).
Proof.
  intros A l i x d Hg. pose proof (get_some_valid _ _ _ _ Hg) as Hv. pose proof (normz_range _ _ Hv) as Hr.
  rewrite (get_lists_valid _ _ _ d Hv) in Hg. apply Some_inj in Hg.
  split; [unfold zlen in *; lia|]. split; [symmetry; exact Hg|]. intros v. apply put_valid. exact Hv.
Qed.

Lemma upd_length : forall A (l : list A) k v, length (upd l k v) = length l.
Proof. induction l as [|x r IH]; intros [|k] v; cbn [upd length]; auto. Qed.

Lemma nth_upd : forall A (l : list A) k v j d,
  nth j (upd l k v) d = if (Nat.eqb j k && Nat.ltb k (length l))%bool then v else nth j l d.
Proof.
  induction l as [|x r IH]; intros k v j d.
  - cbn [upd length]. destruct j; rewrite andb_comm; reflexivity.
  - destruct k as [|k]; destruct j as [|j]; cbn [upd nth length]; try reflexivity.
    + rewrite IH. cbn [Nat.eqb]. replace (Nat.ltb (S k) (S (length r))) with (Nat.ltb k (length r)); [reflexivity|].
      destruct (Nat.ltb k (length r)) eqn:E; symmetry; [apply Nat.ltb_lt in E; apply Nat.ltb_lt|apply Nat.ltb_ge in E; apply Nat.ltb_ge]; lia.
Qed.

Lemma nth_upd_lt : forall A (l : list A) k v j d,
  (k < length l)%nat -> nth j (upd l k v) d = if Nat.eqb j k then v else nth j l d.
Proof. intros A l k v j d Hk. rewrite nth_upd. apply Nat.ltb_lt in Hk. rewrite Hk, andb_true_r. reflexivity. Qed.

Lemma nth_upd_default : forall A (l : list A) k j d, nth j (upd l k d) d = if Nat.eqb j k then d else nth j l d.
Proof.
  intros A l k j d. rewrite nth_upd. destruct (Nat.eqb j k) eqn:E; cbn [andb]; [|reflexivity].
  destruct (Nat.ltb k (length l)) eqn:E2; [reflexivity|].
  apply Nat.eqb_eq in E. subst j. apply Nat.ltb_ge in E2. apply nth_overflow. exact E2.
Qed.

Lemma zlen_upd : forall A (l : list A) k v, zlen (upd l k v) = zlen l.
Proof. intros. unfold zlen. rewrite upd_length. reflexivity. Qed.

Lemma slot_upd : forall A (T : list (option A)) a v b,
  0 <= a < zlen T -> 0 <= b ->
  slot (upd T (Z.to_nat a) v) b = if a =? b then v else slot T b.
Proof.
  intros A T a v b Ha Hb. unfold slot. rewrite nth_upd.
  assert (Hlt : Nat.ltb (Z.to_nat a) (length T) = true) by (apply Nat.ltb_lt; unfold zlen in Ha; lia).
  rewrite Hlt, andb_true_r.
  destruct (a =? b) eqn:E.
  - apply Z.eqb_eq in E. subst. rewrite Nat.eqb_refl. reflexivity.
  - apply Z.eqb_neq in E. assert (Nat.eqb (Z.to_nat b) (Z.to_nat a) = false) as -> by (apply Nat.eqb_neq; lia). reflexivity.
Qed.

Lemma slot_upd_same : forall A (T : list (option A)) a v, 0 <= a < zlen T -> slot (upd T (Z.to_nat a) v) a = v.
Proof. intros A T a v Ha. rewrite slot_upd by lia. rewrite Z.eqb_refl. reflexivity. Qed.

Lemma slot_upd_other : forall A (T : list (option A)) a v b,
  0 <= a < zlen T -> 0 <= b -> a <> b -> slot (upd T (Z.to_nat a) v) b = slot T b.
Proof. intros A T a v b Ha Hb Hne. rewrite slot_upd by lia. apply Z.eqb_neq in Hne. rewrite Hne. reflexivity. Qed.

Lemma slot_out : forall A (T : list (option A)) j, zlen T <= j -> slot T j = None.
Proof. intros A T j Hj. unfold slot. apply nth_overflow. unfold zlen in Hj. lia. Qed.

Lemma slot_some_lt : forall A (T : list (option A)) j h, 0 <= j -> slot T j = Some h -> j < zlen T.
Proof.
  intros A T j h Hj Hs. destruct (Z_lt_le_dec j (zlen T)) as [Hl|Hl]; [exact Hl|].
  rewrite slot_out in Hs by exact Hl. discriminate.
Qed.

Lemma slot_ext_eq : forall A (T1 T2 : list (option A)),
  length T1 = length T2 -> (forall j, 0 <= j < zlen T1 -> slot T1 j = slot T2 j) -> T1 = T2.
Proof.
  intros A T1 T2 Hlen Hs. apply (nth_ext _ _ None None Hlen).
  intros k Hk. specialize (Hs (Z.of_nat k)). unfold slot in Hs. rewrite Nat2Z.id in Hs.
  apply Hs. unfold zlen. lia.
Qed.

Lemma zmem_in : forall x s, zmem x s = true <-> In x s.
Proof.
  induction s as [|y r IH]; cbn [zmem In]; [split; [discriminate|tauto]|].
  destruct (x =? y) eqn:E.
  - apply Z.eqb_eq in E. subst. tauto.
  - apply Z.eqb_neq in E. rewrite IH. split; [auto|intros [->|]; [congruence|auto]].
Qed.

Lemma in_zadd : forall x y s, In y (zadd x s) <-> y = x \/ In y s.
Proof.
  intros x y s. unfold zadd. destruct (zmem x s) eqn:E.
  - apply zmem_in in E. split; [auto|intros [->|]; auto].
  - rewrite in_app_iff. cbn [In]. split; [intros [|[|[]]]; auto|intros [|]; auto].
Qed.

Lemma zadd_nonempty : forall x s, zadd x s <> [].
Proof. intros x s. unfold zadd. destruct (zmem x s) eqn:E; [apply zmem_in in E; destruct s; [destruct E|discriminate]|destruct s; discriminate]. Qed.

Lemma in_zdiscard : forall x y s, In y (zdiscard x s) <-> y <> x /\ In y s.
Proof.
  induction s as [|z r IH]; cbn [zdiscard In]; [tauto|].
  destruct (x =? z) eqn:E.
  - apply Z.eqb_eq in E. subst z. rewrite IH. split; [tauto|]. intros [Hn [->|Hi]]; [congruence|auto].
  - apply Z.eqb_neq in E. cbn [In]. rewrite IH. split.
    + intros [->|[Hn Hi]]; [split; [congruence|auto]|auto].
    + intros [Hn [->|Hi]]; auto.
Qed.

Lemma zdiscard_length : forall x s, (length (zdiscard x s) <= length s)%nat.
Proof. induction s as [|z r IH]; cbn [zdiscard length]; [lia|]. destruct (x =? z); cbn [length]; lia. Qed.

Lemma zdiscard_length_in : forall x s, In x s -> (length (zdiscard x s) < length s)%nat.
Proof.
  induction s as [|z r IH]; cbn [zdiscard length In]; [tauto|].
  intros [->|Hi].
  - rewrite Z.eqb_refl. pose proof (zdiscard_length x r). lia.
  - destruct (x =? z); cbn [length]; [pose proof (zdiscard_length x r); lia|specialize (IH Hi); lia].
Qed.

Lemma zpop_spec : forall ord s i s' ord',
  zpop ord s = Some (i, s', ord') -> (forall y, In y (i :: s') <-> In y s) /\ (length s' < length s)%nat.
Proof.
  intros ord s i s' ord' Hp. unfold zpop in Hp. destruct s as [|x r]; [discriminate|].
  assert (Hhead : forall o, Some (x, r, o) = Some (i, s', ord') ->
            (forall y, In y (i :: s') <-> In y (x :: r)) /\ (length s' < length (x :: r))%nat).
  { intros o Ho. inversion Ho; subst. cbn [length]. split; [reflexivity|lia]. }
  destruct ord as [|c ord0]; [apply (Hhead _ Hp)|].
  destruct (zmem c (x :: r)) eqn:E; [|apply (Hhead _ Hp)].
  apply zmem_in in E.
  assert (Heq : i = c /\ s' = zdiscard c (x :: r)) by (inversion Hp; auto).
  destruct Heq as [-> ->]. split; [|apply zdiscard_length_in; exact E].
  intros y. cbn [In]. rewrite in_zdiscard. destruct (Z.eq_dec y c) as [->|Hne].
  - split; [intros _; exact E|auto].
  - split; [intros [Hc|[_ Hy]]; [congruence|exact Hy]|auto].
Qed.

Lemma zpop_none : forall ord s, zpop ord s = None -> s = [].
Proof. intros ord s Hp. destruct s; [reflexivity|]. unfold zpop in Hp. destruct ord; [discriminate|]. destruct (zmem z0 (z :: s)); discriminate. Qed.

Lemma assoc_in : forall H k d h, assoc H k d = Some h -> In (k, h) d.
Proof.
  induction d as [|[k' h'] r IH]; cbn [assoc]; intros h Hs; [discriminate|].
  destruct (k =? k') eqn:E; [|right; apply IH; exact Hs].
  apply Z.eqb_eq in E. subst. inversion Hs. left. reflexivity.
Qed.

(* the keys still to be processed: the set being drained and the sets of the levels *)
Definition marked (M : list Z) (lv : list (list Z)) (key : Z) : Prop :=
  In key M \/ exists k, In key (nth k lv []).

Lemma marked_ext : forall M M' lv key, (forall y, In y M' <-> In y M) -> marked M' lv key <-> marked M lv key.
Proof. intros M M' lv key HM. unfold marked. rewrite HM. tauto. Qed.

Lemma in_level_add : forall lv kk x k key, (kk < length lv)%nat ->
  In key (nth k (upd lv kk (zadd x (nth kk lv []))) []) <-> (k = kk /\ key = x) \/ In key (nth k lv []).
Proof.
  intros lv kk x k key Hkk. rewrite nth_upd_lt by exact Hkk. destruct (Nat.eqb k kk) eqn:E.
  - apply Nat.eqb_eq in E. subst k. rewrite in_zadd. tauto.
  - apply Nat.eqb_neq in E. tauto.
Qed.

Lemma marked_add : forall M lv kk x key, (kk < length lv)%nat ->
  marked M (upd lv kk (zadd x (nth kk lv []))) key <-> key = x \/ marked M lv key.
Proof.
  intros M lv kk x key Hkk. unfold marked. split.
  - intros [Hm|[k Hk]]; [tauto|]. apply in_level_add in Hk; [|exact Hkk]. destruct Hk as [[_ ->]|Hk]; eauto.
  - intros [->|[Hm|[k Hk]]]; [right; exists kk|tauto|right; exists k]; apply in_level_add; auto.
Qed.

(* taking a level's set out to drain it *)
Lemma marked_take : forall lv L key, marked (nth L lv []) (upd lv L []) key <-> marked [] lv key.
Proof.
  intros lv L key. unfold marked. split.
  - intros [Hk|[k Hk]]; [eauto|]. rewrite nth_upd_default in Hk. destruct (Nat.eqb k L); [destruct Hk|eauto].
  - intros [[]|[k Hk]]. destruct (Nat.eqb k L) eqn:E.
    + apply Nat.eqb_eq in E. subst k. left. exact Hk.
    + right. exists k. rewrite nth_upd_default, E. exact Hk.
Qed.

(* `sibling` and `parent` in closed form, for 1 <= i; the bounds under which the two do not raise
   IndexError are in parent_some and sibling_some *)
Definition sibz (i : Z) : Z := if Z.odd i then i + 1 else i - 1.
Definition parz (i : Z) : Z := (i - 1) / 2.

Lemma odd_cases : forall i, (Z.odd i = true /\ exists p, i = 2 * p + 1) \/ (Z.odd i = false /\ exists p, i = 2 * p).
Proof.
  intros i. destruct (Z.odd i) eqn:E.
  - left. split; [reflexivity|]. apply Z.odd_spec in E. destruct E as [p Hp]. exists p. lia.
  - right. split; [reflexivity|]. rewrite <- Z.negb_even in E. apply negb_false_iff in E.
    apply Z.even_spec in E. destruct E as [p Hp]. exists p. lia.
Qed.

Lemma node_cases : forall i, 1 <= i ->
  (i = 2 * parz i + 1 /\ sibz i = 2 * parz i + 2) \/ (i = 2 * parz i + 2 /\ sibz i = 2 * parz i + 1).
Proof.
  intros i Hi. unfold parz, sibz. destruct (odd_cases i) as [[-> [p Hp]]|[-> [p Hp]]]; subst i.
  - left. replace (2 * p + 1 - 1) with (p * 2) by lia. rewrite Z.div_mul by lia. lia.
  - right. replace (2 * p - 1) with (1 + (p - 1) * 2) by lia. rewrite Z.div_add by lia.
    change (1 / 2) with 0. lia.
Qed.

Lemma parz_range : forall i, 1 <= i -> 0 <= parz i < i.
Proof. intros i Hi. destruct (node_cases i Hi) as [[H1 _]|[H1 _]]; lia. Qed.

Lemma parz_sibz : forall i, 1 <= i -> parz (sibz i) = parz i.
Proof.
  intros i Hi. destruct (node_cases i Hi) as [[H1 H2]|[H1 H2]]; rewrite H2; unfold parz.
  - replace (2 * ((i - 1) / 2) + 2 - 1) with (1 + ((i - 1) / 2) * 2) by lia. rewrite Z.div_add by lia. reflexivity.
  - replace (2 * ((i - 1) / 2) + 1 - 1) with (((i - 1) / 2) * 2) by lia. rewrite Z.div_mul by lia. reflexivity.
Qed.

Lemma sibz_ge1 : forall i, 1 <= i -> 1 <= sibz i.
Proof. intros i Hi. pose proof (parz_range i Hi). destruct (node_cases i Hi) as [[H1 H2]|[H1 H2]]; lia. Qed.

Lemma sibz_invol : forall i, 1 <= i -> sibz (sibz i) = i.
Proof.
  intros i Hi. pose proof (sibz_ge1 i Hi) as Hs. pose proof (parz_sibz i Hi) as Hp.
  destruct (node_cases i Hi) as [[H1 H2]|[H1 H2]]; destruct (node_cases (sibz i) Hs) as [[H3 H4]|[H3 H4]]; lia.
Qed.

Lemma sibz_neq : forall i, 1 <= i -> sibz i <> i.
Proof. intros i Hi. destruct (node_cases i Hi) as [[H1 H2]|[H1 H2]]; lia. Qed.

Lemma children_parz : forall p, 0 <= p -> parz (2 * p + 1) = p /\ parz (2 * p + 2) = p.
Proof.
  intros p Hp. unfold parz. split.
  - replace (2 * p + 1 - 1) with (p * 2) by lia. apply Z.div_mul. lia.
  - replace (2 * p + 2 - 1) with (1 + p * 2) by lia. rewrite Z.div_add by lia. reflexivity.
Qed.

(* the shape of parent, lchild and rchild: IndexError or the value *)
Lemma guard_some : forall (b : bool) (v c : Z), (if b then None else Some v) = Some c <-> b = false /\ c = v.
Proof.
  intros [|] v c; (split; [intros Hs|intros [Hb Hc]]); try discriminate.
  - apply Some_inj in Hs. auto.
  - subst c. reflexivity.
Qed.

Lemma parent_some : forall n i p, parent n i = Some p <-> (1 <= i < n /\ p = parz i).
Proof. intros n i p. unfold parent, parz. rewrite guard_some, orb_false_iff, Z.ltb_ge, Z.leb_gt. lia. Qed.

Lemma parent_intro : forall n i, 1 <= i < n -> parent n i = Some (parz i).
Proof. intros n i Hi. apply parent_some. auto. Qed.

Lemma lchild_some : forall n p c, lchild n p = Some c <-> (0 <= p /\ 2 * p + 1 < n /\ c = 2 * p + 1).
Proof. intros n p c. unfold lchild. cbv zeta. rewrite guard_some, orb_false_iff, Z.ltb_ge, Z.leb_gt. lia. Qed.

Lemma rchild_some : forall n p c, rchild n p = Some c <-> (0 <= p /\ 2 * p + 2 < n /\ c = 2 * p + 2).
Proof. intros n p c. unfold rchild. cbv zeta. rewrite guard_some, orb_false_iff, Z.ltb_ge, Z.leb_gt. lia. Qed.

Lemma sibling_some : forall n i s, sibling n i = Some s -> 1 <= i /\ 2 * parz i + 2 < n /\ s = sibz i.
Proof.
  intros n i s Hs. unfold sibling in Hs.
  destruct (parent n i) as [p|] eqn:Ep; [|discriminate]. apply parent_some in Ep. destruct Ep as [Hi ->].
  destruct (lchild n (parz i)) as [lc|] eqn:El; [|discriminate]. apply lchild_some in El. destruct El as [Hp [Hl ->]].
  assert (Hi1 : 1 <= i) by lia.
  destruct (2 * parz i + 1 =? i) eqn:E.
  - apply Z.eqb_eq in E. apply rchild_some in Hs. destruct (node_cases i Hi1) as [[H1 H2]|[H1 H2]]; lia.
  - apply Z.eqb_neq in E. apply Some_inj in Hs. destruct (node_cases i Hi1) as [[H1 H2]|[H1 H2]]; lia.
Qed.

Lemma sibling_intro : forall n i, 1 <= i -> 2 * parz i + 2 < n -> sibling n i = Some (sibz i).
Proof.
  intros n i Hi Hn. pose proof (parz_range i Hi) as Hp. unfold sibling.
  rewrite parent_intro by (destruct (node_cases i Hi) as [[H1 H2]|[H1 H2]]; lia).
  assert (Hl : lchild n (parz i) = Some (2 * parz i + 1)) by (apply lchild_some; lia).
  assert (Hr : rchild n (parz i) = Some (2 * parz i + 2)) by (apply rchild_some; lia).
  rewrite Hl. destruct (node_cases i Hi) as [[H1 H2]|[H1 H2]].
  - assert (2 * parz i + 1 =? i = true) as -> by (apply Z.eqb_eq; lia). rewrite Hr, H2. reflexivity.
  - assert (2 * parz i + 1 =? i = false) as -> by (apply Z.eqb_neq; lia). rewrite H2. reflexivity.
Qed.

Lemma min_max_sib : forall i, 1 <= i -> Z.min i (sibz i) = 2 * parz i + 1 /\ Z.max i (sibz i) = 2 * parz i + 2.
Proof. intros i Hi. destruct (node_cases i Hi) as [[H1 H2]|[H1 H2]]; lia. Qed.

Lemma depth_nonneg : forall i, 0 <= i -> 0 <= depth_of i.
Proof.
  intros i Hi. unfold depth_of. destruct (i + 1 <=? 0) eqn:E; [apply Z.leb_le in E; lia|]. apply Z.log2_nonneg.
Qed.

Lemma depth_mono : forall i j, 0 <= i <= j -> depth_of i <= depth_of j.
Proof.
  intros i j Hij. unfold depth_of.
  destruct (i + 1 <=? 0) eqn:E1; [apply Z.leb_le in E1; lia|].
  destruct (j + 1 <=? 0) eqn:E2; [apply Z.leb_le in E2; lia|].
  apply Z.log2_le_mono. lia.
Qed.

Lemma depth_bound : forall n x, 0 <= x < n -> 0 <= depth_of x <= depth_of (n - 1).
Proof. intros n x Hx. split; [apply depth_nonneg|apply depth_mono]; lia. Qed.

Lemma depth_children : forall p, 0 <= p -> depth_of (2 * p + 1) = depth_of p + 1 /\ depth_of (2 * p + 2) = depth_of p + 1.
Proof.
  intros p Hp. unfold depth_of.
  destruct (p + 1 <=? 0) eqn:E0; [apply Z.leb_le in E0; lia|].
  destruct (2 * p + 1 + 1 <=? 0) eqn:E1; [apply Z.leb_le in E1; lia|].
  destruct (2 * p + 2 + 1 <=? 0) eqn:E2; [apply Z.leb_le in E2; lia|].
  split.
  - replace (2 * p + 1 + 1) with (2 * (p + 1)) by lia. rewrite Z.log2_double by lia. lia.
  - replace (2 * p + 2 + 1) with (2 * (p + 1) + 1) by lia. rewrite Z.log2_succ_double by lia. lia.
Qed.

Lemma depth_parz : forall i, 1 <= i -> depth_of (parz i) = depth_of i - 1.
Proof.
  intros i Hi. pose proof (parz_range i Hi) as Hp. destruct (depth_children (parz i)) as [D1 D2]; [lia|].
  destruct (node_cases i Hi) as [[H1 H2]|[H1 H2]]; [rewrite H1 at 2|rewrite H1 at 2]; lia.
Qed.

Lemma depth_sibz : forall i, 1 <= i -> depth_of (sibz i) = depth_of i.
Proof.
  intros i Hi. pose proof (depth_parz i Hi). pose proof (depth_parz (sibz i) (sibz_ge1 i Hi)) as H2.
  rewrite parz_sibz in H2 by exact Hi. lia.
Qed.

Lemma depth_neg : forall i, i < 0 -> depth_of i = -1.
Proof. intros i Hi. unfold depth_of. assert (i + 1 <=? 0 = true) as -> by (apply Z.leb_le; lia). reflexivity. Qed.
