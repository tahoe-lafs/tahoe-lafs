(* C07: one _calculate_mappings call.  The flow graphs built by _servermap_flow_graph and
   _flow_network are layered networks; the matched entries of the result are exactly the
   unit flows of the final flow, which is a maximum matching of the phase's graph. *)
From Coq Require Import List NArith ZArith Bool Arith Lia.
From Verif Require Import Lib.ListFacts Model.Matching Model.Placement Proofs.Matching Proofs.MatchingLists
     Proofs.MatchingResidual Proofs.MatchingAugment Proofs.MatchingLoop Proofs.MatchingNetwork
     Proofs.Placement Proofs.PlacementStruct.
Import ListNotations.

Lemma nth_error_combine : forall (A B : Type) (l : list A) (r : list B) j a b,
  nth_error l j = Some a -> nth_error r j = Some b -> nth_error (combine l r) j = Some (a, b).
Proof.
  intros A B. induction l as [|x l IH]; intros r j a b Ha Hb; [destruct j; discriminate|].
  destruct r as [|y r]; [destruct j; discriminate|]. destruct j as [|j]; cbn [nth_error combine] in *.
  - inversion Ha; inversion Hb; subst. reflexivity.
  - apply IH; assumption.
Qed.

Lemma map_nth_error_eq : forall (A B : Type) (f : A -> B) (l : list A) (l' : list B),
  length l = length l' ->
  (forall j b, nth_error l' j = Some b -> exists a, nth_error l j = Some a /\ f a = b) -> map f l = l'.
Proof.
  intros A B f. induction l as [|a l IH]; intros [|b l'] L H; try discriminate; [reflexivity|].
  cbn [map]. f_equal.
  - destruct (H 0 b eq_refl) as [a' [E <-]]. inversion E. reflexivity.
  - apply IH; [inversion L; reflexivity|]. intros j. apply (H (S j)).
Qed.

Lemma index_of_nth_error : forall x l j, index_of x l = Some j -> nth_error l j = Some x.
Proof.
  intros x. induction l as [|y l IH]; intros j H; cbn [index_of] in H; [discriminate|].
  destruct (N.eqb_spec x y) as [->|_]; [inversion H; reflexivity|].
  destruct (index_of x l) as [k|]; [|discriminate]. inversion H; subst. apply IH. reflexivity.
Qed.

Lemma nth_error_index_of : forall l j x, NoDup l -> nth_error l j = Some x -> index_of x l = Some j.
Proof.
  induction l as [|y l IH]; intros j x Hnd H; [destruct j; discriminate|].
  apply NoDup_cons_iff in Hnd. destruct Hnd as [Hn Hr]. cbn [index_of]. destruct j as [|j]; cbn [nth_error] in H.
  - inversion H; subst. rewrite N.eqb_refl. reflexivity.
  - destruct (N.eqb_spec x y) as [->|_]; [destruct Hn; apply (nth_error_In _ _ H)|].
    rewrite (IH j x Hr H). reflexivity.
Qed.

Lemma In_index_of : forall l x, In x l -> exists j, index_of x l = Some j.
Proof.
  induction l as [|y l IH]; intros x H; [destruct H|]. cbn [index_of].
  destruct (N.eqb_spec x y) as [->|Hne]; [eauto|].
  destruct H as [H|H]; [congruence|]. destruct (IH x H) as [j Hj]. rewrite Hj. cbn. eauto.
Qed.

Lemma in_indexed_shares : forall base so held v,
  In v (indexed_shares base so held) <-> exists s j, In s held /\ index_of s so = Some j /\ v = base + j.
Proof.
  intros base so held v. unfold indexed_shares. rewrite in_flat_map. split.
  - intros [s [Hs Hv]]. destruct (index_of s so) as [j|] eqn:E; [|destruct Hv].
    destruct Hv as [Hv|[]]. eauto.
  - intros [s [j [Hs [E Hv]]]]. exists s. split; [exact Hs|]. rewrite E. left. auto.
Qed.

Lemma NoDup_indexed_shares : forall base so ho, NoDup ho -> NoDup (indexed_shares base so ho).
Proof.
  intros base so. induction ho as [|s r IH]; intros Hnd; unfold indexed_shares; cbn [flat_map]; [constructor|].
  apply NoDup_cons_iff in Hnd. destruct Hnd as [Hn Hr]. fold (indexed_shares base so r).
  destruct (index_of s so) as [j|] eqn:E; cbn [app]; [|apply IH, Hr].
  constructor; [|apply IH, Hr]. intro Hin. apply in_indexed_shares in Hin. destruct Hin as [s' [j' [Hs' [E' Ev]]]].
  assert (j' = j) by lia. subst j'. apply index_of_nth_error in E. apply index_of_nth_error in E'. congruence.
Qed.

Definition layered (np nsh : nat) (rows : list (list nat)) : graph :=
  (seq 1 np :: rows) ++ repeat [np + nsh + 1] nsh ++ [[]].

Lemma layered_adj : forall np nsh rows, length rows = np ->
  length (layered np nsh rows) = np + nsh + 2 /\
  adj (layered np nsh rows) 0 = seq 1 np /\
  (forall i, i < np -> adj (layered np nsh rows) (S i) = nth i rows []) /\
  (forall s, np < s <= np + nsh -> adj (layered np nsh rows) s = [np + nsh + 1]) /\
  adj (layered np nsh rows) (np + nsh + 1) = [].
Proof.
  intros np nsh rows Hl. unfold layered, adj. split; [|split; [|split; [|split]]].
  - rewrite !app_length, repeat_length. cbn [length]. lia.
  - reflexivity.
  - intros i Hi. cbn [app nth]. rewrite app_nth1 by lia. reflexivity.
  - intros s Hs. rewrite app_nth2 by (cbn [length]; lia). cbn [length]. rewrite Hl.
    rewrite app_nth1 by (rewrite repeat_length; lia). apply nth_repeat_lt. lia.
  - rewrite app_nth2 by (cbn [length]; lia). cbn [length]. rewrite Hl.
    rewrite app_nth2 by (rewrite repeat_length; lia). rewrite repeat_length.
    replace (np + nsh + 1 - S np - nsh) with 0 by lia. reflexivity.
Qed.

Definition phase_graph (po : phase_order) (pl so : list N) (sm : smap) : option graph :=
  match sm with
  | [] => Some (flow_network (length pl) (length so))
  | _ => servermap_flow_graph po pl so sm
  end.

Lemma peer_row_spec : forall po base so sm p row, peer_row po base so sm p = Some row ->
  (lookupN p sm = None /\ row = []) \/
  (exists held ho, lookupN p sm = Some held /\ ordered (po_held po p held) held = Some ho /\
                   row = indexed_shares base so ho).
Proof.
  intros po base so sm p row H. unfold peer_row in H. destruct (lookupN p sm) as [held|].
  - right. destruct (ordered (po_held po p held) held) as [ho|] eqn:E; [|discriminate]. inversion H; subst. eauto.
  - left. inversion H. auto.
Qed.

Lemma phase_graph_layered : forall po pl so sm g, phase_graph po pl so sm = Some g ->
  exists rows, g = layered (length pl) (length so) rows /\ length rows = length pl /\
    (forall i p, nth_error pl i = Some p ->
       match sm with
       | [] => nth i rows [] = seq (S (length pl)) (length so)
       | _ => peer_row po (S (length pl)) so sm p = Some (nth i rows [])
       end).
Proof.
  intros po pl so sm g H. unfold phase_graph in H. destruct sm as [|e sm'].
  - inversion H; subst. exists (repeat (seq (S (length pl)) (length so)) (length pl)).
    split; [reflexivity|]. split; [apply repeat_length|].
    intros i p Hi. apply nth_repeat_lt. apply nth_error_Some. congruence.
  - unfold servermap_flow_graph in H.
    destruct (option_all (map (peer_row po (S (length pl)) so (e :: sm')) pl)) as [rows|] eqn:E; [|discriminate].
    inversion H; subst. exists rows. destruct (option_all_nth _ _ _ _ _ E) as [L P].
    split; [reflexivity|]. split; [exact L|]. intros i p Hi.
    destruct (P i p Hi) as [row [Hr Hp]]. rewrite (nth_error_nth _ _ _ Hr). exact Hp.
Qed.

Section PhaseGraph.
Context {po : phase_order} {pl so : list N} {sm : smap} {g : graph}.
Hypothesis Hg : phase_graph po pl so sm = Some g.
Hypothesis Hso : NoDup so.
Let np := length pl.
Let nsh := length so.

(* the row of server i: the vertices of the shares it may receive in this phase, which are all
   shares when the phase has no server map *)
Lemma phase_row : forall i p, nth_error pl i = Some p ->
  NoDup (adj g (S i)) /\
  forall v, In v (adj g (S i)) <->
            exists j s, nth_error so j = Some s /\ v = S np + j /\ (sm = [] \/ holds sm p s).
Proof.
  intros i p Hi. destruct (phase_graph_layered _ _ _ _ _ Hg) as [rows [-> [Lr Hrows]]].
  assert (Hilt : i < np) by (apply nth_error_Some; congruence).
  destruct (layered_adj (length pl) (length so) rows Lr) as [_ [_ [A1 _]]].
  rewrite (A1 i Hilt). specialize (Hrows i p Hi). unfold np. destruct sm as [|e sm'].
  - rewrite Hrows. split; [apply seq_NoDup|]. intros v. rewrite in_seq. split.
    + intros Hv. exists (v - S (length pl)).
      destruct (nth_error so (v - S (length pl))) as [s|] eqn:Es; [|apply nth_error_None in Es; lia].
      exists s. split; [reflexivity|]. split; [lia | left; reflexivity].
    + intros (j & s & Hj & -> & _). assert (j < length so) by (apply nth_error_Some; congruence). lia.
  - destruct (peer_row_spec _ _ _ _ _ _ Hrows) as [[En ->]|[held [ho [El [Eo ->]]]]].
    + split; [constructor|]. intros v. split; [intros []|].
      intros (j & s & _ & _ & [|[held [El _]]]); congruence.
    + split; [apply NoDup_indexed_shares, (ordered_NoDup Eo)|]. intros v. rewrite in_indexed_shares. split.
      * intros [s [j [Hs [Ei ->]]]]. exists j, s. split; [apply index_of_nth_error, Ei|]. split; [reflexivity|].
        right. exists held. split; [exact El | apply (ordered_incl Eo), Hs].
      * intros (j & s & Hj & -> & [|[held' [El' Hs]]]); [discriminate|]. rewrite El in El'. injection El' as <-.
        exists s, j. split; [apply (ordered_complete Eo), Hs|]. split; [apply nth_error_index_of; assumption | reflexivity].
Qed.

Lemma phase_edge : forall i j p s, nth_error pl i = Some p -> nth_error so j = Some s ->
  (E g (S i) (S np + j) <-> sm = [] \/ holds sm p s).
Proof.
  intros i j p s Hi Hj. unfold E. rewrite (proj2 (phase_row i p Hi)). split.
  - intros (j' & s' & Hj' & Ev & H). assert (j' = j) by lia. subst j'. rewrite Hj in Hj'. injection Hj' as <-. exact H.
  - intros H. exists j, s. auto.
Qed.

Lemma phase_net : Net g np nsh.
Proof.
  destruct (phase_graph_layered _ _ _ _ _ Hg) as [rows [Eg [Lr _]]].
  destruct (layered_adj (length pl) (length so) rows Lr) as [LG [A0 [_ [A2 A3]]]]. rewrite <- Eg in *.
  constructor; try assumption.
  intros i Hi. destruct i as [|k]; [lia|].
  destruct (nth_error pl k) as [p|] eqn:Ep; [|apply nth_error_None in Ep; fold np in Ep; lia].
  destruct (phase_row k p Ep) as [Hnd Hin]. split; [|exact Hnd].
  intros v Hv. apply Hin in Hv. destruct Hv as (j & s & Hj & -> & _).
  assert (j < nsh) by (apply nth_error_Some; congruence). lia.
Qed.
End PhaseGraph.

Lemma cm_inv : forall po P Sh sm pr, calculate_mappings po P Sh sm = Some pr ->
  exists pl so g,
    ordered (po_peers po P) P = Some pl /\ ordered (po_shares po Sh) Sh = Some so /\
    phase_graph po pl so sm = Some g /\
    max_flow (S (length pl)) g = Some (pr_flow pr, pr_residual pr) /\
    length (pr_mappings pr) = length so /\
    (* entry j of the mapping: what _convert_mappings makes of residual_graph[share j] *)
    forall j s, nth_error so j = Some s -> exists r m,
      share_result (pr_residual pr) (length g) (S (length pl) + j) = Some r /\
      convert_one pl s r = Some m /\ nth_error (pr_mappings pr) j = Some m.
Proof.
  intros po P Sh sm pr H. unfold calculate_mappings in H.
  destruct (ordered (po_peers po P) P) as [pl|] eqn:E1; [|discriminate].
  destruct (ordered (po_shares po Sh) Sh) as [so|] eqn:E2; [|discriminate].
  fold (phase_graph po pl so sm) in H. destruct (phase_graph po pl so sm) as [g|] eqn:E3; [|discriminate].
  unfold compute_maximum_graph in H. destruct (max_flow (S (length pl)) g) as [[f rg]|] eqn:E4; [|discriminate].
  destruct (option_all (map (share_result rg (length g)) _)) as [rs|] eqn:Er; [|discriminate].
  destruct (option_all (map _ (combine so _))) as [ms|] eqn:E5; [|discriminate].
  inversion H; subst pr. cbn [pr_flow pr_residual pr_mappings].
  destruct (option_all_nth _ _ _ _ _ Er) as [Lr Pr]. rewrite seq_length in Lr.
  destruct (option_all_nth _ _ _ _ _ E5) as [L5 P5]. rewrite !combine_length, seq_length, Lr in L5.
  exists pl, so, g. do 4 (split; [first [reflexivity | assumption]|]). split; [lia|]. intros j s Hj.
  assert (Hsi : nth_error (seq (S (length pl)) (length so)) j = Some (S (length pl) + j)).
  { apply nth_error_seq, nth_error_Some. congruence. }
  destruct (Pr _ _ Hsi) as [r [Hr Hsr]].
  destruct (P5 j _ (nth_error_combine _ _ _ _ _ _ _ Hj (nth_error_combine _ _ _ _ _ _ _ Hsi Hr))) as [m [Hm Hc]].
  exists r, m. auto.
Qed.

Lemma convert_one_inv : forall pl s r m, convert_one pl s r = Some m ->
  (r = None /\ m = (s, None)) \/
  exists i p, r = Some (S i) /\ nth_error pl i = Some p /\ m = (s, Some p).
Proof.
  intros pl s r m H. unfold convert_one in H. destruct r as [[|i]|]; [discriminate | |].
  - destruct (nth_error pl i) as [p|] eqn:E; [|discriminate]. inversion H. right. eauto.
  - inversion H. auto.
Qed.

(* `peer[0]` is the first neighbour of the share in the residual graph; the share stays
   unmatched only when the sink is its one neighbour *)
Lemma share_result_spec : forall rg dim si r, share_result rg dim si = Some r ->
  match r with
  | Some v => In v (adj rg si)
  | None => forall v, In v (adj rg si) -> v = dim - 1
  end.
Proof.
  intros rg dim si r H. unfold share_result in H. destruct (adj rg si) as [|x [|y l]]; [discriminate | |].
  - destruct (Nat.eqb_spec x (dim - 1)) as [E|_]; inversion H; [intros v [<-|[]]; exact E | left; reflexivity].
  - inversion H. left. reflexivity.
Qed.

(* the entry computed for a share vertex is its partner in the final flow: its residual
   neighbours are the sink and the server sending it flow, of which there is at most one *)
Lemma share_result_flow : forall g np nsh f rg j r,
  Net g np nsh -> final_state g np nsh f rg -> j < nsh ->
  share_result rg (length g) (S np + j) = Some r ->
  match r with
  | Some x => server np x -> forall v, In (v, S np + j) (flow_matching g np f) <-> v = x
  | None => forall v, ~ In (v, S np + j) (flow_matching g np f)
  end.
Proof.
  intros g np nsh f rg j r HN [HI [[cf Hres] _]] Hj Hr. set (si := S np + j) in *.
  destruct (residual_network_spec g _ _ _ (net_upward g _ _ HN) Hres) as [_ [Hadj _]].
  apply share_result_spec in Hr. destruct r as [x|].
  - intros Hx.
    assert (Hfx : E g x si /\ mget f x si = 1%Z).
    { apply Hadj in Hr. destruct Hr as [[He _]|Hr]; [|exact Hr].
      rewrite (net_shr _ _ _ HN) in He by (unfold si; lia). destruct He as [<-|[]]. unfold server in Hx. lia. }
    intros v. rewrite (in_flow_matching g np nsh). split.
    + intros (Hv & He & Hf). apply (inv_in _ _ _ _ HI si); tauto.
    + intros ->. tauto.
  - intros v Hin. apply (in_flow_matching g np nsh) in Hin. destruct Hin as [Hv Hfl]. unfold server in Hv.
    assert (Hin : In v (adj rg si)) by (apply Hadj; right; exact Hfl).
    apply Hr in Hin. rewrite (net_len _ _ _ HN) in Hin. unfold si in Hin. lia.
Qed.

Record phase_facts (po : phase_order) (P Sh : list N) (sm : smap) (pr : phase_result)
       (pl so : list N) (g : graph) : Prop := {
  pf_pl : ordered (po_peers po P) P = Some pl;
  pf_so : ordered (po_shares po Sh) Sh = Some so;
  pf_net : Net g (length pl) (length so);
  pf_final : final_state g (length pl) (length so) (pr_flow pr) (pr_residual pr);
  pf_edge : forall i j p s, nth_error pl i = Some p -> nth_error so j = Some s ->
            (E g (S i) (S (length pl) + j) <-> sm = [] \/ holds sm p s);
  pf_keys : map fst (pr_mappings pr) = so;
  (* the matched entries are exactly the unit flows *)
  pf_entry : forall s p, In (s, Some p) (pr_mappings pr) <->
             exists i j, nth_error pl i = Some p /\ nth_error so j = Some s /\
                         In (S i, S (length pl) + j) (flow_matching g (length pl) (pr_flow pr))
}.
Arguments pf_pl {_ _ _ _ _ _ _ _}.
Arguments pf_so {_ _ _ _ _ _ _ _}.
Arguments pf_net {_ _ _ _ _ _ _ _}.
Arguments pf_final {_ _ _ _ _ _ _ _}.
Arguments pf_edge {_ _ _ _ _ _ _ _}.
Arguments pf_keys {_ _ _ _ _ _ _ _}.
Arguments pf_entry {_ _ _ _ _ _ _ _}.

Lemma cm_facts : forall po P Sh sm pr, calculate_mappings po P Sh sm = Some pr ->
  exists pl so g, phase_facts po P Sh sm pr pl so g.
Proof.
  intros po P Sh sm pr H. destruct (cm_inv _ _ _ _ _ H) as (pl & so & g & E1 & E2 & E3 & Hmf & Lm & Hent).
  pose proof (ordered_NoDup E2) as Hso. pose proof (phase_net E3 Hso) as HN.
  pose proof (max_flow_spec g _ _ HN _ _ _ Hmf) as HF.
  assert (Hsrv : forall i p, nth_error pl i = Some p -> server (length pl) (S i)).
  { intros i p Hi. assert (i < length pl) by (apply nth_error_Some; congruence). unfold server. lia. }
  exists pl, so, g. constructor; try assumption.
  - apply (phase_edge E3 Hso).
  - apply map_nth_error_eq; [exact Lm|]. intros j s Hj. destruct (Hent j s Hj) as (r & m & _ & Hc & Hm).
    exists m. split; [exact Hm|]. destruct (convert_one_inv _ _ _ _ Hc) as [[_ ->]|(i & p & _ & _ & ->)]; reflexivity.
  - intros s p. split.
    + intros Hin. apply In_nth_error in Hin. destruct Hin as [j Hm].
      assert (Hj : j < length so) by (rewrite <- Lm; apply nth_error_Some; congruence).
      destruct (nth_error so j) as [s'|] eqn:Es; [|apply nth_error_None in Es; lia].
      destruct (Hent j s' Es) as (r & m & Hsr & Hc & Hm'). rewrite Hm in Hm'. injection Hm' as <-.
      destruct (convert_one_inv _ _ _ _ Hc) as [[_ Em]|(i & q & -> & Hi & Em)]; inversion Em; subst s' q.
      exists i, j. split; [exact Hi|]. split; [exact Es|].
      apply (share_result_flow _ _ _ _ _ _ _ HN HF Hj Hsr (Hsrv _ _ Hi)). reflexivity.
    + intros (i & j & Hi & Hj & Hfl). destruct (Hent j s Hj) as (r & m & Hsr & Hc & Hm).
      assert (Hjlt : j < length so) by (apply nth_error_Some; congruence).
      apply nth_error_In in Hm. apply (share_result_flow _ _ _ _ _ _ _ HN HF Hjlt) in Hsr.
      destruct (convert_one_inv _ _ _ _ Hc) as [[-> ->]|(x & q & -> & Hx & ->)]; [destruct (Hsr _ Hfl)|].
      apply (Hsr (Hsrv _ _ Hx)) in Hfl.
      injection Hfl as ->. rewrite Hx in Hi. injection Hi as ->. exact Hm.
Qed.

Definition idxd (x : N) (l : list N) : nat := match index_of x l with Some j => j | None => 0 end.

Lemma idxd_nth : forall x l, In x l -> nth_error l (idxd x l) = Some x.
Proof.
  intros x l H. destruct (In_index_of l x H) as [j Hj]. unfold idxd. rewrite Hj. apply index_of_nth_error, Hj.
Qed.

Lemma idxd_inj : forall l x y, In x l -> In y l -> idxd x l = idxd y l -> x = y.
Proof. intros l x y Hx Hy E. apply idxd_nth in Hx. apply idxd_nth in Hy. congruence. Qed.

Lemma nth_idxd : forall l i x, NoDup l -> nth_error l i = Some x -> idxd x l = i.
Proof. intros l i x Hnd H. unfold idxd. rewrite (nth_error_index_of _ _ _ Hnd H). reflexivity. Qed.

Lemma NoDup_map_idxd : forall (A : Type) (f : A -> N) l k (M : list A),
  NoDup (map f M) -> (forall e, In e M -> In (f e) l) -> NoDup (map (fun e => k + idxd (f e) l) M).
Proof.
  intros A f l k M Hnd Hin. rewrite <- (map_map f (fun x => k + idxd x l)).
  apply NoDup_map_inj; [exact Hnd|]. intros x y Hx Hy E.
  apply in_map_iff in Hx. destruct Hx as [a [<- Ha]]. apply in_map_iff in Hy. destruct Hy as [b [<- Hb]].
  apply (idxd_inj l); [apply Hin, Ha | apply Hin, Hb | lia].
Qed.

Section Phase.
Context {po : phase_order} {P Sh : list N} {sm : smap} {pr : phase_result} {pl so : list N} {g : graph}.
Hypothesis HF : phase_facts po P Sh sm pr pl so g.

Let np := length pl.
Let nsh := length so.
Let HN : Net g np nsh := pf_net HF.
Let HI : Inv g np nsh (pr_flow pr) := proj1 (pf_final HF).
Let Hpl : NoDup pl := ordered_NoDup (pf_pl HF).
Let Hso : NoDup so := ordered_NoDup (pf_so HF).

Lemma pf_keys_NoDup : NoDup (map fst (pr_mappings pr)).
Proof. rewrite (pf_keys HF). exact Hso. Qed.

Lemma pf_key_In : forall s, In s (map fst (pr_mappings pr)) <-> In s Sh.
Proof. intros s. rewrite (pf_keys HF). symmetry. apply (ordered_complete (pf_so HF)). Qed.

Lemma pf_server : forall s p, In (s, Some p) (pr_mappings pr) -> In p P.
Proof.
  intros s p H. apply (pf_entry HF) in H. destruct H as (i & _ & Hi & _).
  apply (ordered_incl (pf_pl HF)), (nth_error_In _ _ Hi).
Qed.

Lemma pf_used_peers : forall p, In p (used_peers_of (pr_mappings pr)) -> In p P.
Proof. intros p Hp. apply used_peers_spec in Hp. destruct Hp as [s Hs]. exact (pf_server s p Hs). Qed.

Lemma pf_linked : forall s p, In (s, Some p) (pr_mappings pr) -> sm = [] \/ holds sm p s.
Proof.
  intros s p H. apply (pf_entry HF) in H. destruct H as (i & j & Hi & Hj & Hfl).
  apply (proj1 (in_flow_matching g np nsh _ _ _)) in Hfl. apply (pf_edge HF i j p s Hi Hj), Hfl.
Qed.

(* unit flows have pairwise different sources, and each source is a matched server *)
Lemma flow_le_used_peers : length (flow_matching g np (pr_flow pr)) <= length (used_peers_of (pr_mappings pr)).
Proof.
  destruct (flow_matching_is_matching g np nsh HN (pr_flow pr) HI) as [Hsrv [Hf1 _]].
  assert (Hent : forall v si, In (v, si) (flow_matching g np (pr_flow pr)) ->
            exists i p, v = S i /\ nth_error pl i = Some p /\ In p (used_peers_of (pr_mappings pr))).
  { intros v si Hin. destruct (Hsrv v si Hin) as [Hv He].
    destruct (E_cases g _ _ HN v si He) as [[-> _]|[[_ Hsh]|[Hsh _]]]; unfold server, share in *; [lia | | lia].
    destruct v as [|i]; [lia|]. destruct (nth_error pl i) as [p|] eqn:Ep; [|apply nth_error_None in Ep; fold np in Ep; lia].
    destruct (nth_error so (si - S np)) as [s|] eqn:Es; [|apply nth_error_None in Es; fold nsh in Es; lia].
    exists i, p. split; [reflexivity|]. split; [exact Ep|]. apply used_peers_spec. exists s.
    apply (pf_entry HF). exists i, (si - S np). replace (S (length pl) + (si - S np)) with si by (fold np; lia). auto. }
  rewrite <- (map_length fst), <- (map_length (fun p => S (idxd p pl)) (used_peers_of _)).
  apply NoDup_incl_length; [exact Hf1|].
  intros v Hv. apply in_map_iff in Hv. destruct Hv as [[v' si] [<- Hin]]. cbn [fst].
  destruct (Hent _ _ Hin) as (i & p & -> & Hi & Hu). apply in_map_iff. exists p.
  split; [rewrite (nth_idxd _ _ _ Hpl Hi); reflexivity | exact Hu].
Qed.

(* the phase finds a maximum matching of (server of P -- share of Sh it holds in sm) *)
Theorem phase_maximum : forall M : list (N * N),
  NoDup (map fst M) -> NoDup (map snd M) ->
  (forall p s, In (p, s) M -> In p P /\ In s Sh /\ (sm = [] \/ holds sm p s)) ->
  length M <= length (used_peers_of (pr_mappings pr)).
Proof.
  intros M Hm1 Hm2 Hedge. eapply Nat.le_trans; [|apply flow_le_used_peers].
  set (vm := fun e : N * N => (S (idxd (fst e) pl), S np + idxd (snd e) so)).
  rewrite <- (map_length vm M).
  apply (flow_matching_maximum g np nsh HN _ _ (pf_final HF)).
  assert (Hv : forall p s, In (p, s) M -> In p pl /\ In s so /\ E g (S (idxd p pl)) (S np + idxd s so)).
  { intros p s Hin. destruct (Hedge p s Hin) as (Hp & Hs & Hl).
    apply (ordered_complete (pf_pl HF)) in Hp. apply (ordered_complete (pf_so HF)) in Hs.
    split; [exact Hp|]. split; [exact Hs|].
    apply (pf_edge HF _ _ p s (idxd_nth _ _ Hp) (idxd_nth _ _ Hs)), Hl. }
  split; [|split].
  - intros i v Hin. apply in_map_iff in Hin. destruct Hin as [[p s] [Ev Hin]]. inversion Ev; subst. cbn [fst snd].
    destruct (Hv p s Hin) as [Hp [_ He]]. split; [|exact He].
    assert (idxd p pl < np) by (apply nth_error_Some; rewrite (idxd_nth _ _ Hp); discriminate). unfold server. lia.
  - rewrite map_map. apply (NoDup_map_idxd _ fst pl 1 M Hm1). intros [p s] Hin. apply (Hv p s Hin).
  - rewrite map_map. apply (NoDup_map_idxd _ snd so (S np) M Hm2). intros [p s] Hin. apply (Hv p s Hin).
Qed.

(* every matched share is the end of a unit flow *)
Lemma used_shares_le_peers : length (used_shares_of (pr_mappings pr)) <= length (used_peers_of (pr_mappings pr)).
Proof.
  eapply Nat.le_trans; [|apply flow_le_used_peers].
  rewrite <- (map_length (fun e => nth (snd e - S np) so 0%N)).
  apply NoDup_incl_length; [apply used_shares_spec|].
  intros s Hs. apply used_shares_spec in Hs. destruct Hs as [p Hp].
  apply (pf_entry HF) in Hp. destruct Hp as (i & j & _ & Hj & Hfl).
  apply in_map_iff. exists (S i, S np + j). split; [|exact Hfl]. cbn [snd].
  replace (S np + j - S np) with j by lia. apply nth_error_nth, Hj.
Qed.

(* with no server map the phase graph is complete bipartite: min(#servers, #shares) pairs are matched *)
Lemma complete_phase_bound : sm = [] -> Nat.min (length P) (length Sh) <= length (used_peers_of (pr_mappings pr)).
Proof.
  intros Hsm. rewrite <- (ordered_length (pf_pl HF)), <- (ordered_length (pf_so HF)).
  eapply Nat.le_trans; [|apply flow_le_used_peers]. fold np nsh.
  set (Mz := map (fun k => (S k, S np + k)) (seq 0 (Nat.min np nsh))).
  replace (Nat.min np nsh) with (length Mz) by (unfold Mz; rewrite map_length; apply seq_length).
  apply (flow_matching_maximum g np nsh HN _ _ (pf_final HF)).
  unfold Mz. split; [|split].
  - intros i v Hin. apply in_map_iff in Hin. destruct Hin as [k [Ek Hk]]. inversion Ek; subst i v. apply in_seq in Hk.
    split; [unfold server; lia|].
    destruct (nth_error pl k) as [p|] eqn:Ep; [|apply nth_error_None in Ep; fold np in Ep; lia].
    destruct (nth_error so k) as [s|] eqn:Es; [|apply nth_error_None in Es; fold nsh in Es; lia].
    apply (pf_edge HF k k p s Ep Es). left. exact Hsm.
  - rewrite map_map. cbn [fst]. apply NoDup_map_inj; [apply seq_NoDup | intros x y _ _ H; lia].
  - rewrite map_map. cbn [snd]. apply NoDup_map_inj; [apply seq_NoDup | intros x y _ _ H; lia].
Qed.

End Phase.
