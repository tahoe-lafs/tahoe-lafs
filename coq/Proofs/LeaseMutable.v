(* C25, mutable containers, record level: the 92-byte lease records of MutableShareFile on
   the bytes of the file, via the structured containers of Proofs/MutContainer.v.  The lease
   area is seen as a function slot -> option lease (`slot c`); `_write_lease_record` changes
   it at one slot (`written`) and leaves the data region alone, and the scans of renew_lease
   and add_lease come down to one such write.  What the operations do is in Proofs/Lease.v. *)
From Coq Require Import List NArith Arith Bool Lia.
From Verif Require Import Lib.Hex Lib.ListFacts Gen.MutConsts Model.MutContainer Model.Lease
  Proofs.MutContainerBytes Proofs.MutContainer Proofs.LeaseList.
Import ListNotations.
Local Open Scope N_scope.

Definition parse_mut (r : list N) : lease :=
  mkLease (unbe (pread r 0 4)) (pread r 8 32) (pread r 40 32) (unbe (pread r 4 4)) (pread r 72 20).

Definition norm_mut (l : lease) : lease :=
  mkLease (l_owner l) (fit 32 (l_renew l)) (fit 32 (l_cancel l)) (l_expire l) (fit 20 (l_nodeid l)).

(* >LL32s32s20s: each field starts where the ones before it end *)
Lemma parse_mut_prn r :
  parse_mut r = mkLease (unbe (prn r 0 4)) (prn r (4 + (4 + 0)) 32) (prn r (4 + (4 + (32 + 0))) 32)
                        (unbe (prn r (4 + 0) 4)) (prn r (4 + (4 + (32 + (32 + 0)))) 20).
Proof. reflexivity. Qed.

Lemma unser_mutable_ok r : length r = 92%nat -> unser_mutable r = Ok (parse_mut r).
Proof. intro Hl. unfold unser_mutable. rewrite Hl. reflexivity. Qed.

Lemma parse_mut_app (o e r c n : list N) :
  length o = 4%nat -> length e = 4%nat -> length r = 32%nat -> length c = 32%nat -> length n = 20%nat ->
  parse_mut (o ++ e ++ r ++ c ++ n) = mkLease (unbe o) r c (unbe e) n.
Proof.
  intros Lo Le Lr Lc Ln. rewrite parse_mut_prn. apply f_equal5.
  - f_equal. apply firstn_app_exact, Lo.
  - rewrite (prn_app_skip _ _ _ _ _ Lo), (prn_app_skip _ _ _ _ _ Le). apply firstn_app_exact, Lr.
  - rewrite (prn_app_skip _ _ _ _ _ Lo), (prn_app_skip _ _ _ _ _ Le), (prn_app_skip _ _ _ _ _ Lr). apply firstn_app_exact, Lc.
  - rewrite (prn_app_skip _ _ _ _ _ Lo). f_equal. apply firstn_app_exact, Le.
  - rewrite (prn_app_skip _ _ _ _ _ Lo), (prn_app_skip _ _ _ _ _ Le), (prn_app_skip _ _ _ _ _ Lr), (prn_app_skip _ _ _ _ _ Lc).
    apply firstn_all2. rewrite Ln. apply Nat.le_refl.
Qed.

Lemma ser_mutable_ok l : l_owner l < 2 ^ 32 -> l_expire l < 2 ^ 32 ->
  exists b, ser_mutable l = Ok b /\ length b = 92%nat /\ parse_mut b = norm_mut l.
Proof.
  intros Ho He. unfold ser_mutable. rewrite !pack_be_ok by assumption.
  eexists. split; [reflexivity|]. split; [rewrite !app_length, !be_length, !fit_length; reflexivity|].
  rewrite parse_mut_app by (apply be_length || apply fit_length). unfold norm_mut.
  rewrite (unbe_be 4 _ Ho), (unbe_be 4 _ He). reflexivity.
Qed.

Lemma norm_mut_wf l : lease_wf l -> norm_mut l = l.
Proof.
  intros [? ? Hr Hc Hn]. unfold norm_mut. rewrite (fit_id _ _ Hr), (fit_id _ _ Hc), (fit_id _ _ Hn). destruct l; reflexivity.
Qed.

Lemma parse_mut_bounds r : length r = 92%nat -> bytes_ok r ->
  l_owner (parse_mut r) < 2 ^ 32 /\ l_expire (parse_mut r) < 2 ^ 32.
Proof.
  intros Hl Hb. rewrite parse_mut_prn. split; apply (unbe_prn_bound r _ 4 Hb); lia.
Qed.

Definition set_slots (c : FC) (s : list N) : FC :=
  mkFC (c_id c) (c_dlb c) (c_elob c) s (c_region c) (c_nxb c) (c_extra c).
Definition set_nxb_extra (c : FC) (b e : list N) : FC :=
  mkFC (c_id c) (c_dlb c) (c_elob c) (c_slots c) (c_region c) b e.

(* what a lease operation must not touch *)
Definition same_data (c c' : FC) : Prop :=
  c_id c' = c_id c /\ c_dlb c' = c_dlb c /\ c_elob c' = c_elob c /\ c_region c' = c_region c.

Lemma same_data_refl c : same_data c c.
Proof. repeat split. Qed.

Lemma same_data_trans a b c : same_data a b -> same_data b c -> same_data a c.
Proof. intros (? & ? & ? & ?) (? & ? & ? & ?). repeat split; congruence. Qed.

Lemma same_data_abs maxsz c c' : wf maxsz c -> wf maxsz c' -> same_data c c' -> abs_data (flat c') = abs_data (flat c).
Proof.
  intros Hw Hw' (_ & Hd & _ & Hr). rewrite (abs_data_flat _ _ Hw'), (abs_data_flat _ _ Hw).
  unfold c_data, c_dl. rewrite Hd, Hr. reflexivity.
Qed.

Definition slot_of_rec (r : list N) : option lease :=
  let l := parse_mut r in if l_owner l =? 0 then None else Some l.
Definition slot (c : FC) (i : N) : option lease := slot_of_rec (rec_of c i).

Lemma rec_of_length maxsz c i : wf maxsz c -> i < 4 + c_nx c -> length (rec_of c i) = 92%nat.
Proof.
  intros Hw Hi. unfold rec_of. destruct (N.ltb_spec i 4); rewrite pread_prn; apply prn_length_inside.
  - pose proof (wf_slots _ _ Hw). change (N.to_nat 92) with 92%nat. lia.
  - pose proof (wf_extra _ _ Hw) as He. unfold len in He. change (N.to_nat 92) with 92%nat. lia.
Qed.

Lemma read_lease_record_flat maxsz c i : wf maxsz c -> i < 4 + c_nx c ->
  read_lease_record (flat c) i = Ok (slot c i).
Proof.
  intros Hw Hi. unfold read_lease_record. rewrite (read_lease_raw_flat maxsz c i Hw Hi).
  rewrite unser_mutable_ok by (apply (rec_of_length maxsz); assumption). reflexivity.
Qed.

Lemma slot_some c i l : slot c i = Some l -> l = parse_mut (rec_of c i) /\ l_owner l <> 0.
Proof.
  unfold slot, slot_of_rec. destruct (N.eqb_spec (l_owner (parse_mut (rec_of c i))) 0); [discriminate|].
  intro Hs. injection Hs as <-. auto.
Qed.

(* a lease read from a container: the byte strings have their lengths by the record format, the
   numbers are below 2^32 if the file consists of bytes *)
Lemma slot_lengths maxsz c i l : wf maxsz c -> i < 4 + c_nx c -> slot c i = Some l ->
  length (l_renew l) = 32%nat /\ length (l_cancel l) = 32%nat /\ length (l_nodeid l) = 20%nat.
Proof.
  intros Hw Hi Hs. apply slot_some in Hs. destruct Hs as [-> _]. pose proof (rec_of_length maxsz c i Hw Hi).
  rewrite parse_mut_prn. repeat split; apply prn_length_inside; lia.
Qed.

Lemma slot_bounds maxsz c i l : wf maxsz c -> bytes_ok (flat c) -> i < 4 + c_nx c -> slot c i = Some l ->
  l_owner l < 2 ^ 32 /\ l_expire l < 2 ^ 32.
Proof.
  intros Hw Hb Hi Hs. apply slot_some in Hs. destruct Hs as [-> _].
  apply parse_mut_bounds; [apply (rec_of_length maxsz); assumption|].
  unfold flat, hdr, tail in Hb. rewrite !bytes_ok_app in Hb.
  unfold rec_of. destruct (i <? 4); apply bytes_ok_firstn, bytes_ok_skipn; tauto.
Qed.

(* the leases of the slots L of a slot function, numbered by their slots *)
Definition enumL (h : N -> option lease) (L : list N) : list (N * lease) :=
  flat_map (fun i => match h i with Some l => [(i, l)] | None => [] end) L.

(* _enumerate_leases of a structured container *)
Definition enum (c : FC) : list (N * lease) := enumL (slot c) (nseq (4 + c_nx c)).

Lemma enumerate_flat maxsz c L : wf maxsz c -> (forall i, In i L -> i < 4 + c_nx c) ->
  enumerate_leases (flat c) L = Ok (enumL (slot c) L).
Proof.
  intros Hw. induction L as [|i r IH]; intro HL; [reflexivity|].
  cbn [enumerate_leases enumL flat_map]. rewrite (read_lease_record_flat maxsz) by (auto; apply HL; left; reflexivity).
  rewrite IH by (intros; apply HL; right; assumption).
  destruct (slot c i); reflexivity.
Qed.

Lemma mut_enumerate_flat maxsz c : wf maxsz c -> mut_enumerate (flat c) = Ok (enum c).
Proof.
  intro Hw. unfold mut_enumerate, num_lease_slots. rewrite (read_nx_flat _ _ Hw). consts.
  apply (enumerate_flat maxsz); auto. intros i Hi. apply in_nseq_iff, Hi.
Qed.

Lemma first_empty_flat maxsz c L : wf maxsz c -> (forall i, In i L -> i < 4 + c_nx c) ->
  first_empty_slot (flat c) L = Ok (find (fun i => match slot c i with None => true | Some _ => false end) L).
Proof.
  intros Hw. induction L as [|i r IH]; intro HL; [reflexivity|].
  cbn [first_empty_slot find]. rewrite (read_lease_record_flat maxsz) by (auto; apply HL; left; reflexivity).
  destruct (slot c i); [|reflexivity]. apply IH. intros; apply HL; right; assumption.
Qed.

Lemma in_enumL h L i l : In (i, l) (enumL h L) <-> In i L /\ h i = Some l.
Proof.
  unfold enumL. rewrite in_flat_map. split.
  - intros (j & Hj & Hin). destruct (h j) as [x|] eqn:E; [|destruct Hin].
    destruct Hin as [Hin|[]]. inversion Hin; subst. auto.
  - intros (Hi & Hh). exists i. split; [assumption|]. rewrite Hh. left. reflexivity.
Qed.

Lemma in_enum c i l : In (i, l) (enum c) <-> i < 4 + c_nx c /\ slot c i = Some l.
Proof. unfold enum. rewrite in_enumL, in_nseq_iff. reflexivity. Qed.

Lemma NoDup_enumL_fst h L : NoDup L -> NoDup (map fst (enumL h L)).
Proof.
  induction L as [|j r IH]; intro Hnd; [constructor|]. apply NoDup_cons_iff in Hnd. destruct Hnd as [Hnin Hnd].
  cbn [enumL flat_map]. fold (enumL h r). destruct (h j) as [x|]; [|apply IH; exact Hnd].
  cbn [app map fst]. constructor; [|apply IH; exact Hnd].
  intro Hin. apply in_map_iff in Hin. destruct Hin as ([j' x'] & Ej & Hin). cbn in Ej. subst j'.
  apply in_enumL in Hin. tauto.
Qed.

Lemma NoDup_enum c : NoDup (map fst (enum c)).
Proof. apply NoDup_enumL_fst, NoDup_nseq. Qed.

Definition upd (h : N -> option lease) (i : N) (x : option lease) : N -> option lease :=
  fun j => if j =? i then x else h j.

Lemma enumL_upd h L i l l' : h i = Some l -> enumL (upd h i (Some l')) L = map (set_at i l') (enumL h L).
Proof.
  intros Hi. induction L as [|j r IH]; [reflexivity|].
  cbn [enumL flat_map]. fold (enumL (upd h i (Some l')) r). fold (enumL h r). rewrite map_app, <- IH. f_equal.
  unfold upd. destruct (N.eqb_spec j i) as [->|Hne].
  - rewrite Hi. cbn [map]. unfold set_at. cbn [fst]. rewrite N.eqb_refl. reflexivity.
  - destruct (h j); [|reflexivity]. cbn [map]. unfold set_at. cbn [fst].
    destruct (N.eqb_spec j i); [congruence|reflexivity].
Qed.

Lemma enumL_ext h h' L : (forall j, In j L -> h' j = h j) -> enumL h' L = enumL h L.
Proof.
  induction L as [|j r IH]; intro He; [reflexivity|]. cbn [enumL flat_map]. fold (enumL h' r). fold (enumL h r).
  rewrite (He j (or_introl eq_refl)), IH by (intros; apply He; right; assumption). reflexivity.
Qed.

Lemma upd_enum c c' i l l' : slot c i = Some l -> c_nx c' = c_nx c ->
  (forall j, j < 4 + c_nx c' -> slot c' j = upd (slot c) i (Some l') j) ->
  enum c' = map (set_at i l') (enum c).
Proof.
  intros Hs Enx Hsl. unfold enum. rewrite Enx, <- (enumL_upd _ _ _ _ _ Hs).
  apply enumL_ext. intros j Hj. apply Hsl. rewrite Enx. apply in_nseq_iff, Hj.
Qed.

Lemma upd_never_shorter c c' i l' : c_nx c <= c_nx c' ->
  (forall j, j < 4 + c_nx c' -> slot c' j = upd (slot c) i (Some l') j) ->
  (forall l, i < 4 + c_nx c -> slot c i = Some l -> extends l l') ->
  never_shorter (enum c) (enum c').
Proof.
  intros Hnx Hsl Hext j l Hin. apply in_enum in Hin. destruct Hin as [Hj Hs].
  assert (Hj' : j < 4 + c_nx c') by lia. specialize (Hsl j Hj'). unfold upd in Hsl.
  destruct (N.eqb_spec j i) as [E|].
  - subst j. exists l'. split; [apply in_enum; auto|exact (Hext l Hj Hs)].
  - exists l. split; [apply in_enum; split; [exact Hj'|congruence]|apply extends_refl].
Qed.

Lemma wf_set_slots maxsz c s : wf maxsz c -> length s = 368%nat -> wf maxsz (set_slots c s).
Proof. intros [? ? ? ? ? ? ? ? ? ?] Hl. constructor; auto. Qed.

Lemma wf_set_nxb_extra maxsz c nb e : wf maxsz c -> length nb = 4%nat -> len e = unbe nb * 92 ->
  wf maxsz (set_nxb_extra c nb e).
Proof. intros [? ? ? ? ? ? ? ? ? ?] Hn He. constructor; auto. Qed.

(* c' is c with the 92-byte record b in slot i (an existing slot, or one past the last) *)
Definition record_put (maxsz : N) (c : FC) (i : N) (b : list N) (c' : FC) : Prop :=
  wf maxsz c' /\ same_data c c' /\ c_nx c' = (if i =? 4 + c_nx c then c_nx c + 1 else c_nx c) /\
  forall j, rec_of c' j = if j =? i then b else rec_of c j.

Lemma put_slot maxsz c i b : wf maxsz c -> i < 4 -> len b = 92 ->
  let c' := set_slots c (pwrite (c_slots c) (i * 92) b) in
  pwrite (flat c) (100 + i * 92) b = flat c' /\ record_put maxsz c i b c'.
Proof.
  intros Hw Hi Hb c'. pose proof (wf_slots _ _ Hw) as Hs. unfold len in Hb. split; [|split; [|split; [|split]]].
  - rewrite !pwrite_pwn, flat_slots.
    replace (N.to_nat (100 + i * 92)) with (length (c_id c ++ c_dlb c ++ c_elob c) + N.to_nat (i * 92))%nat
      by (rewrite !app_length, (wf_id _ _ Hw), (wf_dlb _ _ Hw), (wf_elob _ _ Hw); lia).
    rewrite pwn_app_skip, pwn_inside by lia. symmetry. apply flat_slots.
  - apply wf_set_slots; [exact Hw|]. rewrite pwrite_pwn, pwn_length_inside; lia.
  - repeat split.
  - destruct (N.eqb_spec i (4 + c_nx c)); [lia|reflexivity].
  - intro j. unfold rec_of. cbn [c' c_slots c_extra set_slots]. destruct (N.ltb_spec j 4).
    + apply rec_pwrite; unfold len; lia.
    + destruct (N.eqb_spec j i); [lia|reflexivity].
Qed.

Lemma put_nxb maxsz c nb : wf maxsz c -> length nb = 4%nat ->
  pwrite (flat c) (468 + len (c_region c)) nb = flat (set_nxb_extra c nb (c_extra c)).
Proof.
  intros Hw Hn. rewrite pwrite_pwn, flat_nxb, pwn_exact.
  - symmetry. apply (flat_nxb (set_nxb_extra c nb (c_extra c))).
  - rewrite app_length, (hdr_length _ _ Hw). unfold len. lia.
  - rewrite Hn. exact (wf_nxb _ _ Hw).
Qed.

(* a record written into extra slot k, or appended as extra slot k = c_nx c, once the count bytes are nb *)
Lemma put_extra maxsz c nb k b : wf maxsz c -> length nb = 4%nat -> k <= c_nx c -> unbe nb = N.max (c_nx c) (k + 1) ->
  len b = 92 ->
  let c' := set_nxb_extra c nb (pwrite (c_extra c) (k * 92) b) in
  pwrite (flat (set_nxb_extra c nb (c_extra c))) (468 + len (c_region c) + 4 + k * 92) b = flat c' /\
  record_put maxsz c (4 + k) b c'.
Proof.
  intros Hw Hn Hk Enb Hb c'. pose proof (wf_extra _ _ Hw) as He. split; [|split; [|split; [|split]]].
  - rewrite !pwrite_pwn, !flat_nxb, !app_assoc.
    replace (N.to_nat (468 + len (c_region c) + 4 + k * 92))
      with (length ((hdr c ++ c_region c) ++ nb) + N.to_nat (k * 92))%nat
      by (rewrite !app_length, (hdr_length _ _ Hw), Hn; unfold len; lia).
    apply pwn_app_skip.
  - apply wf_set_nxb_extra; [exact Hw|exact Hn|]. rewrite Enb. destruct (N.eq_dec k (c_nx c)) as [->|].
    + rewrite <- He, len_pwrite_end. lia.
    + rewrite len_pwrite_inside; lia.
  - repeat split.
  - change (c_nx c') with (unbe nb). rewrite Enb. destruct (N.eqb_spec (4 + k) (4 + c_nx c)); lia.
  - intro j. unfold rec_of. cbn [c' c_slots c_extra set_nxb_extra]. destruct (N.ltb_spec j 4).
    + destruct (N.eqb_spec j (4 + k)); [lia|reflexivity].
    + rewrite (rec_pwrite 92) by lia.
      destruct (N.eqb_spec (j - 4) k), (N.eqb_spec j (4 + k)); try lia; reflexivity.
Qed.

(* _write_lease_record of a 92-byte record, into an existing slot or one past the last *)
Lemma write_record_flat maxsz c i b : wf maxsz c -> i <= 4 + c_nx c -> (i = 4 + c_nx c -> c_nx c + 1 < 2 ^ 32) ->
  length b = 92%nat ->
  exists c', write_lease_record (flat c) i (Ok b) = Done (flat c') /\ record_put maxsz c i b c'.
Proof.
  intros Hw Hi Hn Hb. assert (Lb : len b = 92) by (unfold len; lia).
  unfold write_lease_record. rewrite (read_elo_flat _ _ Hw), (read_nx_flat _ _ Hw). consts.
  destruct (N.ltb_spec i 4) as [H4|H4]; [|destruct (N.ltb_spec (i - 4) (c_nx c)) as [Hx|Hx]].
  - destruct (put_slot maxsz c i b Hw H4 Lb) as [E P]. eexists. split; [f_equal; exact E|exact P].
  - destruct (put_extra maxsz c (c_nxb c) (i - 4) b Hw (wf_nxb _ _ Hw)) as [E P]; [lia|unfold c_nx in *; lia|exact Lb|].
    replace (4 + (i - 4)) with i in P by lia. eexists. split; [f_equal; exact E|exact P].
  - (* one past the last slot: the count is bumped first *)
    assert (Hn' : c_nx c + 1 < 2 ^ 32) by (apply Hn; lia).
    unfold write_num_extra_leases. rewrite (read_elo_flat _ _ Hw), (pack_be_ok 4 _ Hn'). cbn [obind].
    rewrite (put_nxb maxsz c _ Hw (be_length _ _)).
    destruct (put_extra maxsz c (be 4 (c_nx c + 1)) (i - 4) b Hw (be_length _ _)) as [E P];
      [lia|rewrite (unbe_be 4 _ Hn'); lia|exact Lb|].
    replace (4 + (i - 4)) with i in P by lia. eexists. split; [f_equal; exact E|exact P].
Qed.

(* a record that cannot be packed is not written; into an existing slot nothing else happens either *)
Lemma write_record_err maxsz c i e : wf maxsz c -> i < 4 + c_nx c ->
  write_lease_record (flat c) i (Err e) = Raised (flat c) e.
Proof.
  intros Hw Hi. unfold write_lease_record. rewrite (read_elo_flat _ _ Hw), (read_nx_flat _ _ Hw). consts.
  destruct (N.ltb_spec i 4); [reflexivity|]. destruct (N.ltb_spec (i - 4) (c_nx c)); [reflexivity|lia].
Qed.

(* the extra-lease count is 4 bytes *)
Lemma write_record_overflow maxsz c r : wf maxsz c -> 2 ^ 32 <= c_nx c + 1 ->
  write_lease_record (flat c) (4 + c_nx c) r = Raised (flat c) EStruct.
Proof.
  intros Hw Hn. unfold write_lease_record. rewrite (read_elo_flat _ _ Hw), (read_nx_flat _ _ Hw). consts.
  destruct (N.ltb_spec (4 + c_nx c) 4); [lia|]. destruct (N.ltb_spec (4 + c_nx c - 4) (c_nx c)); [lia|].
  unfold write_num_extra_leases. rewrite (read_elo_flat _ _ Hw). unfold pack_be.
  change (256 ^ N.of_nat 4) with (2 ^ 32). destruct (N.ltb_spec (c_nx c + 1) (2 ^ 32)); [lia|reflexivity].
Qed.

(* the operation wrote lease l' into slot i (an existing slot, or one past the last) and nothing else *)
Definition written (maxsz : N) (c : FC) (i : N) (l' : lease) (o : outcome) : Prop :=
  exists c', o = Done (flat c') /\ wf maxsz c' /\ same_data c c' /\
             c_nx c' = (if i =? 4 + c_nx c then c_nx c + 1 else c_nx c) /\
             (forall j, j < 4 + c_nx c' -> slot c' j = upd (slot c) i (Some l') j).

(* the three outcomes of a lease operation aimed at slot i taken together: the file is returned
   as it was, an exception is raised over the unchanged file, or `written`.  The lemmas here and
   in Proofs/Lease.v state the cases one by one and do not go through this disjunction. *)
Definition effect (maxsz : N) (c : FC) (i : N) (l' : lease) (o : outcome) : Prop :=
  o = Done (flat c) \/ (exists e, o = Raised (flat c) e) \/ written maxsz c i l' o.

Lemma slot_of_ser l : lease_wf l -> l_owner l <> 0 ->
  exists b, ser_mutable l = Ok b /\ length b = 92%nat /\ slot_of_rec b = Some l.
Proof.
  intros Hl Ho. destruct (ser_mutable_ok l (lw_owner _ Hl) (lw_expire _ Hl)) as (b & Es & Lb & Pb).
  exists b. split; [exact Es|]. split; [exact Lb|]. unfold slot_of_rec. rewrite Pb, (norm_mut_wf _ Hl).
  destruct (N.eqb_spec (l_owner l) 0); [congruence|reflexivity].
Qed.

Lemma write_slot_written maxsz c i l' : wf maxsz c -> i <= 4 + c_nx c -> (i = 4 + c_nx c -> c_nx c + 1 < 2 ^ 32) ->
  lease_wf l' -> l_owner l' <> 0 ->
  written maxsz c i l' (write_lease_record (flat c) i (ser_mutable l')).
Proof.
  intros Hw Hi Hn Hl Ho. destruct (slot_of_ser l' Hl Ho) as (b & Es & Lb & Sb). rewrite Es.
  destruct (write_record_flat maxsz c i b Hw Hi Hn Lb) as (c' & E & Hw' & Hsd & Enx & Hrec).
  exists c'. split; [exact E|]. split; [exact Hw'|]. split; [exact Hsd|]. split; [exact Enx|].
  intros j _. unfold slot, upd. rewrite (Hrec j). destruct (j =? i); [exact Sb|reflexivity].
Qed.

Section WithHash.
Variable H : list N -> list N.

(* renew_lease scans the enumeration for the first lease answering to the secret *)
Lemma renew_scan_find v f ls s t :
  renew_scan H v f ls s t =
  match first_match H v ls s with
  | None => Raised f EIndex
  | Some (i, l) => if l_expire l <? t then write_lease_record f i (ser_mutable (set_expire l t)) else Done f
  end.
Proof.
  induction ls as [|[i l] r IH]; [reflexivity|]. unfold first_match in *. cbn [renew_scan find snd].
  destruct (is_renew_secret H v l s); [reflexivity|exact IH].
Qed.

(* add_lease: into the first unused slot, else one past the last *)
Lemma mut_add_flat maxsz v c avail li : wf maxsz c ->
  lease_wf (stored_form H v li) -> l_owner li <> 0 ->
  exists i, i <= 4 + c_nx c /\ (i < 4 + c_nx c -> slot c i = None) /\
            (written maxsz c i (stored_form H v li) (mut_add_lease H v (flat c) avail li)
             \/ exists e, mut_add_lease H v (flat c) avail li = Raised (flat c) e).
Proof.
  intros Hw Hl Ho.
  assert (Hso : l_owner (stored_form H v li) <> 0) by (destruct v; exact Ho).
  unfold mut_add_lease. destruct (N.eqb_spec (l_owner li) 0); [congruence|].
  unfold num_lease_slots. rewrite (read_nx_flat _ _ Hw). consts.
  rewrite (first_empty_flat maxsz) by (auto; intros i Hi; apply in_nseq_iff, Hi).
  destruct (find _ (nseq (4 + c_nx c))) as [i|] eqn:Ef.
  - apply find_some in Ef. destruct Ef as [Hi Hnone]. apply in_nseq_iff in Hi.
    exists i. split; [lia|]. split; [destruct (slot c i); [discriminate|reflexivity]|].
    left. apply write_slot_written; auto; lia.
  - exists (4 + c_nx c). split; [lia|]. split; [lia|].
    destruct (avail <? 92); [right; eexists; reflexivity|].
    destruct (N.ltb_spec (c_nx c + 1) (2 ^ 32)) as [Hn|Hn].
    + left. apply write_slot_written; auto. lia.
    + right. exists EStruct. apply (write_record_overflow maxsz); assumption.
Qed.

End WithHash.
