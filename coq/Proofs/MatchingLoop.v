(* The Edmonds-Karp loop keeps the flow invariant and stops in a state whose residual
   graph has no augmenting path; there the flow is a maximum matching (vertex level). *)
From Coq Require Import List NArith ZArith Bool Arith Lia.
From Verif Require Import Model.Matching Proofs.Matching Proofs.MatchingLists Proofs.MatchingResidual Proofs.MatchingBfs
     Proofs.MatchingPath Proofs.MatchingAugment.
Import ListNotations.

Lemma NoDup_flat_map_fst : forall (l : list nat) (F : nat -> list (nat * nat)),
  NoDup l -> (forall i, In i l -> length (F i) <= 1) -> (forall i e, In e (F i) -> fst e = i) ->
  NoDup (map fst (flat_map F l)).
Proof.
  intros l F Hnd Hle Hfst. induction Hnd as [|i r Hi Hr IH]; cbn [flat_map map]; [constructor|].
  rewrite map_app. apply NoDup_app_intro.
  - pose proof (Hle i (or_introl eq_refl)) as Hl.
    destruct (F i) as [|e [|e' r']]; cbn [map]; [constructor | | cbn [length] in Hl; lia].
    constructor; [intros [] | constructor].
  - apply IH. intros j Hj. apply Hle. right. exact Hj.
  - intros x Hx Hx'. apply in_map_iff in Hx. destruct Hx as [e [Ee He]]. rewrite (Hfst i e He) in Ee. subst x.
    apply in_map_iff in Hx'. destruct Hx' as [e' [Ee' He']]. apply in_flat_map in He'.
    destruct He' as [j [Hj Hej]]. rewrite (Hfst j e' Hej) in Ee'. subst j. contradiction.
Qed.

Section Loop.
Variables (g : graph) (ns nsh : nat).
Hypothesis HN : Net g ns nsh.

Let t := ns + nsh + 1.
Let dim := ns + nsh + 2.

Lemma rg_facts : forall f rg cf, residual_network g f = (rg, cf) ->
  length rg = dim /\ (forall u v, In v (adj rg u) -> v < dim) /\
  (forall u v, In v (adj rg u) <-> residual_edge g f u v) /\
  (forall u v, residual_edge g f u v -> mget cf u v = 1%Z).
Proof.
  intros f rg cf H. destruct (residual_network_spec g f rg cf (net_upward g ns nsh HN) H) as [H1 [H2 H3]].
  split; [rewrite H1; apply (net_len _ _ _ HN)|]. split; [|split; assumption].
  intros u v Hv. apply H2 in Hv. destruct (res_bounds g ns nsh HN f u v Hv) as [_ [Hd _]]. exact Hd.
Qed.

Lemma apf_path : forall f rg cf path,
  residual_network g f = (rg, cf) -> augmenting_path_for rg = Some (Some path) ->
  PathOK g ns nsh f path /\ path <> [] /\ (forall u v, In (u, v) path -> mget cf u v = 1%Z).
Proof.
  intros f rg cf path Hr Ha. destruct (rg_facts _ _ _ Hr) as [HL [Hrange [Hadj Hcf]]].
  unfold augmenting_path_for in Ha.
  destruct (bfs rg 0) as [tree|] eqn:Eb; [|discriminate].
  assert (Hpos : 0 < dim) by (unfold dim; lia).
  destruct (bfs_spec rg dim HL Hrange Hpos tree Eb) as [_ [_ [_ [_ [d Hd]]]]].
  rewrite HL in Ha. replace (dim - 1) with t in Ha by (unfold dim, t; lia).
  destruct (nth t tree None) as [[|k]|]; try discriminate.
  destruct (walk_back dim tree t []) as [p|] eqn:Ew; [|discriminate].
  inversion Ha; subst p. clear Ha.
  destruct (walk_back_spec _ _ _ _ _ Ew) as [pre [E [Hc Hp]]]. rewrite app_nil_r in E. subst pre.
  split; [|split].
  - constructor.
    + exact Hc.
    + exists d. intros u v Huv. apply (Hd v u). apply Hp. exact Huv.
    + intros u v Huv. apply Hadj. apply (Hd v u). apply Hp. exact Huv.
  - intro; subst path. cbn [chain] in Hc. unfold t in Hc. lia.
  - intros u v Huv. apply Hcf. apply Hadj. apply (Hd v u). apply Hp. exact Huv.
Qed.

Definition final_state (f : matrix) (rg : graph) : Prop :=
  Inv g ns nsh f /\ (exists cf, residual_network g f = (rg, cf)) /\ augmenting_path_for rg = Some None.

Lemma flow_loop_spec : forall fuel f rg cf f' rg',
  Inv g ns nsh f -> residual_network g f = (rg, cf) ->
  flow_loop fuel g f rg cf = Some (f', rg') -> final_state f' rg'.
Proof.
  induction fuel as [|fuel IH]; intros f rg cf f' rg' HI Hr H; cbn [flow_loop] in H; [discriminate|].
  destruct (augmenting_path_for rg) as [[path|]|] eqn:Ea; [| |discriminate].
  - destruct (apf_path _ _ _ _ Hr Ea) as [HP [Hne Hcf]].
    rewrite (path_delta_one cf path Hne Hcf) in H.
    destruct (residual_network g (augment f 1%Z path)) as [rg1 cf1] eqn:Er1.
    apply (IH _ _ _ _ _ (augment_preserves g ns nsh HN f path HI HP) Er1 H).
  - inversion H; subst. split; [exact HI|]. split; [exists cf; exact Hr | exact Ea].
Qed.

Lemma max_flow_spec : forall fuel f rg, max_flow fuel g = Some (f, rg) -> final_state f rg.
Proof.
  intros fuel f rg H. unfold max_flow in H.
  destruct (residual_network g (zero_matrix (length g))) as [rg0 cf0] eqn:Er.
  eapply flow_loop_spec; [| exact Er | exact H].
  rewrite (net_len _ _ _ HN). apply (inv_zero g ns nsh).
Qed.

Definition vmatching (M : list (nat * nat)) : Prop :=
  (forall i s, In (i, s) M -> server ns i /\ E g i s) /\ NoDup (map fst M) /\ NoDup (map snd M).

Definition flow_row (f : matrix) (i : nat) : list (nat * nat) :=
  map (pair i) (filter (fun s => Z.eqb (mget f i s) 1) (adj g i)).

Definition flow_matching (f : matrix) : list (nat * nat) := flat_map (flow_row f) (seq 1 ns).

Lemma in_flow_matching : forall f i s,
  In (i, s) (flow_matching f) <-> server ns i /\ E g i s /\ mget f i s = 1%Z.
Proof.
  intros f i s. unfold flow_matching, flow_row. rewrite in_flat_map. split.
  - intros [j [Hj Hin]]. apply in_map_iff in Hin. destruct Hin as [s' [Eq Hs']]. inversion Eq; subst.
    apply filter_In in Hs'. destruct Hs' as [H1 H2]. apply in_seq in Hj. apply Z.eqb_eq in H2.
    unfold server, E. split; [lia|]. split; assumption.
  - intros [Hi [He Hf]]. exists i. split; [apply in_seq; unfold server in Hi; lia|].
    apply in_map_iff. exists s. split; [reflexivity|]. apply filter_In. split; [exact He | apply Z.eqb_eq; exact Hf].
Qed.

Section Counting.
Variable f : matrix.
Hypothesis HI : Inv g ns nsh f.

Lemma flow_row_le_one : forall i, server ns i -> length (flow_row f i) <= 1.
Proof.
  intros i Hi. unfold flow_row. rewrite map_length. apply filter_le_one.
  - intros x y Hx Hy Px Py. apply Z.eqb_eq in Px. apply Z.eqb_eq in Py.
    apply (inv_out _ _ _ _ HI i x y Hi Hx Hy Px Py).
  - apply (net_srv _ _ _ HN i Hi).
Qed.

Lemma flow_row_count : forall i, server ns i ->
  mget f 0 i = Z.of_nat (length (flow_row f i)).
Proof.
  intros i Hi. pose proof (flow_row_le_one i Hi) as Hle. unfold flow_row in *. rewrite map_length in *.
  set (units := filter (fun s => Z.eqb (mget f i s) 1) (adj g i)) in *.
  assert (Hiff : mget f 0 i = 1%Z <-> exists s, In s units).
  { rewrite (inv_srv _ _ _ _ HI i Hi). unfold units, E. split; intros [s H]; exists s.
    - apply filter_In. rewrite Z.eqb_eq. exact H.
    - apply filter_In in H. rewrite Z.eqb_eq in H. exact H. }
  destruct units as [|a [|b r]]; cbn [length] in *; [| |lia].
  - destruct (inv_01 _ _ _ _ HI 0 i (E_src g ns nsh HN i Hi)) as [->|H1]; [reflexivity|].
    apply Hiff in H1. destruct H1 as [s []].
  - rewrite (proj2 Hiff) by (exists a; left; reflexivity). reflexivity.
Qed.

Lemma value_is_length : sum_out f 0 (seq 1 ns) = Z.of_nat (length (flow_matching f)).
Proof.
  unfold flow_matching.
  assert (H : forall l, (forall i, In i l -> server ns i) ->
                        sum_out f 0 l = Z.of_nat (length (flat_map (flow_row f) l))).
  { induction l as [|i r IH]; intros Hl; cbn [sum_out flat_map]; [reflexivity|].
    rewrite app_length, Nat2Z.inj_add, <- IH by (intros j Hj; apply Hl; right; exact Hj).
    rewrite (flow_row_count i) by (apply Hl; left; reflexivity). reflexivity. }
  apply H. intros i Hi. apply in_seq in Hi. unfold server. lia.
Qed.

Lemma flow_row_fst : forall i e, In e (flow_row f i) -> fst e = i.
Proof.
  intros i e He. unfold flow_row in He. apply in_map_iff in He. destruct He as [s [Ee _]]. subst e. reflexivity.
Qed.

Lemma flow_matching_is_matching : vmatching (flow_matching f).
Proof.
  assert (Hfst : NoDup (map fst (flow_matching f))).
  { apply NoDup_flat_map_fst; [apply seq_NoDup | | apply flow_row_fst].
    intros i Hi. apply in_seq in Hi. apply flow_row_le_one. unfold server. lia. }
  split; [|split; [exact Hfst|]].
  - intros i s H. apply in_flow_matching in H. tauto.
  - (* shares distinct: two flow edges into the same share have the same server *)
    apply NoDup_map_inj; [exact (NoDup_map_inv fst _ Hfst)|].
    intros [i s] [i' s'] H1 H2 Es. cbn [snd] in Es. subst s'.
    apply in_flow_matching in H1. apply in_flow_matching in H2.
    destruct H1 as [Hi [He Hf]], H2 as [Hi' [He' Hf']].
    f_equal. apply (inv_in _ _ _ _ HI s i i' He He' Hi Hi' Hf Hf').
Qed.

End Counting.

Section Final.
Variables (f : matrix) (rg : graph).
Hypothesis HF : final_state f rg.

Let HI : Inv g ns nsh f := proj1 HF.

(* what the last, failing search leaves behind: a set of vertices with the source and without the
   sink, closed under residual edges, whose members other than the source were reached from a member *)
Lemma final_reach : exists R : nat -> bool,
  R 0 = true /\ R t = false /\
  (forall u v, R u = true -> residual_edge g f u v -> R v = true) /\
  (forall v, v <> 0 -> R v = true -> exists u, R u = true /\ residual_edge g f u v).
Proof.
  pose proof HF as HF0. destruct HF0 as [_ [[cf Hr] Ha]]. destruct (rg_facts _ _ _ Hr) as [HL [Hrange [Hadj _]]].
  unfold augmenting_path_for in Ha.
  destruct (bfs rg 0) as [tree|] eqn:Eb; [|discriminate].
  assert (Hpos : 0 < dim) by (unfold dim; lia).
  destruct (bfs_spec rg dim HL Hrange Hpos tree Eb) as [_ [R0 [_ [Hclosed [d Hd]]]]].
  exists (reached tree). split; [exact R0|]. split; [|split].
  - rewrite HL in Ha. replace (dim - 1) with (S (ns + nsh)) in Ha by (unfold dim; lia).
    replace t with (S (ns + nsh)) by (unfold t; lia). unfold reached.
    destruct (nth (S (ns + nsh)) tree None) as [[|k]|] eqn:En; [| |reflexivity].
    + (* the source has no edge to the sink *)
      exfalso. destruct (Hd _ _ En) as [Hin _]. apply Hadj in Hin.
      destruct Hin as [[He _]|[He _]]; destruct (E_cases g ns nsh HN _ _ He) as [[E0 Hs]|[[Hs _]|[Hs _]]];
        unfold server, share in *; lia.
    + destruct (walk_back dim tree (S (ns + nsh)) []); discriminate.
  - intros u v Hu Hv. apply (Hclosed u v Hu). apply Hadj. exact Hv.
  - intros v Hv0 Hv. unfold reached in Hv. destruct v as [|v']; [contradiction|].
    destruct (nth (S v') tree None) as [u|] eqn:En; [|discriminate].
    destruct (Hd _ _ En) as [Hin [Ru _]]. exists u. split; [exact Ru | apply Hadj; exact Hin].
Qed.

(* Koenig: the servers outside that set and the shares inside it cover every server-share edge,
   and each of them is an end of a different flow edge *)
Theorem flow_matching_maximum : forall M', vmatching M' -> length M' <= length (flow_matching f).
Proof.
  intros M' [HM1 [HM2 HM3]].
  destruct final_reach as [R [R0 [Rt [Hcl Hpred]]]].
  set (CL := filter (fun i => negb (R i)) (seq 1 ns)).
  set (CR := filter R (seq (S ns) nsh)).
  set (Mf := flow_matching f).
  (* an edge that leaves R carries flow: so does the source edge of a server outside R, and the
     sink edge of a share inside R *)
  assert (Hsat : forall u v, E g u v -> R u = true -> R v = false -> mget f u v = 1%Z).
  { intros u v He Ru Rv. destruct (Z.eq_dec (mget f u v) 1) as [H1|H1]; [exact H1|].
    rewrite (Hcl u v Ru (or_introl (conj He H1))) in Rv. discriminate. }
  pose proof (fun i Hi => Hsat 0 i (E_src g ns nsh HN i Hi) R0) as HsrvOut.
  pose proof (fun s Hs Rs => Hsat s t (E_snk g ns nsh HN s Hs) Rs Rt) as HshrIn.
  (* |CL| + |CR| <= |Mf| *)
  assert (Hsize : length CL + length CR <= length Mf).
  { rewrite (filter_split_length (fun e : nat * nat => R (fst e)) Mf).
    assert (HA : length CL <= length (filter (fun e : nat * nat => negb (R (fst e))) Mf)).
    { rewrite <- (map_length fst (filter _ Mf)). apply NoDup_incl_length.
      - apply NoDup_filter. apply seq_NoDup.
      - intros i Hi. apply filter_In in Hi. destruct Hi as [Hi1 Hi2]. apply in_seq in Hi1.
        assert (Hi : server ns i) by (unfold server; lia).
        apply negb_true_iff in Hi2.
        destruct (proj1 (inv_srv _ _ _ _ HI i Hi) (HsrvOut i Hi Hi2)) as [s [He Hf]].
        apply in_map_iff. exists (i, s). split; [reflexivity|]. apply filter_In. split.
        + apply in_flow_matching. split; [exact Hi|]. split; assumption.
        + cbn [fst]. rewrite Hi2. reflexivity. }
    assert (HB : length CR <= length (filter (fun e : nat * nat => R (fst e)) Mf)).
    { rewrite <- (map_length snd (filter _ Mf)). apply NoDup_incl_length.
      - apply NoDup_filter. apply seq_NoDup.
      - intros s Hs. apply filter_In in Hs. destruct Hs as [Hs1 Hs2]. apply in_seq in Hs1.
        assert (Hs : share ns nsh s) by (unfold share; lia).
        destruct (proj1 (inv_shr _ _ _ _ HI s Hs) (HshrIn s Hs Hs2)) as [i [Hi [He Hf]]].
        apply in_map_iff. exists (i, s). split; [reflexivity|]. apply filter_In. split.
        + apply in_flow_matching. split; [exact Hi|]. split; assumption.
        + cbn [fst]. apply (Hcl s i Hs2). right. split; assumption. }
    lia. }
  (* (CL, CR) covers every server-share edge *)
  assert (Hcover : forall i s, In (i, s) M' -> In i CL \/ In s CR).
  { intros i s Hin. destruct (HM1 i s Hin) as [Hi He].
    pose proof (E_from_server g ns nsh HN _ _ He Hi) as Hs.
    destruct (R i) eqn:Ri; [|left; apply filter_In; split; [apply in_seq; unfold server in Hi; lia | rewrite Ri; reflexivity]].
    destruct (R s) eqn:Rs; [right; apply filter_In; split; [apply in_seq; unfold share in Hs; lia | exact Rs]|].
    exfalso.
    (* the edge leaves R, so it carries flow; then i was reached backwards along it, from s *)
    pose proof (Hsat i s He Ri Rs) as Hf.
    assert (Hi0 : i <> 0) by (unfold server in Hi; lia).
    destruct (Hpred i Hi0 Ri) as [u [Ru [[Heu Hfu]|[Heu Hfu]]]].
    - rewrite (E_into_server g ns nsh HN _ _ Heu Hi) in Hfu.
      apply Hfu, (inv_srv _ _ _ _ HI i Hi). exists s. split; assumption.
    - rewrite (inv_out _ _ _ _ HI i u s Hi Heu He Hfu Hf), Rs in Ru. discriminate. }
  pose proof (matching_le_cover _ _ Nat.eq_dec M' CL CR HM2 HM3 Hcover). lia.
Qed.

End Final.
End Loop.
