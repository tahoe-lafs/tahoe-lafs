(* URI extension block: pack_extension / unpack_extension. *)
From Coq Require Import String.
From Coq Require Import List NArith ZArith Bool Lia Permutation.
From Verif Require Import Lib.Decimal Lib.DecimalFacts Lib.Hex Lib.ListFacts Lib.Netstring Lib.NetstringFacts
     Model.PyResult Model.PyInt Model.NetstringCodec Model.Ueb Gen.CodecConsts
     Proofs.CodecsPyInt Proofs.CodecsNetstring.
Import ListNotations.
Local Open Scope N_scope.

Lemma list_N_eqb_refl l : list_N_eqb l l = true.
Proof. apply list_N_eqb_eq. reflexivity. Qed.

Lemma mem_key_In k l : mem_key k l = true <-> In k l.
Proof.
  induction l as [|x l IH]; cbn [mem_key In]; [split; [discriminate|tauto]|].
  rewrite orb_true_iff, list_N_eqb_eq, IH. tauto.
Qed.

Lemma keys_distinct_NoDup d : keys_distinct d = true <-> NoDup (map fst d).
Proof.
  induction d as [|[k v] d IH]; cbn [keys_distinct map fst].
  - split; [constructor|reflexivity].
  - rewrite andb_true_iff, negb_true_iff, IH. split.
    + intros [H1 H2]. constructor; [|assumption]. intro Hin. apply mem_key_In in Hin. congruence.
    + intro H. inversion H as [|? ? Hn Hd]; subst. split; [|assumption].
      destruct (mem_key k (map fst d)) eqn:E; [apply mem_key_In in E; tauto|reflexivity].
Qed.

Lemma dict_get_None d k : ~ In k (map fst d) -> dict_get d k = None.
Proof.
  induction d as [|[k' v] d IH]; cbn [dict_get map fst In]; intro H; [reflexivity|].
  rewrite list_N_eqb_neq by tauto. apply IH. tauto.
Qed.

Lemma dict_set_fresh d k v : ~ In k (map fst d) -> dict_set d k v = d ++ [(k, v)].
Proof.
  induction d as [|[k' v'] d IH]; cbn [dict_set map fst In app]; intro H; [reflexivity|].
  rewrite list_N_eqb_neq by tauto. rewrite IH by tauto. reflexivity.
Qed.

Lemma utf8_valid_ascii l : forallb (fun b => b <? 128) l = true -> utf8_valid l = true.
Proof.
  induction l as [|b l IH]; cbn [forallb utf8_valid]; [reflexivity|].
  intro H. apply andb_true_iff in H. destruct H as [-> H]. apply IH. assumption.
Qed.

(* a key character, or the final \n that `$` lets through *)
Definition key_byte (b : N) : bool := ueb_key_char b || (b =? 10).

Lemma key_byte_props b : key_byte b = true -> (b <? 128) = true /\ b <> 58.
Proof.
  unfold key_byte, ueb_key_char. rewrite !orb_true_iff, !andb_true_iff, !N.leb_le, !N.eqb_eq, N.ltb_lt. lia.
Qed.

Lemma ueb_key_ok_bytes k : ueb_key_ok k = true -> forallb key_byte k = true.
Proof.
  unfold ueb_key_ok.
  assert (Hchar : forall l, match l with [] => false | _ => forallb ueb_key_char l end = true ->
                            forallb key_byte l = true).
  { intros l Hl. assert (H : forallb ueb_key_char l = true) by (destruct l; [discriminate|exact Hl]).
    rewrite forallb_forall in *. intros b Hb. unfold key_byte. rewrite H by assumption. reflexivity. }
  destruct (rev k) as [|b r] eqn:E; [apply Hchar|].
  destruct (N.eq_dec b 10) as [->|Hb].
  - (* k = rev r ++ [10], and the regex was matched against rev r *)
    intro H. rewrite <- (rev_involutive k), E. cbn [rev]. rewrite forallb_app, (Hchar _ H). reflexivity.
  - (* b <> 10 = 0b1010: four constructors of the positive are enough for `match rev k with 10 :: r`
       to reduce; the one case left is b = 10 *)
    destruct b as [|p]; [apply Hchar|]. do 4 (destruct p as [p|p|]; try apply Hchar). congruence.
Qed.

Lemma ueb_key_ok_props k : ueb_key_ok k = true -> ~ In 58 k /\ utf8_valid k = true.
Proof.
  intro H. apply ueb_key_ok_bytes in H. rewrite forallb_forall in H. split.
  - intro Hin. apply H, key_byte_props in Hin. tauto.
  - apply utf8_valid_ascii, forallb_forall. intros b Hb. apply H, key_byte_props in Hb. tauto.
Qed.

(* one pass through the loop body, from (data, d) to (data', d') *)
Inductive ueb_step (rdlen : list N -> option Z) (keychk : udict -> list N -> bool) (data : list N) (d : udict)
  : list N -> udict -> Prop :=
  ueb_step_intro key data1 number data2 z value data3 :
    find_byte 58 data = Some (key, data1) -> find_byte 58 data1 = Some (number, data2) ->
    rdlen number = Some z -> ueb_cut z data2 = Some (value, data3) ->
    utf8_valid key = true -> keychk d key = true ->
    ueb_step rdlen keychk data d data3 (dict_set d key (UBytes value)).

Lemma ueb_loop_step rdlen keychk f data d data' d' :
  ueb_step rdlen keychk data d data' d' ->
  ueb_loop rdlen keychk (S f) data d = ueb_loop rdlen keychk f data' d'.
Proof.
  intros [key data1 number data2 z value data3 F1 F2 R C U K].
  destruct data; [discriminate F1|]. cbn [ueb_loop]. rewrite F1, F2, R, C, U, K. reflexivity.
Qed.

Lemma ueb_loop_unroll rdlen keychk f data d r :
  ueb_loop rdlen keychk (S f) data d = r ->
  data = [] /\ r = Ok d \/
  (exists data' d', ueb_step rdlen keychk data d data' d' /\ ueb_loop rdlen keychk f data' d' = r) \/
  raised r.
Proof.
  intros <-. destruct data as [|b data0]; [left; split; reflexivity|right].
  cbn [ueb_loop]. set (data := b :: data0).
  destruct (find_byte 58 data) as [[key data1]|] eqn:F1; [|right; exact I].
  destruct (find_byte 58 data1) as [[number data2]|] eqn:F2; [|right; exact I].
  destruct (rdlen number) as [z|] eqn:R; [|right; exact I].
  destruct (ueb_cut z data2) as [[value data3]|] eqn:C; [|right; exact I].
  destruct (utf8_valid key) eqn:U; [|right; exact I].
  destruct (keychk d key) eqn:K; [|right; exact I].
  left. exists data3, (dict_set d key (UBytes value)). split; [econstructor; eassumption|reflexivity].
Qed.

Lemma ueb_cut_app v rest : ueb_cut (Z.of_N (blen v)) (v ++ 44 :: rest) = Some (v, rest).
Proof.
  unfold ueb_cut, blen. rewrite nat_N_Z, app_length. cbn [length].
  rewrite (proj2 (Z.leb_le _ _)), (proj2 (Z.ltb_lt _ _)), Nat2Z.id by lia.
  rewrite skipn_app_exact, firstn_app_exact by reflexivity. reflexivity.
Qed.

Lemma ueb_cut_nonneg z data v rest :
  (0 <= z)%Z -> ueb_cut z data = Some (v, rest) -> data = v ++ 44 :: rest /\ Z.of_N (blen v) = z.
Proof.
  intros Hz. unfold ueb_cut. apply Z.leb_le in Hz. rewrite Hz. apply Z.leb_le in Hz.
  destruct (z <? Z.of_nat (length data))%Z eqn:Hlt; [|discriminate]. apply Z.ltb_lt in Hlt.
  destruct (skipn (Z.to_nat z) data) as [|c r] eqn:Hs; [discriminate|].
  destruct (c =? 44) eqn:Hc; [|discriminate]. apply N.eqb_eq in Hc. subst c.
  intro H. injection H as <- <-.
  apply firstn_skipn_cons in Hs. destruct Hs as [Hd Hl]. split; [assumption|].
  unfold blen. rewrite Hl. lia.
Qed.

(* the entry as the loop stores it: the value still as bytes, before the integer keys are converted *)
Definition to_b (e : list N * uval) : list N * uval := (fst e, UBytes (ueb_val_bytes (snd e))).

Lemma map_fst_to_b l : map fst (map to_b l) = map fst l.
Proof. exact (map_map to_b fst l). Qed.

Lemma ueb_entry_app e rest :
  ueb_entry e ++ rest =
  fst e ++ 58 :: dec (blen (ueb_val_bytes (snd e))) ++ 58 :: ueb_val_bytes (snd e) ++ 44 :: rest.
Proof.
  unfold ueb_entry, netstring. repeat (rewrite <- app_assoc; cbn [app]). reflexivity.
Qed.

Section Loop.
Variable rdlen : list N -> option Z.
Variable keychk : udict -> list N -> bool.
Hypothesis rdlen_dec : forall n, rdlen (dec n) = Some (Z.of_N n).

Lemma ueb_loop_entry f e rest d :
  ueb_key_ok (fst e) = true -> ~ In (fst e) (map fst d) -> keychk d (fst e) = true ->
  ueb_loop rdlen keychk (S f) (ueb_entry e ++ rest) d = ueb_loop rdlen keychk f rest (d ++ [to_b e]).
Proof.
  intros Hk Hfresh Hchk. destruct (ueb_key_ok_props _ Hk) as [Hcolon Hutf].
  unfold to_b. rewrite <- dict_set_fresh by assumption. rewrite ueb_entry_app.
  apply ueb_loop_step. econstructor.
  - apply find_byte_app, Hcolon.
  - apply find_byte_app, colon_not_in_dec.
  - apply rdlen_dec.
  - apply ueb_cut_app.
  - exact Hutf.
  - exact Hchk.
Qed.

Lemma ueb_loop_entries : forall l f d,
  (length l < f)%nat ->
  forallb (fun e => ueb_key_ok (fst e)) l = true ->
  NoDup (map fst d ++ map fst l) ->
  (forall l1 e l2, l = l1 ++ e :: l2 -> keychk (d ++ map to_b l1) (fst e) = true) ->
  ueb_loop rdlen keychk f (concat (map ueb_entry l)) d = Ok (d ++ map to_b l).
Proof.
  induction l as [|e l IH]; intros f d Hf Hk Hnd Hchk.
  - destruct f; [cbn in Hf; lia|]. cbn. rewrite app_nil_r. reflexivity.
  - destruct f as [|f]; [cbn in Hf; lia|].
    cbn [forallb] in Hk. apply andb_true_iff in Hk. destruct Hk as [Hke Hkl].
    cbn [map concat]. rewrite ueb_loop_entry.
    + rewrite IH.
      * rewrite <- app_assoc. reflexivity.
      * cbn [length] in Hf. lia.
      * assumption.
      * rewrite map_app. cbn [map to_b fst]. rewrite <- app_assoc. exact Hnd.
      * intros l1 e' l2 El. rewrite <- app_assoc. apply (Hchk (e :: l1) e' l2). rewrite El. reflexivity.
    + assumption.
    + cbn [map] in Hnd. apply NoDup_remove_2 in Hnd. intro Hin. apply Hnd. apply in_or_app. left. assumption.
    + specialize (Hchk [] e l eq_refl). cbn [map] in Hchk. rewrite app_nil_r in Hchk. assumption.
Qed.
End Loop.

Lemma ueb_convert_typed (rdint : list N -> option Z) :
  (forall z, rdint (dec_Z z) = Some z) ->
  forall l, forallb ueb_typed l = true -> ueb_convert rdint (map to_b l) = Ok l.
Proof.
  intros Hrd. induction l as [|[k v] l IH]; intro H; [reflexivity|].
  cbn [forallb] in H. apply andb_true_iff in H. destruct H as [Ht Hl].
  cbn [map to_b fst snd ueb_convert]. rewrite IH by assumption.
  unfold ueb_typed in Ht. cbn [fst snd] in Ht.
  destruct v as [s|z].
  - apply negb_true_iff in Ht. rewrite Ht. reflexivity.
  - rewrite Ht. cbn [ueb_val_bytes]. rewrite Hrd. reflexivity.
Qed.

Lemma insert_entry_perm e l : Permutation (insert_entry e l) (e :: l).
Proof.
  induction l as [|h t IH]; cbn [insert_entry]; [reflexivity|].
  destruct (lex_ltb (fst h) (fst e)); [|reflexivity].
  rewrite IH. apply perm_swap.
Qed.

Lemma sort_entries_perm d : Permutation (sort_entries d) d.
Proof.
  induction d as [|e d IH]; cbn [sort_entries fold_right]; [reflexivity|].
  rewrite insert_entry_perm. constructor. exact IH.
Qed.

Lemma forallb_perm {A} (P : A -> bool) l l' : Permutation l l' -> forallb P l = forallb P l'.
Proof.
  induction 1 as [|x l l' _ IH|x y l|l l' l'' _ IH1 _ IH2]; cbn [forallb];
    [reflexivity|rewrite IH; reflexivity|destruct (P x), (P y); reflexivity|congruence].
Qed.

Lemma ueb_entry_nonempty e : (1 <= length (ueb_entry e))%nat.
Proof. unfold ueb_entry. rewrite app_length. cbn [length]. lia. Qed.

Lemma concat_entries_length l : (length l <= length (concat (map ueb_entry l)))%nat.
Proof.
  induction l as [|e l IH]; cbn [map concat length]; [lia|].
  rewrite app_length. pose proof (ueb_entry_nonempty e). lia.
Qed.

Lemma lex_ltb_cons x a y b : lex_ltb (x :: a) (y :: b) = true <-> x < y \/ x = y /\ lex_ltb a b = true.
Proof.
  cbn [lex_ltb]. destruct (N.ltb_spec x y); [split; [left; assumption|reflexivity]|].
  destruct (N.ltb_spec y x); [split; [discriminate|lia]|].
  split; [right; split; [lia|assumption]|intros [|[_ ?]]; [lia|assumption]].
Qed.

Lemma lex_ltb_irrefl a : lex_ltb a a = false.
Proof. induction a as [|x a IH]; cbn [lex_ltb]; [reflexivity|]. rewrite N.ltb_irrefl. assumption. Qed.

Lemma lex_ltb_trans : forall a b c, lex_ltb a b = true -> lex_ltb b c = true -> lex_ltb a c = true.
Proof.
  induction a as [|x a IH]; intros [|y b] [|z c]; try discriminate; try reflexivity.
  rewrite !lex_ltb_cons. intros [H1|[-> H1]] [H2|[-> H2]]; [left; lia|left; assumption|left; assumption|].
  right. split; [reflexivity|]. apply IH with b; assumption.
Qed.

Lemma lex_ltb_asym a b : lex_ltb a b = true -> lex_ltb b a = false.
Proof.
  intro H. destruct (lex_ltb b a) eqn:E; [|reflexivity].
  rewrite <- (lex_ltb_irrefl a). symmetry. apply lex_ltb_trans with b; assumption.
Qed.

Lemma lex_ltb_total : forall a b, lex_ltb a b = false -> a <> b -> lex_ltb b a = true.
Proof.
  induction a as [|x a IH]; intros [|y b]; try discriminate; try reflexivity; [congruence|].
  rewrite <- not_true_iff_false, !lex_ltb_cons. intros H Hne.
  destruct (N.lt_trichotomy x y) as [Hlt|[->|Hgt]]; [tauto| |left; exact Hgt].
  right. split; [reflexivity|]. apply IH; [apply not_true_iff_false; tauto|congruence].
Qed.

Fixpoint sorted_keys (ks : list (list N)) : Prop :=
  match ks with
  | [] => True
  | k :: r => Forall (fun k' => lex_ltb k k' = true) r /\ sorted_keys r
  end.

Definition keys_below (d : udict) (k : list N) : bool := forallb (fun e => lex_ltb (fst e) k) d.

Lemma keys_below_Forall d k : keys_below d k = true <-> Forall (fun k' => lex_ltb k' k = true) (map fst d).
Proof. unfold keys_below. rewrite Forall_map, Forall_forall, forallb_forall. reflexivity. Qed.

Lemma keys_below_fresh d k : keys_below d k = true -> ~ In k (map fst d).
Proof.
  rewrite keys_below_Forall, Forall_forall. intros H Hin. apply H in Hin.
  rewrite lex_ltb_irrefl in Hin. discriminate.
Qed.

Lemma sorted_keys_snoc ks k :
  sorted_keys ks -> Forall (fun k' => lex_ltb k' k = true) ks -> sorted_keys (ks ++ [k]).
Proof.
  induction ks as [|a ks IH]; cbn [sorted_keys app]; intros Hs Hb.
  - split; [constructor|exact I].
  - destruct Hs as [Ha Hs]. inversion Hb as [|? ? Hak Hb']; subst. split.
    + apply Forall_app. split; [assumption|]. constructor; [assumption|constructor].
    + apply IH; assumption.
Qed.

Lemma sort_entries_sorted d : sorted_keys (map fst d) -> sort_entries d = d.
Proof.
  induction d as [|e d IH]; cbn [map sorted_keys sort_entries fold_right]; intro H; [reflexivity|].
  destruct H as [Hall Hs]. fold (sort_entries d). rewrite IH by assumption.
  destruct d as [|h t]; [reflexivity|]. cbn [insert_entry].
  cbn [map] in Hall. inversion Hall as [|? ? Hh _]; subst.
  rewrite (lex_ltb_asym _ _ Hh). reflexivity.
Qed.

Lemma insert_entry_sorted e : forall l,
  sorted_keys (map fst l) -> ~ In (fst e) (map fst l) -> sorted_keys (map fst (insert_entry e l)).
Proof.
  induction l as [|h t IH]; cbn [insert_entry map sorted_keys In].
  - split; [constructor|exact I].
  - intros [Hh Hs] Hn. destruct (lex_ltb (fst h) (fst e)) eqn:E; cbn [map sorted_keys].
    + split; [|apply IH; tauto].
      rewrite insert_entry_perm. constructor; assumption.
    + assert (Heh : lex_ltb (fst e) (fst h) = true) by (apply lex_ltb_total; tauto).
      split; [|split; assumption].
      constructor; [assumption|]. revert Hh. apply Forall_impl. intro k. apply lex_ltb_trans, Heh.
Qed.

Lemma sort_entries_is_sorted d : NoDup (map fst d) -> sorted_keys (map fst (sort_entries d)).
Proof.
  induction d as [|e d IH]; cbn [map sort_entries fold_right]; intro H; [exact I|].
  inversion H as [|? ? Hn Hd]; subst. fold (sort_entries d). apply insert_entry_sorted; [apply IH, Hd|].
  rewrite sort_entries_perm. exact Hn.
Qed.

Lemma sorted_keys_middle : forall ks1 k ks2,
  sorted_keys (ks1 ++ k :: ks2) -> Forall (fun k' => lex_ltb k' k = true) ks1.
Proof.
  induction ks1 as [|a ks1 IH]; intros k ks2 H; [constructor|].
  cbn [app sorted_keys] in H. destruct H as [Ha Hs]. constructor.
  - rewrite Forall_forall in Ha. apply Ha. apply in_or_app. right. left. reflexivity.
  - apply IH with ks2. assumption.
Qed.

(* decode (encode d) = d (as a dict: in key order), for readers that read what b"%d"
   prints and a key check that passes well-formed keys arriving in increasing order *)
Theorem ueb_roundtrip_with rdlen rdint keychk :
  (forall n, rdlen (dec n) = Some (Z.of_N n)) -> (forall z, rdint (dec_Z z) = Some z) ->
  (forall d k, ueb_key_ok k = true -> keys_below d k = true -> keychk d k = true) ->
  forall d, ueb_wf d = true ->
  exists s, ueb_pack d = Some s /\ ueb_unpack_with rdlen rdint keychk s = Ok (sort_entries d).
Proof.
  intros Hlen Hint Hchk d Hwf. unfold ueb_wf in Hwf. rewrite !andb_true_iff in Hwf. destruct Hwf as [[Hdis Hk] Ht].
  apply keys_distinct_NoDup in Hdis. pose proof (sort_entries_is_sorted d Hdis) as Hsorted.
  exists (concat (map ueb_entry (sort_entries d))). split; [unfold ueb_pack; rewrite Hk; reflexivity|].
  pose proof (sort_entries_perm d) as Hp. rewrite <- (forallb_perm _ _ _ Hp) in Hk. rewrite <- (forallb_perm _ _ _ Hp) in Ht.
  unfold ueb_unpack_with. rewrite (ueb_loop_entries rdlen keychk Hlen).
  - apply ueb_convert_typed; assumption.
  - pose proof (concat_entries_length (sort_entries d)). lia.
  - exact Hk.
  - cbn [map app]. rewrite Hp. exact Hdis.
  - intros l1 e l2 El. cbn [app]. apply Hchk.
    + rewrite forallb_forall in Hk. apply Hk. rewrite El. apply in_elt.
    + apply keys_below_Forall. rewrite map_fst_to_b. apply sorted_keys_middle with (map fst l2).
      rewrite El, map_app in Hsorted. exact Hsorted.
Qed.

Definition is_ubytes (e : list N * uval) : Prop := exists s, snd e = UBytes s.

Lemma ueb_step_strict data d data' d' :
  ueb_step strict_nat strict_keychk data d data' d' ->
  exists k v, ueb_key_ok k = true /\ keys_below d k = true /\
    data = ueb_entry (k, UBytes v) ++ data' /\ d' = d ++ [(k, UBytes v)].
Proof.
  intros [key data1 number data2 z value data3 F1 F2 R C _ K].
  apply find_byte_some in F1, F2. destruct F1 as [-> _], F2 as [-> _].
  apply strict_nat_canonical in R. destruct R as [Hz ->].
  apply ueb_cut_nonneg in C; [|exact Hz]. destruct C as [-> Hlen].
  apply andb_true_iff in K. destruct K as [Kok Kbelow].
  exists key, value. repeat split; [exact Kok|exact Kbelow| |apply dict_set_fresh, keys_below_fresh, Kbelow].
  rewrite ueb_entry_app. cbn [fst snd ueb_val_bytes]. rewrite <- Hlen, N2Z.id. reflexivity.
Qed.

Lemma ueb_loop_strict_inv : forall fuel data d0 d',
  ueb_loop strict_nat strict_keychk fuel data d0 = Ok d' ->
  sorted_keys (map fst d0) ->
  exists l, d' = d0 ++ l /\ data = concat (map ueb_entry l) /\ Forall is_ubytes l
            /\ sorted_keys (map fst (d0 ++ l)) /\ forallb (fun e => ueb_key_ok (fst e)) l = true.
Proof.
  induction fuel as [|f IH]; intros data d0 d' H Hs; [discriminate|].
  apply ueb_loop_unroll in H. destruct H as [[-> [= <-]]|[(data' & d1 & St & H)|[]]].
  - exists []. rewrite app_nil_r. repeat split; try assumption; constructor.
  - destruct (ueb_step_strict _ _ _ _ St) as (k & v & Kok & Kbelow & -> & ->).
    apply IH in H.
    2:{ rewrite map_app. apply sorted_keys_snoc; [exact Hs|apply keys_below_Forall, Kbelow]. }
    destruct H as (l & -> & -> & Hb & Hsl & Hkl). rewrite <- app_assoc in *.
    exists ((k, UBytes v) :: l). repeat split; try assumption.
    + constructor; [exists v; reflexivity|exact Hb].
    + cbn [forallb fst]. rewrite Kok. exact Hkl.
Qed.

Lemma ueb_convert_strict_inv : forall d d',
  Forall is_ubytes d -> ueb_convert strict_int d = Ok d' ->
  map fst d' = map fst d /\ map ueb_entry d' = map ueb_entry d.
Proof.
  induction d as [|[k v] d IH]; intros d' Hb H.
  - cbn in H. injection H as <-. split; reflexivity.
  - inversion Hb as [|? ? [s Hs] Hb']; subst. cbn [snd] in Hs. subst v.
    cbn [ueb_convert] in H.
    destruct (ueb_convert strict_int d) as [r'|e] eqn:E; [|discriminate].
    destruct (IH r' Hb' eq_refl) as [Hk He].
    destruct (mem_key k ueb_int_keys).
    + destruct (strict_int s) as [z|] eqn:S; [|discriminate]. injection H as <-.
      apply strict_int_canonical in S. cbn [map fst]. rewrite Hk, He. split; [reflexivity|].
      f_equal. unfold ueb_entry. cbn [fst snd ueb_val_bytes]. rewrite S. reflexivity.
    + injection H as <-. cbn [map fst]. rewrite Hk, He. split; reflexivity.
Qed.

Lemma forallb_key_ok_keys (d d' : udict) :
  map fst d' = map fst d ->
  forallb (fun e => ueb_key_ok (fst e)) d = true -> forallb (fun e => ueb_key_ok (fst e)) d' = true.
Proof.
  revert d'. induction d as [|e d IH]; intros [|e' d'] Hm H; cbn [map] in Hm; try discriminate; [reflexivity|].
  injection Hm as Hf Hm. cbn [forallb] in *. apply andb_true_iff in H. destruct H as [He Hd].
  rewrite Hf, He. cbn. apply IH; assumption.
Qed.

Theorem ueb_strict_converse s d : ueb_unpack_strict s = Ok d -> ueb_pack d = Some s.
Proof.
  unfold ueb_unpack_strict, ueb_unpack_with.
  destruct (ueb_loop strict_nat strict_keychk (S (length s)) s []) as [d0|e] eqn:L; [|discriminate].
  intro C. apply ueb_loop_strict_inv in L; [|exact I].
  destruct L as (l & -> & -> & Hb & Hs & Hk). cbn [app] in *.
  destruct (ueb_convert_strict_inv l d Hb C) as [Hkeys Hentries].
  unfold ueb_pack. rewrite (forallb_key_ok_keys l d Hkeys Hk).
  rewrite sort_entries_sorted by (rewrite Hkeys; assumption).
  rewrite Hentries. reflexivity.
Qed.

Section Mono.
Variables (rd1 rd2 : list N -> option Z) (chk1 chk2 : udict -> list N -> bool).
Hypothesis Hrd : forall l z, rd1 l = Some z -> rd2 l = Some z.
Hypothesis Hchk : forall d k, chk1 d k = true -> chk2 d k = true.

Lemma ueb_step_mono data d data' d' : ueb_step rd1 chk1 data d data' d' -> ueb_step rd2 chk2 data d data' d'.
Proof. intros []. econstructor; eauto. Qed.

Lemma ueb_loop_mono : forall fuel data d r,
  ueb_loop rd1 chk1 fuel data d = Ok r -> ueb_loop rd2 chk2 fuel data d = Ok r.
Proof.
  induction fuel as [|f IH]; intros data d r H; [discriminate|].
  apply ueb_loop_unroll in H. destruct H as [[-> [= <-]]|[(data' & d' & St & H)|[]]]; [reflexivity|].
  rewrite (ueb_loop_step _ _ f _ _ _ _ (ueb_step_mono _ _ _ _ St)). apply IH, H.
Qed.
End Mono.

Lemma ueb_convert_mono rd1 rd2 :
  (forall l z, rd1 l = Some z -> rd2 l = Some z) ->
  forall d r, ueb_convert rd1 d = Ok r -> ueb_convert rd2 d = Ok r.
Proof.
  intros Hrd. induction d as [|[k v] d IH]; intros r H; [exact H|].
  cbn [ueb_convert] in *.
  destruct (ueb_convert rd1 d) as [r'|e]; [|discriminate]. rewrite (IH r' eq_refl).
  destruct (mem_key k ueb_int_keys); [|exact H].
  destruct v as [s|z]; [|exact H].
  destruct (rd1 s) as [z|] eqn:R; [|discriminate]. rewrite (Hrd _ _ R). exact H.
Qed.

Theorem ueb_strict_sound s d : ueb_unpack_strict s = Ok d -> ueb_unpack s = Ok d.
Proof.
  unfold ueb_unpack_strict, ueb_unpack, ueb_unpack_with.
  destruct (ueb_loop strict_nat strict_keychk (S (length s)) s []) as [d0|e] eqn:L; [|discriminate].
  rewrite (ueb_loop_mono strict_nat py_int strict_keychk (fun _ _ => true) strict_nat_sound (fun _ _ _ => eq_refl) _ _ _ _ L).
  apply ueb_convert_mono. exact strict_int_sound.
Qed.

(* the real code, on canonical inputs *)
Theorem ueb_converse_canonical s d :
  ueb_unpack s = Ok d -> is_ok (ueb_unpack_strict s) = true -> ueb_pack d = Some s.
Proof.
  intros H Hc. destruct (ueb_unpack_strict s) as [d'|e] eqn:S; [|discriminate].
  pose proof (ueb_strict_sound _ _ S) as S'. rewrite H in S'. injection S' as <-.
  apply ueb_strict_converse. assumption.
Qed.

Lemma ueb_cut_shorter z data v rest : ueb_cut z data = Some (v, rest) -> (length rest < length data)%nat.
Proof.
  unfold ueb_cut.
  destruct (if (0 <=? z)%Z then Some z else if (z =? -1)%Z then None
            else if (0 <=? Z.of_nat (length data) + z)%Z then Some (Z.of_nat (length data) + z)%Z else None) as [i|]; [|discriminate].
  destruct (i <? Z.of_nat (length data))%Z; [|discriminate].
  destruct (skipn (Z.to_nat i) data) as [|c r] eqn:Hs; [discriminate|].
  destruct (c =? 44); [|discriminate]. intro H. injection H as _ <-.
  pose proof (skipn_length (Z.to_nat i) data) as Hl. rewrite Hs in Hl. cbn [length] in Hl. lia.
Qed.

Lemma ueb_step_shorter rdlen keychk data d data' d' :
  ueb_step rdlen keychk data d data' d' -> (length data' < length data)%nat.
Proof.
  intros [key data1 number data2 z value data3 F1 F2 _ C _ _].
  apply find_byte_some in F1, F2. destruct F1 as [-> _], F2 as [-> _]. apply ueb_cut_shorter in C.
  rewrite app_length. cbn [length]. rewrite app_length. cbn [length]. lia.
Qed.

Lemma ueb_loop_fuel rdlen keychk : forall fuel data d,
  (length data < fuel)%nat -> ueb_loop rdlen keychk fuel data d <> Err EFuel.
Proof.
  induction fuel as [|f IH]; intros data d Hf H; [lia|].
  apply ueb_loop_unroll in H. destruct H as [[_ [=]]|[(data' & d' & St & H)|[]]].
  apply (IH data' d'); [|exact H]. apply ueb_step_shorter in St. lia.
Qed.

Lemma ueb_convert_no_fuel rdint : forall d, ueb_convert rdint d <> Err EFuel.
Proof.
  induction d as [|[k v] d IH]; cbn [ueb_convert]; [discriminate|].
  destruct (ueb_convert rdint d) as [r|e] eqn:E.
  - destruct (mem_key k ueb_int_keys); [|discriminate]. destruct v; [|discriminate].
    destruct (rdint s); discriminate.
  - intro H. injection H as ->. apply IH. reflexivity.
Qed.

Theorem ueb_unpack_fuel_suffices rdlen rdint keychk s : ueb_unpack_with rdlen rdint keychk s <> Err EFuel.
Proof.
  unfold ueb_unpack_with.
  pose proof (ueb_loop_fuel rdlen keychk (S (length s)) s [] ltac:(lia)) as H.
  destruct (ueb_loop rdlen keychk (S (length s)) s []) as [d|e].
  - apply ueb_convert_no_fuel.
  - intro E. injection E as ->. apply H. reflexivity.
Qed.

(* the unconditional converse is false: witnesses by class *)

Definition ueb_accepts_noncanonical (s : list N) : bool :=
  match ueb_unpack s with
  | Ok d => negb (opt_bytes_eqb (ueb_pack d) (Some s)) && negb (is_ok (ueb_unpack_strict s))
  | Err _ => false
  end.

Definition ueb_witness_numeral : list (list N) :=
  map bytes_of_string ["a:+2:XY,"; "a:02:XY,"; "a: 2:XY,"; "a:2 :XY,"; "a:1_0:0123456789,"; "a:-0:,"]%string.
Definition ueb_witness_negative_length : list (list N) := map bytes_of_string ["a:-6:XY,k:0:,"]%string.
Definition ueb_witness_duplicate_key : list (list N) := map bytes_of_string ["a:1:x,a:1:y,"]%string.
Definition ueb_witness_unsorted_keys : list (list N) := map bytes_of_string ["b:1:x,a:1:y,"]%string.
Definition ueb_witness_unencodable_key : list (list N) := map bytes_of_string ["1:0:,"; ":0:,"; "a b:0:,"]%string.
Definition ueb_witness_int_field : list (list N) :=
  map bytes_of_string ["size:3: 12,"; "size:2:+5,"; "size:2:05,"; "size:2:-0,"; "size:3:1_2,"]%string.

Theorem ueb_witnesses_accepted :
  forallb ueb_accepts_noncanonical
    (ueb_witness_numeral ++ ueb_witness_negative_length ++ ueb_witness_duplicate_key ++
     ueb_witness_unsorted_keys ++ ueb_witness_unencodable_key ++ ueb_witness_int_field) = true.
Proof. vm_compute. reflexivity. Qed.

Theorem ueb_converse_refuted : exists s d, ueb_unpack s = Ok d /\ ueb_pack d <> Some s.
Proof.
  exists (bytes_of_string "a:-6:XY,k:0:,"%string),
         [(bytes_of_string "a"%string, UBytes (bytes_of_string "XY"%string)); (bytes_of_string "k"%string, UBytes [])].
  split; [vm_compute; reflexivity|vm_compute; discriminate].
Qed.
