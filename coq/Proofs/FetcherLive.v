(* C03 / C46: liveness of the segment fetcher.  A run is an infinite sequence r : nat -> fev
   accepted by the guard of Proofs/FetcherWorld.v.  It is fair when a queued loop() eventually
   runs (the eventual-send queue is served), every outstanding block request eventually stops
   being outstanding (its Share reports a terminal state, or the fetcher stops) and the finder
   eventually reports exhaustion.  Every fair run stops the fetcher, by the measure
       4 * (shares not yet delivered) + 3 * unused + outstanding + active. *)
From Coq Require Import List NArith Bool Arith Lia Permutation.
From Verif Require Import Lib.ListFacts Lib.Sched Model.Fetcher Proofs.FetcherBase Proofs.FetcherWorld.
Import ListNotations.

Definition mu_f (s : fstate) : nat :=
  3 * length (f_shares s) + length (f_from_server s) + length (f_active s).

Definition mu (w : world) (g : gst) : nat :=
  4 * (length (w_shares w) - length (snd g)) + mu_f (fst g).

Definition is_final (o : fout) : Prop :=
  match o with OProcessBlocks _ | OFetchFailed _ => True | _ => False end.

Lemma mu_f_set_loops s n : mu_f (set_loops s n) = mu_f s.
Proof. reflexivity. Qed.

Lemma use_share_mu s sh : In sh (f_shares s) -> mu_f (use_share s sh) < mu_f s.
Proof.
  intros H. unfold mu_f. cbn [use_share f_shares f_from_server f_active].
  pose proof (remove_first_length sh (f_shares s) H). pose proof (set_add_length sh (f_from_server s)).
  rewrite app_length. cbn [length]. lia.
Qed.

(* a move that starts a request lowers the measure; raising the limit changes neither the
   measure nor the requests *)
Lemma moves_mu s t :
  moves s t ->
  incl (f_from_server s) (f_from_server t) /\
  (mu_f t < mu_f s \/ mu_f t = mu_f s /\ f_from_server t = f_from_server s).
Proof.
  induction 1 as [s|s sh t (Hin & _) _ (IHi & IHm)|s t _ IH]; [split; [apply incl_refl|auto]| |exact IH].
  pose proof (use_share_mu s sh Hin). split; [|lia].
  intros z Hz. apply IHi. cbn [use_share f_from_server]. now apply set_add_incl.
Qed.

(* an answer never raises the measure, and lowers it when it ends a request *)
Lemma react_mu_le s sh st : mu_f (react s sh st) <= mu_f s.
Proof.
  pose proof (remove_id_length_le sh (f_from_server s)). pose proof (remove_id_length_le sh (f_active s)).
  pose proof (filter_length_le (fun x => negb (N.eqb (sh_num x) (sh_num sh))) (f_active s)).
  unfold mu_f. destruct st; cbn [react retire add_block set_overdue f_shares f_from_server f_active]; unfold remove_num; lia.
Qed.

Lemma react_request_done s sh st x :
  In x (f_from_server s) -> ~ In x (f_from_server (react s sh st)) -> mu_f (react s sh st) < mu_f s.
Proof.
  intros Hx Hnx.
  assert (f_from_server (react s sh st) = remove_id sh (f_from_server s) /\ mu_f (react s sh st) = mu_f (retire s sh)) as [E ->]
    by (destruct st; try (split; reflexivity); contradiction).
  rewrite E, remove_id_In in Hnx. destruct (share_eq_dec x sh) as [->|NE]; [|tauto].
  pose proof (remove_id_length_lt sh (f_from_server s) Hx). pose proof (remove_id_length_le sh (f_active s)).
  unfold mu_f. cbn [retire f_shares f_from_server f_active]. lia.
Qed.

Lemma added_bound w g : Inv w g -> length (snd g) <= length (w_shares w).
Proof. intros [I _]. apply NoDup_incl_length; [apply (i_added_nd _ _ _ I)|apply (i_added_w _ _ _ I)]. Qed.

Lemma gstep_mu_le w g e : NoDup (w_shares w) -> Inv w g -> ev_ok w g e -> mu w (fst (gstep g e)) <= mu w g.
Proof.
  intros Hw HI Hok. pose proof (added_bound w _ (gstep_inv w g e Hw HI Hok)) as B.
  destruct g as [s added]. unfold mu, gstep in *. cbn [fst snd] in *.
  destruct e as [l| |sh st|ns].
  - cbn [fstep] in *. destruct (f_running s); cbn [fst snd] in *; rewrite app_length in *; [|lia].
    rewrite mu_f_set_loops. unfold mu_f. cbn [set_shares f_shares f_from_server f_active].
    rewrite sort_shares_length, app_length. lia.
  - cbn [fstep fst snd]. rewrite mu_f_set_loops. apply Nat.le_refl.
  - destruct (fstep_activity s sh st) as [->| ->]; cbn [fst snd]; [lia|].
    rewrite mu_f_set_loops. pose proof (react_mu_le s sh st). lia.
  - cbn [fstep]. destruct (f_loops s) as [|n]; cbn [fst snd]; [lia|]. rewrite <- (mu_f_set_loops s n).
    destruct (do_loop_result (set_loops s n) ns) as [R|R Bd|D|s' o R D]; cbn [fst snd]; [lia|cbn; lia|lia|].
    destruct (do_while_stops _ _ _ _ _ D) as (t & M & [->|[-> _]]); [|cbn; lia].
    destruct (moves_mu _ _ M) as (_ & [L|[L _]]); lia.
Qed.

Lemma gstep_request_done w g e x :
  NoDup (w_shares w) -> Inv w g -> ev_ok w g e ->
  In x (f_from_server (fst g)) -> ~ In x (f_from_server (fst (fst (gstep g e)))) ->
  f_running (fst (fst (gstep g e))) = false \/ mu w (fst (gstep g e)) < mu w g.
Proof.
  intros Hw HI Hok Hx Hnx. destruct g as [s added]. unfold mu, gstep in *. cbn [fst snd] in *.
  destruct e as [l| |sh st|ns].
  - cbn [fstep] in Hnx. destruct (f_running s); destruct (Hnx Hx).
  - destruct (Hnx Hx).
  - destruct (fstep_activity s sh st) as [E|E]; rewrite E in *; cbn [fst snd] in *; [contradiction|]. right.
    rewrite mu_f_set_loops. pose proof (react_request_done s sh st x Hx Hnx). lia.
  - cbn [fstep] in *. destruct (f_loops s) as [|n]; cbn [fst snd] in *; [contradiction|].
    destruct (do_loop_result (set_loops s n) ns) as [R|R Bd|D|s' o R D]; cbn [fst snd] in *;
      [contradiction|now left|contradiction|].
    destruct (do_while_stops _ _ _ _ _ D) as (t & M & [->|[-> _]]); [|now left].
    destruct Hnx. now apply (moves_mu _ _ M).
Qed.

(* the finder is exhausted, nothing is outstanding: the loop decides or starts requests *)
Lemma gstep_loop_exhausted w g ns :
  NoDup (w_shares w) -> Inv w g -> ev_ok w g (ELoop ns) ->
  f_running (fst g) = true -> f_no_more (fst g) = true -> f_from_server (fst g) = [] ->
  f_running (fst (fst (gstep g (ELoop ns)))) = false \/ mu w (fst (gstep g (ELoop ns))) < mu w g.
Proof.
  intros Hw [I W] Hok R NM FS. destruct g as [s added]. unfold mu, gstep in *. cbn [fst snd fstep ev_ok] in *.
  destruct Hok as [Hl Hns]. destruct (f_loops s) as [|n] eqn:L; [lia|].
  pose proof (set_loops_inv w added s n I) as I'.
  destruct (do_loop_result (set_loops s n) ns) as [R0|R0 Bd|D|s' o R0 D]; cbn [fst snd].
  - cbn [set_loops f_running] in R0. congruence.
  - now left.
  - exfalso. revert D. apply do_while_fuel, loop_fuel_enough, (i_max _ _ _ I').
  - destruct (do_while_stops _ _ _ _ _ D) as (t & M & [->|[-> _]]); [|now left].
    destruct (moves_mu _ _ M) as (_ & [Lt|[_ E]]); [right; rewrite mu_f_set_loops in Lt; lia|].
    (* no request was started: the loop must have stopped the fetcher *)
    left. destruct (f_running t) eqn:R'; [|reflexivity]. exfalso.
    destruct (moves_fixed _ _ M) as (_ & _ & NMt & _).
    destruct (do_while_wait w added _ _ _ _ _ I' D R') as [X|X]; [cbn in NMt; congruence|].
    apply X. rewrite E. exact FS.
Qed.

Lemma fstep_no_more_mono s e : f_no_more s = true -> f_no_more (fst (fstep s e)) = true.
Proof.
  intros H. destruct e as [l| |sh st|ns].
  - cbn [fstep]. destruct (f_running s); exact H.
  - reflexivity.
  - destruct (fstep_activity s sh st) as [->| ->]; [exact H|]. destruct st; exact H.
  - cbn [fstep]. destruct (f_loops s) as [|n]; [exact H|].
    now apply (do_loop_preserves (fun x => f_no_more x = true)).
Qed.

(* whoever stops the fetcher has called process_blocks or fetch_failed *)
Lemma fstep_stop_output s e :
  f_running s = true -> f_running (fst (fstep s e)) = false -> exists o, In o (snd (fstep s e)) /\ is_final o.
Proof.
  intros R R'. destruct e as [l| |sh st|ns].
  - cbn [fstep] in R'. rewrite R in R'. cbn [fst set_loops set_shares f_running] in R'. congruence.
  - cbn [fstep fst set_loops set_no_more f_running] in R'. congruence.
  - destruct (fstep_activity s sh st) as [E|E]; rewrite E in R'; [cbn [fst] in R'; congruence|].
    destruct st; cbn [fst set_loops react retire add_block set_overdue f_running] in R'; congruence.
  - cbn [fstep] in *. destruct (f_loops s) as [|n]; cbn [fst] in R'; [congruence|].
    destruct (do_loop_result (set_loops s n) ns) as [R0|R0 Bd|D|s' o R0 D]; cbn [fst snd] in *;
      [cbn [set_loops f_running] in R'; congruence| |cbn [set_loops f_running] in R'; congruence|].
    + eexists. split; [now left|exact I].
    + destruct (do_while_stops _ _ _ _ _ D) as (t & M & [->|[_ (o' & Ho & Fo)]]).
      * destruct (moves_fixed _ _ M) as (_ & _ & _ & Rt). cbn in Rt. congruence.
      * exists o'. split; [exact Ho|]. destruct o'; cbn in *; tauto.
Qed.

(* under the guard the segment number is in range: no BadSegmentNumberError *)
Lemma gstep_no_badseg w g e : ev_ok w g e -> ~ In (OFetchFailed BadSegmentNumberError) (snd (gstep g e)).
Proof.
  intros Hok Hin. rewrite gstep_snd in Hin.
  destruct (fstep_final _ _ _ Hin (fun F => F)) as (ns & n & -> & _ & _ & [[_ B]|(t & _ & E)]).
  - destruct Hok as [_ Hns]. destruct ns as [m|]; [lia|exact B].
  - (* the loop itself raises NoSharesError or NotEnoughSharesError *)
    destruct (loop_end_failed _ _ _ E) as (X & _).
    destruct (shares_error_spec t) as [[Y _]|[Y _]]; congruence.
Qed.

Section Fair.
  Variable w : world.
  Variables (k : nat) (seg : N).
  Variable r : nat -> fev.
  Hypothesis Hw : NoDup (w_shares w).

  Fixpoint gat (n : nat) : gst :=
    match n with O => ginit k seg | S m => fst (gstep (gat m) (r m)) end.

  Fixpoint outs_upto (n : nat) : list fout :=
    match n with O => [] | S m => outs_upto m ++ snd (gstep (gat m) (r m)) end.

  Definition valid : Prop := forall n, ev_ok w (gat n) (r n).
  Definition fair_loops : Prop :=
    forall n, f_loops (fst (gat n)) > 0 -> exists m, n <= m /\ exists ns, r m = ELoop ns.
  Definition fair_requests : Prop :=
    forall n x, In x (f_from_server (fst (gat n))) -> exists m, n <= m /\ ~ In x (f_from_server (fst (gat m))).
  Definition fair_finder : Prop := exists n, f_no_more (fst (gat n)) = true.

  Hypothesis Hvalid : valid.

  Lemma inv_at n : Inv w (gat n).
  Proof. induction n as [|n IH]; cbn [gat]; [apply inv_init|]. apply gstep_inv; auto. Qed.

  Lemma mu_mono n m : n <= m -> mu w (gat m) <= mu w (gat n).
  Proof.
    induction 1 as [|m _ IH]; [lia|]. cbn [gat].
    pose proof (gstep_mu_le w (gat m) (r m) Hw (inv_at m) (Hvalid m)). lia.
  Qed.

  Lemma no_more_mono n m : n <= m -> f_no_more (fst (gat n)) = true -> f_no_more (fst (gat m)) = true.
  Proof.
    induction 1 as [|m _ IH]; [auto|]. intros H. cbn [gat]. rewrite gstep_fst. apply fstep_no_more_mono, IH, H.
  Qed.

  Lemma stopped_mono n m : n <= m -> f_running (fst (gat n)) = false -> f_running (fst (gat m)) = false.
  Proof.
    induction 1 as [|m _ IH]; [auto|]. intros H. cbn [gat]. rewrite gstep_fst. apply fstep_stopped, IH, H.
  Qed.

  Lemma request_done n m x :
    n <= m -> In x (f_from_server (fst (gat n))) -> ~ In x (f_from_server (fst (gat m))) ->
    f_running (fst (gat m)) = false \/ mu w (gat m) < mu w (gat n).
  Proof.
    induction 1 as [|m Hle IH]; intros Hx Hnx; [contradiction|].
    destruct (in_dec share_eq_dec x (f_from_server (fst (gat m)))) as [Hin|Hout].
    - cbn [gat] in *. pose proof (gstep_request_done w (gat m) (r m) x Hw (inv_at m) (Hvalid m) Hin Hnx) as [St|L]; [now left|].
      right. pose proof (mu_mono n m Hle). lia.
    - destruct (IH Hx Hout) as [St|L].
      + left. apply (stopped_mono m (S m)); [lia|exact St].
      + right. pose proof (mu_mono m (S m) (Nat.le_succ_diag_r m)). lia.
  Qed.

  Hypothesis Hloops : fair_loops.
  Hypothesis Hreq : fair_requests.

  Lemma request_progress n :
    f_from_server (fst (gat n)) <> [] ->
    exists m, n <= m /\ (f_running (fst (gat m)) = false \/ mu w (gat m) < mu w (gat n)).
  Proof.
    intros Hne. destruct (f_from_server (fst (gat n))) as [|x rest] eqn:E; [contradiction|].
    destruct (Hreq n x) as (m & Hle & Hnx); [rewrite E; now left|].
    exists m. split; [exact Hle|]. apply (request_done n m x); [exact Hle|rewrite E; now left|exact Hnx].
  Qed.

  Lemma progress n :
    f_no_more (fst (gat n)) = true -> f_running (fst (gat n)) = true ->
    exists m, n <= m /\ (f_running (fst (gat m)) = false \/ mu w (gat m) < mu w (gat n)).
  Proof.
    intros NM R.
    destruct (f_from_server (fst (gat n))) as [|x rest] eqn:E; [|apply request_progress; rewrite E; discriminate].
    (* nothing is outstanding, so a loop() is queued; when it runs it finds a request
       outstanding again, or decides, or starts one *)
    assert (f_loops (fst (gat n)) > 0) as L.
    { destruct (inv_at n) as [_ W]. destruct (f_loops (fst (gat n))) eqn:L; [|lia].
      destruct (W R L) as [X|X]; [congruence|contradiction]. }
    destruct (Hloops n L) as (m & Hle & ns & Em).
    assert (exists m', m <= m' /\ (f_running (fst (gat m')) = false \/ mu w (gat m') < mu w (gat m))) as (m' & Hle' & X).
    { destruct (f_running (fst (gat m))) eqn:Rm; [|exists m; auto].
      destruct (f_from_server (fst (gat m))) as [|y rest'] eqn:Em2; [|apply request_progress; rewrite Em2; discriminate].
      exists (S m). split; [lia|]. cbn [gat]. rewrite Em. pose proof (Hvalid m) as Hv. rewrite Em in Hv.
      exact (gstep_loop_exhausted w (gat m) ns Hw (inv_at m) Hv Rm (no_more_mono n m Hle NM) Em2). }
    exists m'. split; [lia|]. pose proof (mu_mono n m Hle). destruct X; [now left|right; lia].
  Qed.

  (* once exhaustion was reported the fetcher stops: the measure cannot drop for ever *)
  Lemma stops_after n : f_no_more (fst (gat n)) = true -> exists m, f_running (fst (gat m)) = false.
  Proof.
    remember (mu w (gat n)) as M eqn:EM. revert n EM. induction M as [M IH] using lt_wf_ind. intros n EM NM.
    destruct (f_running (fst (gat n))) eqn:R; [|now exists n].
    destruct (progress n NM R) as (m & Hle & [St|L]); [now exists m|].
    apply (IH (mu w (gat m))) with (n := m); [lia|reflexivity|exact (no_more_mono n m Hle NM)].
  Qed.

  Lemma stop_output n : f_running (fst (gat n)) = false -> exists o, In o (outs_upto n) /\ is_final o.
  Proof.
    induction n as [|n IH]; cbn [gat outs_upto]; [cbn; discriminate|]. intros R'.
    destruct (f_running (fst (gat n))) eqn:R.
    - rewrite gstep_fst in R'. destruct (fstep_stop_output _ _ R R') as (x & Hx & Fx).
      exists x. split; [apply in_or_app; right; now rewrite gstep_snd|exact Fx].
    - destruct (IH eq_refl) as (x & Hx & Fx). exists x. split; [apply in_or_app; now left|exact Fx].
  Qed.

  Lemma outs_step n o : In o (outs_upto n) -> exists j, j < n /\ In o (snd (gstep (gat j) (r j))).
  Proof.
    induction n as [|n IH]; cbn [outs_upto]; [intros []|]. intros H. apply in_app_or in H. destruct H as [H|H].
    - destruct (IH H) as (j & Hj & Hin). exists j. split; [lia|exact Hin].
    - exists n. split; [lia|exact H].
  Qed.

  Lemma gat_k n : f_k (fst (gat n)) = k.
  Proof.
    induction n as [|n IH]; cbn [gat]; [reflexivity|]. now rewrite gstep_fst, fstep_k.
  Qed.

  Lemma terminates_from n :
    f_no_more (fst (gat n)) = true \/ f_running (fst (gat n)) = false ->
    exists m o, In o (outs_upto m) /\ is_final o /\ f_running (fst (gat m)) = false.
  Proof.
    intros H. assert (exists m, f_running (fst (gat m)) = false) as (m & R).
    { destruct H as [NM|St]; [exact (stops_after n NM)|now exists n]. }
    destruct (stop_output m R) as (o & Ho & Fo). exists m, o. auto.
  Qed.

  Hypothesis Hfinder : fair_finder.

  Theorem fair_run_terminates :
    exists n o, In o (outs_upto n) /\ is_final o /\ f_running (fst (gat n)) = false.
  Proof. destruct Hfinder as (n & NM). exact (terminates_from n (or_introl NM)). Qed.

  Theorem fair_run_available :
    k <= good_distinct w -> exists n bl, In (OProcessBlocks bl) (outs_upto n).
  Proof.
    intros Hk. destruct fair_run_terminates as (n & o & Ho & Fo & _).
    destruct o as [sh| |bl|e]; try destruct Fo.
    - exists n, bl. exact Ho.
    - exfalso. destruct (outs_step n _ Ho) as (j & _ & Hin).
      assert (e <> BadSegmentNumberError) as Hne by (intros ->; exact (gstep_no_badseg w _ _ (Hvalid j) Hin)).
      pose proof (gstep_error_few_good w (gat j) (r j) e (inv_at j) Hin Hne) as H. rewrite gat_k in H. lia.
  Qed.
End Fair.
