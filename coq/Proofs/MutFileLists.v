(* C09: list and arithmetic facts used by the mutable-file proofs:
   Python slices, division with a variable divisor, segments (chunks) of a byte string. *)
From Coq Require Import List Arith NArith Bool Lia.
From Verif Require Import Lib.Hex Lib.ListFacts Model.MutFile.
Import ListNotations.

Lemma slice_length a b (s : bytes) : length (slice a b s) = Nat.min (b - a) (length s - a).
Proof. unfold slice. rewrite firstn_length, skipn_length. reflexivity. Qed.

Lemma slice_nil a b (s : bytes) : b <= a -> slice a b s = [].
Proof. intros H. unfold slice. replace (b - a) with 0 by lia. reflexivity. Qed.

Lemma slice_past a b (s : bytes) : length s <= a -> slice a b s = [].
Proof. intros H. unfold slice. rewrite skipn_all2 by lia. apply firstn_nil. Qed.

Lemma slice_0 b (s : bytes) : slice 0 b s = firstn b s.
Proof. unfold slice. rewrite Nat.sub_0_r. reflexivity. Qed.

Lemma slice_to_end a b (s : bytes) : length s <= b -> slice a b s = skipn a s.
Proof. intros H. unfold slice. apply firstn_all2. rewrite skipn_length. lia. Qed.

Lemma slice_full (s : bytes) : slice 0 (length s) s = s.
Proof. rewrite slice_0. apply firstn_all. Qed.

Lemma slice_clip a b (s : bytes) : slice a (Nat.min b (length s)) s = slice a b s.
Proof.
  unfold slice. destruct (Nat.le_ge_cases b (length s)).
  - rewrite Nat.min_l by lia. reflexivity.
  - rewrite Nat.min_r by lia. rewrite !firstn_all2; try reflexivity; rewrite skipn_length; lia.
Qed.

Lemma slice_add a n (s : bytes) : slice a (a + n) s = firstn n (skipn a s).
Proof. unfold slice. f_equal. lia. Qed.

Lemma slice_exact a b (s : bytes) : slice a (a + length (slice a b s)) s = slice a b s.
Proof.
  rewrite slice_add, slice_length, <- (skipn_length a s), <- firstn_firstn, firstn_all. reflexivity.
Qed.

Lemma slice_app a b (x y : bytes) :
  slice a b (x ++ y) = slice a b x ++ slice (a - length x) (b - length x) y.
Proof.
  unfold slice. rewrite skipn_app, firstn_app. f_equal. rewrite skipn_length.
  f_equal. lia.
Qed.

Lemma slice_firstn a b n (s : bytes) : slice a b (firstn n s) = slice a (Nat.min b n) s.
Proof.
  unfold slice. rewrite skipn_firstn_comm. rewrite firstn_firstn. f_equal. lia.
Qed.

Lemma slice_skipn a b n (s : bytes) : slice a b (skipn n s) = slice (n + a) (n + b) s.
Proof. unfold slice. rewrite skipn_add. f_equal. lia. Qed.

Lemma slice_slice a b c d (s : bytes) : slice a b (slice c d s) = slice (c + a) (Nat.min (c + b) d) s.
Proof.
  unfold slice at 2. rewrite slice_firstn, slice_skipn.
  unfold slice. f_equal. lia.
Qed.

Lemma slice_adj a b c (s : bytes) : a <= b -> b <= c -> slice a b s ++ slice b c s = slice a c s.
Proof.
  intros H1 H2. unfold slice.
  replace (c - a) with ((b - a) + (c - b)) by lia.
  rewrite firstn_add. rewrite skipn_add. replace (a + (b - a)) with b by lia. reflexivity.
Qed.

Lemma firstn_slice n a b (s : bytes) : firstn n (slice a b s) = slice a (Nat.min (a + n) b) s.
Proof. unfold slice. rewrite firstn_firstn. f_equal. lia. Qed.

Lemma skipn_slice n a b (s : bytes) : skipn n (slice a b s) = slice (a + n) b s.
Proof.
  unfold slice. rewrite skipn_firstn_comm, skipn_add. f_equal. lia.
Qed.

Lemma nth_slice i a b (s : bytes) d : i < b - a -> nth i (slice a b s) d = nth (a + i) s d.
Proof.
  intros H. unfold slice. rewrite nth_firstn_lt by exact H. rewrite nth_skipn. reflexivity.
Qed.

Lemma splice_length old data off : off <= length old ->
  length (splice old data off) = Nat.max (length old) (off + length data).
Proof.
  intros H. unfold splice. rewrite !app_length, firstn_length, skipn_length. lia.
Qed.

Lemma splice_grows old data off : off <= length old ->
  length old < length (splice old data off) <-> length old < off + length data.
Proof. intros H. rewrite splice_length by exact H. lia. Qed.

Lemma splice_nth old data off i : off <= length old ->
  nth i (splice old data off) 0%N = spec_update_byte old data off i.
Proof.
  intros H. unfold splice, spec_update_byte.
  destruct (Nat.ltb_spec i off) as [Hlt|Hge].
  - rewrite app_nth1 by (rewrite firstn_length; lia).
    rewrite nth_firstn_lt by lia.
    replace (off <=? i) with false by (symmetry; apply Nat.leb_gt; lia). reflexivity.
  - rewrite app_nth2 by (rewrite firstn_length; lia). rewrite firstn_length, Nat.min_l by lia.
    replace (off <=? i) with true by (symmetry; apply Nat.leb_le; lia). cbn [andb].
    destruct (Nat.ltb_spec i (off + length data)) as [H2|H2].
    + rewrite app_nth1 by lia. reflexivity.
    + rewrite app_nth2 by lia. rewrite nth_skipn. f_equal. lia.
Qed.

Lemma divmod_eq a d : d <> 0 -> a = d * (a / d) + a mod d /\ a mod d < d.
Proof. intros H. split; [apply Nat.div_mod; exact H | apply Nat.mod_upper_bound; exact H]. Qed.

(* a lies in segment a / d *)
Lemma div_bounds a d : d <> 0 -> a / d * d <= a < (a / d + 1) * d.
Proof. intros H. destruct (divmod_eq a d H). lia. Qed.

Lemma div_uniq a d q r : a = d * q + r -> r < d -> a / d = q /\ a mod d = r.
Proof.
  intros H1 H2. split.
  - symmetry. apply (Nat.div_unique a d q r); assumption.
  - symmetry. apply (Nat.mod_unique a d q r); assumption.
Qed.

Lemma div_ceil_0 d : d <> 0 -> div_ceil 0 d = 0.
Proof. intros H. unfold div_ceil. rewrite Nat.div_0_l, Nat.mod_0_l by exact H. reflexivity. Qed.

(* div_ceil n d is the least c with n <= c * d *)
Lemma div_ceil_le_iff n d c : d <> 0 -> div_ceil n d <= c <-> n <= c * d.
Proof.
  intros H. unfold div_ceil. destruct (divmod_eq n d H) as [H1 H2].
  destruct (Nat.eqb_spec (n mod d) 0); split; nia.
Qed.

Lemma div_ceil_lt_iff n d c : d <> 0 -> c < div_ceil n d <-> c * d < n.
Proof. intros H. pose proof (div_ceil_le_iff n d c H). lia. Qed.

Lemma div_ceil_le_mono a b d : d <> 0 -> a <= b -> div_ceil a d <= div_ceil b d.
Proof.
  intros H Hab. apply div_ceil_le_iff; [exact H|].
  pose proof (proj1 (div_ceil_le_iff b d _ H) (le_n _)). lia.
Qed.

Lemma div_ceil_qr n d q r : n = d * q + r -> 0 < r -> r <= d -> div_ceil n d = q + 1.
Proof.
  intros H1 H2 H3. rewrite Nat.add_1_r.
  apply Nat.le_antisymm; [apply div_ceil_le_iff|apply div_ceil_lt_iff]; lia.
Qed.

Lemma div_ceil_mul d q : d <> 0 -> div_ceil (d * q) d = q.
Proof.
  intros H. destruct q; [rewrite Nat.mul_0_r; apply div_ceil_0; exact H|].
  rewrite (div_ceil_qr _ d q d); lia.
Qed.

Lemma div_ceil_pos n d : d <> 0 -> 0 < n -> 0 < div_ceil n d.
Proof. intros Hd Hn. apply div_ceil_lt_iff; assumption. Qed.

Lemma div_ceil_bounds n d : d <> 0 -> 0 < n -> (div_ceil n d - 1) * d < n /\ n <= div_ceil n d * d.
Proof.
  intros Hd Hn. pose proof (div_ceil_pos n d Hd Hn). split.
  - apply div_ceil_lt_iff; [exact Hd|lia].
  - apply div_ceil_le_iff; [exact Hd|apply le_n].
Qed.

Lemma next_multiple_pos n k : 0 < k -> 0 < n -> 0 < next_multiple n k.
Proof.
  intros Hk Hn. unfold next_multiple.
  assert (0 < div_ceil n k) by (apply div_ceil_pos; lia). nia.
Qed.

Lemma next_multiple_ge n k : 0 < k -> n <= next_multiple n k.
Proof.
  intros Hk. unfold next_multiple. destruct n.
  - lia.
  - destruct (div_ceil_bounds (S n) k) as [_ B]; lia.
Qed.

Lemma next_multiple_lt n k : 0 < k -> next_multiple n k < n + k.
Proof.
  intros Hk. unfold next_multiple. destruct n.
  - rewrite div_ceil_0 by lia. lia.
  - destruct (div_ceil_bounds (S n) k) as [B _]; [lia|lia|].
    assert (0 < div_ceil (S n) k) by (apply div_ceil_pos; lia).
    replace (div_ceil (S n) k * k) with ((div_ceil (S n) k - 1) * k + k) by nia. lia.
Qed.

Lemma chunks_n_length n seg d : length (chunks_n n seg d) = n.
Proof. revert d. induction n; intros d; cbn; [reflexivity|]. rewrite IHn. reflexivity. Qed.

Lemma chunks_n_nth n seg (d : bytes) i : i < n ->
  nth i (chunks_n n seg d) [] = slice (i * seg) (i * seg + seg) d.
Proof.
  revert d i. induction n; intros d i H; [lia|]. cbn [chunks_n]. destruct i.
  - cbn [nth]. rewrite Nat.mul_0_l, Nat.add_0_l. rewrite slice_0. reflexivity.
  - cbn [nth]. rewrite IHn by lia. rewrite slice_skipn. f_equal; lia.
Qed.

Lemma chunks_n_app n m seg (d : bytes) :
  chunks_n (n + m) seg d = chunks_n n seg d ++ chunks_n m seg (skipn (n * seg) d).
Proof.
  revert d. induction n; intros d; cbn [chunks_n Nat.add app].
  - rewrite Nat.mul_0_l. reflexivity.
  - rewrite IHn. rewrite skipn_add. replace (seg + n * seg) with (S n * seg) by lia. reflexivity.
Qed.

Lemma firstn_chunks_n a n seg (d : bytes) : a <= n -> firstn a (chunks_n n seg d) = chunks_n a seg d.
Proof.
  intros H. replace n with (a + (n - a)) by lia. rewrite chunks_n_app.
  apply firstn_app_exact, chunks_n_length.
Qed.

Lemma skipn_chunks_n a n seg (d : bytes) :
  skipn a (chunks_n n seg d) = chunks_n (n - a) seg (skipn (a * seg) d).
Proof.
  destruct (Nat.le_gt_cases a n).
  - replace n with (a + (n - a)) at 1 by lia. rewrite chunks_n_app.
    apply skipn_app_exact, chunks_n_length.
  - replace (n - a) with 0 by lia. apply skipn_all2. rewrite chunks_n_length. lia.
Qed.

Lemma chunks_n_firstn n seg (d : bytes) m : n * seg <= m ->
  chunks_n n seg (firstn m d) = chunks_n n seg d.
Proof.
  revert d m. induction n; intros d m H; cbn [chunks_n]; [reflexivity|].
  rewrite firstn_firstn. replace (Nat.min seg m) with seg by lia.
  rewrite skipn_firstn_comm. rewrite IHn by lia. reflexivity.
Qed.

Lemma concat_chunks_n n seg (d : bytes) : concat (chunks_n n seg d) = firstn (n * seg) d.
Proof.
  revert d. induction n; intros d; cbn [chunks_n concat].
  - reflexivity.
  - rewrite IHn. replace (S n * seg) with (seg + n * seg) by lia.
    rewrite <- (firstn_skipn seg d) at 3.
    rewrite firstn_app.
    destruct (Nat.le_ge_cases seg (length d)).
    + rewrite firstn_length, Nat.min_l by lia.
      rewrite (firstn_all2 (n := seg + n * seg)) by (rewrite firstn_length; lia).
      f_equal. f_equal. lia.
    + rewrite skipn_all2 by lia. rewrite !firstn_nil, !app_nil_r.
      rewrite firstn_firstn. f_equal. lia.
Qed.

Lemma chunks_length seg d : seg <> 0 -> length (chunks seg d) = div_ceil (length d) seg.
Proof.
  intros H. unfold chunks. destruct (seg =? 0) eqn:E; [apply Nat.eqb_eq in E; lia|].
  apply chunks_n_length.
Qed.

Lemma chunks_nth seg (d : bytes) i : seg <> 0 -> i < div_ceil (length d) seg ->
  nth i (chunks seg d) [] = slice (i * seg) (i * seg + seg) d.
Proof.
  intros H Hi. unfold chunks. destruct (seg =? 0) eqn:E; [apply Nat.eqb_eq in E; lia|].
  apply chunks_n_nth. exact Hi.
Qed.

Lemma concat_chunks seg (d : bytes) : seg <> 0 -> concat (chunks seg d) = d.
Proof.
  intros H. unfold chunks. destruct (seg =? 0) eqn:E; [apply Nat.eqb_eq in E; lia|].
  rewrite concat_chunks_n. apply firstn_all2.
  destruct (length d) eqn:L; [lia|].
  destruct (div_ceil_bounds (S n) seg) as [_ B]; lia.
Qed.

Lemma chunk_len seg (d : bytes) i : seg <> 0 -> i < div_ceil (length d) seg ->
  length (slice (i * seg) (i * seg + seg) d) =
  if S i =? div_ceil (length d) seg then length d - i * seg else seg.
Proof.
  intros H Hi. rewrite slice_length.
  assert (Hn : 0 < length d) by (destruct (length d); [rewrite div_ceil_0 in Hi by exact H; lia|lia]).
  destruct (div_ceil_bounds (length d) seg H Hn) as [B1 B2].
  destruct (S i =? div_ceil (length d) seg) eqn:E.
  - apply Nat.eqb_eq in E. rewrite <- E in B1, B2. cbn [Nat.sub] in B1. rewrite Nat.sub_0_r in B1. nia.
  - apply Nat.eqb_neq in E.
    assert (S i * seg <= (div_ceil (length d) seg - 1) * seg) by (apply Nat.mul_le_mono_r; lia). nia.
Qed.
