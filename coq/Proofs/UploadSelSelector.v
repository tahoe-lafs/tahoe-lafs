(* C06: the selector.  Every edge of existing_shares comes from a get_buckets answer of the script, every
   bucket from an allocate_buckets answer; the verdict of the selector is the happiness test on the merged map. *)
From Coq Require Import List NArith ZArith Bool.
From Verif Require Import Model.Matching Proofs.Matching Model.UploadSel Proofs.UploadSelBase.
Import ListNotations.
Local Open Scope N_scope.

Definition found (x : script) (p s : N) : Prop :=
  exists shares, In (p, ExOk shares) (x_existing x) /\ In s shares.
Definition allocated (x : script) (p s : N) : Prop :=
  exists r got alloc, In r (x_rounds x) /\ In (p, AlOk got alloc) (r_resps r) /\ In s alloc.

Lemma mark_bad_peer_keeps : forall p st,
  s_existing (mark_bad_peer p st) = s_existing st /\ s_buckets (mark_bad_peer p st) = s_buckets st /\
  s_use (mark_bad_peer p st) = s_use st.
Proof.
  intros p st. unfold mark_bad_peer. destruct (memN p (s_peers st)); [cbn; auto|].
  destruct (memN p (s_ro_peers st)); cbn; auto.
Qed.

Lemma make_readonly_keeps : forall p st,
  s_existing (make_readonly p st) = s_existing st /\ s_buckets (make_readonly p st) = s_buckets st /\
  s_use (make_readonly p st) = s_use st.
Proof. intros p st. cbn. auto. Qed.

Lemma mark_readonly_peer_keeps : forall p st,
  s_existing (mark_readonly_peer p st) = s_existing st /\ s_buckets (mark_readonly_peer p st) = s_buckets st /\
  s_use (mark_readonly_peer p st) = s_use st.
Proof. intros p st. cbn. auto. Qed.

Lemma existing_fields : forall (ro : bool) p r st,
  let st' := if ro then existing_ro p r st else existing_rw p r st in
  s_existing st' = match r with ExOk shares => dm_add_all p shares (s_existing st) | ExErr => s_existing st end /\
  s_buckets st' = s_buckets st /\ s_use st' = s_use st.
Proof.
  intros ro p r st st'. subst st'. destruct ro, r as [shares|]; cbn [existing_ro existing_rw]; try (cbn; auto; fail).
  - apply mark_bad_peer_keeps.
  - destruct (mark_bad_peer_keeps p (make_readonly p st)) as (E & B & U). rewrite E, B, U. cbn. auto.
Qed.

Lemma phase1_keeps : forall c resps pending st st' pending',
  phase1 c resps pending st = (st', pending') -> s_use st' = s_use st /\ s_buckets st' = s_buckets st.
Proof.
  intros c resps. induction resps as [|[p r] rest IH]; intros pending st st' pending' E; cbn [phase1] in E.
  - injection E as <- <-. auto.
  - destruct (memN p pending); [|eapply IH; exact E]. apply IH in E. destruct E as [Eu Eb].
    destruct (existing_fields (memN p (c_ro c)) p r st) as (_ & B & U). split; congruence.
Qed.

Lemma send_queries_keeps : forall plan ts st sent st' sent',
  send_queries plan ts st sent = (st', sent') ->
  s_existing st' = s_existing st /\ s_buckets st' = s_buckets st /\ s_use st' = s_use st.
Proof.
  intros plan ts. induction ts as [|p ts IH]; intros st sent st' sent' E; cbn [send_queries] in E.
  - inversion E; subst. auto.
  - match type of E with context [if ?b then _ else _] => destruct b end;
      apply IH in E; cbn in E; exact E.
Qed.

(* one allocate_buckets answer, as handle_allocs applies it; an error is an answer that allocates nothing *)
Definition allocs (r : al_resp) : list N := match r with AlOk _ alloc => alloc | AlErr => [] end.
Definition alloc_answer (p : N) (ask : list N) (r : al_resp) (st : sel) : sel :=
  match r with AlErr => alloc_error p ask st | AlOk got alloc => alloc_ok p ask got alloc st end.

Lemma alloc_answer_fields : forall p ask r st,
  s_existing (alloc_answer p ask r st) = s_existing st /\
  s_buckets (alloc_answer p ask r st) = dm_add_all p (allocs r) (s_buckets st) /\
  s_use (alloc_answer p ask r st) = (if is_nil (allocs r) then s_use st else set_add p (s_use st)).
Proof.
  intros p ask [got alloc|] st; cbn [alloc_answer allocs]; [|cbn; auto]. unfold alloc_ok.
  destruct (fold_left (got_step p ask) got (s_preexisting st, s_homeless st, false)) as [[pre hl] prog0].
  destruct (prog0 || negb (is_nil alloc)); cbn; auto.
Qed.

Lemma do_round_Some : forall c r st st' sent,
  do_round c r st = Some (st', sent) ->
  exists st1, send_queries (r_plan r) (trackers c) st [] = (st1, sent) /\ handle_allocs (r_resps r) sent st1 = (st', []).
Proof.
  intros c r st st' sent E. unfold do_round in E.
  destruct (send_queries (r_plan r) (trackers c) st []) as [st1 sent1].
  destruct (handle_allocs (r_resps r) sent1 st1) as [st2 pending] eqn:E2.
  destruct (is_nil pending) eqn:NP; [|discriminate]. apply is_nil_true in NP. subst pending. injection E as <- <-. eauto.
Qed.

Section SelectorInvariant.
  Variable F : N -> N -> Prop.      (* server p reported share s in answer to get_buckets *)
  Variable A : N -> N -> Prop.      (* server p allocated a bucket for share s *)

  Definition sel_inv (st : sel) : Prop :=
    (forall p s, dm_in (s_existing st) p s -> F p s) /\
    (forall p s, dm_in (s_buckets st) p s -> A p s).

  Lemma sel_inv_ext : forall st st',
    s_existing st' = s_existing st -> s_buckets st' = s_buckets st -> sel_inv st -> sel_inv st'.
  Proof. intros st st' E B [H1 H2]. split; [rewrite E; exact H1|rewrite B; exact H2]. Qed.

  Lemma sel_inv_init : forall c, sel_inv (sel_init c).
  Proof. intros c. split; intros p s H; cbn in H; exfalso; exact (dm_in_nil _ _ H). Qed.

  Lemma phase1_inv : forall c resps pending st st' pending',
    (forall p shares s, In (p, ExOk shares) resps -> In s shares -> F p s) ->
    sel_inv st -> phase1 c resps pending st = (st', pending') -> sel_inv st'.
  Proof.
    intros c resps. induction resps as [|[p r] rest IH]; intros pending st st' pending' Hr Hi E; cbn [phase1] in E.
    - injection E as <- <-. exact Hi.
    - assert (Hrest : forall q shares s, In (q, ExOk shares) rest -> In s shares -> F q s)
        by (intros q shares s H; apply (Hr q shares s); right; exact H).
      destruct (memN p pending); [|eapply IH; eassumption]. eapply IH; [exact Hrest| |exact E].
      destruct (existing_fields (memN p (c_ro c)) p r st) as (Ee & Eb & _). destruct Hi as [H1 H2].
      split; [rewrite Ee|rewrite Eb; exact H2]. destruct r as [shares|]; [|exact H1]. intros q s H.
      destruct (dm_in_add_all _ _ _ _ _ H) as [[-> Hs]|H']; [apply (Hr p shares s); [left; reflexivity|exact Hs]|apply H1; exact H'].
  Qed.

  Lemma alloc_answer_inv : forall p ask r st,
    (forall s, In s (allocs r) -> A p s) -> sel_inv st -> sel_inv (alloc_answer p ask r st).
  Proof.
    intros p ask r st Ha [H1 H2]. destruct (alloc_answer_fields p ask r st) as [E [B _]].
    split; [rewrite E; exact H1|rewrite B]. intros q s H.
    destruct (dm_in_add_all _ _ _ _ _ H) as [[-> Hs]|H']; [apply Ha; exact Hs|apply H2; exact H'].
  Qed.

  Lemma handle_allocs_inv : forall resps pending st st' pending',
    (forall p got alloc s, In (p, AlOk got alloc) resps -> In s alloc -> A p s) ->
    sel_inv st -> handle_allocs resps pending st = (st', pending') -> sel_inv st'.
  Proof.
    induction resps as [|[p r] rest IH]; intros pending st st' pending' Hr Hi E; cbn [handle_allocs] in E.
    - inversion E; subst. exact Hi.
    - assert (Hrest : forall q got alloc s, In (q, AlOk got alloc) rest -> In s alloc -> A q s)
        by (intros q got alloc s H; apply (Hr q got alloc s); right; exact H).
      destruct (lookup_ask p pending) as [ask|]; [|eapply IH; eassumption].
      eapply IH; [exact Hrest| |exact E]. apply (alloc_answer_inv p ask r st); [|exact Hi].
      intros s Hs. destruct r as [got alloc|]; [|destruct Hs]. apply (Hr p got alloc s); [left; reflexivity|exact Hs].
  Qed.

  Lemma do_round_inv : forall c r st st' sent,
    (forall p got alloc s, In (p, AlOk got alloc) (r_resps r) -> In s alloc -> A p s) ->
    sel_inv st -> do_round c r st = Some (st', sent) -> sel_inv st'.
  Proof.
    intros c r st st' sent Hr Hi E. destruct (do_round_Some _ _ _ _ _ E) as (st1 & E1 & E2).
    eapply handle_allocs_inv; [exact Hr| |exact E2].
    destruct (send_queries_keeps _ _ _ _ _ _ E1) as [Ee [Eb _]]. eapply sel_inv_ext; eauto.
  Qed.

  Lemma sel_loop_inv : forall c rounds last st qs st' qs',
    (forall r p got alloc s, In r rounds -> In (p, AlOk got alloc) (r_resps r) -> In s alloc -> A p s) ->
    sel_inv st -> sel_loop c rounds last st qs = Some (st', qs') -> sel_inv st'.
  Proof.
    intros c rounds. induction rounds as [|r rest IH]; intros last st qs st' qs' Hr Hi E; cbn [sel_loop] in E; [discriminate|].
    destruct (do_round c r st) as [[st1 sent]|] eqn:E1; [|discriminate].
    assert (H1 : sel_inv st1).
    { eapply do_round_inv; [|exact Hi|exact E1]. intros p got alloc s. apply Hr. left; reflexivity. }
    destruct (happiness st1) as [eff|]; [|discriminate].
    destruct (match last with Some l => Z.eqb eff l | None => false end); [inversion E; subst; exact H1|].
    destruct (N.eqb (s_bad st) (s_bad st1)); [inversion E; subst; exact H1|].
    destruct (Z.ltb eff (c_happy c) && negb (is_nil (s_wtrackers st1))); [|inversion E; subst; exact H1].
    eapply IH; [|exact H1|exact E]. intros r' p got alloc s Hin. apply Hr. right; exact Hin.
  Qed.
End SelectorInvariant.

(* the selector came to an end: every get_buckets answer arrived and the allocation loop returned *)
Definition selector_ends (c : config) (x : script) (st : sel) (qs : list (list (N * list N))) : Prop :=
  exists st1, phase1 c (x_existing x) (trackers c) (sel_init c) = (st1, []) /\
              sel_loop c (x_rounds x) None st1 [] = Some (st, qs).

Lemma selector_state_sound : forall c x st qs, selector_ends c x st qs -> sel_inv (found x) (allocated x) st.
Proof.
  intros c x st qs (st1 & E1 & E2).
  eapply sel_loop_inv; [| |exact E2].
  - intros r p got alloc s Hr Hp Hs. exists r, got, alloc. auto.
  - eapply phase1_inv; [|apply sel_inv_init|exact E1].
    intros p shares s Hp Hs. exists shares. auto.
Qed.

Lemma merged_sound : forall F A st s p,
  sel_inv F A st -> dm_in (merged st) s p -> F p s \/ (In (p, s) (sel_buckets st) /\ A p s).
Proof.
  intros F A st s p [H1 H2] H. destruct (dm_in_merged _ _ _ H) as [H'|Hb].
  - left. apply H1, dm_in_transpose. exact H'.
  - right. split; [exact Hb|]. apply In_sel_buckets in Hb. apply H2, dm_get_in. tauto.
Qed.
