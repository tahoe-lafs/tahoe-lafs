(* Proofs about Model/GridManager.v (C33). *)
From Coq Require Import List NArith ZArith Bool Lia.
From Verif Require Import Lib.Sig Model.GridManager.
Import ListNotations.
Local Open Scope Z_scope.

Section Proofs.
  Variables pubkey msg sig : Type.
  Variable verify : pubkey -> msg -> sig -> bool.
  Variable spk : Type.
  Variable spk_eqb : spk -> spk -> bool.
  Variable decode : msg -> option (cert_json spk).

  Notation scert := (signed_cert msg sig).
  Notation vgc := (validate_grid_manager_certificate pubkey msg sig verify spk decode).
  Notation ckeys := (collect_keys pubkey msg sig verify spk decode).
  Notation coll := (collect pubkey msg sig verify spk decode).
  Notation perm := (permitted verify spk_eqb decode).
  Notation grants := (cert_grants verify spk_eqb decode).
  Notation wf := (certs_wellformed verify decode).
  Notation entry := (entry_of spk).

  Lemma vgc_cert : forall k (c : scert) j,
    vgc k c = VCert spk j <-> verify k (sc_cert c) (sc_sig c) = true /\ decode (sc_cert c) = Some j.
  Proof.
    intros k c j. unfold validate_grid_manager_certificate.
    destruct (verify k (sc_cert c) (sc_sig c)), (decode (sc_cert c)); intuition congruence.
  Qed.

  Lemma vgc_raise : forall k (c : scert),
    vgc k c = VRaise spk <-> verify k (sc_cert c) (sc_sig c) = true /\ decode (sc_cert c) = None.
  Proof.
    intros k c. unfold validate_grid_manager_certificate.
    destruct (verify k (sc_cert c) (sc_sig c)), (decode (sc_cert c)); intuition congruence.
  Qed.

  Lemma collect_keys_none : forall keys (c : scert),
    ckeys keys c = None <-> exists k, In k keys /\ vgc k c = VRaise spk.
  Proof.
    intros keys c. rewrite <- Exists_exists. induction keys as [|k ks IH]; cbn [collect_keys].
    - rewrite Exists_nil. split; [discriminate|tauto].
    - rewrite Exists_cons, <- IH.
      destruct (vgc k c); [| |destruct (ckeys ks c)]; intuition discriminate.
  Qed.

  Lemma collect_keys_in : forall keys (c : scert) l e,
    ckeys keys c = Some l ->
    (In e l <-> exists k, In k keys /\ exists j, vgc k c = VCert spk j /\ entry j = Some e).
  Proof.
    intros keys c l e. rewrite <- Exists_exists. revert l.
    induction keys as [|k ks IH]; cbn [collect_keys]; intros l H.
    - injection H as <-. rewrite Exists_nil. reflexivity.
    - rewrite Exists_cons. destruct (vgc k c) as [| |j0]; [|discriminate|].
      + rewrite <- (IH l H). split; [auto|]. intros [(j & Q & _)|I]; [discriminate|exact I].
      + destruct (ckeys ks c) as [r|]; [|discriminate]. injection H as <-. rewrite <- (IH r eq_refl).
        (* what the head key contributes *)
        assert (Hd : (exists j, VCert spk j0 = VCert spk j /\ entry j = Some e) <-> entry j0 = Some e).
        { split; [intros (j & [= <-] & E); exact E|intros E; exists j0; auto]. }
        rewrite Hd. destruct (entry j0) as [e0|]; cbn [In]; [|intuition discriminate].
        split; (intros [Q|I]; [left; congruence|right; exact I]).
  Qed.

  Lemma collect_none : forall keys certs,
    coll keys certs = None <-> exists c, In c certs /\ exists k, In k keys /\ vgc k c = VRaise spk.
  Proof.
    intros keys certs. rewrite <- Exists_exists. induction certs as [|c cs IH]; cbn [collect].
    - rewrite Exists_nil. split; [discriminate|tauto].
    - rewrite Exists_cons, <- IH, <- collect_keys_none.
      destruct (ckeys keys c); [destruct (coll keys cs)|]; intuition discriminate.
  Qed.

  (* valid_certs: one entry for every (certificate, key) pair that verifies and decodes to something but null *)
  Lemma collect_in : forall keys certs l e,
    coll keys certs = Some l ->
    (In e l <-> exists c, In c certs /\ exists k, In k keys /\ exists j, vgc k c = VCert spk j /\ entry j = Some e).
  Proof.
    intros keys certs l e. rewrite <- Exists_exists. revert l.
    induction certs as [|c cs IH]; cbn [collect]; intros l H.
    - injection H as <-. rewrite Exists_nil. reflexivity.
    - destruct (ckeys keys c) as [a|] eqn:A; [|discriminate]. destruct (coll keys cs) as [b|]; [|discriminate].
      injection H as <-. rewrite in_app_iff, Exists_cons, (IH b eq_refl), (collect_keys_in _ _ _ e A). reflexivity.
  Qed.

  (* an entry of valid_certs on which `validate` returns True *)
  Definition entry_grants (pk : spk) (now : Z) (j : option (cert_fields spk)) : Prop :=
    exists f e, j = Some f /\ spk_eqb (cf_pk f) pk = true /\ cf_exp f = ExpAware e /\ now < e.

  Lemma validate_permit_sound : forall valid pk now,
    validate spk_eqb valid pk now = Permit -> Exists (entry_grants pk now) valid.
  Proof.
    induction valid as [|[f|] r IH]; intros pk now; cbn [validate]; try discriminate.
    destruct (spk_eqb (cf_pk f) pk) eqn:E; [|right; auto]. destruct (cf_exp f) as [e|] eqn:X; [|discriminate].
    destruct (now <? e) eqn:L; [|right; auto]. apply Z.ltb_lt in L. left. exists f, e. auto.
  Qed.

  (* an entry as _GridManager.sign produces it: readable, with a zone-aware expiry *)
  Definition aware (j : option (cert_fields spk)) : Prop := exists f e, j = Some f /\ cf_exp f = ExpAware e.

  Lemma validate_aware : forall valid pk now,
    Forall aware valid ->
    validate spk_eqb valid pk now <> Raise /\
    (Exists (entry_grants pk now) valid -> validate spk_eqb valid pk now = Permit).
  Proof.
    intros valid pk now. induction 1 as [|j r (f0 & e0 & -> & X) _ [NR C]]; cbn [validate].
    - split; [discriminate|]. intros G. inversion G.
    - rewrite X. destruct (spk_eqb (cf_pk f0) pk) eqn:E0; [destruct (now <? e0) eqn:L|].
      + split; [discriminate|reflexivity].
      + split; [exact NR|]. intros [(f & e & [= <-] & _ & X' & L')|G]%Exists_cons; [|exact (C G)].
        rewrite X in X'. injection X' as <-. apply Z.ltb_ge in L. lia.
      + split; [exact NR|]. intros [(f & e & [= <-] & E & _)|G]%Exists_cons; [congruence|exact (C G)].
  Qed.

  Lemma collect_grants : forall keys certs l pk now,
    coll keys certs = Some l ->
    (Exists (entry_grants pk now) l <-> exists c k, In c certs /\ In k keys /\ grants k c pk now).
  Proof.
    intros keys certs l pk now C. rewrite Exists_exists. split.
    - intros (j & I & f & e & -> & G). apply (collect_in _ _ _ _ C) in I as (c & Ic & k & Ik & j & V & E).
      destruct j; try discriminate. injection E as ->. apply vgc_cert in V as [V D].
      exists c, k. split; [exact Ic|]. split; [exact Ik|]. split; [exact V|]. exists f, e. split; [exact D|exact G].
    - intros (c & k & Ic & Ik & V & f & e & D & G). exists (Some f). split; [|exists f, e; auto].
      apply (collect_in _ _ _ _ C). exists c. split; [exact Ic|]. exists k. split; [exact Ik|].
      exists (JFields f). split; [apply vgc_cert; auto|reflexivity].
  Qed.

  Lemma collect_wellformed : forall keys certs,
    wf keys certs -> exists l, coll keys certs = Some l /\ Forall aware l.
  Proof.
    intros keys certs W. destruct (coll keys certs) as [l|] eqn:C.
    - exists l. split; [reflexivity|]. apply Forall_forall. intros j I.
      apply (collect_in _ _ _ _ C) in I as (c & Ic & k & Ik & j0 & V & J). apply vgc_cert in V as [V D].
      destruct (W c k Ic Ik V) as (f & e & D' & X). exists f, e. split; [|exact X].
      rewrite D' in D. injection D as <-. cbn in J. congruence.
    - exfalso. apply collect_none in C as (c & Ic & k & Ik & R). apply vgc_raise in R as [V D].
      destruct (W c k Ic Ik V) as (f & e & D' & _). congruence.
  Qed.

  Lemma no_keys_all_permitted_ok : forall certs pk now,
    perm [] certs pk now = Permit /\ upload_permitted spk_eqb None pk now = Permit.
  Proof. split; reflexivity. Qed.

  Lemma permitted_nonempty : forall keys certs pk now,
    keys <> [] ->
    perm keys certs pk now = match coll keys certs with Some v => validate spk_eqb v pk now | None => Raise end.
  Proof.
    intros keys certs pk now NE. unfold permitted, create_grid_manager_verifier.
    destruct keys; [congruence|]. destruct (coll _ certs); reflexivity.
  Qed.

  Lemma permit_only_with_valid_certificate_ok : forall keys certs pk now,
    keys <> [] -> perm keys certs pk now = Permit ->
    exists c k, In c certs /\ In k keys /\ grants k c pk now.
  Proof.
    intros keys certs pk now NE H. rewrite (permitted_nonempty _ _ _ _ NE) in H.
    destruct (coll keys certs) as [v|] eqn:C; [|discriminate].
    apply (collect_grants _ _ _ _ _ C), validate_permit_sound, H.
  Qed.

  Lemma permitted_iff_ok : forall keys certs pk now,
    keys <> [] -> wf keys certs ->
    perm keys certs pk now <> Raise /\
    (perm keys certs pk now = Permit <->
     exists c k, In c certs /\ In k keys /\ grants k c pk now).
  Proof.
    intros keys certs pk now NE W. destruct (collect_wellformed _ _ W) as (v & C & A).
    destruct (validate_aware v pk now A) as [NR Cmp].
    rewrite (permitted_nonempty _ _ _ _ NE), C. split; [exact NR|].
    rewrite <- (collect_grants _ _ _ pk now C). split; [apply validate_permit_sound|exact Cmp].
  Qed.

  Lemma tampered_never_grants_ok : forall (signed : pubkey -> msg -> Prop) keys certs pk now,
    sig_sound verify signed ->
    keys <> [] ->
    (forall c k, In c certs -> In k keys -> ~ signed k (sc_cert c)) ->
    perm keys certs pk now <> Permit.
  Proof.
    intros signed keys certs pk now S NE U H.
    destruct (permit_only_with_valid_certificate_ok keys certs pk now NE H) as (c & k & Ic & Ik & V & _).
    exact (U c k Ic Ik (S k _ _ V)).
  Qed.

  Lemma invalid_never_grants_ok : forall keys certs pk now,
    keys <> [] ->
    (forall c k, In c certs -> In k keys ->
       verify k (sc_cert c) (sc_sig c) = false                                   (* wrong key / tampered *)
       \/ decode (sc_cert c) = None \/ decode (sc_cert c) = Some JNull
       \/ decode (sc_cert c) = Some JUnreadable                                   (* unreadable *)
       \/ (exists f, decode (sc_cert c) = Some (JFields f) /\
             (spk_eqb (cf_pk f) pk = false                                        (* other server *)
              \/ cf_exp f = ExpNaive
              \/ exists e, cf_exp f = ExpAware e /\ e <= now))) ->                (* expired, incl. now = e *)
    perm keys certs pk now <> Permit.
  Proof.
    intros keys certs pk now NE Hbad H.
    destruct (permit_only_with_valid_certificate_ok keys certs pk now NE H)
      as (c & k & Ic & Ik & V & f & e & D & E & X & L).
    destruct (Hbad c k Ic Ik) as [B|[B|[B|[B|(f' & D' & B)]]]]; try congruence.
    rewrite D in D'. injection D' as <-. destruct B as [B|[B|(e' & X' & L')]]; try congruence.
    rewrite X in X'. injection X' as <-. lia.
  Qed.

  Lemma gm_config_all_or_nothing : forall (entries : list (option pubkey)) keys,
    grid_manager_keys_from_config entries = Some keys -> entries = map Some keys.
  Proof.
    induction entries as [|[k|] r IH]; cbn; intros keys H; [injection H as <-; reflexivity| |discriminate].
    destruct (grid_manager_keys_from_config r) as [ks|]; [|discriminate].
    injection H as <-. rewrite (IH ks eq_refl). reflexivity.
  Qed.

  Lemma gm_config_unusable : forall entries : list (option pubkey),
    In None entries -> grid_manager_keys_from_config entries = None.
  Proof.
    intros entries I. destruct (grid_manager_keys_from_config entries) as [ks|] eqn:E; [|reflexivity].
    apply gm_config_all_or_nothing in E. subst entries. apply in_map_iff in I as (x & Q & _). discriminate.
  Qed.

  Lemma latest_snoc : forall (h : ann_history msg sig) id cs id',
    latest (h ++ [(id, cs)]) id' = if (id =? id')%N then Some cs else latest h id'.
  Proof.
    induction h as [|[i c] r IH]; intros id cs id'; cbn [app latest]; [reflexivity|].
    rewrite IH. destruct (id =? id')%N, (latest r id'); reflexivity.
  Qed.

  Lemma verifier_follows_latest_announcement_ok : forall keys (h : ann_history msg sig) id cs pk now,
    broker_permitted verify spk_eqb decode keys (h ++ [(id, cs)]) id pk now = Some (perm keys cs pk now) /\
    (forall id', id <> id' ->
       broker_permitted verify spk_eqb decode keys (h ++ [(id, cs)]) id' pk now
       = broker_permitted verify spk_eqb decode keys h id' pk now).
  Proof.
    intros keys h id cs pk now. unfold broker_permitted. split.
    - rewrite latest_snoc, N.eqb_refl. reflexivity.
    - intros id' NE. rewrite latest_snoc. destruct (N.eqb_spec id id'); [contradiction|reflexivity].
  Qed.
End Proofs.
