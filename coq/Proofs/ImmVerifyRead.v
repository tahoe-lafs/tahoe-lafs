(* The whole read, for a file produced by the real encoder parameters (Model/ImmFile.v):
   the planned segments (C01: read_plan, read_range_exact_ok) are served by the validating
   pipeline, so what reaches the consumer is a prefix of ciphertext[offset : offset+size],
   all of it when the read completes. *)
From Coq Require Import List ZArith NArith Bool.
From Verif Require Import Gen.ImmConsts Model.HashTree Model.ImmFile Model.ImmVerify
  Proofs.ImmFileArith Proofs.ImmFileRead Proofs.ImmFileData Proofs.ImmVerifyTree Proofs.ImmVerify.
Import ListNotations.
Local Open Scope N_scope.

Lemma nth_map_seq : forall A (g : nat -> A) n i d, (i < n)%nat -> nth i (map g (seq 0 n)) d = g i.
Proof.
  intros A g n i d Hi. rewrite (nth_indep _ d (g 0%nat)) by (rewrite map_length, seq_length; exact Hi).
  rewrite map_nth. rewrite seq_nth by exact Hi. reflexivity.
Qed.

Lemma encode_file_wf : forall (enc : N -> N -> list (list N) -> list (list N)) k n segsize ct,
  1 <= k -> 1 <= segsize -> segsize mod k = 0 -> ef_wf (encode_file enc k n segsize ct).
Proof.
  intros enc k n segsize ct Hk Hs Hm. constructor; cbn [encode_file ef_k ef_n ef_size ef_segsize ef_segs ef_blocks].
  - exact Hk.
  - exact Hs.
  - exact Hm.
  - rewrite encode_segments_length. reflexivity.
  - rewrite map_length. unfold nrange. rewrite map_length, seq_length. reflexivity.
Qed.

Lemma encode_file_segment : forall (enc : N -> N -> list (list N) -> list (list N)) k n segsize ct j,
  j < div_ceil (N.of_nat (length ct)) segsize ->
  gsegment (encode_file enc k n segsize ct) (Z.of_N j) = seg_at ct segsize j.
Proof.
  intros enc k n segsize ct j Hj. unfold gsegment. cbn [encode_file ef_segs encoder_params e_num_segments].
  rewrite <- N_nat_Z, Nat2Z.id. unfold nrange. rewrite map_map.
  rewrite nth_map_seq by (apply Nat.compare_lt_iff; rewrite <- N2Nat.inj_compare; exact Hj).
  rewrite N2Nat.id. reflexivity.
Qed.

Lemma apply_writes_ext : forall (g1 g2 : N -> list N) ws,
  Forall (fun w => g1 (w_segnum w) = g2 (w_segnum w)) ws -> apply_writes g1 ws = apply_writes g2 ws.
Proof.
  intros g1 g2 ws Hf. unfold apply_writes. induction Hf as [|w ws Hw Hf IH]; [reflexivity|].
  cbn [map concat]. rewrite Hw, IH. reflexivity.
Qed.

Section Read.
  Variable H : Type.
  Variable H_eqb : H -> H -> bool.
  Variable pair_hash : H -> H -> H.
  Variable truthy : H -> bool.
  Variable empty_leaf : Z -> H.
  Variable block_hash : list N -> H.
  Variable seg_hash : list N -> H.
  Variable UB : Type.
  Variable ueb_hash : UB -> H.
  Variable parse_ueb : UB -> option (ueb H).
  Variable dec : N -> N -> list (N * list N) -> list (list N).
  Variable ser_ueb : ueb H -> UB.
  Variable enc : N -> N -> list (list N) -> list (list N).

  Hypothesis H_eqb_spec : forall a b, H_eqb a b = true <-> a = b.
  Hypothesis all_truthy_H : forall h, truthy h = true.
  Hypothesis pair_inj : forall a b c d, pair_hash a b = pair_hash c d -> a = c /\ b = d.
  Hypothesis block_inj : forall a b, block_hash a = block_hash b -> a = b.
  Hypothesis seg_inj : forall a b, seg_hash a = seg_hash b -> a = b.
  Hypothesis ueb_inj : forall a b, ueb_hash a = ueb_hash b -> a = b.
  Hypothesis parse_ser : forall u, parse_ueb (ser_ueb u) = Some u.

  Theorem delivered_prefix_ok : forall (k n segsize guess offset : N) (size : option N) (ct key : list N)
      (script : N -> list (Z * share H UB * (nat -> list Z)) * list Z),
    1 <= N.of_nat (length ct) -> 1 <= k -> 1 <= segsize -> segsize mod k = 0 -> 1 <= guess ->
    let f := encode_file enc k n segsize ct in
    let c := g_cap H pair_hash empty_leaf block_hash seg_hash UB ueb_hash ser_ueb key f in
    exists ws,
      read_plan (N.of_nat (length ct)) segsize guess offset size = SegDone ws /\
      forall chunks res,
        serve H H_eqb pair_hash truthy block_hash seg_hash UB ueb_hash parse_ueb dec c (node_init H c) ws script = (chunks, res) ->
        (exists rest, py_slice ct offset size = concat chunks ++ rest) /\
        (res = None -> concat chunks = py_slice ct offset size).
  Proof.
    intros k n segsize guess offset size ct key script Hct Hk Hs Hm Hg f c.
    destruct (read_range_exact_ok ct segsize guess offset size Hct Hs Hg) as [ws [E1 [E2 [_ E4]]]].
    exists ws. split; [exact E1|]. intros chunks res Hsv.
    pose proof (encode_file_wf enc k n segsize ct Hk Hs Hm) as Hwf. fold f in Hwf.
    assert (Hws : Forall (fun w => w_segnum w < d_num_segments (calculate_sizes (ef_size f) (ef_k f) (ef_segsize f))) ws).
    { eapply Forall_impl; [|exact E4]. intros w [Hw _]. exact Hw. }
    destruct (serve_prefix H H_eqb pair_hash truthy empty_leaf block_hash seg_hash UB ueb_hash parse_ueb dec ser_ueb
                H_eqb_spec all_truthy_H pair_inj block_inj seg_inj ueb_inj parse_ser f key Hwf ws (node_init H c) script chunks res
                (node_init_inv H pair_hash empty_leaf block_hash seg_hash UB ueb_hash ser_ueb f key) Hws Hsv) as [P1 P2].
    assert (Hext : apply_writes (gseg f) ws = py_slice ct offset size).
    { rewrite <- E2. apply apply_writes_ext. eapply Forall_impl; [|exact E4]. intros w [Hw _].
      unfold gseg. apply encode_file_segment. exact Hw. }
    rewrite Hext in P1, P2. split; assumption.
  Qed.
End Read.
