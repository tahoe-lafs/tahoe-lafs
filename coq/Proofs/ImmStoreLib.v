(* What the definitions of Model/ImmStore.v do: byte lists, the range map, the slot table, and the
   outcomes of each operation. *)
From Coq Require Import List NArith ZArith Bool Lia.
From Coq Require Import ZifyBool ZifyNat ZifyN.
From Verif Require Import Lib.ListFacts Model.ImmStore.
Import ListNotations.
Local Open Scope N_scope.

Lemma nth_beyond : forall (l : list N) (i : nat), (length l <= i)%nat -> nth i l 0 = 0.
Proof. intros l i. apply nth_overflow. Qed.

Lemma slice_nth : forall off len l i, i < len -> nth (N.to_nat i) (slice off len l) 0 = nthb l (off + i).
Proof.
  intros off len l i H. unfold slice, nthb.
  rewrite nth_firstn_lt, nth_skipn by lia. f_equal. lia.
Qed.

Lemma slice_length_le : forall off len l, (length (slice off len l) <= N.to_nat len)%nat.
Proof. intros. apply firstn_le_length. Qed.

Lemma slice_length : forall off len l, off + len <= blen l -> length (slice off len l) = N.to_nat len.
Proof.
  intros off len l H. unfold slice, blen in *. rewrite firstn_length, skipn_length. lia.
Qed.

(* Python slicing: a length reaching past the end is clipped there *)
Lemma slice_clip : forall off len l, slice off len l = slice off (N.min len (blen l - off)) l.
Proof.
  intros off len l. unfold slice, blen.
  rewrite <- (firstn_all (skipn (N.to_nat off) l)) at 1.
  rewrite firstn_firstn, skipn_length. f_equal. lia.
Qed.

Lemma read_share_data_slice : forall data off len, read_share_data data off len = slice off len data.
Proof.
  intros data off len. unfold read_share_data. rewrite (slice_clip off len).
  destruct (Z.eqb_spec (Z.max 0 (Z.min (Z.of_N len) (Z.of_N (blen data) - Z.of_N off))) 0) as [E|E].
  - replace (N.min len (blen data - off)) with 0 by lia. reflexivity.
  - f_equal. lia.
Qed.

Lemma nthb_zeros : forall n p, nthb (zeros n) p = 0.
Proof. intros. apply nth_repeat. Qed.

Lemma blen_zeros : forall n, blen (zeros n) = n.
Proof. intros. unfold blen, zeros. rewrite repeat_length. lia. Qed.

Lemma blen_write_at : forall off d buf, off + blen d <= blen buf -> blen (write_at off d buf) = blen buf.
Proof.
  intros off d buf H. unfold blen, write_at in *.
  rewrite !app_length, firstn_length, skipn_length. lia.
Qed.

Lemma nth_write_at_in : forall off d buf p, off + blen d <= blen buf -> off <= p < off + blen d ->
  nthb (write_at off d buf) p = nthb d (p - off).
Proof.
  intros off d buf p H Hp. unfold nthb, write_at, blen in *.
  assert (Hl : length (firstn (N.to_nat off) buf) = N.to_nat off) by (apply firstn_length_le; lia).
  rewrite app_nth2, Hl, app_nth1 by lia. f_equal. lia.
Qed.

Lemma nth_write_at_out : forall off d buf p, off + blen d <= blen buf -> (p < off \/ off + blen d <= p) ->
  nthb (write_at off d buf) p = nthb buf p.
Proof.
  intros off d buf p H Hp. unfold nthb, write_at, blen in *.
  assert (Hl : length (firstn (N.to_nat off) buf) = N.to_nat off) by (apply firstn_length_le; lia).
  destruct Hp as [Hp|Hp].
  - rewrite app_nth1 by lia. apply nth_firstn_lt. lia.
  - rewrite app_nth2, Hl, app_nth2, nth_skipn by lia. f_equal. lia.
Qed.

Lemma bytes_eqb_eq : forall a b, bytes_eqb a b = true -> a = b.
Proof.
  induction a as [|x a IH]; destruct b as [|y b]; cbn [bytes_eqb]; intros H; try discriminate; auto.
  apply andb_true_iff in H. destruct H as [->%N.eqb_eq ->%IH]. reflexivity.
Qed.

Lemma bytes_eqb_refl : forall a, bytes_eqb a a = true.
Proof. induction a; cbn [bytes_eqb]; auto. rewrite N.eqb_refl. auto. Qed.

Definition in_iv (a b p : N) : bool := (a <=? p) && (p <? b).

Lemma covered_cons : forall s e r p, covered ((s, e) :: r) p = in_iv s e p || covered r p.
Proof. reflexivity. Qed.

Lemma covered_rm_set : forall l a b p, a < b -> covered (rm_set a b l) p = in_iv a b p || covered l p.
Proof.
  induction l as [|[s e] r IH]; intros a b p Hab.
  - reflexivity.
  - cbn [rm_set]. destruct (N.ltb_spec e a) as [H1|H1].
    + rewrite !covered_cons, IH by assumption.
      destruct (in_iv s e p), (in_iv a b p), (covered r p); reflexivity.
    + destruct (N.ltb_spec b s) as [H2|H2].
      * rewrite !covered_cons. reflexivity.
      * rewrite IH by lia. rewrite covered_cons.
        assert (E : in_iv (N.min a s) (N.max b e) p = in_iv a b p || in_iv s e p).
        { unfold in_iv. lia. }
        rewrite E. destruct (in_iv s e p), (in_iv a b p), (covered r p); reflexivity.
Qed.

Lemma query_covers : forall l a b p, a <= p < b -> covered l p = true ->
  exists cs ce, In (cs, ce) (rm_query a b l) /\ a <= cs /\ cs <= p < ce.
Proof.
  induction l as [|[s e] r IH]; intros a b p Hp Hc.
  - discriminate.
  - rewrite covered_cons in Hc. cbn [rm_query].
    destruct (in_iv s e p) eqn:Hin.
    + unfold in_iv in Hin.
      assert (Hlt : N.max s a <? N.min e b = true) by lia. rewrite Hlt.
      exists (N.max s a), (N.min e b). split; [left; reflexivity|]. lia.
    + destruct (IH a b p Hp Hc) as (cs & ce & Hi & H1 & H2).
      exists cs, ce. split; [|auto].
      destruct (N.max s a <? N.min e b); [right|]; assumption.
Qed.

Lemma query_in : forall l a b cs ce, In (cs, ce) (rm_query a b l) ->
  a <= cs /\ cs < ce /\ ce <= b /\ forall p, cs <= p < ce -> covered l p = true.
Proof.
  induction l as [|[s e] r IH]; intros a b cs ce Hin; cbn [rm_query] in Hin.
  - destruct Hin.
  - assert (Hr : In (cs, ce) (rm_query a b r) ->
                 a <= cs /\ cs < ce /\ ce <= b /\ forall p, cs <= p < ce -> covered ((s, e) :: r) p = true).
    { intros (H1 & H2 & H3 & H4)%IH. repeat split; auto.
      intros p Hp. rewrite covered_cons, H4 by assumption. apply orb_true_r. }
    destruct (N.ltb_spec (N.max s a) (N.min e b)) as [Hlt|Hge]; [|auto].
    destruct Hin as [E|Hin]; [|auto]. inversion E; subst. repeat split; try lia.
    intros p Hp. rewrite covered_cons. unfold in_iv. lia.
Qed.

Lemma chunks_agree_in : forall stored off d chunks, chunks_agree stored off d chunks = true ->
  forall cs ce, In (cs, ce) chunks -> off <= cs -> forall p, cs <= p < ce -> nthb stored p = nthb d (p - off).
Proof.
  induction chunks as [|[cs' ce'] r IH]; intros H cs ce Hin Hoff p Hp.
  - destruct Hin.
  - cbn [chunks_agree] in H. apply andb_true_iff in H. destruct H as [H1 H2].
    destruct Hin as [E|Hin]; [|eapply IH; eauto].
    inversion E; subst. apply bytes_eqb_eq in H1. rewrite read_share_data_slice in H1.
    assert (Hi : p - cs < ce - cs) by lia.
    pose proof (slice_nth cs (ce - cs) stored (p - cs) Hi) as R1.
    pose proof (slice_nth (cs - off) (ce - cs) d (p - cs) Hi) as R2.
    rewrite H1, R2 in R1.
    replace (cs + (p - cs)) with p in R1 by lia.
    replace (cs - off + (p - cs)) with (p - off) in R1 by lia. symmetry. exact R1.
Qed.

Lemma chunks_agree_intro : forall stored off d chunks,
  (forall cs ce, In (cs, ce) chunks ->
     off <= cs /\ cs < ce /\ ce <= off + blen d /\ ce <= blen stored
     /\ forall p, cs <= p < ce -> nthb stored p = nthb d (p - off)) ->
  chunks_agree stored off d chunks = true.
Proof.
  intros stored off d. induction chunks as [|[cs ce] r IH]; intros H; cbn [chunks_agree]; [reflexivity|].
  apply andb_true_iff. split; [|apply IH; intros cs' ce' Hin; apply H; right; assumption].
  destruct (H cs ce (or_introl eq_refl)) as (H1 & H2 & H3 & H4 & H5).
  rewrite read_share_data_slice.
  replace (slice cs (ce - cs) stored) with (slice (cs - off) (ce - cs) d); [apply bytes_eqb_refl|].
  apply nth_ext with (d := 0) (d' := 0).
  - rewrite !slice_length by lia. reflexivity.
  - intros n Hn. rewrite slice_length in Hn by lia.
    pose proof (slice_nth cs (ce - cs) stored (N.of_nat n)) as R1.
    pose proof (slice_nth (cs - off) (ce - cs) d (N.of_nat n)) as R2.
    rewrite Nat2N.id in R1, R2. rewrite R1, R2, H5 by lia. f_equal. lia.
Qed.

(* The conflict check of BucketWriter.write compares the new data with the stored bytes at
   exactly the positions already written. *)
Lemma agree_pointwise : forall stored off d l p,
  chunks_agree stored off d (rm_query off (off + blen d) l) = true ->
  off <= p < off + blen d -> covered l p = true -> nthb stored p = nthb d (p - off).
Proof.
  intros stored off d l p H Hp Hc.
  destruct (query_covers l off (off + blen d) p Hp Hc) as (cs & ce & Hin & H1 & H2).
  eapply chunks_agree_in; eauto.
Qed.

Lemma agree_complete : forall stored off d l,
  (forall p, off <= p < off + blen d -> covered l p = true -> p < blen stored /\ nthb stored p = nthb d (p - off)) ->
  chunks_agree stored off d (rm_query off (off + blen d) l) = true.
Proof.
  intros stored off d l H. apply chunks_agree_intro. intros cs ce (Q1 & Q2 & Q3 & Q4)%query_in.
  repeat split; try assumption.
  - destruct (H (ce - 1)) as [Hb _]; [lia|apply Q4; lia|lia].
  - intros p Hp. apply H; [lia|auto].
Qed.

Lemma key_eqb_spec : forall a b, reflect (a = b) (key_eqb a b).
Proof.
  intros [a1 a2] [b1 b2]. unfold key_eqb. cbn [fst snd].
  destruct (N.eqb_spec a1 b1), (N.eqb_spec a2 b2); constructor; congruence.
Qed.

Lemma key_eqb_refl : forall a, key_eqb a a = true.
Proof. intros a. destruct (key_eqb_spec a a); congruence. Qed.

Definition keys (l : list (key * slot)) : list key := map fst l.

Lemma lookup_set_slot : forall l k k0 v,
  lookup k0 (set_slot k v l) = if key_eqb k0 k then v else lookup k0 l.
Proof.
  induction l as [|[k' v'] r IH]; intros k k0 v; cbn [set_slot lookup]; [reflexivity|].
  destruct (key_eqb_spec k k') as [->|Hne]; cbn [lookup].
  - destruct (key_eqb k0 k'); reflexivity.
  - rewrite IH. destruct (key_eqb_spec k0 k'), (key_eqb_spec k0 k); congruence.
Qed.

Lemma lookup_set_same : forall l k v, lookup k (set_slot k v l) = v.
Proof. intros. rewrite lookup_set_slot, key_eqb_refl. reflexivity. Qed.

Lemma lookup_set_other : forall l k k0 v, k0 <> k -> lookup k0 (set_slot k v l) = lookup k0 l.
Proof. intros l k k0 v H. rewrite lookup_set_slot. destruct (key_eqb_spec k0 k); congruence. Qed.

Lemma get_with_slots : forall s l k, get (with_slots s l) k = lookup k l.
Proof. reflexivity. Qed.

Lemma lookup_in_keys : forall l k, lookup k l <> Absent -> In k (keys l).
Proof.
  induction l as [|[k' v'] r IH]; intros k H; cbn [lookup keys map fst] in *.
  - congruence.
  - destruct (key_eqb_spec k k'); [left; congruence|right; auto].
Qed.

Lemma keys_set_slot : forall l k v, keys (set_slot k v l) = keys l \/ (~ In k (keys l) /\ keys (set_slot k v l) = keys l ++ [k]).
Proof.
  induction l as [|[k' v'] r IH]; intros k v; cbn [set_slot keys map fst].
  - right. split; auto.
  - destruct (key_eqb_spec k k') as [->|Hne]; cbn [map fst]; [left; reflexivity|].
    destruct (IH k v) as [H|[H1 H2]]; unfold keys in *; rewrite ?H, ?H2; [left; reflexivity|].
    right. split; [|reflexivity]. intros [H|H]; [congruence|auto].
Qed.

Lemma NoDup_keys_set_slot : forall l k v, NoDup (keys l) -> NoDup (keys (set_slot k v l)).
Proof.
  intros l k v H. destruct (keys_set_slot l k v) as [E|[H1 E]]; rewrite E; auto.
  apply NoDup_snoc; auto.
Qed.

Lemma keys_abort_where : forall p l, keys (abort_where p l) = keys l.
Proof.
  intros p l. unfold keys, abort_where. rewrite map_map. apply map_ext.
  intros [k v]. cbn [fst snd]. destruct v as [|w|wid d]; try reflexivity. destruct (p w); reflexivity.
Qed.

Lemma lookup_abort_where : forall p l k,
  lookup k (abort_where p l) = match lookup k l with
                               | Incoming w => if p w then Absent else Incoming w
                               | v => v
                               end.
Proof.
  induction l as [|[k' v'] r IH]; intros k; [reflexivity|].
  cbn [abort_where map fst snd]. fold (abort_where p r).
  destruct v' as [|w|wid d]; [|destruct (p w) eqn:Ep|]; cbn [lookup];
    rewrite IH; destruct (key_eqb k k'); cbn match; rewrite ?Ep; reflexivity.
Qed.

Lemma get_abort_where : forall s p next now k,
  get (mkStore (abort_where p (st_slots s)) next now) k = match get s k with
                                                          | Incoming w => if p w then Absent else Incoming w
                                                          | v => v
                                                          end.
Proof. intros. apply lookup_abort_where. Qed.

Lemma sum_set_slot : forall f l k v, f Absent = 0 ->
  sum_slots f (set_slot k v l) + f (lookup k l) = sum_slots f l + f v.
Proof.
  intros f l k v H0. induction l as [|[k' v'] r IH]; cbn [set_slot lookup sum_slots].
  - lia.
  - destruct (key_eqb k k'); cbn [sum_slots]; lia.
Qed.

Lemma sum_set_slot_absent : forall f l k v, f Absent = 0 -> lookup k l = Absent ->
  sum_slots f (set_slot k v l) = sum_slots f l + f v.
Proof. intros f l k v H0 L. pose proof (sum_set_slot f l k v H0) as E. rewrite L in E. lia. Qed.

Lemma allocated_size_set_slot : forall s k v,
  allocated_size (with_slots s (set_slot k v (st_slots s))) + slot_alloc (get s k) = allocated_size s + slot_alloc v.
Proof. intros. apply sum_set_slot. reflexivity. Qed.

Lemma allocated_size_same : forall s k v,
  slot_alloc v = slot_alloc (get s k) -> allocated_size (with_slots s (set_slot k v (st_slots s))) = allocated_size s.
Proof. intros s k v E. pose proof (allocated_size_set_slot s k v). lia. Qed.

Lemma allocated_size_release : forall s k w v, get s k = Incoming w -> slot_alloc v = 0 ->
  allocated_size (with_slots s (set_slot k v (st_slots s))) + w_size w = allocated_size s.
Proof.
  intros s k w v Hg Hv. pose proof (allocated_size_set_slot s k v) as E. rewrite Hg, Hv in E.
  cbn [slot_alloc] in E. lia.
Qed.

Lemma sum_abort_where_le : forall f p l, f Absent = 0 -> sum_slots f (abort_where p l) <= sum_slots f l.
Proof.
  intros f p l H0. induction l as [|[k' v'] r IH]; cbn [abort_where map sum_slots fst snd].
  - lia.
  - fold (abort_where p r). destruct v' as [|w|wid d]; cbn [sum_slots]; try lia.
    destruct (p w); cbn [sum_slots]; lia.
Qed.

Lemma sum_abort_where_releases : forall f p l k w, f Absent = 0 -> lookup k l = Incoming w -> p w = true ->
  sum_slots f (abort_where p l) + f (Incoming w) <= sum_slots f l.
Proof.
  intros f p l k w H0. induction l as [|[k' v'] r IH]; intros Hl Hp; cbn [lookup] in Hl.
  - discriminate.
  - cbn [abort_where map sum_slots fst snd]. fold (abort_where p r).
    destruct (key_eqb k k').
    + subst v'. rewrite Hp. cbn [sum_slots]. pose proof (sum_abort_where_le f p r H0). lia.
    + specialize (IH Hl Hp).
      destruct v' as [|w'|wid d]; cbn [sum_slots]; try lia.
      destruct (p w'); cbn [sum_slots]; lia.
Qed.

Lemma insert_sorted_in : forall x y l, In x (insert_sorted y l) <-> x = y \/ In x l.
Proof.
  intros x y l. induction l as [|z l IH]; cbn [insert_sorted].
  - simpl. intuition.
  - destruct (y <=? z); simpl in *; intuition.
Qed.

Lemma sortN_in : forall x l, In x (sortN l) <-> In x l.
Proof.
  intros x l. unfold sortN. induction l as [|y l IH]; cbn [fold_right].
  - reflexivity.
  - rewrite insert_sorted_in. simpl. intuition.
Qed.

Lemma final_shnums_cons : forall si sh k v r,
  In sh (final_shnums si ((k, v) :: r)) <->
  (k = (si, sh) /\ exists wid d, v = Final wid d) \/ In sh (final_shnums si r).
Proof.
  intros si sh [si' sh'] v r. cbn [final_shnums]. split.
  - destruct v as [|w|wid d]; auto. destruct (N.eqb_spec si si') as [->|]; auto.
    intros [->|H]; eauto.
  - intros [[[= -> ->] (wid & d & ->)]|H].
    + rewrite N.eqb_refl. left. reflexivity.
    + destruct v as [|w|wid d]; auto. destruct (si =? si'); [right|]; exact H.
Qed.

Lemma final_shnums_in : forall l si sh, NoDup (keys l) ->
  (In sh (final_shnums si l) <-> exists wid d, lookup (si, sh) l = Final wid d).
Proof.
  induction l as [|[k v] r IH]; intros si sh Hnd.
  - split; [intros []|intros (w & d & H); discriminate].
  - cbn [keys map fst] in Hnd. apply NoDup_cons_iff in Hnd as [Hk Hnd]. rewrite final_shnums_cons, (IH si sh Hnd). cbn [lookup].
    destruct (key_eqb_spec (si, sh) k) as [<-|Hne].
    + split; [|auto]. intros [[_ H]|(w & d & H)]; [exact H|].
      destruct Hk. apply lookup_in_keys. congruence.
    + split; [|auto]. intros [[E _]|H]; [congruence|exact H].
Qed.

Lemma get_buckets_in : forall s si sh, NoDup (keys (st_slots s)) ->
  (In sh (get_buckets s si) <-> exists wid d, get s (si, sh) = Final wid d).
Proof. intros s si sh H. unfold get_buckets. rewrite sortN_in. apply final_shnums_in, H. Qed.

(* A loop invariant of allocate_buckets' "for shnum in sharenums": only the accepting branch
   changes the loop state. *)
Section AllocateInv.
  Variables (ro : bool) (s : store) (si size c : N).
  Variable P : list (key * slot) -> N -> option Z -> list N -> Prop.
  Hypothesis Hstep : forall sh slots next rem acc,
    P slots next rem acc -> lookup (si, sh) slots = Absent -> ro = false -> fits rem size = true ->
    P (set_slot (si, sh) (Incoming (new_writer next size (st_now s) c)) slots) (next + 1)
      (option_map (fun r => (r - Z.of_N size)%Z) rem) (acc ++ [sh]).

  Lemma alloc_loop_inv : forall shs slots next rem acc, P slots next rem acc ->
    exists slots' next' rem' acc',
      alloc_loop ro si size c (st_now s) shs slots next rem acc = (slots', next', acc') /\ P slots' next' rem' acc'.
  Proof.
    induction shs as [|sh rest IH]; intros slots next rem acc H; cbn [alloc_loop].
    - exists slots, next, rem, acc. auto.
    - destruct (lookup (si, sh) slots) eqn:L; auto.
      destruct ro eqn:R; auto. destruct (fits rem size) eqn:F; auto.
  Qed.

  Lemma allocate_inv : forall shs av,
    P (st_slots s) (st_next s) (option_map (fun a => (Z.of_N a - Z.of_N (allocated_size s))%Z) av) [] ->
    exists slots' next' rem' acc',
      allocate ro s si shs size c av = (mkStore slots' next' (st_now s), RAlloc (get_buckets s si) acc')
      /\ P slots' next' rem' acc'.
  Proof.
    intros shs av (slots' & next' & rem' & acc' & E & H)%(alloc_loop_inv shs).
    exists slots', next', rem', acc'. unfold allocate. rewrite E. auto.
  Qed.
End AllocateInv.

(* The outcomes of BucketWriter.write: the handle is stale; the write is refused and only the
   timeout is postponed; the write is accepted. *)
Inductive write_spec (s : store) (k : key) (wid off : N) (d : list N) : store * res -> Prop :=
| WStale : write_spec s k wid off d (s, RStale)
| WRefused w r :
    get s k = Incoming w -> w_id w = wid -> In r [REmpty; RConflict; RTooLarge] ->
    write_spec s k wid off d (with_slots s (set_slot k (Incoming (touch (st_now s) w)) (st_slots s)), r)
| WAccepted w f :
    get s k = Incoming w -> w_id w = wid -> blen d <> 0 -> off + blen d <= w_size w ->
    chunks_agree (w_data w) off d (rm_query off (off + blen d) (w_ranges w)) = true ->
    write_spec s k wid off d
      (with_slots s (set_slot k (Incoming (mkWriter wid (w_size w) (rm_set off (off + blen d) (w_ranges w))
                                                    (write_at off d (w_data w)) (st_now s + TIMEOUT) (w_canary w)))
                              (st_slots s)),
       RWrote f).

Lemma write_specP : forall s k wid off d, write_spec s k wid off d (write s k wid off d).
Proof.
  intros s k wid off d. unfold write.
  destruct (get s k) as [|w|] eqn:Hg; try constructor.
  destruct (N.eqb_spec (w_id w) wid) as [Ew|]; [|constructor]. unfold write_writer.
  destruct (N.eqb_spec (blen d) 0); [apply WRefused; cbn; auto|].
  destruct (chunks_agree _ _ _ _) eqn:Ec; cbn [negb]; [|apply WRefused; cbn; auto].
  destruct (N.ltb_spec (w_size w) (off + blen d)); [apply WRefused; cbn; auto|].
  rewrite Ew. apply WAccepted; auto.
Qed.

Lemma close_cases : forall s k wid,
  close s k wid = (s, RStale) \/
  exists w, get s k = Incoming w /\ w_id w = wid /\
            close s k wid = (with_slots s (set_slot k (Final wid (w_data w)) (st_slots s)), ROk).
Proof.
  intros s k wid. unfold close. destruct (get s k) as [|w|]; auto.
  destruct (N.eqb_spec (w_id w) wid); eauto.
Qed.

Lemma close_live : forall s k w, get s k = Incoming w ->
  close s k (w_id w) = (with_slots s (set_slot k (Final (w_id w) (w_data w)) (st_slots s)), ROk).
Proof. intros s k w H. unfold close. rewrite H, N.eqb_refl. reflexivity. Qed.

Lemma abort_cases : forall s k wid,
  abort s k wid = (s, ROk) \/
  exists w, get s k = Incoming w /\ w_id w = wid /\
            abort s k wid = (with_slots s (set_slot k Absent (st_slots s)), ROk).
Proof.
  intros s k wid. unfold abort. destruct (get s k) as [|w|]; auto.
  destruct (N.eqb_spec (w_id w) wid); eauto.
Qed.

Lemma abort_live : forall s k w, get s k = Incoming w ->
  abort s k (w_id w) = (with_slots s (set_slot k Absent (st_slots s)), ROk).
Proof. intros s k w H. unfold abort. rewrite H, N.eqb_refl. reflexivity. Qed.
