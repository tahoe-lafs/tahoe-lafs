(* Size arithmetic of immutable files: uploader and downloader derive the same
   numbers; share layout facts.  (Model/ImmFile.v) *)
From Coq Require Import List NArith ZArith Bool Lia.
Require Import ZifyBool ZifyNat ZifyN.
From Verif Require Import Gen.ImmConsts Model.ImmFile.
Import ListNotations.
Local Open Scope N_scope.

Lemma div_ceil_bounds n d : 1 <= d -> n <= div_ceil n d * d /\ div_ceil n d * d < n + d.
Proof.
  intros Hd. unfold div_ceil.
  pose proof (N.div_mod n d ltac:(lia)) as E.
  pose proof (N.mod_lt n d ltac:(lia)) as L.
  destruct (n mod d =? 0) eqn:Z0; lia.
Qed.

Lemma div_ceil_unique n d q : 1 <= d -> n <= q * d -> q * d < n + d -> div_ceil n d = q.
Proof.
  intros Hd H1 H2. pose proof (div_ceil_bounds n d Hd) as [B1 B2]. nia.
Qed.

Lemma div_ceil_mul a d : 1 <= d -> div_ceil (a * d) d = a.
Proof. intros. apply div_ceil_unique; lia. Qed.

Lemma div_ceil_add_mul a r d : 1 <= d -> div_ceil (a * d + r) d = a + div_ceil r d.
Proof.
  intros Hd. pose proof (div_ceil_bounds r d Hd) as [B1 B2].
  apply div_ceil_unique; lia.
Qed.

Lemma div_ceil_pos n d : 1 <= d -> 1 <= n -> 1 <= div_ceil n d.
Proof. intros Hd Hn. pose proof (div_ceil_bounds n d Hd). nia. Qed.

Lemma div_mul_exact n k : 1 <= k -> n mod k = 0 -> n / k * k = n.
Proof. intros Hk Hm. pose proof (N.div_mod n k ltac:(lia)). lia. Qed.

Lemma div_ceil_exact n k : 1 <= k -> n mod k = 0 -> div_ceil n k = n / k.
Proof. intros Hk Hm. unfold div_ceil. rewrite Hm. apply N.add_0_r. Qed.

Lemma next_multiple_bounds n k : 1 <= k -> n <= next_multiple n k /\ next_multiple n k < n + k /\ next_multiple n k mod k = 0.
Proof.
  intros Hk. unfold next_multiple. pose proof (div_ceil_bounds n k Hk) as [B1 B2].
  repeat split; try assumption. apply N.mod_mul. lia.
Qed.

Lemma next_multiple_div n k : 1 <= k -> next_multiple n k / k = div_ceil n k.
Proof. intros. unfold next_multiple. apply N.div_mul. lia. Qed.

Lemma next_multiple_of_multiple n k : 1 <= k -> n mod k = 0 -> next_multiple n k = n.
Proof.
  intros Hk Hm. unfold next_multiple. rewrite div_ceil_exact by assumption.
  now apply div_mul_exact.
Qed.

Definition tail_of (size segsize : N) : N := if size mod segsize =? 0 then segsize else size mod segsize.

Lemma tail_of_spec size segsize : 1 <= size -> 1 <= segsize ->
  1 <= tail_of size segsize <= segsize /\ size = segsize * (div_ceil size segsize - 1) + tail_of size segsize
  /\ 1 <= div_ceil size segsize.
Proof.
  intros Hs Hg. unfold tail_of, div_ceil.
  pose proof (N.div_mod size segsize ltac:(lia)) as E.
  pose proof (N.mod_lt size segsize ltac:(lia)) as L.
  (* named, so that lia sees variables of N and not quotients of unknown sign *)
  set (q := size / segsize) in *. set (r := size mod segsize) in *.
  destruct (N.eqb_spec r 0) as [Z0|Z0].
  - (* size = segsize * q with q >= 1: the last full segment is the tail *)
    destruct q as [|q _] using N.peano_ind; [lia|].
    rewrite N.add_0_r, N.sub_1_r, N.pred_succ. rewrite N.mul_succ_r in E. lia.
  - rewrite N.add_sub. lia.
Qed.

(* a share holds one block per segment: size/k rounded up is the sum of the block sizes *)
Lemma share_size_split size k segsize : 1 <= size -> 1 <= k -> 1 <= segsize -> segsize mod k = 0 ->
  div_ceil size k = segsize / k * (div_ceil size segsize - 1) + div_ceil (tail_of size segsize) k.
Proof.
  intros Hs Hk Hg Hm. destruct (tail_of_spec size segsize Hs Hg) as (_ & E & _).
  rewrite <- div_ceil_add_mul by assumption. f_equal.
  rewrite <- N.mul_assoc, (N.mul_comm _ k), N.mul_assoc, (div_mul_exact segsize k Hk Hm). exact E.
Qed.

(* ns blocks laid end to end, ns - 1 of b bytes and a last one of tb *)
Lemma blocks_tile b tb ns i : i < ns ->
  let len := if i =? ns - 1 then tb else b in
  i * b + len <= b * (ns - 1) + tb /\
  (i + 1 < ns -> (i + 1) * b = i * b + len) /\
  (i + 1 = ns -> i * b + len = b * (ns - 1) + tb).
Proof.
  intros Hi len. subst len. destruct (N.eqb_spec i (ns - 1)) as [->|Hne].
  - lia.
  - pose proof (N.mul_le_mono_r (i + 1) (ns - 1) b ltac:(lia)). lia.
Qed.

Lemma put_block_len_tail b tb ns i : i < ns ->
  put_block_len (b * (ns - 1) + tb) b ns i = if i =? ns - 1 then tb else b.
Proof.
  intros Hi. unfold put_block_len.
  destruct (i <? ns - 1) eqn:A, (i =? ns - 1) eqn:B; lia.
Qed.

Lemma sizes_agree_ok : forall size k segsize,
  1 <= size -> 1 <= k -> 1 <= segsize -> segsize mod k = 0 ->
  let e := encoder_params size k segsize in
  let d := calculate_sizes size k segsize in
  d_num_segments d = e_num_segments e /\
  d_tail_segment_size d = e_tail_size e /\
  d_tail_segment_padded d = e_padded_tail e /\
  d_block_size d = e_block_size e /\
  d_tail_block_size d = e_tail_block_size e /\
  crs_dec_share_size segsize k = e_block_size e /\
  crs_dec_share_size (d_tail_segment_padded d) k = e_tail_block_size e /\
  (* the share's data section is exactly the blocks put_block accepts *)
  e_share_size e = e_block_size e * (e_num_segments e - 1) + e_tail_block_size e /\
  (forall i, i < e_num_segments e ->
     put_block_len (e_share_size e) (e_block_size e) (e_num_segments e) i
     = if i =? e_num_segments e - 1 then e_tail_block_size e else e_block_size e) /\
  1 <= e_num_segments e /\ 1 <= e_tail_size e <= segsize /\
  size = segsize * (e_num_segments e - 1) + e_tail_size e /\
  e_tail_size e <= e_padded_tail e < e_tail_size e + k /\ e_padded_tail e mod k = 0 /\
  e_block_size e * k = segsize /\ e_tail_block_size e * k = e_padded_tail e.
Proof.
  intros size k segsize Hs Hk Hg Hm.
  cbv zeta. unfold encoder_params, calculate_sizes, crs_enc_share_size, crs_dec_share_size.
  cbn [d_num_segments d_tail_segment_size d_tail_segment_padded d_block_size d_tail_block_size
       e_num_segments e_share_size e_tail_size e_padded_tail e_block_size e_tail_block_size].
  fold (tail_of size segsize).
  destruct (tail_of_spec size segsize Hs Hg) as (Ht & Esize & Hns).
  destruct (next_multiple_bounds (tail_of size segsize) k Hk) as (Hp1 & Hp2 & Hp3).
  (* both block sizes are exact quotients *)
  rewrite (div_ceil_exact segsize k Hk Hm), (div_ceil_exact _ k Hk Hp3).
  assert (Esh : div_ceil size k
                = segsize / k * (div_ceil size segsize - 1) + next_multiple (tail_of size segsize) k / k).
  { rewrite next_multiple_div by assumption. now apply share_size_split. }
  repeat split; try reflexivity; try assumption.
  - intros i Hi. rewrite Esh. now apply put_block_len_tail.
  - apply Ht.
  - apply Ht.
  - now apply div_mul_exact.
  - now apply div_mul_exact.
Qed.

Lemma guess_right size k max_seg : guessed_segment_size size k max_seg = upload_segsize max_seg size k.
Proof. unfold guessed_segment_size, upload_segsize. rewrite N.min_comm. reflexivity. Qed.

Lemma upload_segsize_ok max_seg size k : 1 <= size -> 1 <= k -> 1 <= max_seg ->
  1 <= upload_segsize max_seg size k /\ upload_segsize max_seg size k mod k = 0.
Proof.
  intros. unfold upload_segsize. pose proof (next_multiple_bounds (N.min max_seg size) k ltac:(lia)). lia.
Qed.

Lemma npk_loop_spec fuel : forall p n, 1 <= p -> n <= p * 2 ^ N.of_nat fuel ->
  n <= npk_loop fuel p n /\ (npk_loop fuel p n = p \/ npk_loop fuel p n < 2 * n).
Proof.
  induction fuel as [|f IH]; intros p n Hp Hn.
  - cbn [npk_loop]. change (N.of_nat 0) with 0 in Hn. rewrite N.pow_0_r in Hn. lia.
  - cbn [npk_loop]. destruct (p <? n) eqn:C.
    + assert (Hn' : n <= p * 2 * 2 ^ N.of_nat f).
      { rewrite Nat2N.inj_succ, N.pow_succ_r' in Hn. lia. }
      destruct (IH (p * 2) n ltac:(lia) Hn') as [A [B|B]]; split; try assumption; right; lia.
    + split; [lia | left; reflexivity].
Qed.

Lemma next_power_of_2_ge n : n <= next_power_of_2 n /\ 1 <= next_power_of_2 n.
Proof.
  unfold next_power_of_2.
  assert (H : n <= 1 * 2 ^ N.of_nat (S (N.to_nat (N.size n)))).
  { rewrite Nat2N.inj_succ, N2Nat.id, N.mul_1_l.
    destruct n as [|p]; [cbn; lia|].
    pose proof (N.size_gt (N.pos p)). rewrite N.pow_succ_r'. lia. }
  destruct (npk_loop_spec _ 1 n ltac:(lia) H) as [A [B|B]]; split; try assumption; try lia.
Qed.

Lemma offsets_layout_ok : forall ver bs ds nseg nsh o,
  create_offsets ver bs ds nseg nsh = Some o ->
  let shs := segment_hash_size nseg in
  o_data o = header_size ver /\
  o_plaintext_hash_tree o = o_data o + ds /\
  o_crypttext_hash_tree o = o_plaintext_hash_tree o + shs /\
  o_block_hashes o = o_crypttext_hash_tree o + shs /\
  o_share_hashes o = o_block_hashes o + shs /\
  o_uri_extension o = o_share_hashes o + share_hashtree_size nsh /\
  (* every header field fits its struct field *)
  Forall (fun x => x < field_limit ver) (header_fields 0 bs ds o) /\
  (* the crypttext/block hash sections hold a full tree over 2^ceil(log2 nseg) leaves *)
  HASH_SIZE <= shs.
Proof.
  intros ver bs ds nseg nsh o H shs.
  unfold create_offsets in H.
  destruct ((field_limit ver <=? bs) || (field_limit ver <=? ds)) eqn:A; [discriminate|].
  match type of H with (if ?c then _ else _) = _ => destruct c eqn:B; [discriminate|] end.
  injection H as <-.
  cbn [o_data o_plaintext_hash_tree o_crypttext_hash_tree o_block_hashes o_share_hashes o_uri_extension].
  fold shs in B |- *.
  assert (HS : HASH_SIZE <= shs).
  { unfold shs, segment_hash_size. pose proof (next_power_of_2_ge nseg). nia. }
  repeat split; try reflexivity; try assumption.
  unfold header_fields.
  cbn [o_data o_plaintext_hash_tree o_crypttext_hash_tree o_block_hashes o_share_hashes o_uri_extension].
  assert (0 < field_limit ver) by (unfold field_limit, V1_LIMIT, V2_LIMIT; destruct (ver =? 1); lia).
  repeat constructor; lia.
Qed.

Lemma v1_refused_iff bs ds nseg nsh :
  create_offsets 1 bs ds nseg nsh = None <->
  (V1_LIMIT <= bs \/ V1_LIMIT <= ds \/
   V1_LIMIT <= V1_HEADER_SIZE + ds + 3 * segment_hash_size nseg + share_hashtree_size nsh).
Proof.
  unfold create_offsets, field_limit, header_size. change (1 =? 1) with true. cbv iota.
  destruct ((V1_LIMIT <=? bs) || (V1_LIMIT <=? ds)) eqn:A.
  - split; [intros _|reflexivity]. lia.
  - match goal with |- (if ?c then _ else _) = _ <-> _ => destruct c eqn:B end.
    + split; [intros _|reflexivity]. lia.
    + split; [discriminate|]. lia.
Qed.

(* blocks inside the data section: adjacent, in order, inside [data, plaintext_hash_tree) *)
Lemma blocks_layout_ok : forall size k segsize ver nsh o,
  1 <= size -> 1 <= k -> 1 <= segsize -> segsize mod k = 0 ->
  let e := encoder_params size k segsize in
  create_offsets ver (e_block_size e) (e_share_size e) (e_num_segments e) nsh = Some o ->
  forall i, i < e_num_segments e ->
    let len := put_block_len (e_share_size e) (e_block_size e) (e_num_segments e) i in
    o_data o <= block_offset o (e_block_size e) i /\
    block_offset o (e_block_size e) i + len <= o_plaintext_hash_tree o /\
    (i + 1 < e_num_segments e -> block_offset o (e_block_size e) (i + 1) = block_offset o (e_block_size e) i + len) /\
    (i + 1 = e_num_segments e -> block_offset o (e_block_size e) i + len = o_plaintext_hash_tree o).
Proof.
  intros size k segsize ver nsh o Hs Hk Hg Hm e Ho i Hi len.
  pose proof (sizes_agree_ok size k segsize Hs Hk Hg Hm) as S. cbv zeta in S. fold e in S.
  destruct S as (_ & _ & _ & _ & _ & _ & _ & Esh & Epb & _).
  pose proof (offsets_layout_ok _ _ _ _ _ _ Ho) as (_ & O2 & _).
  unfold block_offset. subst len. rewrite (Epb i Hi), O2, Esh.
  pose proof (blocks_tile (e_block_size e) (e_tail_block_size e) _ i Hi) as T. cbv zeta in T. lia.
Qed.
