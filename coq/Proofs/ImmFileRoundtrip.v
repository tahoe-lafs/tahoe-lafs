(* CTR positioning and the composed upload/download round trip. *)
From Coq Require Import List NArith ZArith Bool Lia.
Require Import ZifyBool ZifyNat ZifyN.
From Verif Require Import Lib.ListFacts Gen.ImmConsts Model.ImmFile Proofs.ImmFileArith Proofs.ImmFileRead Proofs.ImmFileData.
Import ListNotations.
Local Open Scope N_scope.

Section CTRFacts.
  Variable ksbyte : N -> N.

  Lemma ctr_process_length pos d : length (ctr_process ksbyte pos d) = length d.
  Proof. revert pos; induction d; intros; cbn [ctr_process length]; [reflexivity|now rewrite IHd]. Qed.

  Lemma ctr_process_app pos a b :
    ctr_process ksbyte pos (a ++ b) = ctr_process ksbyte pos a ++ ctr_process ksbyte (pos + N.of_nat (length a)) b.
  Proof.
    revert pos; induction a as [|x a IH]; intros pos; cbn [ctr_process app length].
    - now rewrite N.add_0_r.
    - rewrite IH. do 2 f_equal. f_equal. lia.
  Qed.

  Lemma ctr_chunks_concat pos chunks :
    concat (ctr_process_chunks ksbyte pos chunks) = ctr_process ksbyte pos (concat chunks).
  Proof.
    revert pos; induction chunks as [|c r IH]; intros pos; cbn [ctr_process_chunks concat]; [reflexivity|].
    rewrite ctr_process_app, IH. reflexivity.
  Qed.

  Lemma ctr_involutive pos d : ctr_process ksbyte pos (ctr_process ksbyte pos d) = d.
  Proof.
    revert pos; induction d as [|x d IH]; intros pos; cbn [ctr_process]; [reflexivity|].
    rewrite IH, N.lxor_assoc, N.lxor_nilpotent, N.lxor_0_r. reflexivity.
  Qed.

  Lemma ctr_skipn o : forall pos d, skipn o (ctr_process ksbyte pos d) = ctr_process ksbyte (pos + N.of_nat o) (skipn o d).
  Proof.
    induction o as [|o IH]; intros pos d; [cbn; now rewrite N.add_0_r|].
    destruct d as [|x d]; [reflexivity|]. cbn [ctr_process skipn]. rewrite IH. f_equal. lia.
  Qed.

  Lemma ctr_firstn m : forall pos d, firstn m (ctr_process ksbyte pos d) = ctr_process ksbyte pos (firstn m d).
  Proof.
    induction m as [|m IH]; intros pos d; [reflexivity|].
    destruct d as [|x d]; [reflexivity|]. cbn [ctr_process firstn]. now rewrite IH.
  Qed.

  Lemma decrypting_consumer_init_ok offset : decrypting_consumer_init offset = offset.
  Proof.
    unfold decrypting_consumer_init, ctr_advance, ctr_create. rewrite repeat_length, N2Nat.id.
    pose proof (N.div_mod offset 16 ltac:(lia)). lia.
  Qed.

  Lemma ctr_position_ok offset writes :
    decrypting_consumer ksbyte offset writes = ctr_process ksbyte offset (concat writes).
  Proof. unfold decrypting_consumer. now rewrite decrypting_consumer_init_ok, ctr_chunks_concat. Qed.

  Lemma encrypt_upload_ok chunks : encrypt_upload ksbyte chunks = ctr_process ksbyte 0 (concat chunks).
  Proof. unfold encrypt_upload, ctr_create. now rewrite ctr_chunks_concat. Qed.

  Lemma ctr_range_ok data chunks offset size writes :
    concat chunks = data ->
    concat writes = py_slice (encrypt_upload ksbyte chunks) offset size ->
    decrypting_consumer ksbyte offset writes = py_slice data offset size.
  Proof.
    intros <- Hw. rewrite ctr_position_ok, Hw, encrypt_upload_ok.
    unfold py_slice, slice. destruct size as [s|].
    - rewrite ctr_skipn, ctr_firstn, N.add_0_l, N2Nat.id. apply ctr_involutive.
    - rewrite ctr_skipn, N.add_0_l, N2Nat.id. apply ctr_involutive.
  Qed.
End CTRFacts.

Section Roundtrip.
  Variable enc : N -> N -> list (list N) -> list (list N).
  Variable dec : N -> N -> list (N * list N) -> list (list N).
  Variable ksbyte : N -> N.

  Variables k n : N.
  Hypothesis Hkn : 1 <= k <= n.
  Hypothesis enc_shape : forall pieces bs,
    length pieces = N.to_nat k -> Forall (fun p => length p = bs) pieces ->
    length (enc k n pieces) = N.to_nat n /\ Forall (fun b => length b = bs) (enc k n pieces).
  Hypothesis any_k_of_n : forall pieces bs ids,
    length pieces = N.to_nat k -> Forall (fun p => length p = bs) pieces -> good_picks k n ids ->
    dec k n (map (fun j => (j, nth (N.to_nat j) (enc k n pieces) [])) ids) = pieces.

  Lemma roundtrip_any_k_ok : forall (max_seg guess : N) (data : list N) (picks : N -> list N)
                                    (offset : N) (size : option N),
    1 <= max_seg -> 1 <= guess -> 1 <= N.of_nat (length data) ->
    (forall i, good_picks k n (picks i)) ->
    read_file enc dec ksbyte k n max_seg guess data picks offset size = Some (py_slice data offset size).
  Proof.
    intros max_seg guess data picks offset size Hmax Hguess Hlen Hpicks.
    unfold read_file.
    set (fsize := N.of_nat (length data)).
    set (segsize := upload_segsize max_seg fsize k).
    set (ct := encrypt_upload ksbyte [data]).
    assert (Hct : length ct = length data).
    { unfold ct. rewrite encrypt_upload_ok, ctr_process_length. cbn [concat]. now rewrite app_nil_r. }
    destruct (upload_segsize_ok max_seg fsize k Hlen ltac:(lia) Hmax) as (Hs1 & Hs2). fold segsize in Hs1, Hs2.
    pose proof (read_range_exact_ok ct segsize guess offset size) as R.
    rewrite Hct in R. fold fsize in R.
    destruct (R Hlen Hs1 Hguess) as (ws & E1 & E2 & _ & E4). clear R.
    rewrite E1. f_equal.
    apply ctr_range_ok with (chunks := [data]); [cbn [concat]; apply app_nil_r|].
    fold ct. rewrite <- E2. unfold apply_writes. f_equal.
    apply map_ext_in. intros w Hw. rewrite Forall_forall in E4. destruct (E4 w Hw) as (W1 & _).
    f_equal.
    replace fsize with (N.of_nat (length ct)) by (rewrite Hct; reflexivity).
    apply (segment_exact_ok enc dec k n Hkn enc_shape any_k_of_n ct segsize).
    - rewrite Hct. exact Hlen.
    - exact Hs1.
    - exact Hs2.
    - rewrite Hct. exact W1.
    - apply Hpicks.
  Qed.
End Roundtrip.

(* a concrete code satisfying the hypotheses: replication, which is what zfec produces for k = 1 *)
Definition rep_enc (k n : N) (pieces : list (list N)) : list (list N) := repeat (hd [] pieces) (N.to_nat n).
Definition rep_dec (k n : N) (blocks : list (N * list N)) : list (list N) :=
  match blocks with
  | (_, b) :: _ => [b]
  | [] => []
  end.

Lemma rep_hyps n : 1 <= n ->
  (forall pieces bs, length pieces = N.to_nat 1 -> Forall (fun p => length p = bs) pieces ->
     length (rep_enc 1 n pieces) = N.to_nat n /\ Forall (fun b => length b = bs) (rep_enc 1 n pieces)) /\
  (forall pieces bs ids, length pieces = N.to_nat 1 -> Forall (fun p => length p = bs) pieces -> good_picks 1 n ids ->
     rep_dec 1 n (map (fun j => (j, nth (N.to_nat j) (rep_enc 1 n pieces) [])) ids) = pieces).
Proof.
  intros Hn. split.
  - intros pieces bs Hl Hf. destruct pieces as [|p [|q r]]; try discriminate.
    unfold rep_enc. cbn [hd]. rewrite repeat_length. split; [reflexivity|].
    inversion Hf; subst. apply Forall_forall. intros x Hx. apply repeat_spec in Hx. now subst.
  - intros pieces bs ids Hl Hf (Hi & _ & Hlt). destruct pieces as [|p [|q r]]; try discriminate.
    destruct ids as [|j [|j' r]]; try discriminate.
    inversion Hlt; subst. unfold rep_enc, rep_dec. cbn [map hd].
    rewrite nth_repeat_lt by lia. reflexivity.
Qed.
