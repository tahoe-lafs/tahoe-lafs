(* C20: properties of the edits on the name map (overwrite modes, rename, link times). *)
From Coq Require Import List NArith ZArith Bool Lia.
From Verif Require Import Lib.ListFacts Lib.Hex Model.Dirnode Proofs.DirnodeBase Proofs.DirnodeEdits.
Import ListNotations.
Local Open Scope N_scope.

Section Forall2Facts.
  Context {A : Type}.

  Lemma Forall2_diag (R : A -> A -> Prop) : (forall a, R a a) -> forall l, Forall2 R l l.
  Proof. intros H l. induction l; constructor; auto. Qed.

  Lemma Forall2_comp (R1 R2 R3 : A -> A -> Prop) :
    (forall a b c, R1 a b -> R2 b c -> R3 a c) ->
    forall l1 l2 l3, Forall2 R1 l1 l2 -> Forall2 R2 l2 l3 -> Forall2 R3 l1 l3.
  Proof.
    intros H l1 l2 l3 F1. revert l3. induction F1; intros l3 F2; inversion F2; subst; constructor; eauto.
  Qed.

  Lemma Forall2_nth_error (R : A -> A -> Prop) l l' :
    Forall2 R l l' ->
    forall i, match nth_error l i, nth_error l' i with
              | Some x, Some y => R x y
              | None, None => True
              | _, _ => False
              end.
  Proof. intro F. induction F as [|x y l l' Hxy F IH]; intros [|i]; cbn; [exact I|exact I|exact Hxy|apply IH]. Qed.

  Lemma Forall2_set_nth (R : A -> A -> Prop) d x y l :
    (forall a, R a a) -> nth_error l d = Some x -> R x y -> Forall2 R l (set_nth d y l).
  Proof.
    intros Hr. revert d. induction l as [|z r IH]; intros [|d] E Hxy; cbn in *; try discriminate.
    - inversion E; subst z. constructor; [exact Hxy|apply Forall2_diag, Hr].
    - constructor; [apply Hr|apply IH; assumption].
  Qed.
End Forall2Facts.

Lemma jget_jset_same k v o : jget k (jset k v o) = Some v.
Proof.
  induction o as [|[k1 v1] r IH]; cbn.
  - rewrite beqb_refl. reflexivity.
  - destruct (beqb k k1) eqn:E; cbn; rewrite E; [reflexivity|exact IH].
Qed.

Lemma jget_jset_other k k' v o : k <> k' -> jget k' (jset k v o) = jget k' o.
Proof.
  intro H. induction o as [|[k1 v1] r IH]; cbn.
  - rewrite (beqb_neq k' k) by congruence. reflexivity.
  - destruct (beqb k k1) eqn:E; cbn.
    + apply beqb_eq in E. subst k1. rewrite (beqb_neq k' k) by congruence. reflexivity.
    + destruct (beqb k' k1); [reflexivity|exact IH].
Qed.

Definition tahoe_of (m : jobj) : jobj := match jget K_tahoe m with Some (JObj s) => s | _ => [] end.
Definition linkcrtime (m : jobj) : option jval := jget K_linkcrtime (tahoe_of m).
Definition linkmotime (m : jobj) : option jval := jget K_linkmotime (tahoe_of m).

Lemma K_cr_mo : K_linkmotime <> K_linkcrtime.
Proof. intro H. vm_compute in H. discriminate. Qed.

Lemma update_linkmotime old new now : linkmotime (update_metadata old new now) = Some now.
Proof. unfold linkmotime, tahoe_of, update_metadata. rewrite jget_jset_same. apply jget_jset_same. Qed.

(* merging in new metadata keeps the old dict under 'tahoe', and a linkcrtime in it is not overwritten *)
Lemma update_linkcrtime m new now t :
  linkcrtime m = Some t -> linkcrtime (update_metadata (Some m) new now) = Some t.
Proof.
  unfold linkcrtime, tahoe_of, update_metadata, jobj. rewrite jget_jset_same, jget_jset_other by exact K_cr_mo.
  destruct new as [nm|].
  - destruct (jget K_tahoe m) as [t0|]; [rewrite jget_jset_same|discriminate]. intro H. rewrite H. exact H.
  - intro H. rewrite H. exact H.
Qed.

(* update_metadata always leaves a dict under 'tahoe' *)
Lemma update_md_ok old new now : md_ok (update_metadata old new now) = true.
Proof. unfold md_ok, update_metadata. rewrite jget_jset_same. reflexivity. Qed.

Section MapFacts.
  Variable classify : bytes -> capclass.
  Variable normalize : bytes -> bytes.
  Hypothesis normalize_idem : forall x, normalize (normalize x) = normalize x.

  Local Notation a_adder := (a_adder classify normalize).
  Local Notation a_add := (a_add classify normalize).
  Local Notation a_delete := (a_delete normalize).
  Local Notation a_step := (a_step classify normalize).
  Local Notation astep := (adder_step classify normalize (node * jobj) (fun n m => (n, m)) fst snd).

  (* shape of one successful Adder iteration *)
  Lemma astep_inv ov now m e m' :
    astep ov now m e = inr m' ->
    exists chld' md', m' = sm_set (normalize (fst (fst e))) (chld', md') m /\
      md' = update_metadata (option_map snd (sm_get (normalize (fst (fst e))) m)) (snd e) now /\
      match sm_get (normalize (fst (fst e))) m with
      | None => True
      | Some c => ov <> OvFalse /\ (ov = OvOnlyFiles -> is_dir (fst c) = false)
      end.
  Proof.
    destruct e as [[namex chld] nmd]. unfold adder_step. cbn [fst snd].
    destruct (n_err chld); [discriminate|].
    destruct (sm_get (normalize namex) m) as [c|] eqn:Eg; cbn [option_map].
    - destruct ov; try discriminate.
      + destruct (no_write _); [destruct (create_readonly_node classify chld); [discriminate|]|];
          intro E; inversion E; subst; eexists _, _; (split; [reflexivity|split; [reflexivity|split; [discriminate|discriminate]]]).
      + destruct (is_dir (fst c)) eqn:Ed; [discriminate|].
        destruct (no_write _); [destruct (create_readonly_node classify chld); [discriminate|]|];
          intro E; inversion E; subst; eexists _, _; (split; [reflexivity|split; [reflexivity|split; [discriminate|reflexivity]]]).
    - destruct (no_write _); [destruct (create_readonly_node classify chld); [discriminate|]|];
        intro E; inversion E; subst; eexists _, _; auto.
  Qed.

  (* a_add and the set-metadata step look up directory d, run a modifier on it and put the result
     back: a reflexive relation that the modifier respects then holds position by position *)
  Lemma at_dir_rel (R : amap -> amap -> Prop) (f : amap -> derr + amap) dirs d out dirs' :
    (forall m, R m m) -> (forall m m', f m = inr m' -> R m m') ->
    match nth_error dirs d with
    | None => (Failed EMalformed, dirs)
    | Some m => match f m with inl x => (Failed x, dirs) | inr m' => (Done, set_nth d m' dirs) end
    end = (out, dirs') ->
    Forall2 R dirs dirs'.
  Proof.
    intros Hr Hf E. destruct (nth_error dirs d) as [m|] eqn:Ed; [|inversion E; subst; apply Forall2_diag, Hr].
    destruct (f m) as [x|m'] eqn:Ef; inversion E; subst; [apply Forall2_diag, Hr|].
    exact (Forall2_set_nth R d m m' dirs Hr Ed (Hf _ _ Ef)).
  Qed.

  (* a preorder on maps that one Adder iteration respects holds across the whole add *)
  Section AdderRel.
    Variable R : amap -> amap -> Prop.
    Hypothesis R_refl : forall m, R m m.
    Hypothesis R_trans : forall a b c, R a b -> R b c -> R a c.
    Variables (ov : overwrite) (now : jval).
    Hypothesis R_step : forall m e m', astep ov now m e = inr m' -> R m m'.

    Lemma adder_rel entries m m' : a_adder ov now m entries = inr m' -> R m m'.
    Proof.
      unfold Dirnode.a_adder. revert m. induction entries as [|e r IH]; intros m E; cbn [adder_loop] in E.
      - inversion E; subst. apply R_refl.
      - destruct (astep ov now m e) as [x|m1] eqn:S; [discriminate|].
        exact (R_trans _ _ _ (R_step _ _ _ S) (IH _ E)).
    Qed.

    Lemma add_rel dirs d entries out dirs' : a_add dirs d entries ov now = (out, dirs') -> Forall2 R dirs dirs'.
    Proof. apply (at_dir_rel R (fun m => a_adder ov now m entries)); [exact R_refl|intros m m'; apply adder_rel]. Qed.
  End AdderRel.

  (* what an overwrite mode refuses to replace: anything (False), directories (ONLY_FILES) *)
  Definition protected (ov : overwrite) (c : node * jobj) : Prop :=
    ov = OvFalse \/ (ov = OvOnlyFiles /\ is_dir (fst c) = true).

  Theorem add_keeps_protected dirs d entries ov now out dirs' :
    a_add dirs d entries ov now = (out, dirs') ->
    forall i m k v, nth_error dirs i = Some m -> sm_get k m = Some v -> protected ov v ->
                    exists m', nth_error dirs' i = Some m' /\ sm_get k m' = Some v.
  Proof.
    intros E i m k v Hi Hk Hp.
    assert (F : Forall2 (fun m m' : amap => forall k v, sm_get k m = Some v -> protected ov v -> sm_get k m' = Some v)
                        dirs dirs').
    { revert E. apply add_rel; [auto|auto|].
      intros m0 e m1 S k0 v0 H0 Hp0. destruct (astep_inv _ _ _ _ _ S) as (c' & md' & -> & _ & Hc).
      destruct (bytes_eq_dec (normalize (fst (fst e))) k0) as [<-|Ek].
      - (* the name was taken by a protected entry: the iteration would have raised ExistingChildError *)
        exfalso. rewrite H0 in Hc. destruct Hc as [Hf Hd]. destruct Hp0 as [->|[-> Hdir]]; [congruence|].
        rewrite (Hd eq_refl) in Hdir. discriminate.
      - rewrite sm_get_set_other by exact Ek. exact H0. }
    pose proof (Forall2_nth_error _ _ _ F i) as H. rewrite Hi in H.
    destruct (nth_error dirs' i) as [m'|]; [|contradiction]. exists m'. split; [reflexivity|exact (H _ _ Hk Hp)].
  Qed.

  Lemma failed_add_changes_nothing dirs d entries ov now e dirs' :
    a_add dirs d entries ov now = (Failed e, dirs') -> dirs' = dirs.
  Proof.
    unfold Dirnode.a_add. destruct (nth_error dirs d) as [m|]; [destruct (a_adder ov now m entries)|];
      intro E; inversion E; reflexivity.
  Qed.

  Lemma add_keeps_names dirs d entries ov now out dirs' :
    a_add dirs d entries ov now = (out, dirs') ->
    Forall2 (fun m m' : amap => forall k, sm_get k m <> None -> sm_get k m' <> None) dirs dirs'.
  Proof.
    apply add_rel; [auto|auto|].
    intros m e m' S k H. destruct (astep_inv _ _ _ _ _ S) as (c' & md' & -> & _ & _).
    destruct (bytes_eq_dec (normalize (fst (fst e))) k) as [<-|Ek].
    - rewrite sm_get_set_same. discriminate.
    - rewrite sm_get_set_other by exact Ek. exact H.
  Qed.

  Theorem failed_move_changes_nothing dirs src namex dst new_namex ov now e dirs' :
    a_step dirs (OMove src namex dst new_namex ov) now = (Failed e, dirs') -> dirs' = dirs.
  Proof.
    cbn [Dirnode.a_step]. set (cur := normalize namex).
    destruct (Nat.eqb src dst && _); [discriminate|].
    destruct (nth_error dirs src) as [m|] eqn:Es; [|intro E; inversion E; reflexivity].
    destruct (sm_get cur m) as [[chld md]|] eqn:Eg; [|intro E; inversion E; reflexivity].
    destruct (a_add dirs dst _ ov now) as [out1 dirs1] eqn:Ea.
    destruct out1 as [| |x]; [|discriminate|intro E; inversion E; subst; exact (failed_add_changes_nothing _ _ _ _ _ _ _ Ea)].
    (* the add succeeded: the source link is still there, so deleting it cannot fail *)
    pose proof (Forall2_nth_error _ _ _ (add_keeps_names _ _ _ _ _ _ _ Ea) src) as H. rewrite Es in H.
    destruct (nth_error dirs1 src) as [m2|] eqn:Hn; [|contradiction].
    specialize (H cur). rewrite Eg in H.
    cbv beta iota. unfold Dirnode.a_delete, a_deleter, deleter_core. rewrite Hn, (normalize_idem namex : normalize cur = cur).
    destruct (sm_get cur m2); [cbn [andb]; discriminate|]. exfalso. apply H; [discriminate|reflexivity].
  Qed.

  Definition touched (now : jval) (v : node * jobj) : Prop := linkmotime (snd v) = Some now.
  Definition sorted_dirs (dirs : list amap) : Prop := Forall (fun m : amap => sm_sorted m = true) dirs.

  (* touch_or_old (below) for the whole list of directories, position by position: an entry of dirs'
     is touched, or stands unchanged in the directory at the same index of dirs *)
  Definition TO (now : jval) (dirs dirs' : list amap) : Prop :=
    forall i m' k v', nth_error dirs' i = Some m' -> sm_get k m' = Some v' ->
                      touched now v' \/ exists m, nth_error dirs i = Some m /\ sm_get k m = Some v'.

  (* How one directory changes.  Every operation is an assignment phase followed by a deletion phase
     (either may be empty): assignments keep every entry with its link-creation time and touch what
     they write; deletions only take entries away -- of a sorted map, where a name occurs once. *)
  Definition touch_or_old (now : jval) (m m' : amap) : Prop :=
    forall k v', sm_get k m' = Some v' -> touched now v' \/ sm_get k m = Some v'.
  Definition assigned (now : jval) (m m' : amap) : Prop :=
    sm_sorted m = true ->
    sm_sorted m' = true /\ touch_or_old now m m' /\
    forall k v t, sm_get k m = Some v -> linkcrtime (snd v) = Some t ->
                  exists v', sm_get k m' = Some v' /\ linkcrtime (snd v') = Some t.
  Definition deleted (m m' : amap) : Prop :=
    sm_sorted m = true -> sm_sorted m' = true /\ forall k v', sm_get k m' = Some v' -> sm_get k m = Some v'.
  (* ... and what that leaves of one operation: an entry that is still there has the creation time it had *)
  Definition same_crtime (m m' : amap) : Prop :=
    forall k v t v', sm_get k m = Some v -> linkcrtime (snd v) = Some t -> sm_get k m' = Some v' -> linkcrtime (snd v') = Some t.
  Definition link_rel (now : jval) (m m' : amap) : Prop :=
    sm_sorted m = true -> sm_sorted m' = true /\ touch_or_old now m m' /\ same_crtime m m'.

  Lemma assigned_refl now m : assigned now m m.
  Proof. intro Hs. split; [exact Hs|]. split; [intros k v' H; right; exact H|eauto]. Qed.

  Lemma assigned_trans now a b c : assigned now a b -> assigned now b c -> assigned now a c.
  Proof.
    intros H1 H2 Hs. destruct (H1 Hs) as (Hb & T1 & K1). destruct (H2 Hb) as (Hc & T2 & K2). split; [exact Hc|split].
    - intros k v' H. destruct (T2 _ _ H) as [Ht|H']; [left; exact Ht|exact (T1 _ _ H')].
    - intros k v t Hk Ht. destruct (K1 _ _ _ Hk Ht) as (v1 & Hk1 & Ht1). exact (K2 _ _ _ Hk1 Ht1).
  Qed.

  Lemma deleted_refl m : deleted m m.
  Proof. intro Hs. split; [exact Hs|auto]. Qed.

  Lemma assigned_deleted now a b c : assigned now a b -> deleted b c -> link_rel now a c.
  Proof.
    intros H1 H2 Hs. destruct (H1 Hs) as (Hb & T1 & K1). destruct (H2 Hb) as (Hc & S2). split; [exact Hc|split].
    - intros k v' H. exact (T1 _ _ (S2 _ _ H)).
    - intros k v t v' Hk Ht Hk'. destruct (K1 _ _ _ Hk Ht) as (v1 & Hk1 & Ht1).
      rewrite (S2 _ _ Hk') in Hk1. inversion Hk1; subst v1. exact Ht1.
  Qed.

  (* children[key] = (c, update_metadata(old metadata under key, new, now)) *)
  Lemma set_assigned now key c new (m : amap) :
    assigned now m (sm_set key (c, update_metadata (option_map snd (sm_get key m)) new now) m).
  Proof.
    intro Hs. split; [apply sm_set_sorted; exact Hs|split].
    - intros k v' H. destruct (bytes_eq_dec key k) as [<-|Ek].
      + rewrite sm_get_set_same in H. inversion H. left. apply update_linkmotime.
      + rewrite sm_get_set_other in H by exact Ek. right. exact H.
    - intros k v t Hk Ht. destruct (bytes_eq_dec key k) as [<-|Ek].
      + rewrite Hk, sm_get_set_same. eexists. split; [reflexivity|]. exact (update_linkcrtime (snd v) new now t Ht).
      + rewrite sm_get_set_other by exact Ek. eauto.
  Qed.

  Lemma del_deleted k (m : amap) : deleted m (sm_del k m).
  Proof.
    intro Hs. split; [apply sm_del_sorted; exact Hs|]. intros k' v' H. destruct (bytes_eq_dec k k') as [<-|Ek].
    - rewrite sm_get_del_same in H by exact Hs. discriminate.
    - rewrite sm_get_del_other in H by exact Ek. exact H.
  Qed.

  Lemma add_assigned dirs d entries ov now out dirs' :
    a_add dirs d entries ov now = (out, dirs') -> Forall2 (assigned now) dirs dirs'.
  Proof.
    apply add_rel; [apply assigned_refl|apply assigned_trans|].
    intros m e m' S. destruct (astep_inv _ _ _ _ _ S) as (c' & md' & -> & -> & _). apply set_assigned.
  Qed.

  Lemma setmd_assigned namex md now m m' : a_setmd classify normalize namex md now m = inr m' -> assigned now m m'.
  Proof.
    unfold a_setmd, setmd_core. pose proof (fun c => set_assigned now (normalize namex) c (Some md) m) as H.
    destruct (sm_get (normalize namex) m) as [[n0 md0]|]; [|discriminate]. cbn [option_map fst snd] in *.
    destruct (no_write _); [destruct (create_readonly_node classify n0); [discriminate|]|];
      intro E; inversion E; subst; apply H.
  Qed.

  Lemma delete_deleted dirs d namex me mbd mbf out dirs' :
    a_delete dirs d namex me mbd mbf = (out, dirs') -> Forall2 deleted dirs dirs'.
  Proof.
    unfold Dirnode.a_delete, a_deleter, deleter_core. intro E.
    assert (Hsame : dirs' = dirs -> Forall2 deleted dirs dirs') by (intros ->; apply Forall2_diag, deleted_refl).
    destruct (nth_error dirs d) as [m0|] eqn:Ed; [|apply Hsame; congruence].
    destruct (sm_get (normalize namex) m0) as [c|]; [|destruct me; apply Hsame; congruence].
    destruct (mbd && _); [apply Hsame; congruence|]. destruct (mbf && _); [apply Hsame; congruence|].
    inversion E; subst. exact (Forall2_set_nth deleted d m0 _ dirs deleted_refl Ed (del_deleted _ m0)).
  Qed.

  Lemma step_link_rel dirs o now out dirs' : a_step dirs o now = (out, dirs') -> Forall2 (link_rel now) dirs dirs'.
  Proof.
    assert (HA : forall d0 d1, Forall2 (assigned now) d0 d1 -> Forall2 (link_rel now) d0 d1).
    { intros d0 d1 F. exact (Forall2_comp _ _ _ (assigned_deleted now) d0 d1 d1 F (Forall2_diag _ deleted_refl d1)). }
    assert (HD : forall d0 d1, Forall2 deleted d0 d1 -> Forall2 (link_rel now) d0 d1).
    { intros d0 d1 F. exact (Forall2_comp _ _ _ (assigned_deleted now) d0 d0 d1 (Forall2_diag _ (assigned_refl now) d0) F). }
    destruct o as [d entries ov|d namex me mbd mbf|d namex md|src namex dst new_namex ov]; cbn [Dirnode.a_step]; intro E.
    - exact (HA _ _ (add_assigned _ _ _ _ _ _ _ E)).
    - exact (HD _ _ (delete_deleted _ _ _ _ _ _ _ _ E)).
    - apply HA. revert E. apply at_dir_rel; [apply assigned_refl|apply setmd_assigned].
    - assert (Hsame : dirs' = dirs -> Forall2 (link_rel now) dirs dirs').
      { intros ->. apply HA, Forall2_diag, assigned_refl. }
      destruct (Nat.eqb src dst && beqb _ _); [apply Hsame; congruence|].
      destruct (nth_error dirs src) as [m|]; [|apply Hsame; congruence].
      destruct (sm_get (normalize namex) m) as [[chld md]|]; [|apply Hsame; congruence].
      destruct (a_add dirs dst _ ov now) as [out1 dirs1] eqn:Ea. pose proof (add_assigned _ _ _ _ _ _ _ Ea) as F1.
      destruct out1; try (inversion E; subst; exact (HA _ _ F1)).
      exact (Forall2_comp _ _ _ (assigned_deleted now) _ _ _ F1 (delete_deleted _ _ _ _ _ _ _ _ E)).
  Qed.

  (* one operation: entries are either untouched, or rewritten with linkmotime = now;
     an entry that is still there keeps its linkcrtime *)
  Theorem step_link_times dirs o now out dirs' :
    sorted_dirs dirs -> a_step dirs o now = (out, dirs') ->
    sorted_dirs dirs' /\ TO now dirs dirs' /\
    (forall i m k v t m' v', nth_error dirs i = Some m -> sm_get k m = Some v -> linkcrtime (snd v) = Some t ->
                             nth_error dirs' i = Some m' -> sm_get k m' = Some v' -> linkcrtime (snd v') = Some t).
  Proof.
    intros Hs E. pose proof (step_link_rel _ _ _ _ _ E) as F.
    assert (H : forall i m', nth_error dirs' i = Some m' ->
                  exists m, nth_error dirs i = Some m /\ sm_sorted m' = true /\ touch_or_old now m m' /\ same_crtime m m').
    { intros i m' Hi'. pose proof (Forall2_nth_error _ _ _ F i) as R. rewrite Hi' in R.
      destruct (nth_error dirs i) as [m|] eqn:Hi; [|contradiction].
      exists m. split; [reflexivity|]. apply R. exact (Forall_nth_error _ _ _ _ Hs Hi). }
    split; [|split].
    - apply Forall_forall. intros m' Hin. destruct (In_nth_error _ _ Hin) as [i Hi'].
      destruct (H i m' Hi') as (m & _ & Hs' & _). exact Hs'.
    - intros i m' k v' Hi' Hk. destruct (H i m' Hi') as (m & Hi & _ & T & _).
      destruct (T _ _ Hk) as [Ht|Hk0]; [left; exact Ht|right; eauto].
    - intros i m k v t m' v' Hi Hk Ht Hi' Hk'. destruct (H i m' Hi') as (m0 & Hi0 & _ & _ & C).
      rewrite Hi in Hi0. inversion Hi0; subst m0. exact (C _ _ _ _ Hk Ht Hk').
  Qed.

  (* with a clock that does not go backwards, link-modification times only advance *)
  Definition motime_le (T : Z) (dirs : list amap) : Prop :=
    forall i m k v z, nth_error dirs i = Some m -> sm_get k m = Some v -> linkmotime (snd v) = Some (JNum z) -> (z <= T)%Z.

  Theorem step_advances dirs o (T z : Z) out dirs' :
    sorted_dirs dirs -> motime_le T dirs -> (T <= z)%Z ->
    a_step dirs o (JNum z) = (out, dirs') ->
    motime_le z dirs' /\
    forall i m k v m' v', nth_error dirs i = Some m -> sm_get k m = Some v ->
                          nth_error dirs' i = Some m' -> sm_get k m' = Some v' ->
                          (forall t, linkcrtime (snd v) = Some t -> linkcrtime (snd v') = Some t) /\
                          (forall a, linkmotime (snd v) = Some (JNum a) ->
                                     exists b, linkmotime (snd v') = Some (JNum b) /\ (a <= b)%Z).
  Proof.
    (* idempotence is not needed here; left in the context it ends up in the proof term (lia,
       inversion) and the lemma acquires it as a premise *)
    clear normalize_idem. intros Hs Hle HT E. destruct (step_link_times _ _ _ _ _ Hs E) as (_ & T1 & C1). split.
    - intros i m' k v' z' Hi Hk Hz. destruct (T1 _ _ _ _ Hi Hk) as [Ht|(m & Hi0 & Hk0)].
      + unfold touched in Ht. rewrite Ht in Hz. inversion Hz. lia.
      + specialize (Hle _ _ _ _ _ Hi0 Hk0 Hz). lia.
    - intros i m k v m' v' Hi Hk Hi' Hk'. split.
      + intros t Ht. eapply C1; eassumption.
      + intros a Ha. destruct (T1 _ _ _ _ Hi' Hk') as [Ht|(m0 & Hi0 & Hk0)].
        * exists z. split; [exact Ht|]. specialize (Hle _ _ _ _ _ Hi Hk Ha). lia.
        * rewrite Hi in Hi0. inversion Hi0; subst m0. rewrite Hk in Hk0. inversion Hk0; subst v'.
          exists a. split; [exact Ha|lia].
  Qed.
End MapFacts.
