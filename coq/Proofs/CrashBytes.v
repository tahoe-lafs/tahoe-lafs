(* Byte-array lemmas for Lib/FileSys.v and Model/Crash.v: reads (`sub`) versus
   positional writes (`write_at`), big-endian encode/decode round trip. *)
From Coq Require Import List Arith NArith Bool Lia.
From Verif Require Import Lib.Hex Lib.ListFacts Lib.FileSys Model.Crash.
Import ListNotations.

(* nth_error of each list constructor as a conditional on the index: with
   these, equations between byte arrays are settled position by position
   (nth_error_ext) by case analysis on the comparisons (ltb_cases) *)
Ltac ltb_cases :=
  repeat match goal with
         | |- context [(?a <? ?b)%nat] => destruct (Nat.ltb_spec a b)
         end.

Lemma nth_error_firstn' {A} n (l : list A) i :
  nth_error (firstn n l) i = if (i <? n)%nat then nth_error l i else None.
Proof.
  destruct (Nat.ltb_spec i n).
  - apply nth_error_firstn. assumption.
  - apply nth_error_None. rewrite firstn_length. lia.
Qed.

Lemma nth_error_app' {A} (l l' : list A) i :
  nth_error (l ++ l') i = if (i <? length l)%nat then nth_error l i else nth_error l' (i - length l).
Proof.
  destruct (Nat.ltb_spec i (length l)).
  - apply nth_error_app1. assumption.
  - apply nth_error_app2. assumption.
Qed.

Lemma nth_error_repeat' {A} (x : A) m i :
  nth_error (repeat x m) i = if (i <? m)%nat then Some x else None.
Proof.
  destruct (Nat.ltb_spec i m).
  - apply nth_error_repeat. assumption.
  - apply nth_error_None. rewrite repeat_length. assumption.
Qed.

Lemma nth_error_sub a l f i :
  nth_error (sub a l f) i =
  if (i <? N.to_nat l)%nat then nth_error f (N.to_nat a + i) else None.
Proof. unfold sub. rewrite nth_error_firstn', nth_error_skipn. reflexivity. Qed.

Lemma flen_nat f : N.to_nat (flen f) = length f.
Proof. unfold flen. apply Nat2N.id. Qed.

Lemma zeros_length n : length (zeros n) = N.to_nat n.
Proof. unfold zeros. apply repeat_length. Qed.

Lemma write_at_nil f off : write_at f off [] = f.
Proof. reflexivity. Qed.

Lemma write_at_cons f off b bs :
  write_at f off (b :: bs) =
  firstn (N.to_nat off) f ++ zeros (off - flen f) ++ (b :: bs)
  ++ skipn (N.to_nat off + length (b :: bs)) f.
Proof. reflexivity. Qed.

Lemma nth_error_write_at f off bs i :
  bs <> [] ->
  nth_error (write_at f off bs) i =
  if (i <? N.to_nat off)%nat
  then (if (i <? length f)%nat then nth_error f i else Some 0%N)
  else if (i <? N.to_nat off + length bs)%nat then nth_error bs (i - N.to_nat off)
       else nth_error f i.
Proof.
  intro Hne. destruct bs as [|b bs]; [congruence|]. rewrite write_at_cons.
  set (o := N.to_nat off). set (B := b :: bs).
  assert (Hz : length (zeros (off - flen f)) = (o - length f)%nat).
  { rewrite zeros_length, N2Nat.inj_sub, flen_nat. reflexivity. }
  rewrite !nth_error_app'. rewrite Hz, firstn_length.
  rewrite nth_error_firstn', nth_error_skipn.
  unfold zeros. rewrite nth_error_repeat'.
  replace (N.to_nat (off - flen f)) with (o - length f)%nat
    by (rewrite N2Nat.inj_sub, flen_nat; reflexivity).
  ltb_cases; try lia; try reflexivity; try (f_equal; lia);
    try (symmetry; apply nth_error_None; lia); try (apply nth_error_None; lia).
Qed.

Lemma write_at_length f off bs :
  bs <> [] ->
  length (write_at f off bs) = Nat.max (length f) (N.to_nat off + length bs).
Proof.
  intro Hne. destruct bs as [|b bs]; [congruence|]. rewrite write_at_cons.
  rewrite !app_length, firstn_length, skipn_length, zeros_length, N2Nat.inj_sub, flen_nat.
  lia.
Qed.

Lemma write_at_length_ge f off bs : (length f <= length (write_at f off bs))%nat.
Proof.
  destruct bs as [|b bs]; [simpl; lia|]. rewrite write_at_length by discriminate. lia.
Qed.

Lemma write_at_length_inside f off bs :
  (N.to_nat off + length bs <= length f)%nat -> length (write_at f off bs) = length f.
Proof.
  intro H. destruct bs as [|b bs]; [reflexivity|]. rewrite write_at_length by discriminate. lia.
Qed.

Lemma sub_write_at_before f off bs a l :
  (N.to_nat a + N.to_nat l <= N.to_nat off)%nat ->
  (N.to_nat a + N.to_nat l <= length f)%nat ->
  sub a l (write_at f off bs) = sub a l f.
Proof.
  intros H1 H2. destruct bs as [|b bs]; [reflexivity|].
  apply nth_error_ext. intro i. rewrite !nth_error_sub.
  rewrite nth_error_write_at by discriminate.
  ltb_cases; try lia; reflexivity.
Qed.

Lemma sub_write_at_after f off bs a l :
  (N.to_nat off + length bs <= N.to_nat a)%nat ->
  sub a l (write_at f off bs) = sub a l f.
Proof.
  intros H1. destruct bs as [|b bs]; [reflexivity|].
  apply nth_error_ext. intro i. rewrite !nth_error_sub.
  rewrite nth_error_write_at by discriminate.
  ltb_cases; try lia; reflexivity.
Qed.

Lemma sub_write_at_same f off bs :
  sub off (flen bs) (write_at f off bs) = bs.
Proof.
  destruct bs as [|b bs]; [reflexivity|].
  apply nth_error_ext. intro i. rewrite nth_error_sub, flen_nat.
  rewrite nth_error_write_at by discriminate.
  ltb_cases; try lia.
  - f_equal. lia.
  - symmetry. apply nth_error_None. lia.
Qed.

Lemma sub_length a l f :
  length (sub a l f) = Nat.min (N.to_nat l) (length f - N.to_nat a).
Proof. unfold sub. rewrite firstn_length, skipn_length. reflexivity. Qed.

Lemma sub_app_left a l f g :
  (N.to_nat a + N.to_nat l <= length f)%nat -> sub a l (f ++ g) = sub a l f.
Proof.
  intro H. apply nth_error_ext. intro i. rewrite !nth_error_sub, nth_error_app'.
  ltb_cases; try lia; reflexivity.
Qed.

Lemma write_at_end f bs : write_at f (flen f) bs = f ++ bs.
Proof.
  destruct bs as [|b bs]; [rewrite app_nil_r; reflexivity|].
  apply nth_error_ext. intro i. rewrite nth_error_write_at by discriminate.
  rewrite flen_nat, nth_error_app'.
  ltb_cases; try lia; try reflexivity.
  rewrite !(proj2 (nth_error_None _ _)); [reflexivity| |]; simpl in *; lia.
Qed.

Lemma write_at_app_left f g off bs :
  (N.to_nat off + length bs <= length f)%nat ->
  write_at (f ++ g) off bs = write_at f off bs ++ g.
Proof.
  intro H. destruct bs as [|b bs]; [reflexivity|].
  apply nth_error_ext. intro i.
  rewrite nth_error_app', write_at_length_inside by exact H.
  rewrite !nth_error_write_at by discriminate. rewrite app_length, nth_error_app'.
  ltb_cases; try lia; reflexivity.
Qed.

Lemma write_at_app_mid h d r off bs :
  (N.to_nat off + length bs <= length d)%nat ->
  write_at (h ++ d ++ r) (N.of_nat (length h) + off) bs = h ++ write_at d off bs ++ r.
Proof.
  intro H. destruct bs as [|b bs]; [reflexivity|].
  apply nth_error_ext. intro i.
  rewrite nth_error_write_at by discriminate.
  rewrite N2Nat.inj_add, Nat2N.id.
  rewrite !app_length.
  rewrite (nth_error_app' h (write_at d off (b :: bs) ++ r)).
  rewrite (nth_error_app' (write_at d off (b :: bs)) r).
  rewrite write_at_length_inside by exact H.
  rewrite nth_error_write_at by discriminate.
  rewrite (nth_error_app' h (d ++ r)), (nth_error_app' d r).
  ltb_cases; try lia; try reflexivity; f_equal; lia.
Qed.

Lemma enc_length n v : length (enc n v) = n.
Proof. induction n as [|n IH]; simpl; [reflexivity|]. rewrite IH. reflexivity. Qed.

Lemma be_fold bs : forall a,
  (fold_left (fun a b => a * 256 + b) bs a
   = a * 256 ^ N.of_nat (length bs) + fold_left (fun a b => a * 256 + b) bs 0)%N.
Proof.
  induction bs as [|b bs IH]; intro a; cbn [fold_left length].
  - change (N.of_nat 0) with 0%N. rewrite N.pow_0_r. lia.
  - rewrite (IH (a * 256 + b)%N), (IH (0 * 256 + b)%N).
    rewrite Nat2N.inj_succ, N.pow_succ_r by lia. lia.
Qed.

Lemma be_cons b bs : be (b :: bs) = (b * 256 ^ N.of_nat (length bs) + be bs)%N.
Proof.
  unfold be. cbn [fold_left]. rewrite be_fold. lia.
Qed.

Lemma be_enc n v : be (enc n v) = (v mod 256 ^ N.of_nat n)%N.
Proof.
  induction n as [|n IH].
  - simpl. rewrite N.mod_1_r. reflexivity.
  - cbn [enc]. rewrite be_cons, enc_length, IH.
    rewrite Nat2N.inj_succ, N.pow_succ_r by lia.
    rewrite (N.mul_comm 256 (256 ^ N.of_nat n)).
    rewrite N.mod_mul_r by (try apply N.pow_nonzero; lia).
    lia.
Qed.

Lemma be_enc_small n v : (v < 256 ^ N.of_nat n)%N -> be (enc n v) = v.
Proof. intro H. rewrite be_enc. apply N.mod_small. exact H. Qed.
