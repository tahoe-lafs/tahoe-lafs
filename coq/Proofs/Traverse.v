(* C21  Proofs about Model/Traverse.v: basic lemmas, counting per verify cap,
   the scan loop.  The invariant of the walk and the lemmas that Props/C21.v
   states as theorems are in Proofs/TraverseThm.v. *)
From Coq Require Import List NArith Bool Lia Arith.
From Verif Require Import Model.Traverse.
Import ListNotations.
Local Open Scope N_scope.
Local Open Scope bool_scope.

Lemma mem_In v l : mem v l = true <-> In v l.
Proof.
  induction l as [|x l IH]; simpl.
  - split; [discriminate | tauto].
  - rewrite orb_true_iff, IH, N.eqb_eq. split; intros [H|H]; auto.
Qed.

Lemma name_eqb_eq a b : name_eqb a b = true <-> a = b.
Proof.
  revert b; induction a as [|x a IH]; destruct b as [|y b]; simpl; split; intro H;
    try reflexivity; try discriminate.
  - apply andb_prop in H. destruct H as [H1 H2]. apply N.eqb_eq in H1. apply IH in H2. subst. reflexivity.
  - inversion H; subst. rewrite N.eqb_refl. simpl. apply IH. reflexivity.
Qed.

Lemma name_eqb_refl a : name_eqb a a = true.
Proof. apply name_eqb_eq. reflexivity. Qed.

Lemma lookup_In g i n : lookup g i = Some n -> In (i, n) g.
Proof.
  induction g as [|[j m] g IH]; simpl; [discriminate|].
  destruct (i =? j) eqn:E.
  - intro H. inversion H; subst. apply N.eqb_eq in E. subst. left. reflexivity.
  - intro H. right. apply IH. exact H.
Qed.

Lemma insert_child_In e x l : In x (insert_child e l) <-> x = e \/ In x l.
Proof.
  induction l as [|y l IH]; simpl.
  - split; intros [H|H]; auto; try tauto.
  - destruct (name_ltb (fst y) (fst e)); simpl.
    + rewrite IH. split; intros [H|[H|H]]; auto.
    + split; intros [H|[H|H]]; auto.
Qed.

Lemma sort_children_In x l : In x (sort_children l) <-> In x l.
Proof.
  unfold sort_children. induction l as [|y l IH]; simpl.
  - tauto.
  - rewrite insert_child_In, IH. split; intros [H|H]; auto.
Qed.

Lemma find_child_nodup nm c l :
  nodup_names (map fst l) = true -> In (nm, c) l -> find_child nm l = Some c.
Proof.
  induction l as [|[n' c'] l IH]; simpl; [tauto|].
  intros Hnd [H|H].
  - inversion H; subst. rewrite name_eqb_refl. reflexivity.
  - apply andb_prop in Hnd. destruct Hnd as [Hn Hnd].
    destruct (name_eqb nm n') eqn:E.
    + apply name_eqb_eq in E. subst n'.
      apply negb_true_iff in Hn.
      assert (existsb (name_eqb nm) (map fst l) = true).
      { apply existsb_exists. exists nm. split; [|apply name_eqb_refl].
        apply in_map_iff. exists (nm, c). auto. }
      congruence.
    + apply IH; assumption.
Qed.

Lemma walk_snoc g : forall p from d nd nm c nc,
  walk g from p = Some d -> lookup g d = Some nd -> n_kind nd = KDir ->
  find_child nm (n_children nd) = Some c -> lookup g c = Some nc ->
  walk g from (p ++ [nm]) = Some c.
Proof.
  induction p as [|x p IH]; intros from d nd nm c nc Hw Hd Hk Hf Hc; simpl in *.
  - destruct (lookup g from) eqn:E; [|discriminate]. inversion Hw; subst.
    rewrite Hd in E. inversion E; subst. rewrite Hk. simpl. rewrite Hf. rewrite Hc. reflexivity.
  - destruct (lookup g from) as [nf|]; [|discriminate].
    destruct (is_dir (n_kind nf)); [|discriminate].
    destruct (find_child x (n_children nf)) as [c0|]; [|discriminate].
    eapply IH; eauto.
Qed.

Lemma walk_lookup g : forall p from j, walk g from p = Some j -> exists m, lookup g j = Some m.
Proof.
  induction p as [|x p IH]; intros from j H; simpl in H.
  - destruct (lookup g from) as [m|] eqn:E; [|discriminate]. inversion H; subst. eauto.
  - destruct (lookup g from) as [nf|]; [|discriminate].
    destruct (is_dir (n_kind nf)); [|discriminate].
    destruct (find_child x (n_children nf)) as [c|]; [|discriminate].
    exact (IH c j H).
Qed.

Definition has_verifier (g : graph) (v : N) (x : visit) : bool :=
  match lookup g (snd x) with
  | Some m => opt_N_eqb (n_verifier m) (Some v)
  | None => false
  end.

Definition vcount (g : graph) (v : N) (l : list visit) : nat := length (filter (has_verifier g v) l).

Lemma vcount_app g v a b : vcount g v (a ++ b) = (vcount g v a + vcount g v b)%nat.
Proof. unfold vcount. rewrite filter_app, app_length. reflexivity. Qed.

Lemma vcount_cons g v x l : vcount g v (x :: l) = (Nat.b2n (has_verifier g v x) + vcount g v l)%nat.
Proof. unfold vcount. simpl. destruct (has_verifier g v x); reflexivity. Qed.

Lemma vcount_nil g v : vcount g v [] = 0%nat.
Proof. reflexivity. Qed.

Lemma opt_N_eqb_eq a b : opt_N_eqb a b = true <-> a = b.
Proof.
  destruct a, b; simpl; split; intro H; try discriminate; try reflexivity.
  - apply N.eqb_eq in H. subst. reflexivity.
  - inversion H. apply N.eqb_refl.
Qed.

Lemma has_verifier_node g v q c nc :
  lookup g c = Some nc -> has_verifier g v (q, c) = opt_N_eqb (n_verifier nc) (Some v).
Proof. intro H. unfold has_verifier. simpl. rewrite H. reflexivity. Qed.

Lemma vcount_pos g v l :
  (1 <= vcount g v l)%nat <-> exists q j m, In (q, j) l /\ lookup g j = Some m /\ n_verifier m = Some v.
Proof.
  unfold vcount. split.
  - intro H. destruct (filter (has_verifier g v) l) as [|[q j] t] eqn:E; [simpl in H; lia|].
    assert (K : In (q, j) (filter (has_verifier g v) l)) by (rewrite E; left; reflexivity).
    apply filter_In in K. destruct K as [Hin Hv]. unfold has_verifier in Hv. simpl in Hv.
    destruct (lookup g j) as [m|] eqn:El; [|discriminate]. apply opt_N_eqb_eq in Hv. exists q, j, m. auto.
  - intros (q & j & m & Hin & Hl & Hv). apply opt_N_eqb_eq in Hv. rewrite <- (has_verifier_node g v q j m Hl) in Hv.
    assert (K : In (q, j) (filter (has_verifier g v) l)) by (apply filter_In; auto).
    destruct (filter (has_verifier g v) l); [destruct K|simpl; lia].
Qed.

Section Scan.
  Variable g : graph.
  Variable p : path.

  (* Induction along a run of `scan`.  A listed child is passed over when it is no node or its verify cap was
     found before; an unknown node is reported and leaves `found` alone; any other node is reported as a
     directory or a file, and its verify cap, if it has one, is in `found` for the rest of the listing. *)
  Lemma scan_ind (P : list (name * N) -> list N -> scan_result -> Prop) :
    (forall found, P [] found (mkScan found [] [] [])) ->
    (forall nm c r found,
        (forall nc, lookup g c = Some nc -> exists w, n_verifier nc = Some w /\ mem w found = true) ->
        P r found (scan g p r found) -> P ((nm, c) :: r) found (scan g p r found)) ->
    (forall nm c nc r found, lookup g c = Some nc -> n_kind nc = KUnknown ->
        let s := scan g p r found in
        P r found s -> P ((nm, c) :: r) found (mkScan (s_found s) ((p ++ [nm], c) :: s_unknown s) (s_files s) (s_dirs s))) ->
    (forall nm c nc r found, lookup g c = Some nc -> n_kind nc <> KUnknown ->
        (forall w, n_verifier nc = Some w -> mem w found = false) ->
        let found' := match n_verifier nc with Some w => w :: found | None => found end in
        let s := scan g p r found' in
        P r found' s ->
        P ((nm, c) :: r) found
          (if is_dir (n_kind nc)
           then mkScan (s_found s) (s_unknown s) (s_files s) ((p ++ [nm], c) :: s_dirs s)
           else mkScan (s_found s) (s_unknown s) ((p ++ [nm], c) :: s_files s) (s_dirs s))) ->
    forall kids found, P kids found (scan g p kids found).
  Proof.
    intros Hnil Hskip Hunk Hnew. induction kids as [|[nm c] r IH]; intro found; simpl; [apply Hnil|].
    destruct (lookup g c) as [nc|] eqn:El; [|apply Hskip; [intros nc H; congruence|apply IH]].
    destruct (is_unknown (n_kind nc)) eqn:Eu.
    { apply (Hunk nm c nc); [exact El| |apply IH]. destruct (n_kind nc); try discriminate; reflexivity. }
    destruct (match n_verifier nc with Some v => mem v found | None => false end) eqn:Em.
    - apply Hskip; [|apply IH]. intros nc' H. rewrite El in H. injection H as <-.
      destruct (n_verifier nc) as [w|]; [eauto|discriminate].
    - apply (Hnew nm c nc); [exact El| | |apply IH].
      + intro K. rewrite K in Eu. discriminate.
      + intros w Hw. rewrite Hw in Em. exact Em.
  Qed.

  Lemma scan_found_mono kids found v : In v found -> In v (s_found (scan g p kids found)).
  Proof.
    pattern kids, found, (scan g p kids found). apply scan_ind; cbv beta; clear kids found; auto.
    intros nm c nc r found _ _ _ found' s IH Hv.
    assert (In v found') by (unfold found'; destruct (n_verifier nc); simpl; auto).
    destruct (is_dir (n_kind nc)); auto.
  Qed.

  (* an entry the scan emits: one of the listed children that is a node, under its name;
     `dir` says which kind *)
  Definition from_kids (kids : list (name * N)) (dir : bool) (e : visit) : Prop :=
    exists nm nc, fst e = p ++ [nm] /\ In (nm, snd e) kids /\ lookup g (snd e) = Some nc /\ is_dir (n_kind nc) = dir.

  Lemma scan_origin all kids found : incl kids all ->
    Forall (from_kids all false) (s_unknown (scan g p kids found)) /\
    Forall (from_kids all false) (s_files (scan g p kids found)) /\
    Forall (from_kids all true) (s_dirs (scan g p kids found)).
  Proof.
    pattern kids, found, (scan g p kids found). apply scan_ind; cbv beta; clear kids found.
    - intros found _. repeat constructor.
    - intros nm c r found _ IH Hi. apply incl_cons_inv in Hi. exact (IH (proj2 Hi)).
    - intros nm c nc r found El Ek s IH Hi. apply incl_cons_inv in Hi. destruct (IH (proj2 Hi)) as (A & B & C).
      repeat split; trivial. constructor; [|exact A].
      exists nm, nc. rewrite Ek. repeat split; trivial. exact (proj1 Hi).
    - intros nm c nc r found El _ _ found' s IH Hi. apply incl_cons_inv in Hi. destruct (IH (proj2 Hi)) as (A & B & C).
      assert (from_kids all (is_dir (n_kind nc)) (p ++ [nm], c)) by (exists nm, nc; repeat split; trivial; exact (proj1 Hi)).
      destruct (is_dir (n_kind nc)); repeat split; trivial; constructor; trivial.
  Qed.

  Lemma scan_handled kids found nm c nc :
    In (nm, c) kids -> lookup g c = Some nc ->
    (exists q, In (q, c) (s_unknown (scan g p kids found)) \/ In (q, c) (s_files (scan g p kids found))
               \/ In (q, c) (s_dirs (scan g p kids found)))
    \/ (exists v, n_verifier nc = Some v /\ In v (s_found (scan g p kids found))).
  Proof.
    pattern kids, found, (scan g p kids found). apply scan_ind; cbv beta; clear kids found.
    - intros found [].
    - intros nm0 c0 r found Hs IH [E|Hin] Hl; [|exact (IH Hin Hl)]. injection E as -> ->.
      destruct (Hs nc Hl) as (w & Hw & Hm). right. exists w. split; [exact Hw|].
      apply scan_found_mono, mem_In, Hm.
    - intros nm0 c0 nc0 r found _ _ s IH [E|Hin] Hl.
      + injection E as -> ->. left. eexists. left. left. reflexivity.
      + destruct (IH Hin Hl) as [[q H]|H]; [left; exists q; simpl; tauto|right; exact H].
    - intros nm0 c0 nc0 r found _ _ _ found' s IH [E|Hin] Hl.
      + injection E as -> ->. left. destruct (is_dir (n_kind nc0)); eexists; simpl; auto.
      + destruct (IH Hin Hl) as [[q H]|H]; [left; exists q|right]; destruct (is_dir (n_kind nc0)); simpl; tauto.
  Qed.

  (* `found` grows by exactly the verify caps of the files and directories emitted: per verify cap there is
     one such entry if the cap is new in `found`, none otherwise *)
  Lemma scan_count kids :
    (forall i n, lookup g i = Some n -> n_kind n = KUnknown -> n_verifier n = None) ->
    forall found v,
      vcount g v (s_unknown (scan g p kids found)) = 0%nat /\
      (vcount g v (s_files (scan g p kids found)) + vcount g v (s_dirs (scan g p kids found))
       + Nat.b2n (mem v found) = Nat.b2n (mem v (s_found (scan g p kids found))))%nat.
  Proof.
    intros Hunk found v.
    pattern kids, found, (scan g p kids found). apply scan_ind; cbv beta; clear kids found.
    - split; reflexivity.
    - trivial.
    - intros nm c nc r found El Ek s IH. simpl. rewrite vcount_cons, (has_verifier_node g v _ c nc El), (Hunk c nc El Ek). exact IH.
    - (* the new entry counts for v iff its verify cap is v, and then v was not in `found` *)
      intros nm c nc r found El _ Hm found' s [I1 I2].
      set (b := opt_N_eqb (n_verifier nc) (Some v)).
      assert (Ef : mem v found' = b || mem v found).
      { unfold found', b. destruct (n_verifier nc) as [w|]; simpl; [rewrite (N.eqb_sym v w)|]; reflexivity. }
      assert (Hb : b = true -> mem v found = false) by (intro E; apply Hm, opt_N_eqb_eq, E).
      assert (Hadd : (Nat.b2n b + Nat.b2n (mem v found) = Nat.b2n (b || mem v found))%nat)
        by (destruct b; [rewrite Hb|]; reflexivity).
      rewrite Ef in I2.
      destruct (is_dir (n_kind nc)); simpl; rewrite vcount_cons, (has_verifier_node g v _ c nc El); fold b;
        (split; [exact I1|lia]).
  Qed.
End Scan.
