(* base64 round trip and injectivity of the Authorization header (C30). *)
From Coq Require Import List NArith ZArith Bool Lia.
Require Import ZifyBool ZifyN.
From Verif Require Import Lib.Hex Gen.Routes Model.HttpAuth Proofs.HttpAuth.
Import ListNotations.
Local Open Scope N_scope.
Local Open Scope bool_scope.

Lemma b64_alphabet_decodes :
  forallb (fun i => match b64val (b64char i) with Some v => (v =? i) && negb (b64char i =? 61) | None => false end)
          (map N.of_nat (seq 0 64)) = true.
Proof. vm_compute. reflexivity. Qed.

Lemma b64val_char v : v < 64 -> b64val (b64char v) = Some v /\ b64char v <> 61.
Proof.
  intro H. assert (In v (map N.of_nat (seq 0 64))) as Hin by (apply in_map_iff; exists (N.to_nat v); rewrite in_seq; lia).
  pose proof (proj1 (forallb_forall _ _) b64_alphabet_decodes v Hin) as F. cbv beta in F.
  destruct (b64val (b64char v)) as [w|]; [|discriminate F]. apply andb_prop in F. destruct F as [F1 F2].
  apply N.eqb_eq in F1. apply negb_true_iff, N.eqb_neq in F2. subst w. split; [reflexivity|exact F2].
Qed.

Lemma b64char_ascii v : (128 <=? b64char v) = false.
Proof.
  unfold b64char. destruct (nth_in_or_default (N.to_nat v) b64_alphabet 61) as [Hin| ->]; [|reflexivity].
  revert Hin. generalize (nth (N.to_nat v) b64_alphabet 61). apply Forall_forall. vm_compute. repeat constructor.
Qed.

Local Opaque b64char b64val.

(* b64encode recurses three bytes at a time *)
Lemma list_ind3 {A} (P : list A -> Prop) :
  P [] -> (forall x, P [x]) -> (forall x y, P [x; y]) -> (forall x y z r, P r -> P (x :: y :: z :: r)) ->
  forall l, P l.
Proof. intros H0 H1 H2 H3. fix IH 1. intros [|x [|y [|z r]]]; [exact H0|apply H1|apply H2|apply H3, IH]. Qed.

Lemma b64encode_ascii b : existsb (fun c => 128 <=? c) (b64encode b) = false.
Proof.
  induction b as [|x|x y|x y z r IH] using list_ind3; cbn [b64encode existsb]; rewrite ?b64char_ascii; [reflexivity..|exact IH].
Qed.

Lemma b64_loop_char v r quad leftc pads acc : v < 64 ->
  b64_loop (b64char v :: r) quad leftc pads acc =
  if quad =? 0 then b64_loop r 1 v 0 acc
  else if quad =? 1 then b64_loop r 2 (v mod 16) 0 ((leftc * 4 + v / 16) :: acc)
  else if quad =? 2 then b64_loop r 3 (v mod 4) 0 ((leftc * 16 + v / 4) :: acc)
  else b64_loop r 0 0 0 ((leftc * 64 + v) :: acc).
Proof.
  intro H. destruct (b64val_char v H) as [E Hne]. apply N.eqb_neq in Hne. cbn [b64_loop]. rewrite Hne, E. reflexivity.
Qed.

Lemma b64_loop_pad2 leftc acc : b64_loop [61; 61] 2 leftc 0 acc = Some (rev acc).
Proof. reflexivity. Qed.

Lemma b64_loop_pad1 leftc acc : b64_loop [61] 3 leftc 0 acc = Some (rev acc).
Proof. reflexivity. Qed.

(* sextets are cut from bytes by division; q * k + r with r < k is taken apart again the same way *)
Lemma pack_lt q r k n : q < n -> r < k -> q * k + r < n * k.
Proof. intros Hq Hr. apply N.lt_le_trans with ((q + 1) * k); [lia | apply N.mul_le_mono_r; lia]. Qed.

Lemma pack_div q r k : r < k -> (q * k + r) / k = q.
Proof. intro H. rewrite N.div_add_l, (N.div_small r k H) by lia. apply N.add_0_r. Qed.

Lemma pack_mod q r k : r < k -> (q * k + r) mod k = r.
Proof. intro H. rewrite N.add_comm, N.mod_add by lia. apply N.mod_small, H. Qed.

Lemma unpack x k : k <> 0 -> x / k * k + x mod k = x.
Proof. intro H. rewrite N.mul_comm. symmetry. apply N.div_mod, H. Qed.

(* The decoder hands back one byte per step: the first after two characters, the second and third after
   one more each.  u and w are the bits the next byte lends to the last sextet (0 when padding follows). *)
Lemma b64_byte1 x u r acc : x < 256 -> u < 16 ->
  b64_loop (b64char (x / 4) :: b64char (x mod 4 * 16 + u) :: r) 0 0 0 acc = b64_loop r 2 u 0 (x :: acc).
Proof.
  intros Hx Hu. assert (X : x mod 4 < 4) by (apply N.mod_lt; discriminate).
  rewrite b64_loop_char by (apply N.div_lt_upper_bound; [discriminate|exact Hx]). cbn [N.eqb].
  rewrite (b64_loop_char _ _ _ _ _ _ (pack_lt _ _ 16 4 X Hu)). cbn [N.eqb Pos.eqb].
  rewrite (pack_div _ _ 16 Hu), (pack_mod _ _ 16 Hu), unpack by discriminate. reflexivity.
Qed.

Lemma b64_byte2 y w r acc : w < 4 ->
  b64_loop (b64char (y mod 16 * 4 + w) :: r) 2 (y / 16) 0 acc = b64_loop r 3 w 0 (y :: acc).
Proof.
  intro Hw. assert (Y : y mod 16 < 16) by (apply N.mod_lt; discriminate).
  rewrite (b64_loop_char _ _ _ _ _ _ (pack_lt _ _ 4 16 Y Hw)). cbn [N.eqb Pos.eqb].
  rewrite (pack_div _ _ 4 Hw), (pack_mod _ _ 4 Hw), unpack by discriminate. reflexivity.
Qed.

Lemma b64_byte3 z r acc : b64_loop (b64char (z mod 64) :: r) 3 (z / 64) 0 acc = b64_loop r 0 0 0 (z :: acc).
Proof.
  rewrite b64_loop_char by (apply N.mod_lt; discriminate). cbn [N.eqb Pos.eqb]. rewrite unpack by discriminate. reflexivity.
Qed.

Lemma b64_loop_encode b : Forall is_byte b -> forall acc, b64_loop (b64encode b) 0 0 0 acc = Some (rev acc ++ b).
Proof.
  unfold is_byte. induction b as [|x|x y|x y z r IH] using list_ind3; intros Hb acc; cbn [b64encode].
  - cbn. rewrite app_nil_r. reflexivity.
  - apply Forall_inv in Hb.
    rewrite <- (N.add_0_r (x mod 4 * 16)), b64_byte1, b64_loop_pad2 by lia. reflexivity.
  - apply Forall_cons_iff in Hb. destruct Hb as [Hx Hy%Forall_inv].
    rewrite b64_byte1 by (assumption || (apply N.div_lt_upper_bound; lia)).
    rewrite <- (N.add_0_r (y mod 16 * 4)), b64_byte2, b64_loop_pad1 by lia.
    cbn [rev]. rewrite <- app_assoc. reflexivity.
  - apply Forall_cons_iff in Hb. destruct Hb as [Hx Hb]. apply Forall_cons_iff in Hb. destruct Hb as [Hy Hb].
    apply Forall_cons_iff in Hb. destruct Hb as [Hz Hb].
    rewrite b64_byte1, b64_byte2, b64_byte3, (IH Hb) by (assumption || (apply N.div_lt_upper_bound; lia)).
    cbn [rev]. rewrite <- !app_assoc. reflexivity.
Qed.

Lemma b64_roundtrip b : Forall is_byte b -> b64decode (b64encode b) = Some b.
Proof. intro H. unfold b64decode. rewrite b64encode_ascii, (b64_loop_encode b H). reflexivity. Qed.

Lemma swissnum_header_injective a b :
  Forall is_byte a -> Forall is_byte b -> swissnum_auth_header a = swissnum_auth_header b -> a = b.
Proof.
  intros Ha Hb H. unfold swissnum_auth_header in H. apply app_inv_head in H.
  apply (f_equal b64decode) in H. rewrite !b64_roundtrip in H by assumption. congruence.
Qed.

Lemma all_some_map_Some {A} (l : list A) : all_some (map Some l) = Some l.
Proof. induction l as [|x l IH]; simpl; [reflexivity | rewrite IH; reflexivity]. Qed.

Lemma auth_header_first a more xauth : auth_header (mk_request (Some a :: map Some more) xauth) = Some a.
Proof. unfold auth_header. simpl. rewrite all_some_map_Some. reflexivity. Qed.

(* presenting the header of any OTHER swissnum is presenting no swissnum *)
Lemma other_swissnum_ok :
  forall (B R RTW : Type) bucket_write bucket_abort already_uploaded backend_rtw
         swissnum swissnum' required more xauth (a : action B R RTW) st,
    Forall is_byte swissnum -> Forall is_byte swissnum' -> swissnum' <> swissnum ->
    serve B R RTW bucket_write bucket_abort already_uploaded backend_rtw swissnum required
          (mk_request (Some (swissnum_auth_header swissnum') :: map Some more) xauth) a st
    = (st, HStatus 401).
Proof.
  intros B R RTW bw ba au br sw sw' req more xauth a st Hb Hb' Hne.
  rewrite serve_no_swissnum; rewrite auth_header_first; [reflexivity|].
  intro H. apply Hne, swissnum_header_injective; [exact Hb'|exact Hb|congruence].
Qed.
