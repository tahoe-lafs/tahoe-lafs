(* C37: Spans -- canonical form, constructors and operators, queries, and the
   theorems over whole operation histories. *)
From Coq Require Import List Arith NArith Bool Lia ZifyBool ZifyNat ZifyN Permutation Btauto FinFun.
From Verif Require Import Lib.ListFacts Model.Spans Proofs.SpansBase Proofs.SpansAdd Proofs.SpansRemove.
Import ListNotations.
Local Open Scope N_scope.

Lemma mem_In z l : mem z l = true <-> exists sp, In sp l /\ in_iv (fst sp) (snd sp) z = true.
Proof. unfold mem. apply existsb_exists. Qed.

Lemma mem_lower e l z : wf_from e l -> mem z l = true -> e <= z.
Proof.
  intros H M. destruct (N.le_gt_cases e z) as [L|L]; [exact L|].
  rewrite (mem_below _ _ _ H L) in M. discriminate.
Qed.

Lemma mem_upper l : forall e z d, wf_from e l -> mem z l = true ->
  z < fst (last l d) + snd (last l d).
Proof.
  induction l as [|x r IH]; intros e z d H M; [discriminate|].
  cbn [wf_from] in H. destruct H as (H1 & H2 & H3).
  rewrite mem_cons in M. rewrite last_cons.
  destruct r as [|y r'].
  - cbn [last]. rewrite mem_nil in M. unfold in_iv in M. lia.
  - destruct (mem z (y :: r')) eqn:M2.
    + apply (IH _ z x H3 M2).
    + pose proof (IH _ (fst y) x H3) as U.
      assert (My : mem (fst y) (y :: r') = true).
      { rewrite mem_cons. cbn [wf_from] in H3. unfold in_iv. lia. }
      specialize (U My). cbn [wf_from] in H3. unfold in_iv in M. lia.
Qed.

Lemma wf_separated l : forall e x y, wf_from e l -> In x l -> In y l ->
  x = y \/ fst x + snd x < fst y \/ fst y + snd y < fst x.
Proof.
  induction l as [|h r IH]; intros e x y H Hx Hy; [contradiction|].
  cbn [wf_from] in H. destruct H as (H1 & H2 & H3).
  destruct Hx as [<-|Hx], Hy as [<-|Hy].
  - left; reflexivity.
  - right; left. destruct (wf_from_In _ _ _ H3 Hy). lia.
  - right; right. destruct (wf_from_In _ _ _ H3 Hx). lia.
  - apply (IH _ _ _ H3 Hx Hy).
Qed.

Lemma mem_head e a b r z : wf_from e ((a, b) :: r) -> z <= a + b ->
  mem z ((a, b) :: r) = in_iv a b z.
Proof.
  intros (_ & _ & H) Hz. cbn [fst snd] in H.
  rewrite mem_cons, (mem_below _ _ _ H) by lia. apply orb_false_r.
Qed.

(* the first span is determined by the set: its start is the least element, its
   end the least non-element above it.  One half; the other is the symmetric one. *)
Lemma wf_head_le e1 e2 a b r1 c d r2 :
  wf_from e1 ((a, b) :: r1) -> wf_from e2 ((c, d) :: r2) ->
  (forall z, mem z ((a, b) :: r1) = mem z ((c, d) :: r2)) ->
  c <= a /\ (c = a -> b <= d).
Proof.
  intros H1 H2 EQ. assert (Hb : 0 < b) by apply H1. split.
  - apply (mem_lower c ((c, d) :: r2)); [apply (wf_from_head _ _ _ _ H2), N.le_refl|].
    rewrite <- EQ, (mem_head _ _ _ _ _ H1) by lia. unfold in_iv. lia.
  - intros ->. destruct (N.le_gt_cases b d) as [L|L]; [exact L|exfalso].
    specialize (EQ (a + d)).
    rewrite (mem_head _ _ _ _ _ H1), (mem_head _ _ _ _ _ H2) in EQ by lia.
    unfold in_iv in EQ. lia.
Qed.

Lemma wf_canonical l1 : forall l2 e1 e2, wf_from e1 l1 -> wf_from e2 l2 ->
  (forall z, mem z l1 = mem z l2) -> l1 = l2.
Proof.
  induction l1 as [|[a b] r1 IH]; intros [|[c d] r2] e1 e2 H1 H2 EQ.
  - reflexivity.
  - specialize (EQ c). rewrite (mem_head _ _ _ _ _ H2) in EQ by lia.
    destruct H2 as (_ & H2 & _). unfold in_iv in EQ. cbn [snd mem existsb] in *. lia.
  - specialize (EQ a). rewrite (mem_head _ _ _ _ _ H1) in EQ by lia.
    destruct H1 as (_ & H1 & _). unfold in_iv in EQ. cbn [snd mem existsb] in *. lia.
  - destruct (wf_head_le _ _ _ _ _ _ _ _ H1 H2 EQ) as [L1 L2].
    destruct (wf_head_le _ _ _ _ _ _ _ _ H2 H1 (fun z => eq_sym (EQ z))) as [L3 L4].
    assert (a = c) by lia. subst c. assert (b = d) by (specialize (L2 eq_refl); specialize (L4 eq_refl); lia).
    subst d. f_equal.
    destruct H1 as (_ & _ & H1), H2 as (_ & _ & H2). cbn [fst snd] in H1, H2.
    apply (IH r2 _ _ H1 H2). intro z. specialize (EQ z). rewrite !mem_cons in EQ. cbn [fst snd] in EQ.
    destruct (in_iv a b z) eqn:Z; [|exact EQ].
    unfold in_iv in Z. rewrite (mem_below _ _ _ H1), (mem_below _ _ _ H2) by lia. reflexivity.
Qed.

Theorem wf_unique l1 l2 : wf l1 -> wf l2 -> (forall z, mem z l1 = mem z l2) -> l1 = l2.
Proof. intros H1 H2. apply (wf_canonical l1 l2 0 0 H1 H2). Qed.

Definition all_pos (o : list span) : Prop := Forall (fun sp => 0 < snd sp) o.

(* a zero-length span anywhere in the operand: AssertionError *)
Definition has_zero (o : list span) : Prop := Exists (fun sp => snd sp = 0) o.

Lemma wf_all_pos e l : wf_from e l -> all_pos l.
Proof.
  intro H. apply Forall_forall. intros sp Hin. destruct (wf_from_In _ _ _ H Hin). assumption.
Qed.

(* Folding over an operand an operation that, given a positive length, combines
   the set with the interval by g, and raises on a zero length. *)
Section Fold.
Variables (op : N -> N -> spans -> option spans) (g : bool -> bool -> bool).
Hypothesis op_correct : forall s n, 0 < n -> forall l, wf l ->
  exists l', op s n l = Some l' /\ wf l' /\ forall z, mem z l' = g (mem z l) (in_iv s n z).
Hypothesis op_zero : forall s l, op s 0 l = None.
Hypothesis g_false : forall x, g x false = x.
Hypothesis g_orb : forall x a b, g (g x a) b = g x (a || b).

Let fold (acc : option spans) (o : spans) : option spans :=
  fold_left (fun a sp => bind a (op (fst sp) (snd sp))) o acc.

Lemma fold_correct o : forall l, wf l -> all_pos o ->
  exists l', fold (Some l) o = Some l' /\ wf l' /\ forall z, mem z l' = g (mem z l) (mem z o).
Proof.
  induction o as [|sp o IH]; intros l H P.
  - exists l. repeat split; [assumption|]. intro z. symmetry. apply g_false.
  - inversion P as [|? ? P1 P2]; subst.
    destruct (op_correct (fst sp) (snd sp) P1 l H) as (l1 & E1 & W1 & M1).
    destruct (IH l1 W1 P2) as (l' & E & W & M).
    exists l'. unfold fold in *. cbn [fold_left bind]. rewrite E1. repeat split; [exact E|exact W|].
    intro z. rewrite M, M1, mem_cons. apply g_orb.
Qed.

Lemma fold_zero o : forall l, wf l -> has_zero o -> fold (Some l) o = None.
Proof.
  induction o as [|sp o IH]; intros l H Z; [inversion Z|].
  unfold fold in *. cbn [fold_left bind]. destruct (N.eq_dec (snd sp) 0) as [E|E].
  - rewrite E, op_zero. apply (fold_bind_None (fun sp => op (fst sp) (snd sp))).
  - inversion Z as [? ? Z1|? ? Z1]; subst; [contradiction|].
    destruct (op_correct (fst sp) (snd sp) ltac:(lia) l H) as (l1 & -> & W1 & _).
    apply (IH _ W1 Z1).
Qed.
End Fold.

Definition diffb (x y : bool) : bool := x && negb y.

Lemma fold_add_correct o l : wf l -> all_pos o ->
  exists l', fold_add (Some l) o = Some l' /\ wf l' /\ forall z, mem z l' = mem z l || mem z o.
Proof.
  apply (fold_correct spans_add orb spans_add_correct orb_false_r).
  intros. symmetry. apply orb_assoc.
Qed.

Lemma fold_remove_correct o l : wf l -> all_pos o ->
  exists l', fold_remove (Some l) o = Some l' /\ wf l' /\ forall z, mem z l' = mem z l && negb (mem z o).
Proof.
  apply (fold_correct spans_remove diffb spans_remove_correct); unfold diffb; intros; btauto.
Qed.

Lemma fold_add_zero o : forall l, wf l -> has_zero o -> fold_add (Some l) o = None.
Proof. exact (fold_zero spans_add orb spans_add_correct spans_add_zero o). Qed.

Lemma fold_remove_zero o : forall l, wf l -> has_zero o -> fold_remove (Some l) o = None.
Proof. exact (fold_zero spans_remove diffb spans_remove_correct spans_remove_zero o). Qed.

Lemma wf_nil : wf [].
Proof. exact I. Qed.

Lemma spans_of_list_correct o : all_pos o ->
  exists o', spans_of_list o = Some o' /\ wf o' /\ forall z, mem z o' = mem z o.
Proof. exact (fold_add_correct o [] wf_nil). Qed.

Lemma spans_of_list_zero o : has_zero o -> spans_of_list o = None.
Proof. apply (fold_add_zero o [] wf_nil). Qed.

(* Spans(other) is an exact copy *)
Lemma spans_copy_id l : wf l -> spans_copy l = Some l.
Proof.
  intro H. unfold spans_copy. destruct (spans_len l =? 0) eqn:E.
  - destruct l as [|sp r]; [reflexivity|].
    pose proof (spans_len_pos_nonempty (sp :: r) H ltac:(discriminate)). lia.
  - destruct (spans_of_list_correct l (wf_all_pos _ _ H)) as (l' & E' & W & M).
    change (spans_of_list l = Some l). rewrite E'. f_equal. exact (wf_unique _ _ W H M).
Qed.

(* the binary operator f computes g on the sets denoted *)
Definition refines2 (f : spans -> spans -> option spans) (g : bool -> bool -> bool) : Prop :=
  forall a b, wf a -> wf b ->
  exists c, f a b = Some c /\ wf c /\ forall z, mem z c = g (mem z a) (mem z b).

Lemma spans_iadd_correct : refines2 spans_iadd orb.
Proof. intros a b Ha Hb. apply (fold_add_correct b a Ha (wf_all_pos _ _ Hb)). Qed.

Lemma spans_isub_correct : refines2 spans_isub diffb.
Proof. intros a b Ha Hb. apply (fold_remove_correct b a Ha (wf_all_pos _ _ Hb)). Qed.

Lemma spans_union_correct : refines2 spans_union orb.
Proof. intros a b Ha Hb. unfold spans_union. rewrite (spans_copy_id a Ha). apply spans_iadd_correct; assumption. Qed.

Lemma spans_diff_correct : refines2 spans_diff diffb.
Proof. intros a b Ha Hb. unfold spans_diff. rewrite (spans_copy_id a Ha). apply spans_isub_correct; assumption. Qed.

Lemma spans_inter_unfold (a b : spans) : a <> [] ->
  spans_inter a b =
  let '(ls, ll) := last a (0, 0) in
  bind (spans_diff [(fst (hd (0, 0) a), ls + ll)] b) (fun not_other => spans_diff a not_other).
Proof. destruct a as [|[fs fl] r]; [congruence|reflexivity]. Qed.

Lemma spans_inter_correct : refines2 spans_inter andb.
Proof.
  intros a b Ha Hb. destruct a as [|x r] eqn:Ea; [exists []; repeat split|]. rewrite <- Ea in *.
  assert (Hne : a <> []) by (rewrite Ea; discriminate).
  rewrite (spans_inter_unfold a b Hne).
  destruct (last a (0, 0)) as [ls ll] eqn:EL.
  set (fs := fst (hd (0, 0) a)).
  (* the bounds cover the left operand *)
  assert (B : forall z, mem z a = true -> in_iv fs (ls + ll) z = true).
  { intros z Mz. pose proof (mem_upper a 0 z (0, 0) Ha Mz) as U. rewrite EL in U. cbn [fst snd] in U.
    assert (Wfs : wf_from fs a) by (subst fs; rewrite Ea in *; apply (wf_from_head 0 _ _ _ Ha), N.le_refl).
    pose proof (mem_lower _ _ _ Wfs Mz). unfold in_iv. lia. }
  assert (Wb : wf [(fs, ls + ll)]).
  { assert (Mf : mem fs a = true).
    { subst fs. rewrite Ea in *. rewrite mem_cons. destruct Ha as (_ & Hl & _). unfold in_iv. cbn [hd]. lia. }
    apply B in Mf. unfold in_iv in Mf. unfold wf. cbn [wf_from fst snd]. repeat split; lia. }
  destruct (spans_diff_correct _ b Wb Hb) as (no & E1 & W1 & M1).
  rewrite E1. cbn [bind].
  destruct (spans_diff_correct a no Ha W1) as (c & E2 & W2 & M2).
  exists c. repeat split; [exact E2|exact W2|].
  intro z. rewrite M2, M1, mem_cons, mem_nil. unfold diffb. cbn [fst snd].
  destruct (mem z a) eqn:Mz; [|reflexivity]. rewrite (B z Mz). btauto.
Qed.

(* the test made on each span: it covers [s, s+n) *)
Definition covers (s n : N) (sp : span) : bool :=
  match overlap s n (fst sp) (snd sp) with
  | Some (os, ol) => (os =? s) && (ol =? n)
  | None => false
  end.

Lemma contains_existsb s n l : spans_contains s n l = existsb (covers s n) l.
Proof.
  induction l as [|[a b] r IH]; [reflexivity|]. cbn [spans_contains existsb]. unfold covers. cbn [fst snd].
  destruct (overlap s n a b) as [[os ol]|]; [|exact IH].
  rewrite IH. destruct ((os =? s) && (ol =? n)); reflexivity.
Qed.

Lemma covers_spec s n sp :
  covers s n sp = true <-> 0 < n /\ fst sp <= s /\ s + n <= fst sp + snd sp.
Proof.
  unfold covers. destruct (overlap s n (fst sp) (snd sp)) as [[os ol]|] eqn:Ov.
  - apply overlap_some in Ov. lia.
  - apply overlap_none in Ov. split; [discriminate|]. intro. exfalso. lia.
Qed.

Theorem spans_contains_correct s n l : wf l ->
  (spans_contains s n l = true <-> 0 < n /\ forall z, s <= z -> z < s + n -> mem z l = true).
Proof.
  intro H. rewrite contains_existsb, existsb_exists. split.
  - intros (sp & Hin & C). apply covers_spec in C. destruct C as (Hn & H1 & H2). split; [exact Hn|].
    intros z Z1 Z2. apply mem_In. exists sp. split; [exact Hin|]. unfold in_iv. lia.
  - intros [Hn All].
    assert (Ms : mem s l = true) by (apply All; lia).
    apply mem_In in Ms. destruct Ms as (sp & Hin & Hs). unfold in_iv in Hs.
    exists sp. split; [exact Hin|]. apply covers_spec. split; [exact Hn|]. split; [lia|].
    destruct (N.le_gt_cases (s + n) (fst sp + snd sp)) as [L|L]; [exact L|exfalso].
    (* the first offset after sp is in the range, hence in another span, which sp touches *)
    assert (Me : mem (fst sp + snd sp) l = true) by (apply All; lia).
    apply mem_In in Me. destruct Me as (sp2 & Hin2 & Hs2).
    destruct (wf_separated l 0 sp sp2 H Hin Hin2) as [->|[S1|S1]]; unfold in_iv in *; lia.
Qed.

Lemma In_nrange s n z : In z (nrange s n) <-> s <= z /\ z < s + n.
Proof.
  unfold nrange. rewrite in_map_iff. split.
  - intros (k & <- & Hk). apply in_seq in Hk. lia.
  - intros [H1 H2]. exists (N.to_nat (z - s)). split; [lia|]. apply in_seq. lia.
Qed.

Lemma NoDup_nrange s n : NoDup (nrange s n).
Proof.
  unfold nrange. apply Injective_map_NoDup; [|apply seq_NoDup].
  intros x y E. lia.
Qed.

Lemma length_nrange s n : length (nrange s n) = N.to_nat n.
Proof. unfold nrange. rewrite map_length, seq_length. reflexivity. Qed.

Lemma In_each z l : In z (spans_each l) <-> mem z l = true.
Proof.
  unfold spans_each. rewrite in_flat_map, mem_In. split.
  - intros (sp & Hin & Hz). exists sp. split; [exact Hin|]. apply In_nrange in Hz. unfold in_iv. lia.
  - intros (sp & Hin & Hz). exists sp. split; [exact Hin|]. apply In_nrange. unfold in_iv in Hz. lia.
Qed.

Lemma NoDup_each l : forall e, wf_from e l -> NoDup (spans_each l).
Proof.
  induction l as [|sp r IH]; intros e H; [constructor|].
  cbn [wf_from] in H. destruct H as (H1 & H2 & H3).
  change (spans_each (sp :: r)) with (nrange (fst sp) (snd sp) ++ spans_each r).
  apply NoDup_app_intro; [apply NoDup_nrange|apply (IH _ H3)|].
  intros x Hx Hx2. apply In_nrange in Hx. apply In_each in Hx2.
  pose proof (mem_lower _ _ _ H3 Hx2). lia.
Qed.

Lemma length_each l : N.of_nat (length (spans_each l)) = spans_len l.
Proof.
  induction l as [|sp r IH]; [reflexivity|].
  change (spans_each (sp :: r)) with (nrange (fst sp) (snd sp) ++ spans_each r).
  rewrite app_length, length_nrange, spans_len_cons. lia.
Qed.

Theorem spans_len_cardinality l : wf l ->
  NoDup (spans_each l) /\
  (forall z, In z (spans_each l) <-> mem z l = true) /\
  spans_len l = N.of_nat (length (spans_each l)).
Proof.
  intro H. split; [apply (NoDup_each l 0 H)|]. split; [intro z; apply In_each|].
  symmetry. apply length_each.
Qed.

Definition op_ok (op : sop) : Prop :=
  match op with
  | OpAdd _ n | OpRemove _ n => 0 < n
  | OpUnion o | OpDiff o | OpInter o | OpIAdd o | OpISub o => all_pos o
  | OpContains _ _ => True
  end.

Definition op_rejected (op : sop) : Prop :=
  match op with
  | OpAdd _ n | OpRemove _ n => n = 0
  | OpUnion o | OpDiff o | OpInter o | OpIAdd o | OpISub o => has_zero o
  | OpContains _ _ => False
  end.

(* the reference: a set of N as its characteristic function *)
Definition set_step (S : N -> bool) (op : sop) : N -> bool :=
  match op with
  | OpAdd s n => fun z => S z || in_iv s n z
  | OpRemove s n => fun z => S z && negb (in_iv s n z)
  | OpUnion o | OpIAdd o => fun z => S z || mem z o
  | OpDiff o | OpISub o => fun z => S z && negb (mem z o)
  | OpInter o => fun z => S z && mem z o
  | OpContains _ _ => S
  end.

Definition set_run (ops : list sop) : N -> bool :=
  fold_left set_step ops (fun _ => false).

Lemma set_step_ext S S' op : (forall z, S z = S' z) -> forall z, set_step S op z = set_step S' op z.
Proof. intros E z. destruct op; cbn [set_step]; rewrite ?E; reflexivity. Qed.

Lemma set_fold_ext ops : forall S S', (forall z, S z = S' z) ->
  forall z, fold_left set_step ops S z = fold_left set_step ops S' z.
Proof.
  induction ops as [|op ops IH]; intros S S' E z; cbn [fold_left]; [apply E|].
  apply IH. apply set_step_ext. exact E.
Qed.

Lemma operand_correct f g o l : refines2 f g -> wf l -> all_pos o ->
  exists l', bind (spans_of_list o) (f l) = Some l' /\ wf l' /\
             forall z, mem z l' = g (mem z l) (mem z o).
Proof.
  intros F H P. destruct (spans_of_list_correct o P) as (o' & -> & W & M).
  destruct (F l o' H W) as (c & Ec & Wc & Mc).
  exists c. repeat split; [exact Ec|exact Wc|]. intro z. rewrite Mc, M. reflexivity.
Qed.

Theorem sp_step_correct l op : wf l -> op_ok op ->
  exists l', sp_step l op = Some l' /\ wf l' /\
             forall z, mem z l' = set_step (fun x => mem x l) op z.
Proof.
  intros H Hop. destruct op as [s n|s n|o|o|o|o|o|s n]; cbn [op_ok] in Hop; cbn [sp_step set_step].
  - apply (spans_add_correct s n Hop l H).
  - apply (spans_remove_correct s n Hop l H).
  - apply (operand_correct _ orb _ _ spans_union_correct H Hop).
  - apply (operand_correct _ diffb _ _ spans_diff_correct H Hop).
  - apply (operand_correct _ andb _ _ spans_inter_correct H Hop).
  - apply (operand_correct _ orb _ _ spans_iadd_correct H Hop).
  - apply (operand_correct _ diffb _ _ spans_isub_correct H Hop).
  - exists l. repeat split. exact H.
Qed.

Theorem sp_step_rejected l op : op_rejected op -> sp_step l op = None.
Proof.
  destruct op as [s n|s n|o|o|o|o|o|s n]; cbn [op_rejected sp_step]; intro R;
    [subst n; reflexivity|subst n; reflexivity|rewrite (spans_of_list_zero o R); reflexivity..|contradiction].
Qed.

Lemma sp_run_from ops : forall l, wf l -> Forall op_ok ops ->
  exists l', fold_left (fun st op => bind st (fun l => sp_step l op)) ops (Some l) = Some l' /\
             wf l' /\ forall z, mem z l' = fold_left set_step ops (fun x => mem x l) z.
Proof.
  induction ops as [|op ops IH]; intros l H P.
  - exists l. repeat split. exact H.
  - inversion P as [|? ? P1 P2]; subst.
    destruct (sp_step_correct l op H P1) as (l1 & E1 & W1 & M1).
    destruct (IH l1 W1 P2) as (l' & E & W & M).
    exists l'. cbn [fold_left bind]. rewrite E1. repeat split; [exact E|exact W|].
    intro z. rewrite M. apply set_fold_ext. exact M1.
Qed.

Theorem sp_run_correct ops : Forall op_ok ops ->
  exists l, sp_run ops = Some l /\ wf l /\ forall z, mem z l = set_run ops z.
Proof. exact (sp_run_from ops [] wf_nil). Qed.

(* every wf list is reachable: add its spans in order *)
Theorem wf_reachable l : wf l -> sp_run (map (fun sp => OpAdd (fst sp) (snd sp)) l) = Some l.
Proof.
  intro H.
  assert (P : Forall op_ok (map (fun sp => OpAdd (fst sp) (snd sp)) l)).
  { apply Forall_forall. intros op Hin. apply in_map_iff in Hin. destruct Hin as (sp & <- & Hin).
    cbn [op_ok]. destruct (wf_from_In _ _ _ H Hin). assumption. }
  destruct (sp_run_correct _ P) as (l' & E & W & M). rewrite E. f_equal.
  apply (wf_unique _ _ W H). intro z. rewrite M. unfold set_run.
  assert (G : forall (S : N -> bool), fold_left set_step (map (fun sp => OpAdd (fst sp) (snd sp)) l) S z = S z || mem z l).
  { clear. induction l as [|sp r IH]; intro S; cbn [map fold_left].
    - rewrite mem_nil. btauto.
    - rewrite IH. cbn [set_step]. rewrite mem_cons. btauto. }
  rewrite G. reflexivity.
Qed.

Lemma wf_from_consecutive l : forall e, wf_from e l ->
  forall p x y q, l = p ++ x :: y :: q -> fst x + snd x < fst y.
Proof.
  induction l as [|sp r IH]; intros e H p x y q E.
  - destruct p; discriminate.
  - cbn [wf_from] in H. destruct H as (H1 & H2 & H3).
    destruct p as [|h p]; cbn [app] in E.
    + injection E as E1 E2. subst. cbn [wf_from] in H3. lia.
    + injection E as E1 E2. apply (IH _ H3 p x y q E2).
Qed.

Lemma chain_wf l : forall e,
  (forall sp, In sp l -> 0 < snd sp) ->
  match l with [] => True | x :: _ => e <= fst x end ->
  (forall p x y q, l = p ++ x :: y :: q -> fst x + snd x < fst y) ->
  wf_from e l.
Proof.
  induction l as [|sp r IH]; intros e A Hd B; [exact I|].
  cbn [wf_from]. split; [exact Hd|]. split; [apply A; left; reflexivity|].
  apply IH.
  - intros x Hx. apply A. right. exact Hx.
  - destruct r as [|y q]; [exact I|]. specialize (B [] sp y q eq_refl). lia.
  - intros p x y q E. apply (B (sp :: p) x y q). cbn [app]. f_equal. exact E.
Qed.

Lemma wf_spelled_out l : wf l <->
  (forall sp, In sp l -> 0 < snd sp) /\
  (forall p x y q, l = p ++ x :: y :: q -> fst x + snd x < fst y).
Proof.
  split.
  - intro H. split.
    + intros sp Hin. apply (wf_from_In _ _ _ H Hin).
    + apply (wf_from_consecutive l 0 H).
  - intros [A B]. apply chain_wf; [exact A| |exact B]. destruct l; [exact I|lia].
Qed.
