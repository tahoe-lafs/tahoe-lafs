(* C03: the lists of the fetcher state, the shape of one run of _do_loop and of one
   _block_request_activity, and the safety statements that hold for every event sequence. *)
From Coq Require Import List NArith Bool Arith Lia Permutation.
From Verif Require Import Lib.ListFacts Lib.Sched Model.Fetcher.
Import ListNotations.

Lemma distinct_incl a b : incl a b -> distinct a <= distinct b.
Proof.
  intros H. unfold distinct. apply NoDup_incl_length; [apply NoDup_nodup|].
  intros x Hx. apply nodup_In. apply H. eapply nodup_In; exact Hx.
Qed.

Lemma distinct_same a b : incl a b -> incl b a -> distinct a = distinct b.
Proof. intros H1 H2. apply Nat.le_antisymm; apply distinct_incl; assumption. Qed.

Lemma distinct_le_length l : distinct l <= length l.
Proof.
  unfold distinct. induction l as [|x r IH]; cbn [nodup length]; [lia|].
  destruct (in_dec N.eq_dec x r); cbn [length]; lia.
Qed.

Lemma distinct_nodup l : NoDup l -> distinct l = length l.
Proof. intros H. unfold distinct. now rewrite nodup_fixed_point. Qed.

Lemma sid_eqb_eq x y : sid_eqb x y = true <-> x = y.
Proof.
  unfold sid_eqb. rewrite !andb_true_iff, !N.eqb_eq. split.
  - intros [[[A B] C] D]. destruct x, y. cbn in *. congruence.
  - intros ->. auto.
Qed.

Lemma sid_eqb_refl x : sid_eqb x x = true.
Proof. now apply sid_eqb_eq. Qed.

Lemma sid_eqb_neq x y : sid_eqb x y = false <-> x <> y.
Proof.
  split.
  - intros H E. apply sid_eqb_eq in E. congruence.
  - intros H. destruct (sid_eqb x y) eqn:E; [apply sid_eqb_eq in E; contradiction|reflexivity].
Qed.

Lemma share_eq_dec (a b : share) : {a = b} + {a <> b}.
Proof. decide equality; apply N.eq_dec. Qed.

Lemma existsb_eqb_map_In {A} (f : A -> N) n l : existsb (fun x => N.eqb (f x) n) l = true <-> In n (map f l).
Proof.
  rewrite existsb_exists, in_map_iff. split.
  - intros (x & Hx & E). apply N.eqb_eq in E. eauto.
  - intros (x & E & Hx). exists x. split; [exact Hx|]. now apply N.eqb_eq.
Qed.

Lemma has_num_In n l : has_num n l = true <-> In n (nums l).
Proof. apply existsb_eqb_map_In. Qed.

Lemma blk_has_In n bl : blk_has n bl = true <-> In n (bnums bl).
Proof. apply existsb_eqb_map_In. Qed.

Lemma has_id_In x l : has_id x l = true <-> In x l.
Proof.
  unfold has_id. rewrite existsb_exists. split.
  - intros (y & Hy & E). apply sid_eqb_eq in E. now subst.
  - intros H. exists x. split; [exact H|apply sid_eqb_refl].
Qed.

Lemma has_id_false x l : has_id x l = false <-> ~ In x l.
Proof.
  split.
  - intros H Hin. apply has_id_In in Hin. congruence.
  - intros H. destruct (has_id x l) eqn:E; [apply has_id_In in E; contradiction|reflexivity].
Qed.

Lemma remove_first_incl x l : incl (remove_first x l) l.
Proof.
  induction l as [|y r IH]; cbn [remove_first]; [apply incl_refl|].
  destruct (sid_eqb y x); [apply incl_tl, incl_refl|].
  intros z [Hz|Hz]; [now left|right; now apply IH].
Qed.

Lemma remove_first_length x l : In x l -> S (length (remove_first x l)) = length l.
Proof.
  induction l as [|y r IH]; cbn [remove_first length In]; [tauto|].
  intros H. destruct (sid_eqb y x) eqn:E; [reflexivity|].
  destruct H as [H|H]; [subst; rewrite sid_eqb_refl in E; discriminate|].
  cbn [length]. now rewrite IH.
Qed.

Lemma remove_first_keeps x l z : In z l -> z <> x -> In z (remove_first x l).
Proof.
  induction l as [|y r IH]; cbn [remove_first In]; [tauto|].
  intros [H|H] Hne.
  - subst y. destruct (sid_eqb z x) eqn:E; [apply sid_eqb_eq in E; contradiction|now left].
  - destruct (sid_eqb y x); [exact H|right; now apply IH].
Qed.

Lemma remove_first_perm x l : In x l -> Permutation l (x :: remove_first x l).
Proof.
  induction l as [|y r IH]; cbn [remove_first In]; [tauto|].
  intros H. destruct (sid_eqb y x) eqn:E.
  - apply sid_eqb_eq in E. subst. apply Permutation_refl.
  - destruct H as [H|H]; [subst; rewrite sid_eqb_refl in E; discriminate|].
    eapply perm_trans; [apply perm_skip, IH, H|apply perm_swap].
Qed.

Lemma remove_id_In x l z : In z (remove_id x l) <-> In z l /\ z <> x.
Proof.
  unfold remove_id. rewrite filter_In. split; intros [A B]; (split; [exact A|]).
  - intros E. subst. rewrite sid_eqb_refl in B. discriminate.
  - apply negb_true_iff. now apply sid_eqb_neq.
Qed.

Lemma remove_id_length_le x l : length (remove_id x l) <= length l.
Proof. unfold remove_id. apply filter_length_le. Qed.

Lemma remove_id_length_lt x l : In x l -> length (remove_id x l) < length l.
Proof.
  intros H. unfold remove_id. apply (filter_length_lt _ _ x H). now rewrite sid_eqb_refl.
Qed.

Lemma remove_num_In n l z : In z (remove_num n l) <-> In z l /\ sh_num z <> n.
Proof.
  unfold remove_num. rewrite filter_In. split; intros [A B]; (split; [exact A|]).
  - intros E. rewrite E, N.eqb_refl in B. discriminate.
  - destruct (N.eqb_spec (sh_num z) n); [contradiction|reflexivity].
Qed.

Lemma set_add_In x l z : In z (set_add x l) <-> In z l \/ z = x.
Proof.
  unfold set_add. destruct (has_id x l) eqn:E.
  - apply has_id_In in E. split; [now left|intros [H|H]; [exact H|now subst]].
  - rewrite in_app_iff. cbn [In]. split; intros [H|H]; auto.
    destruct H as [H|[]]. now right.
Qed.

Lemma set_add_incl x l : incl l (set_add x l).
Proof. intros z Hz. apply set_add_In. now left. Qed.

Lemma set_add_length x l : length l <= length (set_add x l) <= S (length l).
Proof. unfold set_add. destruct (has_id x l); [lia|]. rewrite app_length. cbn [length]. lia. Qed.

Lemma insert_share_perm x l : Permutation (insert_share x l) (x :: l).
Proof.
  induction l as [|y r IH]; cbn [insert_share]; [apply Permutation_refl|].
  destruct (key_le x y); [apply Permutation_refl|].
  eapply perm_trans; [apply perm_skip, IH|apply perm_swap].
Qed.

Lemma sort_shares_perm l : Permutation (sort_shares l) l.
Proof.
  unfold sort_shares. induction l as [|x r IH]; cbn [fold_right]; [apply Permutation_refl|].
  eapply perm_trans; [apply insert_share_perm|now apply perm_skip].
Qed.

Lemma sort_shares_In l z : In z (sort_shares l) <-> In z l.
Proof. split; apply Permutation_in; [apply sort_shares_perm|apply Permutation_sym, sort_shares_perm]. Qed.

Lemma sort_shares_length l : length (sort_shares l) = length l.
Proof. apply Permutation_length, sort_shares_perm. Qed.

Lemma blk_set_bnums n id bl :
  bnums (blk_set n id bl) = if blk_has n bl then bnums bl else bnums bl ++ [n].
Proof.
  unfold bnums, blk_has. induction bl as [|p r IH]; cbn [blk_set map existsb]; [reflexivity|].
  destruct (N.eqb_spec (fst p) n) as [e|ne]; cbn [orb map fst].
  - now rewrite e.
  - rewrite IH. destruct (existsb _ r); reflexivity.
Qed.

Lemma blk_set_nodup n id bl : NoDup (bnums bl) -> NoDup (bnums (blk_set n id bl)).
Proof.
  intros H. rewrite blk_set_bnums. destruct (blk_has n bl) eqn:E; [exact H|].
  apply NoDup_snoc; [exact H|].
  intros Hin. apply blk_has_In in Hin. congruence.
Qed.

Lemma blk_set_In n id bl p : In p (blk_set n id bl) -> p = (n, id) \/ In p bl.
Proof.
  induction bl as [|q r IH]; cbn [blk_set In].
  - intros [H|[]]; now left.
  - destruct (N.eqb (fst q) n); cbn [In].
    + intros [H|H]; [now left|right; now right].
    + intros [H|H]; [right; now left|]. destruct (IH H); [now left|right; now right].
Qed.

Lemma blk_set_incl n id bl : incl (bnums bl) (bnums (blk_set n id bl)).
Proof.
  rewrite blk_set_bnums. destruct (blk_has n bl); [apply incl_refl|apply incl_appl, incl_refl].
Qed.

Lemma blk_set_has n id bl : In n (bnums (blk_set n id bl)).
Proof.
  rewrite blk_set_bnums. destruct (blk_has n bl) eqn:E; [now apply blk_has_In|].
  apply in_or_app. right. now left.
Qed.

Lemma find_share_cons bl act fs m y r :
  find_share bl act fs m (y :: r) =
  if blk_has (sh_num y) bl || has_num (sh_num y) act then find_share bl act fs m r
  else if m <=? count_srv (sh_srv y) fs then (fst (find_share bl act fs m r), true) else (Some y, false).
Proof. cbn [find_share]. now destruct (blk_has _ bl), (has_num _ act). Qed.

(* _find_and_use_share: the share it picks is unused, its number neither fetched nor active, its
   server below the limit; the diversity wish needs a server at its limit; with neither, every
   unused share number is fetched or active *)
Lemma find_share_spec bl act fs m l :
  match find_share bl act fs m l with
  | (Some sh, _) => In sh l /\ blk_has (sh_num sh) bl = false /\ has_num (sh_num sh) act = false /\
                    count_srv (sh_srv sh) fs < m
  | (None, true) => exists x, In x l /\ m <= count_srv (sh_srv x) fs
  | (None, false) => forall x, In x l -> In (sh_num x) (bnums bl ++ nums act)
  end.
Proof.
  induction l as [|y r IH]; [intros x []|]. rewrite find_share_cons.
  destruct (blk_has (sh_num y) bl || has_num (sh_num y) act) eqn:W.
  - apply orb_true_iff in W. rewrite blk_has_In, has_num_In, <- in_app_iff in W.
    destruct (find_share bl act fs m r) as [[sh|] d]; [|destruct d].
    + destruct IH as (Hsh & C). split; [now right|exact C].
    + destruct IH as (x & Hx & L). exists x. split; [now right|exact L].
    + intros x [<-|Hx]; [exact W|now apply IH].
  - apply orb_false_iff in W. destruct (Nat.leb_spec m (count_srv (sh_srv y) fs)) as [L|L].
    + destruct (find_share bl act fs m r) as [[sh|] d]; cbn [fst].
      * destruct IH as (Hsh & C). split; [now right|exact C].
      * exists y. split; [now left|exact L].
    + split; [now left|]. tauto.
Qed.

Lemma count_srv_le srv l : count_srv srv l <= length l.
Proof. unfold count_srv. apply filter_length_le. Qed.

Definition loop_measure (s : fstate) : nat :=
  length (f_shares s) + (length (f_shares s) + length (f_from_server s) + 1 - f_max_per_server s).

Lemma do_while_fuel : forall fuel s outs, loop_measure s < fuel -> do_while fuel s outs <> None.
Proof.
  induction fuel as [|f IH]; intros s outs Hm; [lia|].
  cbn [do_while]. destruct (have_or_active s <? f_k s).
  - pose proof (find_share_spec (f_blocks s) (f_active s) (f_from_server s) (f_max_per_server s) (f_shares s)) as F.
    destruct (find_share _ _ _ _ _) as [[sh|] d]; [|destruct d].
    + apply IH. destruct F as (Hin & _).
      unfold loop_measure in *. cbn [use_share f_shares f_from_server f_max_per_server].
      pose proof (remove_first_length sh (f_shares s) Hin).
      pose proof (set_add_length sh (f_from_server s)). lia.
    + apply IH. destruct F as (x & Hx & L).
      pose proof (count_srv_le (sh_srv x) (f_from_server s)).
      unfold loop_measure in *. cbn [bump_max f_shares f_from_server f_max_per_server]. lia.
    + destruct (f_no_more s); [destruct (have_active_overdue s <? f_k s)|]; discriminate.
  - destruct (f_k s <=? distinct (bnums (f_blocks s))); discriminate.
Qed.

Lemma loop_fuel_enough s : f_max_per_server s >= 1 -> loop_measure s < loop_fuel s.
Proof. unfold loop_measure, loop_fuel. lia. Qed.

(* a share _find_and_use_share may pick *)
Definition usable (s : fstate) (sh : share) : Prop :=
  In sh (f_shares s) /\ blk_has (sh_num sh) (f_blocks s) = false /\ has_num (sh_num sh) (f_active s) = false.

(* The loop makes moves -- it starts a request on a usable share or raises the per-server limit,
   emitting OStart / OWantMore -- until it ends in one of five ways.
   `moves s t`: t is reached from s by such moves;  `loop_end t s' last`: ending in t the
   loop returns s' and emits last. *)
Inductive moves : fstate -> fstate -> Prop :=
| mv_none s : moves s s
| mv_use s sh t : usable s sh -> moves (use_share s sh) t -> moves s t
| mv_bump s t : moves (bump_max s) t -> moves s t.

Definition interim (o : fout) : Prop := match o with OStart _ | OWantMore => True | _ => False end.

Inductive loop_end (t : fstate) : fstate -> list fout -> Prop :=
| end_failed :
    (forall x, In x (f_shares t) -> In (sh_num x) (bnums (f_blocks t) ++ nums (f_active t))) ->
    f_no_more t = true -> have_active_overdue t < f_k t ->
    loop_end t (stop t) [OFetchFailed (shares_error t)]
| end_requests :
    have_or_active t < f_k t -> f_no_more t = true -> f_k t <= have_active_overdue t -> loop_end t t []
| end_hungry : f_no_more t = false -> loop_end t t [OWantMore]
| end_blocks : f_k t <= distinct (bnums (f_blocks t)) -> loop_end t (stop t) [OProcessBlocks (f_blocks t)]
| end_active : f_k t <= have_or_active t -> distinct (bnums (f_blocks t)) < f_k t -> loop_end t t [].

Lemma do_while_end : forall fuel s outs s' outs',
  do_while fuel s outs = Some (s', outs') ->
  exists t mid last, moves s t /\ loop_end t s' last /\ Forall interim mid /\ outs' = outs ++ mid ++ last.
Proof.
  induction fuel as [|f IH]; intros s outs s' outs' H; [discriminate|].
  cbn [do_while] in H. destruct (have_or_active s <? f_k s) eqn:HA.
  - pose proof (find_share_spec (f_blocks s) (f_active s) (f_from_server s) (f_max_per_server s) (f_shares s)) as F.
    destruct (find_share _ _ _ _ _) as [[sh|] d]; [|destruct d].
    + destruct (IH _ _ _ _ H) as (t & mid & last & M & E & Q & ->).
      exists t, (OStart sh :: mid), last. rewrite <- app_assoc.
      repeat split; [apply (mv_use s sh); [unfold usable; tauto|exact M]|exact E|now constructor].
    + destruct (IH _ _ _ _ H) as (t & mid & last & M & E & Q & ->).
      exists t, (ask s ++ mid), last. rewrite <- !app_assoc.
      repeat split; [now apply mv_bump|exact E|]. apply Forall_app. split; [|exact Q].
      unfold ask. destruct (f_no_more s); repeat constructor.
    + apply Nat.ltb_lt in HA. exists s, [].
      destruct (f_no_more s) eqn:NM; [destruct (have_active_overdue s <? f_k s) eqn:HO|]; inversion H; subst.
      * apply Nat.ltb_lt in HO. eexists. repeat split; [constructor| |constructor].
        now apply end_failed.
      * apply Nat.ltb_ge in HO. exists []. rewrite app_nil_r. repeat split; now constructor.
      * eexists. repeat split; now constructor.
  - apply Nat.ltb_ge in HA. exists s, [].
    destruct (f_k s <=? distinct (bnums (f_blocks s))) eqn:K; inversion H; subst.
    + apply Nat.leb_le in K. eexists. repeat split; now constructor.
    + apply Nat.leb_gt in K. exists []. rewrite app_nil_r. repeat split; now constructor.
Qed.

Lemma loop_end_blocks t s' bl :
  loop_end t s' [OProcessBlocks bl] -> bl = f_blocks t /\ s' = stop t /\ f_k t <= distinct (bnums bl).
Proof. inversion 1. auto. Qed.

Lemma loop_end_failed t s' e :
  loop_end t s' [OFetchFailed e] ->
  e = shares_error t /\ s' = stop t /\ f_no_more t = true /\ have_active_overdue t < f_k t /\
  forall x, In x (f_shares t) -> In (sh_num x) (bnums (f_blocks t) ++ nums (f_active t)).
Proof. inversion 1. auto. Qed.

Lemma moves_fixed s t :
  moves s t -> f_k t = f_k s /\ f_blocks t = f_blocks s /\ f_no_more t = f_no_more s /\ f_running t = f_running s.
Proof. induction 1 as [s|s sh t _ _ IH|s t _ IH]; [auto|exact IH|exact IH]. Qed.

Lemma do_while_outs : forall fuel s outs s' outs',
  do_while fuel s outs = Some (s', outs') -> exists o, outs' = outs ++ o.
Proof.
  intros fuel s outs s' outs' H. destruct (do_while_end _ _ _ _ _ H) as (t & mid & last & _ & _ & _ & E).
  now exists (mid ++ last).
Qed.

Lemma do_while_stops fuel s outs s' outs' :
  do_while fuel s outs = Some (s', outs') ->
  exists t, moves s t /\ (s' = t \/ s' = stop t /\ exists o, In o outs' /\ ~ interim o).
Proof.
  intros H. destruct (do_while_end _ _ _ _ _ H) as (t & mid & last & M & E & _ & ->). exists t. split; [exact M|].
  destruct E; auto; right; (split; [reflexivity|]); eexists;
    (split; [rewrite !in_app_iff; right; right; now left|exact (fun F => F)]).
Qed.

Inductive loop_result (s : fstate) (ns : option N) : fstate * list fout -> Prop :=
| lr_stopped : f_running s = false -> loop_result s ns (s, [])
| lr_badseg :
    f_running s = true -> match ns with Some m => (m <= f_segnum s)%N | None => False end ->
    loop_result s ns (stop s, [OFetchFailed BadSegmentNumberError])
| lr_fuel : do_while (loop_fuel s) s [] = None -> loop_result s ns (s, [])
| lr_run s' o : f_running s = true -> do_while (loop_fuel s) s [] = Some (s', o) -> loop_result s ns (s', o).

Lemma do_loop_result s ns : loop_result s ns (do_loop s ns).
Proof.
  unfold do_loop. destruct (f_running s) eqn:R; cbn [negb]; [|now apply lr_stopped].
  destruct (match ns with Some n => N.leb n (f_segnum s) | None => false end) eqn:B.
  - apply lr_badseg; [exact R|]. destruct ns; [now apply N.leb_le|discriminate].
  - destruct (do_while _ _ _) as [[s' o]|] eqn:D; [now apply lr_run|now apply lr_fuel].
Qed.

(* a property kept by the moves of the loop, and by stop, holds where the loop ends *)
Section Preserves.
  Variable P : fstate -> Prop.
  Hypothesis Huse : forall s sh, P s -> usable s sh -> P (use_share s sh).
  Hypothesis Hbump : forall s, P s -> P (bump_max s).

  Lemma moves_preserves s t : moves s t -> P s -> P t.
  Proof. induction 1; eauto. Qed.

  Hypothesis Hstop : forall s, P s -> P (stop s).

  Lemma do_while_preserves fuel s outs s' outs' : P s -> do_while fuel s outs = Some (s', outs') -> P s'.
  Proof.
    intros Hp H. destruct (do_while_stops _ _ _ _ _ H) as (t & M & [->|[-> _]]); eauto using moves_preserves.
  Qed.

  Lemma do_loop_preserves s ns : P s -> P (fst (do_loop s ns)).
  Proof.
    intros Hp. destruct (do_loop_result s ns); cbn [fst]; auto. eapply do_while_preserves; eauto.
  Qed.
End Preserves.

(* Outputs come from queued loops only; one that is not OStart / OWantMore is the refusal
   of a segment number out of range or the last word of a loop. *)
Lemma fstep_final s e o :
  In o (snd (fstep s e)) -> ~ interim o ->
  exists ns n, e = ELoop ns /\ f_loops s = S n /\ f_running s = true /\
    (o = OFetchFailed BadSegmentNumberError /\ match ns with Some m => (m <= f_segnum s)%N | None => False end \/
     exists t, moves (set_loops s n) t /\ loop_end t (fst (fstep s e)) [o]).
Proof.
  intros Hin Hf. destruct e as [l| |sh st|ns]; cbn [fstep] in *.
  - destruct (f_running s); destruct Hin.
  - destruct Hin.
  - destruct (activity_raises s sh st); destruct Hin.
  - destruct (f_loops s) as [|n]; [destruct Hin|]. exists ns, n.
    destruct (do_loop_result (set_loops s n) ns) as [R|R B|D|s' o' R D]; cbn [fst snd] in *; try contradiction.
    + destruct Hin as [<-|[]]. auto 6.
    + destruct (do_while_end _ _ _ _ _ D) as (t & mid & last & M & E & Q & ->). cbn [app] in Hin.
      repeat split; auto. right. exists t. split; [exact M|].
      apply in_app_or in Hin. destruct Hin as [Hin|Hin]; [destruct (Hf (proj1 (Forall_forall _ _) Q _ Hin))|].
      destruct E; repeat destruct Hin as [<-|Hin]; try destruct Hin; now constructor.
Qed.

(* What _block_request_activity does to a running fetcher before it queues a loop(): a
   terminal state retires the request, COMPLETE also stores the block, OVERDUE moves the share
   from the active to the overdue map. *)
Definition retire (s : fstate) (sh : share) : fstate :=
  mk_f (f_k s) (f_segnum s) (f_shares s) (remove_id sh (f_from_server s)) (f_max_per_server s)
       (remove_id sh (f_active s)) (remove_id sh (f_overdue s)) (f_blocks s) (f_no_more s) (f_running s) (f_loops s).

Definition add_block (s : fstate) (sh : share) : fstate :=
  mk_f (f_k s) (f_segnum s) (f_shares s) (f_from_server s) (f_max_per_server s) (f_active s) (f_overdue s)
       (blk_set (sh_num sh) (sh_id sh) (f_blocks s)) (f_no_more s) (f_running s) (f_loops s).

Definition set_overdue (s : fstate) (sh : share) : fstate :=
  mk_f (f_k s) (f_segnum s) (f_shares s) (f_from_server s) (f_max_per_server s)
       (remove_num (sh_num sh) (f_active s)) (set_add sh (f_overdue s)) (f_blocks s) (f_no_more s) (f_running s) (f_loops s).

Definition react (s : fstate) (sh : share) (st : bstate) : fstate :=
  match st with
  | COMPLETE => add_block (retire s sh) sh
  | OVERDUE => set_overdue s sh
  | _ => retire s sh
  end.

(* the event is ignored by a stopped fetcher, and when the real code raises KeyError *)
Lemma fstep_activity s sh st :
  fstep s (EActivity sh st) = (s, []) \/
  fstep s (EActivity sh st) = (set_loops (react s sh st) (S (f_loops s)), []).
Proof.
  cbn [fstep]. destruct (activity_raises s sh st); [now left|].
  unfold activity. destruct (negb (f_running s)); [now left|]. right. now destruct st.
Qed.

Lemma fstep_k s e : f_k (fst (fstep s e)) = f_k s.
Proof.
  destruct e as [l| |sh st|ns].
  - cbn [fstep]. destruct (f_running s); reflexivity.
  - reflexivity.
  - destruct (fstep_activity s sh st) as [->| ->]; [reflexivity|now destruct st].
  - cbn [fstep]. destruct (f_loops s) as [|n]; [reflexivity|].
    now apply (do_loop_preserves (fun x => f_k x = f_k s)).
Qed.

Lemma fstep_blocks_nodup s e : NoDup (bnums (f_blocks s)) -> NoDup (bnums (f_blocks (fst (fstep s e)))).
Proof.
  intros H. destruct e as [l| |sh st|ns].
  - cbn [fstep]. destruct (f_running s); exact H.
  - exact H.
  - destruct (fstep_activity s sh st) as [->| ->]; [exact H|].
    destruct st; try exact H. now apply blk_set_nodup.
  - cbn [fstep]. destruct (f_loops s) as [|n]; [exact H|].
    now apply (do_loop_preserves (fun x => NoDup (bnums (f_blocks x)))).
Qed.

Lemma fstep_process s e bl :
  NoDup (bnums (f_blocks s)) -> In (OProcessBlocks bl) (snd (fstep s e)) ->
  NoDup (bnums bl) /\ f_k s <= length bl.
Proof.
  intros Hnd Hin.
  destruct (fstep_final s e _ Hin (fun F => F)) as (ns & n & _ & _ & _ & [[E _]|(t & M & E)]); [discriminate|].
  destruct (moves_fixed _ _ M) as (K & B & _). destruct (loop_end_blocks _ _ _ E) as (-> & _ & Hk).
  cbn [set_loops f_k f_blocks] in K, B. rewrite B in *. rewrite <- K. split; [exact Hnd|]. eapply Nat.le_trans; [exact Hk|].
  unfold bnums. rewrite <- (map_length fst (f_blocks s)). apply distinct_le_length.
Qed.

Lemma frun_run s evs : frun s evs = run fstep s evs.
Proof. reflexivity. Qed.

Lemma frun_k evs s : f_k (fst (frun s evs)) = f_k s.
Proof.
  rewrite frun_run. apply (invariant_run _ _ _ fstep (fun _ _ => True) (fun x => f_k x = f_k s)).
  - intros x e H _. now rewrite fstep_k.
  - reflexivity.
  - now apply accepted_all.
Qed.

Lemma process_blocks_k_distinct evs s bl :
  NoDup (bnums (f_blocks s)) -> In (OProcessBlocks bl) (snd (frun s evs)) ->
  NoDup (bnums bl) /\ f_k s <= length bl.
Proof.
  intros Hnd Hin. rewrite frun_run in Hin.
  pose (Inv x := NoDup (bnums (f_blocks x)) /\ f_k x = f_k s).
  pose (P o := forall b, o = OProcessBlocks b -> NoDup (bnums b) /\ f_k s <= length b).
  assert (Forall P (snd (run fstep s evs))) as H.
  { apply (outputs_run _ _ _ fstep (fun _ _ => True) Inv P).
    - intros x e [Hx K] _. split; [now apply fstep_blocks_nodup|now rewrite fstep_k].
    - intros x e [Hx K] _. apply Forall_forall. intros o Ho b ->. rewrite <- K. now apply (fstep_process x e).
    - now split.
    - now apply accepted_all. }
  exact (proj1 (Forall_forall _ _) H _ Hin bl eq_refl).
Qed.

Definition all_nums (s : fstate) : list N :=
  bnums (f_blocks s) ++ nums (f_active s) ++ nums (f_overdue s) ++ nums (f_shares s).

Lemma nums_app a b : nums (a ++ b) = nums a ++ nums b.
Proof. unfold nums. apply map_app. Qed.

Lemma shares_error_spec s :
  shares_error s = NoSharesError /\ all_nums s = [] \/ shares_error s = NotEnoughSharesError /\ all_nums s <> [].
Proof.
  unfold shares_error, all_nums.
  destruct (f_shares s), (f_active s), (f_overdue s), (f_blocks s); cbn;
    try (left; split; reflexivity); right; (split; [reflexivity|discriminate]).
Qed.

(* the moves shift share numbers from unused to active *)
Lemma moves_all_nums s t : moves s t -> forall n, In n (all_nums t) <-> In n (all_nums s).
Proof.
  induction 1 as [s|s sh t (Hin & _) _ IH|s t _ IH]; intros n; [reflexivity| |exact (IH n)].
  rewrite IH.
  unfold all_nums. cbn [use_share f_blocks f_active f_overdue f_shares].
  rewrite nums_app, !in_app_iff. cbn [nums map In].
  assert (In n (nums (f_shares s)) <-> sh_num sh = n \/ In n (nums (remove_first sh (f_shares s)))) as X.
  { pose proof (Permutation_map sh_num (remove_first_perm sh (f_shares s) Hin)) as P.
    split; [apply (Permutation_in _ P)|apply (Permutation_in _ (Permutation_sym P))]. }
  rewrite X. tauto.
Qed.

Lemma fstep_error s ev e :
  In (OFetchFailed e) (snd (fstep s ev)) -> e <> BadSegmentNumberError ->
  f_no_more s = true /\ distinct (all_nums s) < f_k s /\
  (e = NoSharesError /\ f_blocks s = [] /\ f_active s = [] /\ f_overdue s = [] /\ f_shares s = [] \/
   e = NotEnoughSharesError /\ all_nums s <> []).
Proof.
  intros Hin Hne.
  destruct (fstep_final s ev _ Hin (fun F => F)) as (ns & n & _ & _ & _ & [[E _]|(t & M & E)]); [congruence|].
  destruct (moves_fixed _ _ M) as (K & _ & NM & _). pose proof (moves_all_nums _ _ M) as U.
  change (forall x, In x (all_nums t) <-> In x (all_nums s)) in U. cbn [set_loops f_k f_no_more] in K, NM.
  destruct (loop_end_failed _ _ _ E) as (-> & _ & NMt & HO & FN). split; [congruence|]. split.
  - rewrite <- K, (distinct_same (all_nums s) (all_nums t)) by (intros x; apply U).
    eapply Nat.le_lt_trans; [apply distinct_incl|exact HO].
    (* an unused share number is fetched or active *)
    intros x Hx. unfold all_nums in Hx. rewrite !in_app_iff in *.
    destruct Hx as [Hx|[Hx|[Hx|Hx]]]; auto.
    apply in_map_iff in Hx. destruct Hx as (y & <- & Hy). specialize (FN y Hy). apply in_app_or in FN. tauto.
  - destruct (shares_error_spec t) as [[C1 C2]|[C1 C2]]; [left|right]; (split; [exact C1|]).
    + assert (all_nums s = []) as E' by (apply incl_l_nil; rewrite <- C2; intros x; apply U).
      unfold all_nums, bnums, nums in E'.
      destruct (f_blocks s), (f_active s), (f_overdue s), (f_shares s); try discriminate. auto.
    + intros E'. apply C2, incl_l_nil. rewrite <- E'. intros x. apply U.
Qed.

Lemma fstep_stopped s e : f_running s = false -> snd (fstep s e) = [] /\ f_running (fst (fstep s e)) = false.
Proof.
  intros R. destruct e as [l| |sh st|ns]; cbn [fstep].
  - rewrite R. auto.
  - auto.
  - unfold activity_raises, activity. rewrite R. cbn. auto.
  - destruct (f_loops s) as [|n]; [auto|]. unfold do_loop. cbn [set_loops f_running]. rewrite R. cbn. auto.
Qed.
