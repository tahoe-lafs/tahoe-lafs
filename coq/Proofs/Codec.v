(* C36  Proofs about Model/Codec.v: mathutil arithmetic, the split/pad/join/trim
   plumbing, and the any-k-of-n round trip of the wrappers over an abstract MDS
   primitive; two concrete instances of the hypotheses. *)
From Coq Require Import List NArith Arith Bool Lia.
From Coq Require String.
From Verif Require Import Lib.Hex Lib.ListFacts Gen.ImmConsts Model.Codec.
Import ListNotations.
Local Open Scope N_scope.

Lemma div_ceil_bounds L k : 0 < k -> L <= div_ceil L k * k /\ div_ceil L k * k < L + k.
Proof.
  intro Hk. unfold div_ceil.
  assert (Hk0 : k <> 0) by lia.
  pose proof (N.div_mod L k Hk0) as Hdm.
  pose proof (N.mod_lt L k Hk0) as Hlt.
  remember (L / k) as q. remember (L mod k) as r.
  destruct (r =? 0) eqn:E.
  - apply N.eqb_eq in E. subst r. nia.
  - apply N.eqb_neq in E. nia.
Qed.

Lemma div_ceil_exact s k : 0 < k -> div_ceil (s * k) k = s.
Proof.
  intro Hk. unfold div_ceil. assert (Hk0 : k <> 0) by lia.
  rewrite (N.mod_mul s k Hk0), (N.div_mul s k Hk0). cbn. lia.
Qed.

Lemma div_ceil_of_multiple L k : 0 < k -> L mod k = 0 -> div_ceil L k = L / k /\ L / k * k = L.
Proof.
  intros Hk Hm. assert (Hk0 : k <> 0) by lia. unfold div_ceil. rewrite Hm. cbn.
  pose proof (N.div_mod L k Hk0) as Hdm. rewrite Hm in Hdm. split; lia.
Qed.

Lemma div_ceil_pos L k : 0 < k -> 0 < L -> 0 < div_ceil L k.
Proof.
  intros Hk HL. destruct (div_ceil_bounds L k Hk) as [H _].
  destruct (div_ceil L k); lia.
Qed.

Lemma next_multiple_div k L : 0 < k -> next_multiple L k / k = div_ceil L k.
Proof. intro Hk. unfold next_multiple. apply N.div_mul. lia. Qed.

Lemma next_multiple_id_ok : forall k L, 1 <= k -> L mod k = 0 -> next_multiple L k = L.
Proof.
  intros k L Hk Hm. unfold next_multiple.
  destruct (div_ceil_of_multiple L k ltac:(lia) Hm) as [E1 E2]. rewrite E1. exact E2.
Qed.

Lemma share_sizes_agree_ok : forall data_size k, crs_enc_share_size data_size k = crs_dec_share_size data_size k.
Proof. reflexivity. Qed.

Lemma share_size_of_multiple_ok : forall data_size k, 1 <= k -> data_size mod k = 0 ->
  crs_enc_share_size data_size k = data_size / k /\
  k * crs_enc_share_size data_size k = data_size /\
  crs_enc_last_share_padding data_size k = pad_size (data_size / k) k.
Proof.
  intros ds k Hk Hm. unfold crs_enc_last_share_padding, crs_enc_share_size.
  destruct (div_ceil_of_multiple ds k ltac:(lia) Hm) as [E1 E2]. rewrite E1.
  repeat split; lia.
Qed.

Lemma padded_tail_multiple_ok : forall k tail, 1 <= k ->
  next_multiple tail k mod k = 0 /\ tail <= next_multiple tail k /\ next_multiple tail k < tail + k.
Proof.
  intros k t Hk. unfold next_multiple. split.
  - apply N.mod_mul. lia.
  - apply div_ceil_bounds. lia.
Qed.

Lemma tail_block_size_agrees_ok : forall k file_size segment_size, 1 <= k ->
  dl_tail_block_size file_size segment_size k = crs_enc_share_size (padded_tail_size file_size segment_size k) k /\
  dl_tail_block_size file_size segment_size k = crs_dec_share_size (padded_tail_size file_size segment_size k) k /\
  dl_tail_block_size file_size segment_size k = div_ceil (tail_size file_size segment_size) k.
Proof.
  intros k F S Hk. unfold dl_tail_block_size, crs_dec_share_size, crs_dec_num_chunks, crs_enc_share_size, padded_tail_size.
  rewrite next_multiple_div by lia. unfold next_multiple. rewrite div_ceil_exact by lia. auto.
Qed.

Lemma full_block_size_agrees_ok : forall k segment_size, 1 <= k -> segment_size mod k = 0 ->
  dl_block_size segment_size k = crs_enc_share_size segment_size k /\
  dl_block_size segment_size k = crs_dec_share_size segment_size k.
Proof.
  intros k S Hk Hm. unfold dl_block_size, crs_dec_share_size, crs_dec_num_chunks, crs_enc_share_size.
  destruct (div_ceil_of_multiple S k ltac:(lia) Hm) as [E _]. rewrite E. auto.
Qed.

Lemma nlen_app {A} (a b : list A) : nlen (a ++ b) = nlen a + nlen b.
Proof. unfold nlen. rewrite app_length. lia. Qed.

Lemma chunks_fuel_nil fuel sz : chunks_fuel fuel sz [] = [].
Proof. destruct fuel; reflexivity. Qed.

Lemma chunks_fuel_step f sz data : data <> [] ->
  chunks_fuel (S f) sz data = firstn sz data :: chunks_fuel f sz (skipn sz data).
Proof. destruct data; [congruence|reflexivity]. Qed.

Lemma chunks_fuel_exact : forall (c sz : nat) (data : list N) (fuel : nat),
  (0 < sz)%nat -> length data = (c * sz)%nat -> (length data <= fuel)%nat ->
  length (chunks_fuel fuel sz data) = c /\
  Forall (fun p => length p = sz) (chunks_fuel fuel sz data) /\
  concat (chunks_fuel fuel sz data) = data.
Proof.
  induction c as [|c IH]; intros sz data fuel Hsz Hlen Hfuel.
  - destruct data; [|discriminate]. rewrite chunks_fuel_nil. auto.
  - assert (Hdl : (sz <= length data)%nat) by (cbn in Hlen; lia).
    destruct fuel as [|f]; [lia|].
    assert (Hne : data <> []) by (intro E; subst data; cbn in Hdl; lia).
    rewrite (chunks_fuel_step f sz data Hne).
    assert (Hsk : length (skipn sz data) = (c * sz)%nat) by (rewrite skipn_length; cbn in Hlen; lia).
    destruct (IH sz (skipn sz data) f Hsz Hsk ltac:(lia)) as [I1 [I2 I3]].
    cbn [length concat]. rewrite I1, I3. repeat split.
    + constructor; [|exact I2]. rewrite firstn_length. lia.
    + apply firstn_skipn.
Qed.

Lemma split_pieces_exact s k data : 0 < s -> nlen data = k * s ->
  nlen (split_pieces s data) = k /\ uniform s (split_pieces s data) /\ concat (split_pieces s data) = data.
Proof.
  intros Hs Hlen. unfold split_pieces, nlen in *.
  destruct (chunks_fuel_exact (N.to_nat k) (N.to_nat s) data (length data)) as [I1 [I2 I3]]; try lia.
  rewrite I1. repeat split; try lia; try exact I3.
  unfold uniform. eapply Forall_impl; [|exact I2]. cbn. intros p Hp. unfold nlen. lia.
Qed.

Lemma uniform_forallb sz ps : uniform sz ps -> forallb (fun p : list N => nlen p =? sz) ps = true.
Proof.
  intro H. apply forallb_forall. intros p Hin. apply N.eqb_eq.
  unfold uniform in H. rewrite Forall_forall in H. auto.
Qed.

Lemma pad_segment_length R seg : nlen seg <= R -> nlen (pad_segment R seg) = R.
Proof. intro H. unfold pad_segment. rewrite nlen_app. unfold nlen in *. rewrite repeat_length. lia. Qed.

Lemma pad_segment_full seg : pad_segment (nlen seg) seg = seg.
Proof. unfold pad_segment. rewrite N.sub_diag. cbn. apply app_nil_r. Qed.

Lemma firstn_pad_segment R seg : firstn (N.to_nat (nlen seg)) (pad_segment R seg) = seg.
Proof.
  unfold pad_segment, nlen. rewrite Nat2N.id, firstn_app, Nat.sub_diag, firstn_all. cbn. apply app_nil_r.
Qed.

Lemma combine_fst_snd {A B} (l : list (A * B)) : combine (map fst l) (map snd l) = l.
Proof. induction l as [|[a b] l IH]; cbn; [reflexivity|now rewrite IH]. Qed.

Lemma pick_fst ids blocks : map fst (pick ids blocks) = ids.
Proof. unfold pick. rewrite map_map. cbn. apply map_id. Qed.

Lemma pick_combine ids blocks : combine ids (map snd (pick ids blocks)) = pick ids blocks.
Proof. rewrite <- (pick_fst ids blocks) at 1. apply combine_fst_snd. Qed.

Lemma pick_length ids blocks : nlen (pick ids blocks) = nlen ids.
Proof. unfold pick, nlen. now rewrite map_length. Qed.

Lemma pick_uniform s n ids blocks : nlen blocks = n -> uniform s blocks -> Forall (fun i => i < n) ids ->
  forallb (fun b : N * list N => nlen (snd b) =? s) (pick ids blocks) = true.
Proof.
  intros Hn Hu Hids. apply forallb_forall. intros [i b] Hin. unfold pick in Hin.
  apply in_map_iff in Hin. destruct Hin as [j [Hj Hinj]]. inversion Hj; subst i b. cbn [snd].
  apply N.eqb_eq. rewrite Forall_forall in Hids. specialize (Hids j Hinj).
  unfold uniform in Hu. rewrite Forall_forall in Hu. apply Hu. apply nth_In. unfold nlen in Hn. lia.
Qed.

(* gather_data on a whole segment, in either mode, is "pad to k*s, split into s-byte pieces" *)
Lemma gather_data_norm k is_tail seg : 1 <= k -> 1 <= nlen seg -> (is_tail = false -> nlen seg mod k = 0) ->
  gather_data k (div_ceil (nlen seg) k) is_tail seg
  = Some (split_pieces (div_ceil (nlen seg) k) (pad_segment (k * div_ceil (nlen seg) k) seg)).
Proof.
  intros Hk HL Hfull. unfold gather_data.
  destruct (div_ceil_bounds (nlen seg) k ltac:(lia)) as [B1 B2].
  set (s := div_ceil (nlen seg) k) in *. set (L := nlen seg) in *.
  assert (E1 : (k * s <? L) = false) by (apply N.ltb_ge; lia). rewrite E1.
  destruct is_tail.
  - cbn [negb andb]. destruct (L <? k * s) eqn:E2; [reflexivity|].
    apply N.ltb_ge in E2. assert (E : k * s = L) by lia. rewrite E. unfold L. now rewrite pad_segment_full.
  - specialize (Hfull eq_refl). destruct (div_ceil_of_multiple L k ltac:(lia) Hfull) as [D1 D2].
    assert (E : k * s = L) by (unfold s; rewrite D1; lia). rewrite E, N.eqb_refl. cbn [negb andb].
    unfold L. now rewrite pad_segment_full.
Qed.

(* repeat / firstn / skipn facts used for the mutable slicing *)
Lemma firstn_repeat_le {A} (x : A) a b : (a <= b)%nat -> firstn a (repeat x b) = repeat x a.
Proof.
  revert b; induction a as [|a IH]; intros b H; [reflexivity|].
  destruct b as [|b]; [lia|]. cbn. f_equal. apply IH. lia.
Qed.

Lemma skipn_repeat {A} (x : A) a b : skipn a (repeat x b) = repeat x (b - a).
Proof.
  revert b; induction a as [|a IH]; intros b; [now rewrite Nat.sub_0_r|].
  destruct b as [|b]; [reflexivity|]. cbn. apply IH.
Qed.

Definition mpiece (sz : nat) (d : list N) : list N :=
  firstn sz d ++ repeat 0 (sz - length (firstn sz d)).

Lemma mutable_slices_eq : forall (c sz : nat) (data : list N) (fuel : nat),
  (0 < sz)%nat -> (length data <= c * sz)%nat -> (c * sz <= fuel)%nat ->
  map (fun i : nat => mpiece sz (skipn (i * sz) data)) (seq 0 c)
  = chunks_fuel fuel sz (data ++ repeat 0 (c * sz - length data)).
Proof.
  induction c as [|c IH]; intros sz data fuel Hsz Hlen Hfuel.
  - cbn in Hlen. destruct data; [|cbn in Hlen; lia]. cbn. now rewrite chunks_fuel_nil.
  - destruct fuel as [|f]; [cbn in Hfuel; lia|].
    cbn [seq map]. rewrite <- seq_shift, map_map.
    remember (data ++ repeat 0 (S c * sz - length data)) as padded eqn:Ep.
    assert (Hpl : length padded = (S c * sz)%nat) by (subst padded; rewrite app_length, repeat_length; lia).
    assert (Hne : padded <> []) by (intro E; rewrite E in Hpl; cbn in Hpl; lia).
    rewrite (chunks_fuel_step f sz padded Hne).
    assert (Hrest : skipn sz padded = skipn sz data ++ repeat 0 (c * sz - length (skipn sz data))).
    { subst padded. rewrite skipn_app, skipn_repeat, skipn_length. f_equal. f_equal. cbn. nia. }
    assert (Hfirst : firstn sz padded = mpiece sz data).
    { subst padded. unfold mpiece. rewrite firstn_app, firstn_length. f_equal.
      destruct (Nat.le_gt_cases sz (length data)) as [Hge|Hlt].
      - replace (sz - length data)%nat with 0%nat by lia. rewrite Nat.min_l by lia.
        now rewrite Nat.sub_diag.
      - rewrite Nat.min_r by lia. apply firstn_repeat_le. cbn. nia. }
    f_equal.
    + cbn [Nat.mul skipn]. symmetry. exact Hfirst.
    + rewrite Hrest. rewrite <- (IH sz (skipn sz data) f Hsz).
      * apply map_ext. intro i. f_equal. rewrite skipn_add. f_equal; cbn; lia.
      * rewrite skipn_length. cbn in Hlen. lia.
      * cbn in Hfuel. lia.
Qed.

Lemma mutable_pieces_eq_ok : forall k seg, 1 <= k -> 1 <= nlen seg ->
  mutable_pieces k (div_ceil (nlen seg) k) seg
  = split_pieces (div_ceil (nlen seg) k) (pad_segment (k * div_ceil (nlen seg) k) seg).
Proof.
  intros k seg Hk HL. unfold mutable_pieces, split_pieces, pad_segment.
  destruct (div_ceil_bounds (nlen seg) k ltac:(lia)) as [B1 B2].
  pose proof (div_ceil_pos (nlen seg) k ltac:(lia) ltac:(lia)) as Hs.
  set (s := div_ceil (nlen seg) k) in *. unfold nlen in *.
  replace (N.to_nat (k * s - N.of_nat (length seg))) with (N.to_nat k * N.to_nat s - length seg)%nat by lia.
  apply (mutable_slices_eq (N.to_nat k) (N.to_nat s) seg).
  - lia.
  - nia.
  - rewrite app_length, repeat_length. nia.
Qed.

Section Roundtrip.
  Variable enc : N -> N -> list (list N) -> list (list N).
  Variable dec : N -> N -> list (N * list N) -> list (list N).
  Variables k n : N.
  Hypothesis Hk : 1 <= k.
  Hypothesis Hkn : k <= n.
  Hypothesis enc_length : enc_length_at enc k n.
  Hypothesis enc_block_len : enc_block_len_at enc k n.
  Hypothesis mds : mds_at enc dec k n.

  Lemma decode_from_pieces : forall is_tail seg pieces ids,
    1 <= nlen seg -> (is_tail = false -> nlen seg mod k = 0) ->
    nlen pieces = k -> uniform (div_ceil (nlen seg) k) pieces ->
    concat pieces = pad_segment (k * div_ceil (nlen seg) k) seg ->
    valid_ids k n ids ->
    decode_segment dec k n is_tail (nlen seg) (pick ids (enc k n pieces)) = Some seg.
  Proof.
    intros is_tail seg pieces ids HL Hfull Hpk Hu Hcat Hids.
    destruct (div_ceil_bounds (nlen seg) k ltac:(lia)) as [B1 B2].
    set (s := div_ceil (nlen seg) k) in *.
    pose proof (enc_length s pieces Hpk Hu) as Hn.
    pose proof (enc_block_len s pieces Hpk Hu) as Hbu.
    pose proof (mds s pieces ids Hpk Hu Hids) as Hdec.
    destruct Hids as [Hnd [Hidk Hidn]].
    unfold decode_segment.
    assert (Hsz : (if is_tail then next_multiple (nlen seg) k / k else nlen seg / k) = s /\
                  (if is_tail then next_multiple (nlen seg) k else nlen seg) = k * s).
    { destruct is_tail.
      - rewrite next_multiple_div by lia. unfold next_multiple. fold s. lia.
      - destruct (div_ceil_of_multiple (nlen seg) k ltac:(lia) (Hfull eq_refl)) as [D1 D2]. unfold s. rewrite D1. lia. }
    destruct Hsz as [Hbs Hds].
    rewrite Hbs. rewrite (pick_uniform s n ids _ Hn Hbu Hidn).
    unfold crs_decode. rewrite !pick_fst.
    assert (Hl1 : nlen (map snd (pick ids (enc k n pieces))) = k).
    { unfold nlen. rewrite map_length. fold (nlen (pick ids (enc k n pieces))). now rewrite pick_length. }
    rewrite Hl1, Hidk, N.eqb_refl. cbn [andb].
    rewrite (pick_combine ids (enc k n pieces)), Hdec, Hcat.
    rewrite pad_segment_length by lia. rewrite Hds, N.eqb_refl.
    destruct is_tail.
    - now rewrite firstn_pad_segment.
    - rewrite <- Hds. now rewrite pad_segment_full.
  Qed.

  Lemma encode_segment_pieces : forall is_tail seg,
    1 <= nlen seg -> (is_tail = false -> nlen seg mod k = 0) ->
    let s := div_ceil (nlen seg) k in
    let pieces := split_pieces s (pad_segment (k * s) seg) in
    crs_enc_share_size (if is_tail then next_multiple (nlen seg) k else nlen seg) k = s /\
    gather_data k s is_tail seg = Some pieces /\
    nlen pieces = k /\ uniform s pieces /\ concat pieces = pad_segment (k * s) seg /\
    encode_segment enc k n is_tail seg = Some (enc k n pieces).
  Proof.
    intros is_tail seg HL Hfull s pieces.
    destruct (div_ceil_bounds (nlen seg) k ltac:(lia)) as [B1 B2]. fold s in B1, B2.
    pose proof (div_ceil_pos (nlen seg) k ltac:(lia) ltac:(lia)) as Hs. fold s in Hs.
    assert (Hss : crs_enc_share_size (if is_tail then next_multiple (nlen seg) k else nlen seg) k = s).
    { unfold crs_enc_share_size. destruct is_tail; [|reflexivity].
      unfold next_multiple. now rewrite div_ceil_exact by lia. }
    pose proof (gather_data_norm k is_tail seg Hk HL Hfull) as Hg. fold s in Hg. fold pieces in Hg.
    destruct (split_pieces_exact s k (pad_segment (k * s) seg) Hs) as [P1 [P2 P3]].
    { apply pad_segment_length. lia. }
    fold pieces in P1, P2, P3.
    repeat split; try assumption.
    unfold encode_segment, crs_enc_params_ok.
    assert (Hle : (k <=? n) = true) by (apply N.leb_le; exact Hkn). rewrite Hle, Hss, Hg.
    unfold crs_encode. now rewrite (uniform_forallb s pieces P2).
  Qed.

  Lemma roundtrip_section : forall is_tail seg ids,
    1 <= nlen seg -> (is_tail = false -> nlen seg mod k = 0) -> valid_ids k n ids ->
    exists blocks,
      encode_segment enc k n is_tail seg = Some blocks /\
      nlen blocks = n /\ uniform (div_ceil (nlen seg) k) blocks /\
      decode_segment dec k n is_tail (nlen seg) (pick ids blocks) = Some seg.
  Proof.
    intros is_tail seg ids HL Hfull Hids.
    destruct (encode_segment_pieces is_tail seg HL Hfull) as [_ [_ [P1 [P2 [P3 Henc]]]]].
    eexists. split; [exact Henc|]. split; [|split].
    - eapply enc_length; eassumption.
    - eapply enc_block_len; eassumption.
    - apply decode_from_pieces; assumption.
  Qed.

  Lemma mutable_roundtrip_section : forall seg ids,
    1 <= nlen seg -> valid_ids k n ids ->
    exists blocks,
      mutable_encode_segment enc k n seg = Some blocks /\
      nlen blocks = n /\ uniform (div_ceil (nlen seg) k) blocks /\
      decode_segment dec k n true (nlen seg) (pick ids blocks) = Some seg.
  Proof.
    intros seg ids HL Hids.
    destruct (encode_segment_pieces true seg HL ltac:(discriminate)) as [_ [_ [P1 [P2 [P3 _]]]]].
    unfold mutable_encode_segment, crs_enc_params_ok, crs_enc_share_size.
    assert (Hle : (k <=? n) = true) by (apply N.leb_le; exact Hkn). rewrite Hle.
    rewrite (mutable_pieces_eq_ok k seg Hk HL). unfold crs_encode.
    rewrite (uniform_forallb _ _ P2).
    eexists. split; [reflexivity|]. split; [|split].
    - eapply enc_length; eassumption.
    - eapply enc_block_len; eassumption.
    - apply decode_from_pieces; try assumption. discriminate.
  Qed.
End Roundtrip.

Lemma encode_pieces_shape_ok : forall k is_tail seg,
  1 <= k -> 1 <= nlen seg -> (is_tail = false -> nlen seg mod k = 0) ->
  exists pieces,
    gather_data k (crs_enc_share_size (if is_tail then next_multiple (nlen seg) k else nlen seg) k) is_tail seg = Some pieces /\
    nlen pieces = k /\
    uniform (crs_enc_share_size (if is_tail then next_multiple (nlen seg) k else nlen seg) k) pieces /\
    concat pieces = pad_segment (k * div_ceil (nlen seg) k) seg /\
    firstn (N.to_nat (nlen seg)) (concat pieces) = seg.
Proof.
  intros k is_tail seg Hk HL Hfull.
  destruct (encode_segment_pieces (fun _ _ x => x) k k Hk (N.le_refl k) is_tail seg HL Hfull) as [S1 [S2 [P1 [P2 [P3 _]]]]].
  rewrite S1. eexists. split; [exact S2|]. repeat split; try assumption.
  rewrite P3. apply firstn_pad_segment.
Qed.

(* k = 1: replication, any n >= 1 *)
Lemma repl_code_ok : forall n, 1 <= n ->
  enc_length_at enc_repl 1 n /\ enc_block_len_at enc_repl 1 n /\ mds_at enc_repl dec_repl 1 n.
Proof.
  intros n Hn. repeat split.
  - intros sz pieces _ _. unfold enc_repl, nlen. rewrite repeat_length. lia.
  - intros sz pieces Hl Hu. unfold enc_repl, uniform. apply Forall_forall. intros p Hin.
    apply repeat_spec in Hin. subst p.
    destruct pieces as [|p ps]; [unfold nlen in Hl; cbn in Hl; lia|]. cbn. now inversion Hu.
  - intros sz pieces ids Hl Hu [Hnd [Hidk Hidn]].
    destruct pieces as [|p [|q ps]]; unfold nlen in Hl; cbn in Hl; try lia.
    destruct ids as [|i [|j ids]]; unfold nlen in Hidk; cbn in Hidk; try lia.
    inversion Hidn as [|? ? Hi _]; subst.
    unfold dec_repl, pick, enc_repl. cbn [map hd snd]. f_equal.
    apply (repeat_spec (N.to_nat n) p). apply nth_In. rewrite repeat_length. lia.
Qed.

(* k = 2, n = 3: single XOR parity *)
Lemma xor_bytes_length a : forall b, length a = length b -> length (xor_bytes a b) = length a.
Proof. induction a as [|x a IH]; destruct b; cbn; intros; try discriminate; auto. Qed.

Lemma xor_bytes_comm a : forall b, xor_bytes a b = xor_bytes b a.
Proof. induction a as [|x a IH]; destruct b; cbn; auto. rewrite N.lxor_comm, IH. reflexivity. Qed.

Lemma xor_bytes_cancel a : forall b, length a = length b -> xor_bytes a (xor_bytes a b) = b.
Proof.
  induction a as [|x a IH]; destruct b; cbn; intros H; try discriminate; auto.
  rewrite IH by lia. rewrite <- N.lxor_assoc, N.lxor_nilpotent, N.lxor_0_l. reflexivity.
Qed.

Lemma two_pieces sz pieces : nlen pieces = 2 -> uniform sz pieces ->
  exists a b, pieces = [a; b] /\ nlen a = sz /\ nlen b = sz.
Proof.
  intros Hl Hu. destruct pieces as [|a [|b [|c ps]]]; unfold nlen in Hl; cbn in Hl; try lia.
  inversion Hu as [|? ? Ha Hu']; subst. inversion Hu' as [|? ? Hb _]; subst. exists a, b. auto.
Qed.

(* any two of a, b, a xor b give back a and b *)
Lemma dec_xor_pick a b ids : length a = length b -> valid_ids 2 3 ids ->
  dec_xor 2 3 (pick ids [a; b; xor_bytes a b]) = [a; b].
Proof.
  intros Hab [Hnd [Hl Hn]]. destruct ids as [|i [|j [|l ids]]]; unfold nlen in Hl; cbn in Hl; try lia.
  inversion Hn as [|? ? Hi Hn']; subst. inversion Hn' as [|? ? Hj _]; subst.
  inversion Hnd as [|? ? Hnin _]; subst.
  assert (Hij : i <> j) by (intros ->; apply Hnin; now left).
  pose proof (xor_bytes_cancel a b Hab) as Xa.
  pose proof (xor_bytes_cancel b a (eq_sym Hab)) as Xb. rewrite (xor_bytes_comm b a) in Xb.
  assert (Ci : i = 0 \/ i = 1 \/ i = 2) by lia. assert (Cj : j = 0 \/ j = 1 \/ j = 2) by lia.
  destruct Ci as [->|[->| ->]], Cj as [->|[->| ->]]; try congruence;
    unfold pick; cbn [map];
    change (N.to_nat 0) with 0%nat; change (N.to_nat 1) with 1%nat; change (N.to_nat 2) with 2%nat;
    cbn; rewrite ?(xor_bytes_comm (xor_bytes a b)), ?Xa, ?Xb; reflexivity.
Qed.

Lemma xor_code_ok : enc_length_at enc_xor 2 3 /\ enc_block_len_at enc_xor 2 3 /\ mds_at enc_xor dec_xor 2 3.
Proof.
  repeat split.
  - intros sz pieces Hl Hu. destruct (two_pieces sz pieces Hl Hu) as (a & b & -> & _). reflexivity.
  - intros sz pieces Hl Hu. destruct (two_pieces sz pieces Hl Hu) as (a & b & -> & Ha & Hb).
    unfold enc_xor, uniform. repeat constructor; try assumption.
    unfold nlen in *. rewrite xor_bytes_length; lia.
  - intros sz pieces ids Hl Hu Hids. destruct (two_pieces sz pieces Hl Hu) as (a & b & -> & Ha & Hb).
    apply dec_xor_pick; [|exact Hids]. unfold nlen in *. lia.
Qed.

(* AST pins of the hand-modelled functions *)
Import Coq.Strings.String.
Lemma pins_ok :
  (pin_CRSEncoder_set_params, pin_CRSEncoder_encode, pin_CRSDecoder_set_params, pin_CRSDecoder_decode,
   pin_Encoder_gather_data, pin_DownloadNode_decode_blocks)
  = ("0a1295e05666d233", "5739b9509a8755c2", "e20e28cfa9f63af6", "3d198c4c0649b057",
     "5470046c97d918dc", "d4edd272955a07d9")%string.
Proof. reflexivity. Qed.
