(* C03: the fetcher in a world.  A world fixes the shares that exist on answering
   servers and which of them are good (their block request ends in COMPLETE).  The
   guard `ev_ok` says what the environment (node, finder, Share objects) may do;
   `Inv` is the invariant of all states reached through guarded events. *)
From Coq Require Import List NArith Bool Arith Lia Permutation.
From Verif Require Import Lib.ListFacts Lib.Sched Model.Fetcher Proofs.FetcherBase.
Import ListNotations.

Record world := mk_world { w_shares : list share; w_good : share -> bool }.

Definition good_nums (w : world) : list N := nums (filter (w_good w) (w_shares w)).
Definition good_distinct (w : world) : nat := distinct (good_nums w).

(* fetcher state + the shares delivered so far by add_shares (ghost) *)
Definition gst := (fstate * list share)%type.

Definition gstep (g : gst) (e : fev) : gst * list fout :=
  let (s', o) := fstep (fst g) e in
  ((s', match e with EAddShares l => snd g ++ l | _ => snd g end), o).

Definition ginit (k : nat) (seg : N) : gst := (finit k seg, []).

Definition ev_ok (w : world) (g : gst) (e : fev) : Prop :=
  match e with
  | EAddShares l =>
      (* the finder hands over each share of the world once *)
      NoDup l /\ forall x, In x l -> In x (w_shares w) /\ ~ In x (snd g)
  | ENoMoreShares =>
      (* exhaustion is reported after every share was delivered (the eventual-send
         queue is FIFO: got_shares precedes no_more_shares) *)
      forall x, In x (w_shares w) -> In x (snd g)
  | EActivity sh st =>
      (* only shares with an outstanding get_block report; OVERDUE comes from the share
         that is active for its number; the terminal state of a good share is COMPLETE
         and only good shares complete *)
      In sh (f_from_server (fst g)) /\
      (st = OVERDUE -> In sh (f_active (fst g))) /\
      (is_terminal st = true -> (st = COMPLETE <-> w_good w sh = true))
  | ELoop ns =>
      f_loops (fst g) > 0 /\ match ns with Some n => (f_segnum (fst g) < n)%N | None => True end
  end.

Record InvF (w : world) (added : list share) (s : fstate) : Prop := {
  i_nodup : NoDup (f_shares s ++ f_from_server s);
  i_added : incl (f_shares s ++ f_from_server s) added;
  i_added_w : incl added (w_shares w);
  i_added_nd : NoDup added;
  i_active : incl (f_active s) (f_from_server s);
  i_overdue : incl (f_overdue s) (f_from_server s);
  i_cover : forall x, In x (f_from_server s) -> In x (f_active s) \/ In x (f_overdue s);
  i_act_nd : NoDup (nums (f_active s));
  i_good : f_running s = true -> forall x, In x added -> w_good w x = true ->
           In x (f_shares s) \/ In x (f_from_server s) \/ In (sh_num x) (bnums (f_blocks s));
  i_blocks : forall p, In p (f_blocks s) ->
             exists x, In x (w_shares w) /\ sh_num x = fst p /\ sh_id x = snd p /\ w_good w x = true;
  i_blocks_nd : NoDup (bnums (f_blocks s));
  i_max : f_max_per_server s >= 1;
  i_nomore : f_no_more s = true -> forall x, In x (w_shares w) -> In x added
}.

(* a running fetcher with no queued loop is waiting for the finder or for a request *)
Definition waiting_ok (s : fstate) : Prop :=
  f_running s = true -> f_loops s = 0 -> f_no_more s = false \/ f_from_server s <> [].

Definition Inv (w : world) (g : gst) : Prop := InvF w (snd g) (fst g) /\ waiting_ok (fst g).

Lemma NoDup_app_filter {A} (f : A -> bool) (a b : list A) : NoDup (a ++ b) -> NoDup (a ++ filter f b).
Proof.
  rewrite !NoDup_app_iff. intros (Ha & Hb & D). repeat split; [exact Ha|now apply NoDup_filter|].
  intros x Hx Hf. apply filter_In in Hf. exact (D x Hx (proj1 Hf)).
Qed.

Lemma use_share_inv w added s sh : InvF w added s -> usable s sh -> InvF w added (use_share s sh).
Proof.
  intros [Inodup Iadded Iadded_w Iadded_nd Iactive Ioverdue Icover Iact_nd Igood Iblocks Iblocks_nd Imax Inomore] (Hsh & _ & Ha).
  assert (Hnf : ~ In sh (f_from_server s)) by (apply NoDup_app_iff in Inodup; now apply Inodup).
  assert (SA : set_add sh (f_from_server s) = f_from_server s ++ [sh]).
  { unfold set_add. now rewrite (proj2 (has_id_false _ _) Hnf). }
  constructor; cbn [use_share f_shares f_from_server f_active f_overdue f_blocks f_max_per_server f_running f_no_more];
    rewrite ?SA; auto.
  - eapply Permutation_NoDup; [|exact Inodup].
    eapply perm_trans; [apply Permutation_app_tail, remove_first_perm, Hsh|].
    cbn [app]. rewrite app_assoc. apply Permutation_cons_append.
  - intros x Hx. apply Iadded. rewrite !in_app_iff in *. cbn [In] in Hx.
    destruct Hx as [Hx|[Hx|[Hx|[]]]]; [left; eapply remove_first_incl; eauto|now right|subst; now left].
  - intros x [Hx| ->]%in_snoc; apply in_snoc; auto.
  - intros x Hx. apply in_snoc. auto.
  - intros x [Hx| ->]%in_snoc; [|left; apply in_snoc; now right].
    destruct (Icover x Hx); [left; apply in_snoc; now left|now right].
  - rewrite nums_app. cbn [nums map]. apply NoDup_snoc; [exact Iact_nd|].
    intros H. apply has_num_In in H. congruence.
  - intros R x Hx G. rewrite in_snoc. destruct (Igood R x Hx G) as [H|[H|H]]; auto.
    destruct (share_eq_dec x sh) as [E|E]; [auto|]. left. now apply remove_first_keeps.
Qed.

Lemma bump_max_inv w added s : InvF w added s -> InvF w added (bump_max s).
Proof. intros []. constructor; cbn [bump_max f_shares f_from_server f_active f_overdue f_blocks f_max_per_server f_running f_no_more]; auto. Qed.

Lemma set_loops_inv w added s n : InvF w added s -> InvF w added (set_loops s n).
Proof. intros []. constructor; auto. Qed.

Lemma stop_inv w added s : InvF w added s -> InvF w added (stop s).
Proof.
  intros []. constructor; cbn [stop f_shares f_from_server f_active f_overdue f_blocks f_max_per_server f_running f_no_more app nums map]; auto;
    try (now constructor); try (intros x []); try discriminate.
Qed.

Lemma moves_inv w added s t : moves s t -> InvF w added s -> InvF w added t.
Proof. apply moves_preserves; [apply use_share_inv|apply bump_max_inv]. Qed.

Lemma do_while_inv w added fuel s outs s' outs' :
  InvF w added s -> do_while fuel s outs = Some (s', outs') -> InvF w added s'.
Proof.
  apply (do_while_preserves (InvF w added)); [apply use_share_inv|apply bump_max_inv|apply stop_inv].
Qed.

Lemma distinct_app_nil_r a : distinct (a ++ []) = distinct a.
Proof. now rewrite app_nil_r. Qed.

(* how the loop can end while the fetcher keeps running: with fewer than k numbers
   fetched or active the count reaches k only through an overdue request, and with fewer
   than k blocks it reaches k only through an active one *)
Lemma do_while_wait w added fuel s outs s' outs' :
  InvF w added s -> do_while fuel s outs = Some (s', outs') -> f_running s' = true ->
  f_no_more s' = false \/ f_from_server s' <> [].
Proof.
  intros I H R. destruct (do_while_end _ _ _ _ _ H) as (t & mid & last & M & E & _).
  apply (moves_inv w added _ _ M) in I.
  destruct E as [| HA NM HO | NM | | HA K]; try discriminate R; [right|now left|right]; intros E.
  - assert (f_overdue t = []) as EO by (apply incl_l_nil; rewrite <- E; apply I).
    unfold have_or_active, have_active_overdue in *. rewrite EO in HO. cbn [nums map] in HO.
    rewrite app_nil_r in HO. lia.
  - assert (f_active t = []) as EA by (apply incl_l_nil; rewrite <- E; apply I).
    unfold have_or_active in HA. rewrite EA in HA. cbn [nums map] in HA. rewrite app_nil_r in HA. lia.
Qed.

Lemma inv_init w k seg : Inv w (ginit k seg).
Proof.
  split.
  - constructor; cbn; auto; try (now constructor); try (intros x []); try discriminate.
  - intros _ _. now left.
Qed.

(* a good share may be retired only once its block is stored *)
Lemma retire_inv w added s sh :
  InvF w added s -> w_good w sh = false \/ In (sh_num sh) (bnums (f_blocks s)) -> InvF w added (retire s sh).
Proof.
  intros [Inodup Iadded Iadded_w Iadded_nd Iactive Ioverdue Icover Iact_nd Igood Iblocks Iblocks_nd Imax Inomore] G. constructor; cbn [retire f_shares f_from_server f_active f_overdue f_blocks f_max_per_server f_running f_no_more]; auto.
  - now apply NoDup_app_filter.
  - intros x Hx. apply Iadded. rewrite in_app_iff in *. destruct Hx as [Hx|Hx]; [now left|right; now apply remove_id_In in Hx].
  - intros x Hx. apply remove_id_In in Hx. apply remove_id_In. split; [apply Iactive|]; tauto.
  - intros x Hx. apply remove_id_In in Hx. apply remove_id_In. split; [apply Ioverdue|]; tauto.
  - intros x Hx. apply remove_id_In in Hx. destruct Hx as [Hx Hne].
    destruct (Icover x Hx); [left|right]; apply remove_id_In; tauto.
  - unfold remove_id, nums. now apply NoDup_map_filter.
  - intros R x Hx Gx. destruct (Igood R x Hx Gx) as [H|[H|H]]; auto.
    destruct (sid_eqb x sh) eqn:E.
    + apply sid_eqb_eq in E. subst. destruct G as [G|G]; [congruence|auto].
    + right. left. apply remove_id_In. split; [exact H|now apply sid_eqb_neq].
Qed.

Lemma add_block_inv w added s sh :
  InvF w added s -> In sh (w_shares w) -> w_good w sh = true -> InvF w added (add_block s sh).
Proof.
  intros [Inodup Iadded Iadded_w Iadded_nd Iactive Ioverdue Icover Iact_nd Igood Iblocks Iblocks_nd Imax Inomore] Hsh G. constructor; cbn [add_block f_shares f_from_server f_active f_overdue f_blocks f_max_per_server f_running f_no_more]; auto.
  - intros R x Hx Gx. destruct (Igood R x Hx Gx) as [H|[H|H]]; auto. right. right. now apply blk_set_incl.
  - intros p Hp. apply blk_set_In in Hp. destruct Hp as [->|Hp]; [|auto]. exists sh. cbn [fst snd]. auto.
  - now apply blk_set_nodup.
Qed.

Lemma set_overdue_inv w added s sh :
  InvF w added s -> In sh (f_from_server s) -> In sh (f_active s) -> InvF w added (set_overdue s sh).
Proof.
  intros [Inodup Iadded Iadded_w Iadded_nd Iactive Ioverdue Icover Iact_nd Igood Iblocks Iblocks_nd Imax Inomore] Hfs Hact.
  constructor; cbn [set_overdue f_shares f_from_server f_active f_overdue f_blocks f_max_per_server f_running f_no_more]; auto.
  - intros x Hx. apply remove_num_In in Hx. apply Iactive. tauto.
  - intros x Hx. apply set_add_In in Hx. destruct Hx as [Hx| ->]; auto.
  - intros x Hx. rewrite remove_num_In, set_add_In. destruct (Icover x Hx) as [H|H]; [|auto].
    destruct (N.eq_dec (sh_num x) (sh_num sh)) as [E|NE]; [|auto].
    right. right. exact (NoDup_map_In_inj sh_num _ _ _ Iact_nd H Hact E).
  - unfold remove_num, nums. now apply NoDup_map_filter.
Qed.

Lemma react_inv w added s sh st :
  InvF w added s -> In sh (f_from_server s) -> (st = OVERDUE -> In sh (f_active s)) ->
  (is_terminal st = true -> (st = COMPLETE <-> w_good w sh = true)) -> InvF w added (react s sh st).
Proof.
  intros I Hfs Hov Hterm.
  assert (Hbad : is_terminal st = true -> st <> COMPLETE -> InvF w added (retire s sh)).
  { intros T NC. apply retire_inv; [exact I|left]. destruct (w_good w sh); [|reflexivity]. destruct NC. now apply Hterm. }
  destruct st; cbn [react]; try (apply Hbad; [reflexivity|discriminate]).
  - (* COMPLETE: the share is good and its block is stored *)
    apply (retire_inv w added (add_block s sh) sh); [|right; apply blk_set_has].
    apply add_block_inv; [exact I| |now apply Hterm].
    apply (i_added_w _ _ _ I), (i_added _ _ _ I), in_or_app. now right.
  - now apply set_overdue_inv; [| |apply Hov].
Qed.

(* add_shares: the ghost list grows by l, and so does _shares unless the fetcher has stopped *)
Lemma add_shares_inv w added s l :
  InvF w added s -> NoDup l -> (forall x, In x l -> In x (w_shares w) /\ ~ In x added) ->
  InvF w (added ++ l) (if f_running s then set_shares s (sort_shares (f_shares s ++ l)) else s).
Proof.
  intros [Inodup Iadded Iadded_w Iadded_nd Iactive Ioverdue Icover Iact_nd Igood Iblocks Iblocks_nd Imax Inomore] Hnd Hl.
  assert (incl (added ++ l) (w_shares w)) by (apply incl_app; [exact Iadded_w|intros x Hx; apply (Hl x Hx)]).
  assert (NoDup (added ++ l)) by (apply NoDup_app_intro; auto; intros x Hx Hxl; now apply (Hl x Hxl)).
  assert (f_no_more s = true -> forall x, In x (w_shares w) -> In x (added ++ l)) by (intros NM x Hx; apply in_or_app; auto).
  destruct (f_running s) eqn:R; constructor;
    cbn [set_shares f_shares f_from_server f_active f_overdue f_blocks f_max_per_server f_running f_no_more]; auto.
  - eapply Permutation_NoDup.
    { apply Permutation_app_tail. apply Permutation_sym. apply sort_shares_perm. }
    rewrite <- app_assoc. eapply Permutation_NoDup; [apply Permutation_app_head, Permutation_app_comm|].
    rewrite app_assoc. apply NoDup_app_intro; [exact Inodup|exact Hnd|].
    intros x Hx Hxl. apply (proj2 (Hl x Hxl)). now apply Iadded.
  - intros x. rewrite !in_app_iff, sort_shares_In, in_app_iff. intros [[Hx|Hx]|Hx]; auto; left; apply Iadded, in_or_app; auto.
  - intros _ x Hx G. rewrite sort_shares_In, in_app_iff. apply in_app_or in Hx. destruct Hx as [Hx|Hx]; [|auto].
    destruct (Igood eq_refl x Hx G) as [H'|[H'|H']]; auto.
  - now apply incl_appl.
  - congruence.
Qed.

Lemma gstep_inv w g e : NoDup (w_shares w) -> Inv w g -> ev_ok w g e -> Inv w (fst (gstep g e)).
Proof.
  intros Hw [I W] Hok. destruct g as [s added]. unfold gstep. cbn [fst snd] in *.
  destruct e as [l| |sh st|ns]; cbn [ev_ok fst snd] in Hok.
  - destruct Hok as [Hnd Hl]. pose proof (add_shares_inv w added s l I Hnd Hl) as I'.
    cbn [fstep]. destruct (f_running s) eqn:R; cbn [fst snd].
    + split; [now apply set_loops_inv|discriminate].
    + split; [exact I'|]. intros R'. cbn [fst] in R'. congruence.
  - split; [|discriminate]. cbn [fstep fst snd].
    destruct I. constructor; cbn [set_loops set_no_more f_shares f_from_server f_active f_overdue f_blocks f_max_per_server f_running f_no_more]; auto.
  - destruct Hok as (Hfs & Hov & Hterm).
    destruct (fstep_activity s sh st) as [->| ->]; [now split|].
    split; [now apply set_loops_inv, react_inv|discriminate].
  - destruct Hok as [Hl Hns]. cbn [fstep]. destruct (f_loops s) as [|n] eqn:L; [lia|].
    pose proof (set_loops_inv w added s n I) as I'.
    destruct (do_loop_result (set_loops s n) ns) as [R|R B|D|s' o R D]; cbn [fst snd].
    + split; [exact I'|]. intros R'. cbn [fst] in R'. congruence.
    + destruct ns as [m|]; [|destruct B]. cbn [set_loops f_segnum] in B. lia.
    + exfalso. revert D. apply do_while_fuel, loop_fuel_enough, (i_max _ _ _ I').
    + split; [eapply do_while_inv; eauto|]. intros R' _. eapply do_while_wait; eauto.
Qed.

Lemma gstep_fst g e : fst (fst (gstep g e)) = fst (fstep (fst g) e).
Proof. unfold gstep. now destruct (fstep (fst g) e). Qed.

Lemma gstep_snd g e : snd (gstep g e) = snd (fstep (fst g) e).
Proof. unfold gstep. now destruct (fstep (fst g) e). Qed.

(* blocks come from good shares of the world: fewer than k distinct good share numbers
   means process_blocks is never called *)
Lemma blocks_good w added s : InvF w added s -> incl (bnums (f_blocks s)) (good_nums w).
Proof.
  intros I n Hn. unfold bnums in Hn. apply in_map_iff in Hn. destruct Hn as (p & E & Hp).
  destruct (i_blocks _ _ _ I p Hp) as (x & Hx & E1 & _ & G). subst n. rewrite <- E1.
  unfold good_nums. apply (in_map sh_num). apply filter_In. now split.
Qed.

Lemma gstep_process_good w g e bl :
  Inv w g -> In (OProcessBlocks bl) (snd (gstep g e)) -> f_k (fst g) <= good_distinct w.
Proof.
  intros [I _] Hin. rewrite gstep_snd in Hin.
  destruct (fstep_final _ _ _ Hin (fun F => F)) as (ns & n & _ & _ & _ & [[E _]|(t & M & E)]); [discriminate|].
  destruct (loop_end_blocks _ _ _ E) as (-> & _ & Hk). destruct (moves_fixed _ _ M) as (K & _).
  rewrite K in Hk. eapply Nat.le_trans; [exact Hk|].
  apply distinct_incl, (blocks_good w (snd g)), (moves_inv _ _ _ _ M), set_loops_inv, I.
Qed.

Lemma gstep_error_few_good w g ev e :
  Inv w g -> In (OFetchFailed e) (snd (gstep g ev)) -> e <> BadSegmentNumberError ->
  good_distinct w < f_k (fst g).
Proof.
  intros [I _] Hin Hne. rewrite gstep_snd in Hin. destruct g as [s added]. cbn [fst snd] in *.
  destruct (fstep_error s ev e Hin Hne) as (NM & Hlt & _).
  assert (R : f_running s = true).
  { destruct (f_running s) eqn:R; [reflexivity|]. rewrite (proj1 (fstep_stopped s ev R)) in Hin. destruct Hin. }
  eapply Nat.le_lt_trans; [|exact Hlt]. apply distinct_incl.
  intros n Hn. unfold good_nums, nums in Hn. apply in_map_iff in Hn. destruct Hn as (x & E & Hx). subst n.
  apply filter_In in Hx. destruct Hx as [Hx G].
  pose proof (i_nomore _ _ _ I NM x Hx) as Ha.
  unfold all_nums. rewrite !in_app_iff.
  destruct (i_good _ _ _ I R x Ha G) as [H|[H|H]].
  - right. right. right. now apply (in_map sh_num).
  - destruct (i_cover _ _ _ I x H); [right; left|right; right; left]; now apply (in_map sh_num).
  - now left.
Qed.
