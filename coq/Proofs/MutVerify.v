From Coq Require Import List NArith Bool Lia.
From Verif Require Import Model.MutVerify.
Import ListNotations.
Local Open Scope N_scope.

Section Verify.
  Variable V : Type.
  Variable pair : V -> V -> V.
  Variable h_blk : V -> V -> V.
  Variable h_fp : V -> V.
  Variable verify : V -> V -> V -> bool.
  Variable prefix_of : N -> V -> V.
  Variable veq : V -> V -> bool.

  Hypothesis veq_spec : forall a b, veq a b = true <-> a = b.
  (* collision-freeness of SHA-256d on the values hashed in one execution *)
  Hypothesis pair_inj : forall a b c d, pair a b = pair c d -> a = c /\ b = d.
  Hypothesis h_blk_inj : forall a b c d, h_blk a b = h_blk c d -> a = c /\ b = d.
  Hypothesis h_fp_inj : forall a b, h_fp a = h_fp b -> a = b.
  Hypothesis prefix_inj : forall n r m q, prefix_of n r = prefix_of m q -> n = m /\ r = q.
  (* idealised unforgeability: a signature verifies under pk only for messages that the
     holder of pk's private key signed *)
  Variable signed_by : V -> V -> Prop.
  Hypothesis unforgeable : forall pk sig msg, verify pk sig msg = true -> signed_by pk msg.

  Notation root_from := (root_from V pair).

  (* Merkle binding: two authentication paths of the same length to the same root, for the
     same index, start from the same leaf *)
  Lemma root_from_binding : forall p q l l' i,
    length p = length q -> root_from l i p = root_from l' i q -> l = l'.
  Proof.
    induction p as [|s p IH]; intros [|t q] l l' i Hlen H; try discriminate Hlen; [exact H|].
    injection Hlen as Hlen. cbn in H.
    destruct (N.even i); apply (IH q _ _ _ Hlen), pair_inj in H; tauto.
  Qed.

  (* the genuine (published) version: what the writer signed and stored *)
  Variable fingerprint : V.
  Variable g : share V.
  Variable shnum : N.
  Hypothesis g_fp : h_fp (s_pubkey V g) = fingerprint.
  Hypothesis g_consistent : forall seg,
    root_from (root_from (h_blk (s_salt V g seg) (s_block V g seg)) seg (s_block_path V g seg)) shnum (s_share_path V g)
    = s_root_hash V g.

  Lemma accepted_version_signed_ok (s : share V) :
    version_accepted V h_fp verify prefix_of veq fingerprint s = true ->
    s_pubkey V s = s_pubkey V g /\
    signed_by (s_pubkey V g) (prefix_of (s_seqnum V s) (s_root_hash V s)).
  Proof.
    unfold version_accepted. intro H. apply andb_prop in H. destruct H as [H1 H2].
    apply veq_spec in H1. rewrite <- g_fp in H1. apply h_fp_inj in H1.
    split; [exact H1|]. rewrite <- H1. eapply unforgeable, H2.
  Qed.

  Lemma retrieved_block_published_ok (s : share V) seg :
    s_root_hash V s = s_root_hash V g ->
    length (s_share_path V s) = length (s_share_path V g) ->
    length (s_block_path V s seg) = length (s_block_path V g seg) ->
    block_accepted V pair h_blk veq s shnum seg = true ->
    s_block V s seg = s_block V g seg /\ s_salt V s seg = s_salt V g seg.
  Proof.
    intros Hr Hl1 Hl2 H. unfold block_accepted in H. apply veq_spec in H.
    rewrite Hr, <- (g_consistent seg) in H.
    apply (root_from_binding _ _ _ _ _ Hl1) in H.
    apply (root_from_binding _ _ _ _ _ Hl2) in H.
    apply h_blk_inj in H. tauto.
  Qed.

  (* a holder of only the read-cap or verify-cap, or a storage server, has no signature by
     the writer's key on any other prefix: every version a reader accepts is one the writer
     signed -- (seqnum, root_hash) of an accepted share is a published pair *)
  Variable published : N -> V -> Prop.      (* the (seqnum, root hash) pairs the write-cap holder published *)
  Hypothesis signer_only_publishes :
    forall m, signed_by (s_pubkey V g) m -> exists n r, m = prefix_of n r /\ published n r.

  Lemma readcap_cannot_forge_ok (s : share V) :
    version_accepted V h_fp verify prefix_of veq fingerprint s = true ->
    published (s_seqnum V s) (s_root_hash V s).
  Proof.
    intro H. destruct (accepted_version_signed_ok s H) as [_ Hs].
    destruct (signer_only_publishes _ Hs) as [n [r [E P]]].
    apply prefix_inj in E. destruct E; subst. exact P.
  Qed.
End Verify.

(* C10, the "read succeeds" half at the level of the reader's checks: a share exactly as the
   write-cap holder published it passes every check, so the checks can only reject shares that
   differ from what was published (k such shares reachable => the reader has k shares it accepts). *)
Lemma genuine_share_accepted_ok
  (V : Type) (pair h_blk : V -> V -> V) (h_fp : V -> V) (verify : V -> V -> V -> bool)
  (prefix_of : N -> V -> V) (veq : V -> V -> bool) :
  (forall a b : V, veq a b = true <-> a = b) ->
  forall (fingerprint : V) (g : share V) (shnum seg : N),
    h_fp (s_pubkey V g) = fingerprint ->
    verify (s_pubkey V g) (s_signature V g) (prefix_of (s_seqnum V g) (s_root_hash V g)) = true ->
    root_from V pair (root_from V pair (h_blk (s_salt V g seg) (s_block V g seg)) seg (s_block_path V g seg))
              shnum (s_share_path V g) = s_root_hash V g ->
    read_accepts V pair h_blk h_fp verify prefix_of veq fingerprint g shnum seg = true.
Proof.
  intros Hveq fp g shnum seg Hfp Hsig Hroot.
  unfold read_accepts, version_accepted, block_accepted.
  rewrite Hsig, Hroot, Hfp, !(proj2 (Hveq _ _) eq_refl). reflexivity.
Qed.

(* the symbolic instance satisfies every hypothesis used above (so they are consistent) *)
Lemma sym_eqb_refl a : sym_eqb a a = true.
Proof. induction a; cbn; rewrite ?N.eqb_refl, ?IHa, ?IHa1, ?IHa2; reflexivity. Qed.

Lemma sym_eqb_spec a b : sym_eqb a b = true <-> a = b.
Proof.
  split; [|intros <-; apply sym_eqb_refl].
  revert b; induction a; destruct b; cbn; try discriminate;
    rewrite ?andb_true_iff, ?N.eqb_eq; intro H; f_equal; intuition auto.
Qed.
